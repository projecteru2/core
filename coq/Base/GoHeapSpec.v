(* Specification lemmas for the exact container/heap model of Base/GoHeap.v.

   Sections Basic and Perm need no hypothesis on [less].  In section Order,
   [hle a b := negb (less b a)] is assumed reflexive, transitive and total ON
   THE ELEMENTS SATISFYING A PREDICATE [P] (e.g. "not NaN" for float keys);
   every lemma asks [Forall P l].  [heap_inv l]: every element is >= its parent
   (Go's heap invariant). *)
From Coq Require Import List Bool Arith Lia Permutation ZArith ZifyNat.
From Verif Require Import Base.GoHeap.
Import ListNotations.

(* index arithmetic of the implicit tree.  The proofs below speak of [parent j] and use only
   these three facts, so that [lia] never meets the truncated subtraction and the division. *)
Definition parent (j : nat) : nat := ((j - 1) / 2)%nat.

Lemma parent_iff j i : (0 < j)%nat -> (parent j = i <-> j = 2 * i + 1 \/ j = 2 * i + 2)%nat.
Proof. unfold parent. intro H. zify. Z.div_mod_to_equations. lia. Qed.

Lemma parent_lt j : (0 < j)%nat -> (parent j < j)%nat.
Proof. unfold parent. intro H. zify. Z.div_mod_to_equations. lia. Qed.

Lemma parent_half j n : (0 < j < n)%nat -> (parent j < n / 2)%nat.
Proof. unfold parent. intro H. zify. Z.div_mod_to_equations. lia. Qed.

Section Basic.
Variable A : Type.
Variable d : A.

Notation get := (get d).
Notation swap := (swap d).

Lemma set_length (l : list A) i x : length (set l i x) = length l.
Proof. revert i; induction l as [|h t IH]; intros [|i]; simpl; auto. Qed.

Lemma get_set_eq (l : list A) i x : (i < length l)%nat -> get (set l i x) i = x.
Proof.
  revert i; induction l as [|h t IH]; intros [|i] H; simpl in *; try lia; auto.
  apply IH; lia.
Qed.

Lemma get_set_neq (l : list A) i j x : i <> j -> get (set l i x) j = get l j.
Proof.
  revert i j; induction l as [|h t IH]; intros i j H.
  - destruct i; reflexivity.
  - destruct i as [|i], j as [|j]; simpl; auto; try lia.
Qed.

Lemma swap_length (l : list A) i j : length (swap l i j) = length l.
Proof. unfold GoHeap.swap. rewrite !set_length. reflexivity. Qed.

Lemma get_swap_l (l : list A) i j :
  (i < length l)%nat -> (j < length l)%nat -> get (swap l i j) i = get l j.
Proof.
  intros Hi Hj. unfold GoHeap.swap.
  destruct (Nat.eq_dec i j) as [->|Hne].
  - rewrite get_set_eq; auto. rewrite set_length; auto.
  - rewrite get_set_neq by auto. rewrite get_set_eq; auto.
Qed.
Lemma get_swap_r (l : list A) i j :
  (i < length l)%nat -> (j < length l)%nat -> get (swap l i j) j = get l i.
Proof. intros Hi Hj. unfold GoHeap.swap. rewrite get_set_eq; auto. rewrite set_length; auto. Qed.
Lemma get_swap_o (l : list A) i j k : k <> i -> k <> j -> get (swap l i j) k = get l k.
Proof. intros H1 H2. unfold GoHeap.swap. rewrite !get_set_neq; auto. Qed.

Lemma get_in (l : list A) i : (i < length l)%nat -> In (get l i) l.
Proof. intro H. apply nth_In; exact H. Qed.

Lemma in_get (l : list A) y : In y l -> exists i, (i < length l)%nat /\ get l i = y.
Proof. intro H. destruct (In_nth l y d H) as (i & Hi & E). exists i; auto. Qed.

Lemma set_perm (l : list A) i x :
  (i < length l)%nat -> Permutation (x :: l) (get l i :: set l i x).
Proof.
  revert i; induction l as [|h t IH]; intros [|i] H; simpl in *; try lia.
  - apply perm_swap.
  - eapply perm_trans; [apply perm_swap|].
    eapply perm_trans; [apply perm_skip; apply (IH i); lia|].
    apply perm_swap.
Qed.

Lemma swap_perm (l : list A) i j :
  (i < length l)%nat -> (j < length l)%nat -> Permutation (swap l i j) l.
Proof.
  intros Hi Hj. symmetry.
  apply Permutation_cons_inv with (a := get l j).
  eapply perm_trans; [apply (set_perm l i (get l j) Hi)|].
  set (l1 := set l i (get l j)).
  assert (Hl1 : (j < length l1)%nat) by (unfold l1; rewrite set_length; exact Hj).
  eapply perm_trans; [apply (set_perm l1 j (get l i) Hl1)|].
  assert (E : get l1 j = get l j).
  { unfold l1. destruct (Nat.eq_dec i j) as [->|Hne].
    - apply get_set_eq; auto.
    - apply get_set_neq; auto. }
  rewrite E. apply Permutation_refl.
Qed.

Lemma firstn_last_nth (l : list A) n :
  length l = S n -> l = firstn n l ++ [get l n].
Proof.
  revert n; induction l as [|h t IH]; intros n H; simpl in H; [lia|].
  destruct n as [|n].
  - destruct t; simpl in *; [reflexivity|lia].
  - simpl. f_equal. apply IH. lia.
Qed.

Lemma get_firstn (l : list A) n k : (k < n)%nat -> get (firstn n l) k = get l k.
Proof.
  revert n k; induction l as [|h t IH]; intros n k H.
  - rewrite firstn_nil. reflexivity.
  - destruct n as [|n]; [lia|]. destruct k as [|k]; simpl; auto. apply IH; lia.
Qed.

End Basic.

Section Perm.
Variable A : Type.
Variable d : A.
Variable less : A -> A -> bool.

Notation get := (get d).
Notation swap := (swap d).
Notation down := (down d less).
Notation up := (up d less).
Notation init := (init d less).
Notation push := (push d less).
Notation pop := (pop d less).

(* the child heap.down compares with its parent: the smaller of the two, the left one on a tie *)
Definition min_child (l : list A) (i n : nat) : nat :=
  if andb (Nat.ltb (2 * i + 1 + 1) n) (less (get l (2 * i + 1 + 1)) (get l (2 * i + 1)))
  then (2 * i + 1 + 1)%nat else (2 * i + 1)%nat.

Lemma min_child_range (l : list A) i n : (2 * i + 1 < n)%nat ->
  (i < min_child l i n < n)%nat /\ parent (min_child l i n) = i.
Proof.
  intro H. rewrite parent_iff; unfold min_child;
    (destruct (Nat.ltb_spec (2 * i + 1 + 1) n); cbn [andb]; [destruct (less _ _)|]); lia.
Qed.

Lemma down_S f (l : list A) i n : down (S f) l i n =
    if Nat.leb n (2 * i + 1) then l else
    if less (get l (min_child l i n)) (get l i) then down f (swap l i (min_child l i n)) (min_child l i n) n
    else l.
Proof. cbn [GoHeap.down]. fold (min_child l i n). destruct (less (get l (min_child l i n)) (get l i)); reflexivity. Qed.

Lemma up_S f (l : list A) j : up (S f) l (S j) =
    if less (get l (S j)) (get l (parent (S j))) then up f (swap l (parent (S j)) (S j)) (parent (S j)) else l.
Proof. cbn [GoHeap.up]. fold (parent (S j)). destruct (less _ _); reflexivity. Qed.

Lemma down_length fuel : forall (l : list A) i n, length (down fuel l i n) = length l.
Proof.
  induction fuel as [|f IH]; intros l i n; [reflexivity|]. rewrite down_S.
  destruct (Nat.leb n (2 * i + 1)); [reflexivity|]. destruct (less _ _); [|reflexivity].
  rewrite IH. apply swap_length.
Qed.

Lemma up_length fuel : forall (l : list A) j, length (up fuel l j) = length l.
Proof.
  induction fuel as [|f IH]; intros l [|j]; try reflexivity. rewrite up_S.
  destruct (less _ _); [|reflexivity]. rewrite IH. apply swap_length.
Qed.

Lemma down_perm fuel : forall (l : list A) i n,
  (n <= length l)%nat -> Permutation (down fuel l i n) l.
Proof.
  induction fuel as [|f IH]; intros l i n Hn; [reflexivity|]. rewrite down_S.
  destruct (Nat.leb_spec n (2 * i + 1)) as [Hc|Hc]; [reflexivity|].
  destruct (min_child_range l i n Hc) as [Hj _].
  destruct (less _ _); [|reflexivity].
  rewrite IH by (rewrite swap_length; exact Hn). apply swap_perm; lia.
Qed.

Lemma up_perm fuel : forall (l : list A) j,
  (j < length l)%nat -> Permutation (up fuel l j) l.
Proof.
  induction fuel as [|f IH]; intros l [|j] Hj; try reflexivity. rewrite up_S.
  pose proof (parent_lt (S j) (Nat.lt_0_succ j)) as Hi.
  destruct (less _ _); [|reflexivity].
  rewrite IH by (rewrite swap_length; lia). apply swap_perm; lia.
Qed.

Lemma down_get_ge fuel : forall (l : list A) i n k,
  (n <= k)%nat -> get (down fuel l i n) k = get l k.
Proof.
  induction fuel as [|f IH]; intros l i n k Hk; [reflexivity|]. rewrite down_S.
  destruct (Nat.leb_spec n (2 * i + 1)) as [Hc|Hc]; [reflexivity|].
  destruct (min_child_range l i n Hc) as [Hj _].
  destruct (less _ _); [|reflexivity].
  rewrite IH by exact Hk. apply get_swap_o; lia.
Qed.

Lemma init_loop_length k : forall (l : list A) n,
  length (init_loop A d less k l n) = length l.
Proof.
  induction k as [|k IH]; intros l n; simpl; auto.
  rewrite IH, down_length; auto.
Qed.

Lemma init_loop_perm k : forall (l : list A) n,
  (n <= length l)%nat -> Permutation (init_loop A d less k l n) l.
Proof.
  induction k as [|k IH]; intros l n Hn; simpl; [reflexivity|].
  rewrite IH by (rewrite down_length; exact Hn). apply down_perm; exact Hn.
Qed.

Lemma init_length (l : list A) : length (init l) = length l.
Proof. unfold GoHeap.init. apply init_loop_length. Qed.

Lemma init_perm (l : list A) : Permutation (init l) l.
Proof. unfold GoHeap.init. apply init_loop_perm. lia. Qed.

Lemma push_length (l : list A) x : length (push l x) = S (length l).
Proof. unfold GoHeap.push. rewrite up_length, app_length. simpl. lia. Qed.

Lemma push_perm (l : list A) x : Permutation (push l x) (x :: l).
Proof.
  unfold GoHeap.push. rewrite up_perm by (rewrite app_length; simpl; lia).
  symmetry. apply Permutation_cons_append.
Qed.

Lemma pop_none (l : list A) : pop l = None <-> l = [].
Proof. destruct l; simpl; split; intro H; auto; discriminate. Qed.

Lemma pop_some (l : list A) : l <> [] -> exists x l', pop l = Some (x, l').
Proof. destruct l as [|a t]; [congruence|]. intros _. unfold GoHeap.pop. eauto. Qed.

Lemma pop_unfold (l : list A) x l' :
  pop l = Some (x, l') ->
  let n := (length l - 1)%nat in
  let l2 := down (length l) (swap l 0 n) 0 n in
  length l = S n /\ x = get l2 n /\ l' = firstn n l2.
Proof.
  destruct l as [|a t]; [discriminate|].
  unfold GoHeap.pop. intro H. injection H as <- <-.
  split; [simpl; lia|]. split; reflexivity.
Qed.

Lemma pop_perm (l : list A) x l' : pop l = Some (x, l') -> Permutation l (x :: l').
Proof.
  intro H. apply pop_unfold in H. cbv zeta in H. destruct H as (Hlen & -> & ->).
  set (n := (length l - 1)%nat) in *. set (l2 := down (length l) (swap l 0 n) 0 n).
  assert (Hl2 : length l2 = S n) by (unfold l2; rewrite down_length, swap_length; exact Hlen).
  rewrite Permutation_cons_append, <- (firstn_last_nth A d l2 n Hl2).
  unfold l2. rewrite down_perm by (rewrite swap_length; lia). symmetry. apply swap_perm; lia.
Qed.

Lemma pop_length (l : list A) x l' : pop l = Some (x, l') -> length l = S (length l').
Proof.
  intro H. apply pop_perm in H. apply Permutation_length in H. simpl in H. exact H.
Qed.

Lemma pop_root (l : list A) x l' : pop l = Some (x, l') -> x = get l 0.
Proof.
  intro H. apply pop_unfold in H. cbv zeta in H. destruct H as (Hlen & -> & _).
  rewrite down_get_ge by lia. apply get_swap_r; lia.
Qed.
End Perm.

Section Order.
Variable A : Type.
Variable d : A.
Variable less : A -> A -> bool.
Variable P : A -> Prop.
Definition hle (a b : A) := negb (less b a).
Hypothesis le_refl : forall a, P a -> hle a a = true.
Hypothesis le_trans : forall a b c, P a -> P b -> P c -> hle a b = true -> hle b c = true -> hle a c = true.
Hypothesis le_total : forall a b, P a -> P b -> hle a b = true \/ hle b a = true.

Notation get := (get d).
Notation swap := (swap d).
Notation down := (down d less).
Notation up := (up d less).
Notation init := (init d less).
Notation push := (push d less).
Notation pop := (pop d less).

Lemma get_P (l : list A) i : Forall P l -> (i < length l)%nat -> P (get l i).
Proof. intros H Hi. rewrite Forall_forall in H. apply H. apply get_in; exact Hi. Qed.

Lemma get_Pn (l : list A) n c : Forall P l -> (n <= length l)%nat -> (c < n)%nat -> P (get l c).
Proof. intros H Hn Hc. apply get_P; [exact H|]. eapply Nat.lt_le_trans; eassumption. Qed.

Lemma swap_P (l : list A) i j :
  (i < length l)%nat -> (j < length l)%nat -> Forall P l -> Forall P (swap l i j).
Proof. intros Hi Hj. apply Permutation_Forall. symmetry. apply swap_perm; assumption. Qed.

Lemma less_le a b : P a -> P b -> less a b = true -> hle a b = true.
Proof.
  intros Pa Pb H. destruct (le_total a b Pa Pb) as [|H']; auto.
  unfold hle in H'. rewrite H in H'. discriminate.
Qed.

Definition edge (l : list A) (j : nat) := hle (get l ((j - 1) / 2)) (get l j) = true.
Definition heap_upto (l : list A) (n : nat) := forall j, (0 < j < n)%nat -> edge l j.
Definition heap_inv (l : list A) := heap_upto l (length l).
Definition heap_from (l : list A) (k n : nat) :=
  forall j, (0 < j < n)%nat -> (k <= parent j)%nat -> edge l j.
(* heap (from k) everywhere except edges whose parent is i; plus parent(i) <= children(i) *)
Definition heap_except_from (l : list A) (k i n : nat) :=
  (forall j, (0 < j < n)%nat -> (k <= (j - 1) / 2)%nat -> ((j - 1) / 2 <> i)%nat -> edge l j) /\
  (forall j, (0 < j < n)%nat -> ((j - 1) / 2 = i)%nat -> (0 < i)%nat -> (k <= (i - 1) / 2)%nat ->
             hle (get l ((i - 1) / 2)) (get l j) = true).
Definition heap_except (l : list A) (i n : nat) := heap_except_from l 0 i n.

Lemma edge_parent l j : edge l j = (hle (get l (parent j)) (get l j) = true).
Proof. reflexivity. Qed.

Lemma heap_except_from_parent l k i n : heap_except_from l k i n <->
  (forall j, (0 < j < n)%nat -> (k <= parent j)%nat -> parent j <> i -> edge l j) /\
  (forall j, (0 < j < n)%nat -> parent j = i -> (0 < i)%nat -> (k <= parent i)%nat ->
             hle (get l (parent i)) (get l j) = true).
Proof. reflexivity. Qed.

Lemma heap_from_0 l n : heap_from l 0 n <-> heap_upto l n.
Proof. unfold heap_from, heap_upto. split; intros H j Hj; [apply H; auto; lia|intros _; apply H; auto]. Qed.

Lemma min_child_le (l : list A) i n c : Forall P l -> (n <= length l)%nat ->
  (0 < c < n)%nat -> parent c = i ->
  hle (get l (min_child A d less l i n)) (get l c) = true.
Proof.
  intros HP Hn Hcn Hc. apply parent_iff in Hc; [|lia]. unfold min_child.
  replace (2 * i + 1 + 1)%nat with (2 * i + 2)%nat by lia.
  pose proof (fun c => get_Pn l n c HP Hn) as Pg.
  destruct (Nat.ltb_spec (2 * i + 2) n) as [H2|H2]; cbn [andb].
  - destruct (less (get l (2 * i + 2)) (get l (2 * i + 1))) eqn:E; destruct Hc as [-> | ->];
      try (apply le_refl; apply Pg; lia).
    + apply less_le; auto; apply Pg; lia.
    + unfold hle. rewrite E. reflexivity.
  - replace c with (2 * i + 1)%nat by lia. apply le_refl. apply Pg. lia.
Qed.

(* one swap of heap.down: the child j of i is smaller than l[i] and not above its sibling;
   after the swap the only edges in doubt are those below j *)
Lemma sift_down_step (l : list A) k i j n :
  Forall P l -> (n <= length l)%nat -> (k <= i)%nat -> (0 < j < n)%nat -> parent j = i ->
  (forall c, (0 < c < n)%nat -> parent c = i -> hle (get l j) (get l c) = true) ->
  less (get l j) (get l i) = true ->
  heap_except_from l k i n -> heap_except_from (swap l i j) k j n.
Proof.
  rewrite !heap_except_from_parent. intros HP Hn Hk Hjn Hjp Hmin Hlt [He Hg].
  pose proof (parent_lt j (proj1 Hjn)) as Hij. rewrite Hjp in Hij.
  assert (Hil : (i < length l)%nat) by lia. assert (Hjl : (j < length l)%nat) by lia.
  split.
  - intros c Hc Hkc Hcj. pose proof (parent_lt c (proj1 Hc)) as Hpc. rewrite edge_parent.
    destruct (Nat.eq_dec (parent c) i) as [Hpi|Hpi].
    + rewrite Hpi, get_swap_l by assumption. destruct (Nat.eq_dec c j) as [->|Hne].
      * rewrite get_swap_r by assumption. apply less_le; auto; apply get_P; auto.
      * rewrite get_swap_o by lia. apply Hmin; assumption.
    + destruct (Nat.eq_dec c i) as [->|Hci].
      * rewrite get_swap_l, get_swap_o by (assumption || lia). apply Hg; [lia|assumption|lia|assumption].
      * assert (c <> j) by congruence. rewrite !get_swap_o by assumption. apply He; assumption.
  - intros c Hc Hcp _ _. pose proof (parent_lt c (proj1 Hc)) as Hpc.
    rewrite Hjp, get_swap_l, get_swap_o by (assumption || lia).
    rewrite <- Hcp. apply He; [assumption|lia|lia].
Qed.

Lemma down_fix_from : forall fuel l k i n,
  Forall P l -> (n <= length l)%nat -> (n - i <= fuel)%nat -> (k <= i)%nat ->
  heap_except_from l k i n -> heap_from (down fuel l i n) k n.
Proof.
  assert (Hleaf : forall l k i n, (n <= 2 * i + 1)%nat -> heap_except_from l k i n -> heap_from l k n).
  { intros l k i n Hc [He _] c Hc' Hkc. apply He; auto. fold (parent c). rewrite parent_iff; lia. }
  induction fuel as [|f IH]; intros l k i n HP Hn Hf Hk Hex.
  { apply (Hleaf l k i); [lia|exact Hex]. }
  rewrite down_S. destruct (Nat.leb_spec n (2 * i + 1)) as [Hc|Hc]; [apply (Hleaf l k i); assumption|].
  destruct (min_child_range A d less l i n Hc) as [Hij Hj].
  pose proof (fun c => min_child_le l i n c HP Hn) as Hmin.
  set (j := min_child A d less l i n) in *. clearbody j.
  destruct (less (get l j) (get l i)) eqn:Eji.
  - apply IH; [apply swap_P; auto; lia|rewrite swap_length; auto|lia|lia|].
    apply sift_down_step; auto. lia.
  - (* l[i] <= its smaller child: every edge below i holds *)
    destruct Hex as [He _]. intros c Hcr Hkc.
    destruct (Nat.eq_dec (parent c) i) as [Hpi|Hpi]; [|apply He; auto].
    rewrite edge_parent, Hpi. apply le_trans with (get l j); try (apply (get_Pn l n); auto; lia).
    + unfold hle. rewrite Eji. reflexivity.
    + apply Hmin; assumption.
Qed.

Lemma down_fix : forall fuel l i n,
  Forall P l -> (n <= length l)%nat -> (n - i <= fuel)%nat ->
  heap_except l i n -> heap_upto (down fuel l i n) n.
Proof.
  intros. apply heap_from_0. apply down_fix_from; auto. lia.
Qed.

Lemma init_loop_inv : forall k l n,
  Forall P l -> n = length l -> heap_from l k n ->
  heap_from (init_loop A d less k l n) 0 n.
Proof.
  induction k as [|k IH]; intros l n HP Hn H; simpl.
  - exact H.
  - apply IH.
    + eapply Permutation_Forall; [symmetry; apply down_perm; lia|exact HP].
    + rewrite down_length. exact Hn.
    + apply down_fix_from; auto; try lia. apply heap_except_from_parent.
      split.
      * intros j Hj Hkj Hne. apply H; auto. lia.
      * intros j Hj Hpj H0 Hkk. pose proof (parent_lt k H0). lia.
Qed.

Lemma init_inv l : Forall P l -> heap_inv (init l).
Proof.
  intro HP. unfold heap_inv. rewrite init_length. apply heap_from_0.
  unfold GoHeap.init. apply init_loop_inv; auto.
  intros j Hj Hk. pose proof (parent_half j _ Hj). lia.
Qed.

Definition heap_except_up (l : list A) (j n : nat) :=
  (forall c, (0 < c < n)%nat -> c <> j -> edge l c) /\
  (forall c, (0 < c < n)%nat -> ((c - 1) / 2 = j)%nat -> (0 < j)%nat ->
             hle (get l ((j - 1) / 2)) (get l c) = true).

Lemma heap_except_up_parent l j n : heap_except_up l j n <->
  (forall c, (0 < c < n)%nat -> c <> j -> edge l c) /\
  (forall c, (0 < c < n)%nat -> parent c = j -> (0 < j)%nat -> hle (get l (parent j)) (get l c) = true).
Proof. reflexivity. Qed.

(* one swap of heap.up: j is smaller than its parent i; afterwards only i's own edge is in doubt *)
Lemma sift_up_step (l : list A) j n :
  Forall P l -> (n <= length l)%nat -> (0 < j < n)%nat ->
  less (get l j) (get l (parent j)) = true ->
  heap_except_up l j n -> heap_except_up (swap l (parent j) j) (parent j) n.
Proof.
  rewrite !heap_except_up_parent. intros HP Hn Hjn Hlt [He Hg]. pose proof (parent_lt j (proj1 Hjn)) as Hij.
  set (i := parent j) in *.
  assert (Hil : (i < length l)%nat) by lia. assert (Hjl : (j < length l)%nat) by lia.
  pose proof (fun c => get_Pn l n c HP Hn) as Pg.
  split.
  - intros c Hc Hci. pose proof (parent_lt c (proj1 Hc)) as Hpc. rewrite edge_parent.
    destruct (Nat.eq_dec c j) as [->|Hcj].
    { fold i. rewrite get_swap_l, get_swap_r by assumption. apply less_le; auto; apply Pg; lia. }
    destruct (Nat.eq_dec (parent c) j) as [Hpj|Hpj].
    { rewrite Hpj, get_swap_r, get_swap_o by (assumption || lia). apply Hg; [assumption|assumption|lia]. }
    destruct (Nat.eq_dec (parent c) i) as [Hpi|Hpi].
    + rewrite Hpi, get_swap_l, get_swap_o by assumption.
      apply le_trans with (get l i); try (apply Pg; lia).
      * apply less_le; auto; apply Pg; lia.
      * rewrite <- Hpi. apply He; assumption.
    + rewrite !get_swap_o by assumption. apply He; assumption.
  - intros c Hc Hpc Hi0. pose proof (parent_lt i Hi0) as Hpi. pose proof (parent_lt c (proj1 Hc)) as Hcc.
    rewrite (get_swap_o A d l i j (parent i)) by lia.
    assert (Hei : edge l i) by (apply He; lia).
    destruct (Nat.eq_dec c j) as [->|Hcj].
    + rewrite get_swap_r by assumption. exact Hei.
    + rewrite get_swap_o by lia.
      apply le_trans with (get l i); try (apply Pg; lia); [exact Hei|].
      rewrite <- Hpc. apply He; [assumption|lia].
Qed.

Lemma up_fix : forall fuel l j n,
  Forall P l -> (n <= length l)%nat -> (j < n)%nat -> (j <= fuel)%nat ->
  heap_except_up l j n -> heap_upto (up fuel l j) n.
Proof.
  assert (Hroot : forall l n, heap_except_up l 0 n -> heap_upto l n).
  { intros l n [He _] c Hc. apply He; auto. lia. }
  induction fuel as [|f IH]; intros l j n HP Hn Hjn Hf Hex.
  { replace j with 0%nat in Hex by lia. apply Hroot. exact Hex. }
  destruct j as [|j']; [apply Hroot; exact Hex|]. rewrite up_S.
  pose proof (parent_lt (S j') (Nat.lt_0_succ j')) as Hij.
  destruct (less (get l (S j')) (get l (parent (S j')))) eqn:E.
  - apply IH; [apply swap_P; auto; lia|rewrite swap_length; auto|lia|lia|].
    apply sift_up_step; auto. lia.
  - destruct Hex as [He _]. intros c Hc. destruct (Nat.eq_dec c (S j')) as [->|Hcj]; [|apply He; auto].
    rewrite edge_parent. unfold hle. rewrite E. reflexivity.
Qed.

(* up on a list that already is a heap changes nothing (AUTO's filtered Push) *)
Lemma up_heap_id fuel l j n : heap_upto l n -> (j < n)%nat -> up fuel l j = l.
Proof.
  intros H Hj. destruct fuel as [|f]; [reflexivity|].
  destruct j as [|j']; [reflexivity|]. rewrite up_S.
  assert (He : edge l (S j')) by (apply H; lia).
  rewrite edge_parent in He. apply negb_true_iff in He. rewrite He. reflexivity.
Qed.

Lemma up_nil fuel j : up fuel [] j = [].
Proof.
  revert j; induction fuel as [|f IH]; intros [|j]; try reflexivity.
  rewrite up_S. destruct (less _ _); [|reflexivity]. apply IH.
Qed.

Lemma get_app_l (l : list A) x k : (k < length l)%nat -> get (l ++ [x]) k = get l k.
Proof. intro H. unfold GoHeap.get. apply app_nth1; exact H. Qed.

Lemma push_inv l x : Forall P l -> P x -> heap_inv l -> heap_inv (push l x).
Proof.
  intros HP Px H. unfold heap_inv. rewrite push_length.
  unfold GoHeap.push.
  assert (Hlen : length (l ++ [x]) = S (length l)) by (rewrite app_length; simpl; lia).
  rewrite Hlen. replace (S (length l) - 1)%nat with (length l) by lia.
  apply up_fix; try lia.
  - apply Forall_app; split; auto.
  - apply heap_except_up_parent. split.
    + intros c Hc Hne. pose proof (parent_lt c (proj1 Hc)). rewrite edge_parent, !get_app_l by lia. apply H. lia.
    + intros c Hc Hpc Hl0. pose proof (parent_lt c (proj1 Hc)). lia.
Qed.

Lemma heap_root_min_idx l : Forall P l -> heap_inv l ->
  forall k, (k < length l)%nat -> hle (get l 0) (get l k) = true.
Proof.
  intros HP H k. induction k as [k IH] using lt_wf_ind. intro Hk.
  destruct (Nat.eq_dec k 0) as [->|Hk0]; [apply le_refl; apply get_P; auto|].
  pose proof (parent_lt k ltac:(lia)) as Hp.
  apply le_trans with (get l (parent k)); try (apply get_P; auto; lia).
  - apply IH; lia.
  - apply H. lia.
Qed.

Lemma heap_root_min l y : Forall P l -> heap_inv l -> In y l -> hle (get l 0) y = true.
Proof.
  intros HP H Hy. destruct (in_get A d l y Hy) as (k & Hk & <-).
  apply heap_root_min_idx; auto.
Qed.

Lemma heap_upto_firstn l n : (n <= length l)%nat -> heap_upto l n -> heap_inv (firstn n l).
Proof.
  intros Hn H. unfold heap_inv. rewrite firstn_length_le by exact Hn.
  intros j Hj. unfold edge. rewrite !get_firstn by lia. apply H. exact Hj.
Qed.

Lemma pop_inv l x l' : Forall P l -> heap_inv l -> pop l = Some (x, l') -> heap_inv l'.
Proof.
  intros HP H Hpop. apply pop_unfold in Hpop. cbv zeta in Hpop. destruct Hpop as (Hlen & _ & ->).
  set (n := (length l - 1)%nat) in *.
  apply heap_upto_firstn.
  - rewrite down_length, swap_length. lia.
  - apply down_fix; [apply swap_P; auto; lia|rewrite swap_length; lia|lia|].
    (* the last element now stands at the root: only the root's edges may fail *)
    apply heap_except_from_parent. split.
    + intros j Hj _ Hp. pose proof (parent_lt j (proj1 Hj)).
      rewrite edge_parent, !get_swap_o by lia. apply H. lia.
    + intros j Hj Hp H0. inversion H0.
Qed.

Lemma pop_min l x l' : Forall P l -> heap_inv l -> pop l = Some (x, l') ->
  (forall y, In y l -> hle x y = true) /\ heap_inv l'.
Proof.
  intros HP H Hpop. split.
  - intros y Hy. rewrite (pop_root A d less l x l' Hpop). apply heap_root_min; auto.
  - eapply pop_inv; eauto.
Qed.

(* everything a loop invariant needs about one Pop *)
Lemma pop_spec l : Forall P l -> heap_inv l -> l <> [] ->
  exists x l', pop l = Some (x, l') /\ Permutation l (x :: l') /\ heap_inv l' /\
               Forall P l' /\ P x /\ (forall y, In y l -> hle x y = true).
Proof.
  intros HP H Hne. destruct (pop_some A d less l Hne) as (x & l' & Hpop).
  exists x, l'. split; [exact Hpop|].
  assert (Hperm := pop_perm A d less l x l' Hpop).
  assert (HP' := Permutation_Forall Hperm HP). inversion HP'; subst.
  destruct (pop_min l x l' HP H Hpop) as [Hmin Hinv]. auto 6.
Qed.

Lemma heap_inv_nil : heap_inv [].
Proof. intros j Hj. simpl in Hj. lia. Qed.
End Order.

(* The same for a [less] whose negation is a total preorder on the whole type. *)
Section OrderAll.
Variable A : Type.
Variable d : A.
Variable less : A -> A -> bool.
Hypothesis le_refl : forall a, hle A less a a = true.
Hypothesis le_trans : forall a b c, hle A less a b = true -> hle A less b c = true -> hle A less a c = true.
Hypothesis le_total : forall a b, hle A less a b = true \/ hle A less b a = true.

Let PT := fun _ : A => True.
Lemma all_PT (l : list A) : Forall PT l.
Proof. apply Forall_forall. intros; exact I. Qed.

Notation hinv := (heap_inv A d less).
Ltac pt := solve [apply all_PT | exact I | intros; eauto].

Lemma init_inv_all l : hinv (init d less l).
Proof. apply (init_inv A d less PT); pt. Qed.

Lemma push_inv_all l x : hinv l -> hinv (push d less l x).
Proof. apply (push_inv A d less PT); pt. Qed.

Lemma pop_inv_all l x l' : hinv l -> pop d less l = Some (x, l') -> hinv l'.
Proof. apply (pop_inv A d less PT); pt. Qed.

Lemma pop_min_all l x l' : hinv l -> pop d less l = Some (x, l') ->
  (forall y, In y l -> hle A less x y = true) /\ hinv l'.
Proof. apply (pop_min A d less PT); pt. Qed.

Lemma heap_root_min_all l y : hinv l -> In y l -> hle A less (get d l 0) y = true.
Proof. apply (heap_root_min A d less PT); pt. Qed.
End OrderAll.
