(* Lemmas about Base/GoSort.v: [gosort] returns a permutation that has no
   adjacent inversion as soon as the comparator is asymmetric; [search] returns
   the partition point of a monotone predicate. *)
From Coq Require Import List Bool Arith Lia Permutation Sorted ZArith ZifyNat.
From Verif Require Import Base.GoSort.
Import ListNotations.

Section SortSpec.
Variable A : Type.
Variable less : A -> A -> bool.

(* "a may stand before b": b is not less than a *)
Definition ngt (a b : A) : Prop := less b a = false.

Lemma rins_perm x rp : Permutation (rins less x rp) (x :: rp).
Proof.
  induction rp as [|y t IH]; simpl.
  - apply Permutation_refl.
  - destruct (less x y).
    + eapply perm_trans; [apply perm_skip; exact IH|]. apply perm_swap.
    + apply Permutation_refl.
Qed.

Lemma fold_rins_perm l : forall rp,
  Permutation (fold_left (fun rp x => rins less x rp) l rp) (rev l ++ rp).
Proof.
  induction l as [|x t IH]; intro rp; simpl.
  - apply Permutation_refl.
  - eapply perm_trans; [apply IH|].
    rewrite <- app_assoc. simpl.
    apply Permutation_app_head. apply rins_perm.
Qed.

Lemma gosort_perm l : Permutation (gosort less l) l.
Proof.
  unfold gosort. eapply perm_trans; [symmetry; apply Permutation_rev|].
  eapply perm_trans; [apply fold_rins_perm|].
  rewrite app_nil_r. symmetry. apply Permutation_rev.
Qed.

Lemma gosort_length l : length (gosort less l) = length l.
Proof. apply Permutation_length. apply gosort_perm. Qed.

Hypothesis less_asym : forall x y, less x y = true -> less y x = false.

(* reversed prefix: every element is not less than the one after it (its left
   neighbour in slice order) *)
Definition rrel (u v : A) : Prop := less u v = false.

Lemma rins_hd x rp z : HdRel rrel z rp -> rrel z x -> HdRel rrel z (rins less x rp).
Proof.
  intros H Hz. destruct rp as [|y t]; simpl.
  - constructor. exact Hz.
  - destruct (less x y); constructor; auto. inversion H; auto.
Qed.

Lemma rins_sorted x rp : Sorted rrel rp -> Sorted rrel (rins less x rp).
Proof.
  induction rp as [|y t IH]; intro H; simpl.
  - repeat constructor.
  - inversion H as [|? ? Ht Hhd]; subst.
    destruct (less x y) eqn:E.
    + constructor; [apply IH; exact Ht|].
      apply rins_hd; [exact Hhd|]. unfold rrel. apply less_asym. exact E.
    + constructor; [exact H|]. constructor. exact E.
Qed.

Lemma fold_rins_sorted l : forall rp,
  Sorted rrel rp -> Sorted rrel (fold_left (fun rp x => rins less x rp) l rp).
Proof.
  induction l as [|x t IH]; intros rp H; simpl; auto.
  apply IH. apply rins_sorted. exact H.
Qed.

Lemma sorted_snoc (R : A -> A -> Prop) l a :
  Sorted R l -> (forall y, l <> [] -> last l a = y -> R y a) -> Sorted R (l ++ [a]).
Proof.
  induction l as [|h t IH]; intros H Hl; simpl.
  - repeat constructor.
  - inversion H as [|? ? Ht Hhd]; subst. constructor.
    + apply IH; auto. intros y Hne Hy. apply Hl; [discriminate|].
      destruct t; [congruence|exact Hy].
    + destruct t as [|h2 t2]; simpl.
      * constructor. apply Hl; [discriminate|reflexivity].
      * inversion Hhd; subst. constructor. auto.
Qed.

Lemma sorted_rev l : Sorted rrel l -> Sorted ngt (rev l).
Proof.
  induction l as [|u t IH]; intro H; simpl.
  - constructor.
  - inversion H as [|? ? Ht Hhd]; subst.
    apply sorted_snoc; [apply IH; exact Ht|].
    intros y Hne Hy.
    destruct t as [|v t']; [simpl in Hne; congruence|].
    inversion Hhd as [|? ? Huv]; subst.
    simpl. rewrite last_last. unfold ngt. exact Huv.
Qed.

Lemma gosort_sorted l : Sorted ngt (gosort less l).
Proof. unfold gosort. apply sorted_rev. apply fold_rins_sorted. constructor. Qed.
End SortSpec.

Arguments ngt {A} less a b.

Definition search_post (f : nat -> bool) (n p : nat) : Prop :=
  (p <= n)%nat /\ (forall i, (i < p)%nat -> f i = false) /\ (forall i, (p <= i < n)%nat -> f i = true).

(* the only fact about the division: h := (i+j)/2 splits a non-empty interval *)
Lemma midpoint_between i j : (i < j)%nat -> (i <= (i + j) / 2 < j)%nat.
Proof. intro H. zify. Z.div_mod_to_equations. lia. Qed.

Lemma search_loop_S k f i j : search_loop (S k) f i j =
  if Nat.ltb i j then
    if negb (f ((i + j) / 2)%nat) then search_loop k f ((i + j) / 2 + 1)%nat j
    else search_loop k f i ((i + j) / 2)%nat
  else i.
Proof. reflexivity. Qed.

Lemma search_loop_spec (f : nat -> bool) (n : nat) :
  (forall i j, (i <= j < n)%nat -> f i = true -> f j = true) ->
  forall fuel lo hi,
  (lo <= hi <= n)%nat -> (hi - lo <= fuel)%nat ->
  (forall i, (i < lo)%nat -> f i = false) ->
  (forall i, (hi <= i < n)%nat -> f i = true) ->
  search_post f n (search_loop fuel f lo hi).
Proof.
  intros Hmono. induction fuel as [|k IH]; intros lo hi Hb Hf Hlo Hhi.
  - simpl. assert (lo = hi) by lia. subst. repeat split; auto. lia.
  - rewrite search_loop_S. destruct (Nat.ltb_spec lo hi) as [Hlt|Hge].
    + pose proof (midpoint_between lo hi Hlt) as Hh. set (h := ((lo + hi) / 2)%nat) in *.
      destruct (f h) eqn:E; cbn [negb].
      * apply IH; auto; try lia.
        intros i Hi. destruct (Nat.eq_dec i h) as [->|]; [exact E|].
        destruct (Nat.lt_ge_cases i hi); [|apply Hhi; lia].
        apply (Hmono h i); [lia|exact E].
      * apply IH; auto; try lia.
        intros i Hi. destruct (Nat.lt_ge_cases i lo); [apply Hlo; lia|].
        destruct (f i) eqn:Ei; auto.
        rewrite (Hmono i h) in E; [discriminate|lia|exact Ei].
    + assert (lo = hi) by lia. subst. repeat split; auto. lia.
Qed.

Lemma search_spec (f : nat -> bool) (n : nat) :
  (forall i j, (i <= j < n)%nat -> f i = true -> f j = true) ->
  search_post f n (search n f).
Proof.
  intro Hmono. unfold search. apply search_loop_spec; auto; try lia.
Qed.

(* Whatever permutation an unstable sort returns, the sequence of sort keys is the
   same: this is what makes a comparison "modulo ties" well defined. *)
(* antisymmetry is only needed among the elements of the list (e.g. finite floats) *)
Lemma sorted_perm_eq_in {K} (leK : K -> K -> Prop) (l1 l2 : list K) :
  (forall a b, In a l1 -> In b l1 -> leK a b -> leK b a -> a = b) ->
  Permutation l1 l2 -> StronglySorted leK l1 -> StronglySorted leK l2 -> l1 = l2.
Proof.
  revert l2. induction l1 as [|a t1 IH]; intros l2 Hanti Hp H1 H2.
  - apply Permutation_nil in Hp. subst. reflexivity.
  - destruct l2 as [|b t2]; [apply Permutation_sym, Permutation_nil in Hp; discriminate|].
    inversion H1 as [|? ? Ht1 Ha]; subst. inversion H2 as [|? ? Ht2 Hb]; subst.
    rewrite Forall_forall in Ha, Hb.
    assert (Hb_in : In b (a :: t1)) by (eapply Permutation_in; [symmetry; exact Hp|left; reflexivity]).
    assert (Ha_in : In a (b :: t2)) by (eapply Permutation_in; [exact Hp|left; reflexivity]).
    assert (E : a = b).
    { destruct Hb_in as [|Hb_in']; [assumption|]. destruct Ha_in as [|Ha_in']; [congruence|].
      apply Hanti; [left; reflexivity|right; exact Hb_in'|apply Ha; exact Hb_in'|apply Hb; exact Ha_in']. }
    subst b. f_equal. apply IH; auto.
    + intros x y Hx Hy. apply Hanti; right; assumption.
    + eapply Permutation_cons_inv; exact Hp.
Qed.

Section SortedUnique.
Variable K : Type.
Variable leK : K -> K -> Prop.
Hypothesis leK_antisym : forall a b, leK a b -> leK b a -> a = b.

Lemma sorted_perm_eq (l1 l2 : list K) :
  Permutation l1 l2 -> StronglySorted leK l1 -> StronglySorted leK l2 -> l1 = l2.
Proof. apply sorted_perm_eq_in. intros a b _ _. apply leK_antisym. Qed.
End SortedUnique.

Lemma ssorted_map {A K} (key : A -> K) (leK : K -> K -> Prop) l :
  StronglySorted (fun a b => leK (key a) (key b)) l -> StronglySorted leK (map key l).
Proof.
  induction 1 as [|a l Hl IH Ha]; simpl; constructor; auto.
  rewrite Forall_forall in *. intros k Hk. apply in_map_iff in Hk. destruct Hk as (x & <- & Hx). auto.
Qed.

Lemma sorted_perm_keys_eq {A K} (key : A -> K) (leK : K -> K -> Prop) :
  (forall a b, leK a b -> leK b a -> a = b) ->
  forall l1 l2 : list A, Permutation l1 l2 ->
  StronglySorted (fun a b => leK (key a) (key b)) l1 ->
  StronglySorted (fun a b => leK (key a) (key b)) l2 ->
  map key l1 = map key l2.
Proof.
  intros Hanti l1 l2 Hp H1 H2. apply (sorted_perm_eq K leK Hanti).
  - apply Permutation_map. exact Hp.
  - apply ssorted_map. exact H1.
  - apply ssorted_map. exact H2.
Qed.

(* transitivity is only needed among elements satisfying [P] (e.g. "usage is finite") *)
Lemma sorted_strong_on {A} (R : A -> A -> Prop) (P : A -> Prop) :
  (forall a b c, P a -> P b -> P c -> R a b -> R b c -> R a c) ->
  forall l, Forall P l -> Sorted R l -> StronglySorted R l.
Proof.
  intros Htr l. induction l as [|a t IH]; intros HP Hs; [constructor|].
  inversion HP as [|? ? Pa Pt]; subst. inversion Hs as [|? ? Hst Hhd]; subst.
  specialize (IH Pt Hst). constructor; [exact IH|].
  destruct t as [|h t']; [constructor|].
  inversion Hhd as [|? ? Rah]; subst. inversion IH as [|? ? _ Hall]; subst.
  inversion Pt as [|? ? Ph Pt']; subst.
  constructor; [exact Rah|].
  rewrite Forall_forall in *. intros x Hx. apply (Htr a h x); auto.
Qed.
