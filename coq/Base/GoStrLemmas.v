(* Lemmas about Base/GoStr.v: the byte-wise order is a strict total order, sort_str
   sorts, split/join facts, filepath.Clean on well-formed paths, hex codec. *)
From Coq Require Import List Bool NArith String Ascii Lia Sorted Permutation.
From Verif Require Import Base.GoStr.
Import ListNotations.
Open Scope list_scope.

Lemma l2s_s2l : forall s, l2s (s2l s) = s.
Proof. exact string_of_list_ascii_of_string. Qed.
Lemma s2l_l2s : forall l, s2l (l2s l) = l.
Proof. exact list_ascii_of_string_of_list_ascii. Qed.
Lemma s2l_inj : forall a b, s2l a = s2l b -> a = b.
Proof. intros a b H. rewrite <- (l2s_s2l a), <- (l2s_s2l b), H. reflexivity. Qed.
Lemma l2s_inj : forall a b, l2s a = l2s b -> a = b.
Proof. intros a b H. rewrite <- (s2l_l2s a), <- (s2l_l2s b), H. reflexivity. Qed.

Lemma N_of_ascii_inj : forall a b, N_of_ascii a = N_of_ascii b -> a = b.
Proof. intros a b H. rewrite <- (ascii_N_embedding a), <- (ascii_N_embedding b), H. reflexivity. Qed.

Lemma byte_ltb_irrefl : forall a, byte_ltb a a = false.
Proof. intros. unfold byte_ltb. apply N.ltb_irrefl. Qed.
Lemma byte_ltb_trans : forall a b c, byte_ltb a b = true -> byte_ltb b c = true -> byte_ltb a c = true.
Proof. unfold byte_ltb. intros a b c H1 H2. apply N.ltb_lt in H1, H2. apply N.ltb_lt. lia. Qed.
Lemma byte_ltb_total : forall a b, byte_ltb a b = false -> byte_ltb b a = false -> a = b.
Proof.
  unfold byte_ltb. intros a b H1 H2. apply N.ltb_ge in H1, H2. apply N_of_ascii_inj. lia.
Qed.
Lemma byte_ltb_asym : forall a b, byte_ltb a b = true -> byte_ltb b a = false.
Proof. unfold byte_ltb. intros a b H. apply N.ltb_lt in H. apply N.ltb_ge. lia. Qed.

Lemma bytes_eqb_eq : forall a b, bytes_eqb a b = true <-> a = b.
Proof.
  induction a as [|x a IH]; intros [|y b]; simpl; split; intro H; try reflexivity; try discriminate.
  - apply andb_true_iff in H. destruct H as [H1 H2]. apply Ascii.eqb_eq in H1. apply IH in H2. subst. reflexivity.
  - inversion H; subst. apply andb_true_iff. split; [apply Ascii.eqb_refl | apply IH; reflexivity].
Qed.
Lemma bytes_eqb_refl : forall a, bytes_eqb a a = true.
Proof. intros. apply bytes_eqb_eq. reflexivity. Qed.
Lemma bytes_eqb_neq : forall a b, bytes_eqb a b = false <-> a <> b.
Proof.
  intros a b. split; intro H.
  - intro E. apply bytes_eqb_eq in E. congruence.
  - destruct (bytes_eqb a b) eqn:E; [apply bytes_eqb_eq in E; contradiction | reflexivity].
Qed.

Lemma bytes_ltb_irrefl : forall a, bytes_ltb a a = false.
Proof. induction a as [|x a IH]; simpl; [reflexivity|]. rewrite byte_ltb_irrefl. exact IH. Qed.

Lemma bytes_ltb_asym : forall a b, bytes_ltb a b = true -> bytes_ltb b a = false.
Proof.
  induction a as [|x a IH]; intros [|y b] H; simpl in *; try reflexivity; try discriminate.
  destruct (byte_ltb x y) eqn:E1.
  - rewrite (byte_ltb_asym _ _ E1). reflexivity.
  - destruct (byte_ltb y x) eqn:E2; [discriminate|]. apply IH. exact H.
Qed.

Lemma bytes_ltb_total : forall a b, bytes_ltb a b = false -> bytes_ltb b a = false -> a = b.
Proof.
  induction a as [|x a IH]; intros [|y b] H1 H2; simpl in *; try reflexivity; try discriminate.
  destruct (byte_ltb x y) eqn:E1; [discriminate|].
  destruct (byte_ltb y x) eqn:E2; [discriminate|].
  rewrite (byte_ltb_total _ _ E1 E2). f_equal. apply IH; assumption.
Qed.

Lemma bytes_ltb_trans : forall a b c, bytes_ltb a b = true -> bytes_ltb b c = true -> bytes_ltb a c = true.
Proof.
  induction a as [|x a IH]; intros [|y b] [|z c] H1 H2; simpl in *; try reflexivity; try discriminate.
  destruct (byte_ltb x y) eqn:Exy.
  - destruct (byte_ltb y z) eqn:Eyz.
    + rewrite (byte_ltb_trans _ _ _ Exy Eyz). reflexivity.
    + destruct (byte_ltb z y) eqn:Ezy; [discriminate|].
      rewrite (byte_ltb_total _ _ Eyz Ezy) in Exy. rewrite Exy. reflexivity.
  - destruct (byte_ltb y x) eqn:Eyx; [discriminate|].
    pose proof (byte_ltb_total _ _ Exy Eyx) as ->.
    destruct (byte_ltb y z) eqn:Eyz; [reflexivity|].
    destruct (byte_ltb z y) eqn:Ezy; [discriminate|].
    eapply IH; eassumption.
Qed.

Lemma bytes_ltb_neq : forall a b, bytes_ltb a b = true -> a <> b.
Proof. intros a b H E. subst. rewrite bytes_ltb_irrefl in H. discriminate. Qed.

Lemma bytes_leb_ltb_trans : forall a b c, bytes_leb a b = true -> bytes_ltb b c = true -> bytes_ltb a c = true.
Proof.
  unfold bytes_leb. intros a b c H1 H2. apply negb_true_iff in H1.
  destruct (bytes_ltb a b) eqn:E.
  - eapply bytes_ltb_trans; eassumption.
  - rewrite (bytes_ltb_total _ _ E H1). exact H2.
Qed.
Lemma bytes_leb_trans : forall a b c, bytes_leb a b = true -> bytes_leb b c = true -> bytes_leb a c = true.
Proof.
  unfold bytes_leb. intros a b c H1 H2. apply negb_true_iff in H1, H2. apply negb_true_iff.
  destruct (bytes_ltb c a) eqn:E; [|reflexivity].
  destruct (bytes_ltb a b) eqn:Eab.
  - rewrite (bytes_ltb_trans _ _ _ E Eab) in H2. discriminate.
  - rewrite (bytes_ltb_total _ _ Eab H1) in E. congruence.
Qed.
Lemma bytes_leb_refl : forall a, bytes_leb a a = true.
Proof. intros. unfold bytes_leb. rewrite bytes_ltb_irrefl. reflexivity. Qed.
Lemma bytes_ltb_leb : forall a b, bytes_ltb a b = true -> bytes_leb a b = true.
Proof. intros. unfold bytes_leb. rewrite (bytes_ltb_asym _ _ H). reflexivity. Qed.
Lemma bytes_leb_total : forall a b, bytes_leb a b = true \/ bytes_leb b a = true.
Proof.
  intros. unfold bytes_leb. destruct (bytes_ltb b a) eqn:E; [right|left; reflexivity].
  rewrite (bytes_ltb_asym _ _ E). reflexivity.
Qed.
Lemma bytes_leb_neq_ltb : forall a b, bytes_leb a b = true -> a <> b -> bytes_ltb a b = true.
Proof.
  unfold bytes_leb. intros a b H N. apply negb_true_iff in H.
  destruct (bytes_ltb a b) eqn:E; [reflexivity|]. elim N. apply bytes_ltb_total; assumption.
Qed.

Lemma str_ltb_irrefl : forall a, str_ltb a a = false.
Proof. intros. apply bytes_ltb_irrefl. Qed.
Lemma str_ltb_trans : forall a b c, str_ltb a b = true -> str_ltb b c = true -> str_ltb a c = true.
Proof. unfold str_ltb. intros. eapply bytes_ltb_trans; eassumption. Qed.
Lemma str_ltb_asym : forall a b, str_ltb a b = true -> str_ltb b a = false.
Proof. unfold str_ltb. intros. apply bytes_ltb_asym. assumption. Qed.
Lemma str_ltb_total : forall a b, str_ltb a b = false -> str_ltb b a = false -> a = b.
Proof. unfold str_ltb. intros. apply s2l_inj. apply bytes_ltb_total; assumption. Qed.
Lemma str_ltb_neq : forall a b, str_ltb a b = true -> a <> b.
Proof. intros a b H E. subst. rewrite str_ltb_irrefl in H. discriminate. Qed.
Lemma str_leb_refl : forall a, str_leb a a = true.
Proof. intros. apply bytes_leb_refl. Qed.
Lemma str_leb_trans : forall a b c, str_leb a b = true -> str_leb b c = true -> str_leb a c = true.
Proof. unfold str_leb. intros. eapply bytes_leb_trans; eassumption. Qed.
Lemma str_leb_neq_ltb : forall a b, str_leb a b = true -> a <> b -> str_ltb a b = true.
Proof.
  unfold str_leb, str_ltb. intros a b H N. apply bytes_leb_neq_ltb; [assumption|].
  intro E. apply N. apply s2l_inj. exact E.
Qed.
Lemma str_ltb_leb : forall a b, str_ltb a b = true -> str_leb a b = true.
Proof. unfold str_ltb, str_leb. intros. apply bytes_ltb_leb. assumption. Qed.
Lemma str_leb_ltb_trans : forall a b c, str_leb a b = true -> str_ltb b c = true -> str_ltb a c = true.
Proof. unfold str_ltb, str_leb. intros. eapply bytes_leb_ltb_trans; eassumption. Qed.
Lemma str_nlt_leb : forall a b, str_ltb a b = false -> str_leb b a = true.
Proof. unfold str_ltb, str_leb, bytes_leb. intros a b H. rewrite H. reflexivity. Qed.

Lemma mem_str_In : forall x l, mem_str x l = true <-> In x l.
Proof.
  induction l as [|y t IH]; simpl; [split; [discriminate|tauto]|].
  rewrite orb_true_iff, IH, String.eqb_eq. split; intros [H|H]; auto.
Qed.

Definition sle (a b : string) : Prop := str_leb a b = true.
Definition slt (a b : string) : Prop := str_ltb a b = true.

Lemma insert_str_perm : forall x l, Permutation (x :: l) (insert_str x l).
Proof.
  induction l as [|y t IH]; simpl; [apply Permutation_refl|].
  destruct (str_ltb y x); [|apply Permutation_refl].
  eapply perm_trans; [apply perm_swap|]. apply perm_skip. exact IH.
Qed.
Lemma sort_str_perm : forall l, Permutation l (sort_str l).
Proof.
  induction l as [|x t IH]; simpl; [apply perm_nil|].
  eapply perm_trans; [apply perm_skip; exact IH|]. apply insert_str_perm.
Qed.
Lemma sort_str_In : forall x l, In x (sort_str l) <-> In x l.
Proof.
  intros. split; intro H.
  - eapply Permutation_in; [apply Permutation_sym; apply sort_str_perm|exact H].
  - eapply Permutation_in; [apply sort_str_perm|exact H].
Qed.

Lemma insert_str_sorted : forall x l, StronglySorted sle l -> StronglySorted sle (insert_str x l).
Proof.
  induction l as [|y t IH]; intro S; simpl.
  - constructor; constructor.
  - inversion S as [|? ? St Hy]; subst.
    destruct (str_ltb y x) eqn:E.
    + constructor; [apply IH; exact St|].
      apply (Permutation_Forall (insert_str_perm x t)). constructor; [apply str_ltb_leb; exact E | exact Hy].
    + constructor; [exact S|]. constructor; [apply str_nlt_leb; exact E|].
      eapply Forall_impl; [|exact Hy]. intros z Hz. exact (str_leb_trans _ _ _ (str_nlt_leb _ _ E) Hz).
Qed.
Lemma sort_str_sorted : forall l, StronglySorted sle (sort_str l).
Proof.
  induction l as [|x t IH]; simpl; [constructor|]. apply insert_str_sorted. exact IH.
Qed.

(* two strictly sorted lists with the same elements are equal: the heads are the least elements
   of the same set, and neither tail contains its head again *)
Lemma strictly_sorted_unique : forall l1 l2,
  StronglySorted slt l1 -> StronglySorted slt l2 ->
  (forall x, In x l1 <-> In x l2) -> l1 = l2.
Proof.
  assert (tails : forall a t t', Forall (slt a) t -> (forall x, In x (a :: t) -> In x (a :: t')) ->
                  forall x, In x t -> In x t').
  { intros a t t' Ha H x Hx. destruct (H x (or_intror Hx)) as [<-|?]; [|assumption].
    rewrite Forall_forall in Ha. elim (str_ltb_neq _ _ (Ha _ Hx)). reflexivity. }
  induction l1 as [|a t1 IH]; intros [|b t2] S1 S2 H.
  - reflexivity.
  - elim (proj2 (H b) (or_introl eq_refl)).
  - elim (proj1 (H a) (or_introl eq_refl)).
  - inversion S1 as [|? ? S1t Ha]; inversion S2 as [|? ? S2t Hb]; subst.
    assert (a = b) as ->.
    { destruct (proj1 (H a) (or_introl eq_refl)) as [E|Hin]; [auto|].
      destruct (proj2 (H b) (or_introl eq_refl)) as [E|Hin2]; [auto|].
      rewrite Forall_forall in Ha, Hb.
      pose proof (str_ltb_asym _ _ (Hb _ Hin)) as L. rewrite (Ha _ Hin2) in L. discriminate. }
    f_equal. apply IH; try assumption.
    intro x. split; [apply (tails b t1 t2 Ha) | apply (tails b t2 t1 Hb)]; intro y; apply H.
Qed.

Lemma has_prefix_app : forall p s, has_prefix p (p ++ s) = true.
Proof. induction p as [|x p IH]; intro s; simpl; [reflexivity|]. rewrite Ascii.eqb_refl. apply IH. Qed.
Lemma drop_prefix_app : forall p s, drop_prefix p (p ++ s) = s.
Proof. induction p as [|x p IH]; intro s; simpl; [destruct s; reflexivity|]. apply IH. Qed.
Lemma trim_prefix_app : forall p s, trim_prefix p (p ++ s) = s.
Proof. intros. unfold trim_prefix. rewrite has_prefix_app. apply drop_prefix_app. Qed.
Lemma has_prefix_iff : forall p s, has_prefix p s = true <-> exists r, s = p ++ r.
Proof.
  induction p as [|x p IH]; intro s; simpl.
  - split; [intros _; exists s; reflexivity | reflexivity].
  - destruct s as [|y s]; [split; [discriminate | intros [r H]; discriminate]|].
    rewrite andb_true_iff, Ascii.eqb_eq, IH. split.
    + intros [-> [r ->]]. exists r. reflexivity.
    + intros [r H]. inversion H; subst. split; [reflexivity | exists r; reflexivity].
Qed.

Lemma bytes_ltb_app_common : forall p a b, bytes_ltb (p ++ a) (p ++ b) = bytes_ltb a b.
Proof. induction p as [|x p IH]; intros a b; simpl; [reflexivity|]. rewrite byte_ltb_irrefl. apply IH. Qed.
Lemma bytes_ltb_prefix_nlt : forall p a, bytes_ltb (p ++ a) p = false.
Proof. induction p as [|x p IH]; intro a; simpl; [destruct a; reflexivity|]. rewrite byte_ltb_irrefl. apply IH. Qed.
Lemma bytes_ltb_app_l : forall x y u v, List.length x = List.length y ->
  bytes_ltb x y = true -> bytes_ltb (x ++ u) (y ++ v) = true.
Proof.
  induction x as [|a x IH]; intros [|b y] u v L H; simpl in *; try discriminate.
  destruct (byte_ltb a b); [reflexivity|]. destruct (byte_ltb b a); [discriminate|].
  apply IH; [congruence | exact H].
Qed.

(* the keys with prefix p form an interval that starts at p *)
Lemma prefix_interval : forall p r k, bytes_ltb k p = false -> bytes_ltb k (p ++ r) = true -> has_prefix p k = true.
Proof.
  induction p as [|c p IH]; intros r [|x k] H1 H2; try reflexivity; [discriminate|]. simpl in *.
  destruct (byte_ltb x c) eqn:Lxc; [discriminate|]. destruct (byte_ltb c x) eqn:Lcx; [discriminate|].
  rewrite (byte_ltb_total _ _ Lxc Lcx), Ascii.eqb_refl. eapply IH; eassumption.
Qed.

Definition no_byte (c : ascii) (e : bytes) : Prop := mem_byte c e = false.

Lemma mem_byte_In : forall c l, mem_byte c l = true <-> In c l.
Proof.
  induction l as [|y t IH]; simpl; [split; [discriminate|tauto]|].
  rewrite orb_true_iff, IH, Ascii.eqb_eq. split; intros [H|H]; auto.
Qed.
Lemma mem_byte_app : forall c a b, mem_byte c (a ++ b) = mem_byte c a || mem_byte c b.
Proof. induction a as [|x a IH]; intro b; simpl; [reflexivity|]. rewrite IH. apply orb_assoc. Qed.

Lemma split_on_nonnil : forall c s, split_on c s <> [].
Proof.
  induction s as [|x s IH]; simpl; [discriminate|].
  destruct (Ascii.eqb x c); [discriminate|]. destruct (split_on c s); discriminate.
Qed.

Lemma split_on_none : forall c e, no_byte c e -> split_on c e = [e].
Proof.
  unfold no_byte. induction e as [|x e IH]; intro H; simpl in *; [reflexivity|].
  apply orb_false_iff in H. destruct H as [H1 H2]. rewrite Ascii.eqb_sym, H1. rewrite (IH H2). reflexivity.
Qed.

Lemma split_on_app_gen : forall c a r, split_on c (a ++ c :: r) = split_on c a ++ split_on c r.
Proof.
  induction a as [|x a IH]; intro r; simpl.
  - rewrite Ascii.eqb_refl. reflexivity.
  - rewrite IH. destruct (Ascii.eqb x c); [reflexivity|].
    destruct (split_on c a) eqn:E; [elim (split_on_nonnil _ _ E) | reflexivity].
Qed.
Lemma split_on_sep : forall c s, split_on c (c :: s) = [] :: split_on c s.
Proof. intros. simpl. rewrite Ascii.eqb_refl. reflexivity. Qed.
Lemma split_on_app : forall c e r, no_byte c e -> split_on c (e ++ c :: r) = e :: split_on c r.
Proof. intros c e r H. rewrite split_on_app_gen, (split_on_none c e H). reflexivity. Qed.

Lemma join_cons : forall c x t, t <> [] -> join [c] (x :: t) = x ++ c :: join [c] t.
Proof. intros c x [|y u] N; [congruence|]. reflexivity. Qed.

Lemma split_join : forall c es, es <> [] -> Forall (no_byte c) es -> split_on c (join [c] es) = es.
Proof.
  induction es as [|x t IH]; intros N F; [congruence|].
  inversion F as [|? ? Fx Ft]; subst. destruct t as [|y u].
  - apply split_on_none. exact Fx.
  - rewrite join_cons, split_on_app by (discriminate || exact Fx). f_equal. apply IH; [discriminate | exact Ft].
Qed.

Lemma join_split : forall c s, join [c] (split_on c s) = s.
Proof.
  induction s as [|x s IH]; [reflexivity|]. simpl.
  pose proof (split_on_nonnil c s) as N. destruct (split_on c s) as [|h t]; [congruence|].
  destruct (Ascii.eqb x c) eqn:E.
  - apply Ascii.eqb_eq in E. subst x. rewrite join_cons, IH by discriminate. reflexivity.
  - destruct t; [simpl in *; congruence|]. rewrite join_cons in IH |- * by discriminate. rewrite <- IH. reflexivity.
Qed.

Lemma join_app : forall c es fs, es <> [] -> fs <> [] ->
  join [c] (es ++ fs) = join [c] es ++ c :: join [c] fs.
Proof.
  induction es as [|x t IH]; intros fs N1 N2; [congruence|].
  destruct t as [|y u]; [apply join_cons; exact N2|].
  change ((x :: y :: u) ++ fs) with (x :: (y :: u) ++ fs).
  rewrite !join_cons, IH, <- app_assoc by (discriminate || exact N2). reflexivity.
Qed.

Lemma join_inj : forall c es fs, es <> [] -> fs <> [] ->
  Forall (no_byte c) es -> Forall (no_byte c) fs -> join [c] es = join [c] fs -> es = fs.
Proof.
  intros c es fs N1 N2 F1 F2 E.
  rewrite <- (split_join c es N1 F1), <- (split_join c fs N2 F2), E. reflexivity.
Qed.

Lemma prefix_components : forall c es fs, es <> [] -> fs <> [] ->
  Forall (no_byte c) es -> Forall (no_byte c) fs ->
  (has_prefix (join [c] es ++ [c]) (join [c] fs) = true <-> exists r, r <> [] /\ fs = es ++ r).
Proof.
  intros c es fs N1 N2 F1 F2. split.
  - intro H. apply has_prefix_iff in H. destruct H as [rest H].
    rewrite <- app_assoc in H. simpl in H. apply (f_equal (split_on c)) in H.
    rewrite split_on_app_gen, !split_join in H by assumption.
    exists (split_on c rest). split; [apply split_on_nonnil | exact H].
  - intros [r [Nr ->]]. rewrite join_app by assumption.
    change (c :: join [c] r) with ([c] ++ join [c] r). rewrite app_assoc. apply has_prefix_app.
Qed.

(* filepath.Clean on rooted paths made of ordinary elements *)
Definition safe_elem (e : bytes) : Prop :=
  e <> [] /\ no_byte slash e /\ is_dot e = false /\ is_dotdot e = false.
Definition safe_or_empty (e : bytes) : Prop := e = [] \/ safe_elem e.
Definition nonempty (e : bytes) : bool := match e with [] => false | _ => true end.

Lemma clean_elems_safe : forall rooted es stack,
  Forall safe_or_empty es -> clean_elems rooted stack es = rev stack ++ filter nonempty es.
Proof.
  induction es as [|e es IH]; intros stack F; simpl.
  - rewrite app_nil_r. reflexivity.
  - inversion F as [|? ? Fe Fs]; subst. destruct Fe as [->|[Hn [Hs [Hd Hdd]]]].
    + simpl. apply IH. exact Fs.
    + destruct e as [|c e]; [congruence|]. rewrite Hd, Hdd. simpl nonempty. cbv iota.
      rewrite IH by exact Fs. simpl. rewrite <- app_assoc. reflexivity.
Qed.

Lemma clean_rooted : forall es, Forall safe_or_empty es ->
  clean (slash :: join [slash] es) = slash :: join [slash] (filter nonempty es).
Proof.
  intros es F. unfold clean. rewrite Ascii.eqb_refl, split_on_sep.
  destruct es as [|e0 es']; [reflexivity|].
  rewrite split_join; [|discriminate|].
  - change (clean_elems true [] ([] :: e0 :: es')) with (clean_elems true [] (e0 :: es')).
    rewrite clean_elems_safe by exact F. reflexivity.
  - eapply Forall_impl; [|exact F]. intros e [->|[_ [Hs _]]]; [reflexivity | exact Hs].
Qed.

Local Open Scope N_scope.

Lemma hex_digit_val : forall d, d < 16 -> N_of_ascii (hex_digit d) = if d <? 10 then 48 + d else 87 + d.
Proof.
  intros d H. unfold hex_digit. apply N_ascii_embedding. destruct (N.ltb_spec d 10); lia.
Qed.

Lemma digit_val_hex_digit : forall d, d < 16 -> digit_val (hex_digit d) = Some d.
Proof.
  intros d H. unfold digit_val. rewrite hex_digit_val by exact H.
  destruct (N.ltb_spec d 10) as [E|E].
  - (* '0'..'9' *)
    rewrite (proj2 (N.leb_le 48 (48 + d))), (proj2 (N.leb_le (48 + d) 57)) by lia. cbn [andb]. f_equal. lia.
  - (* 'a'..'f': no decimal digit, and bit 5 is already set *)
    rewrite (proj2 (N.leb_gt (87 + d) 57)), andb_false_r by lia.
    replace (N.lor (87 + d) 32) with (87 + d).
    2:{ assert (D : d = 10 \/ d = 11 \/ d = 12 \/ d = 13 \/ d = 14 \/ d = 15) by lia.
        destruct D as [->|[->|[->|[->|[->| ->]]]]]; reflexivity. }
    rewrite (proj2 (N.leb_le 97 (87 + d))), (proj2 (N.leb_le (87 + d) 122)) by lia. cbn [andb]. f_equal. lia.
Qed.

Lemma hex_digit_mono : forall a b, a < b -> b < 16 -> byte_ltb (hex_digit a) (hex_digit b) = true.
Proof.
  intros a b H1 H2. unfold byte_ltb. rewrite !hex_digit_val by lia. apply N.ltb_lt.
  destruct (N.ltb_spec a 10), (N.ltb_spec b 10); lia.
Qed.

(* digits and letters stand above '.' and '/' *)
Lemma hex_digit_plain : forall d, d < 16 -> hex_digit d <> slash /\ hex_digit d <> dot.
Proof.
  intros d H.
  assert (L : 48 <= N_of_ascii (hex_digit d)) by (rewrite hex_digit_val by exact H; destruct (N.ltb_spec d 10); lia).
  split; intro E; rewrite E in L; exact (L eq_refl).
Qed.

Lemma hexw_length : forall w n, List.length (hexw w n) = w.
Proof. induction w as [|w IH]; intro n; simpl; [reflexivity|]. rewrite app_length, IH. simpl. lia. Qed.

Lemma hexw_chars : forall w n c, In c (hexw w n) -> c <> slash /\ c <> dot.
Proof.
  induction w as [|w IH]; intros n c H; simpl in H; [contradiction|].
  apply in_app_or in H. destruct H as [H|[<-|[]]]; [eapply IH; exact H|].
  apply hex_digit_plain. apply N.mod_lt. discriminate.
Qed.

Lemma parse_hex_acc_app : forall a b acc,
  parse_hex_acc acc (a ++ b) = match parse_hex_acc acc a with Some acc' => parse_hex_acc acc' b | None => None end.
Proof.
  induction a as [|c a IH]; intros b acc; simpl; [reflexivity|].
  destruct (digit_val c) as [d|]; [|reflexivity].
  destruct (d <? 16); [|reflexivity].
  destruct (acc * 16 + d <? two64N); [apply IH | reflexivity].
Qed.

Lemma pow16_succ : forall w, 16 ^ N.of_nat (S w) = 16 * 16 ^ N.of_nat w.
Proof. intro w. rewrite Nnat.Nat2N.inj_succ, N.pow_succ_r'. reflexivity. Qed.

Lemma parse_hexw : forall w n acc,
  acc * 16 ^ N.of_nat w + n mod 16 ^ N.of_nat w < two64N ->
  parse_hex_acc acc (hexw w n) = Some (acc * 16 ^ N.of_nat w + n mod 16 ^ N.of_nat w).
Proof.
  induction w as [|w IH]; intros n acc H.
  - simpl. rewrite N.mod_1_r. f_equal. lia.
  - cbn [hexw]. rewrite parse_hex_acc_app. rewrite pow16_succ in H |- *.
    assert (P : 16 ^ N.of_nat w <> 0) by (apply N.pow_nonzero; discriminate).
    assert (D : n mod 16 < 16) by (apply N.mod_lt; discriminate).
    (* n mod 16^(w+1) is the last digit plus 16 times the rest *)
    rewrite (N.mod_mul_r n 16 _) in H |- * by (discriminate || exact P).
    set (Pw := 16 ^ N.of_nat w) in *. set (q := (n / 16) mod Pw) in *. set (m := n mod 16) in *.
    rewrite (IH (n / 16) acc) by (fold Pw q; nia). fold Pw q.
    cbn [parse_hex_acc]. rewrite digit_val_hex_digit by exact D. rewrite (proj2 (N.ltb_lt m 16) D).
    replace ((acc * Pw + q) * 16 + m) with (acc * (16 * Pw) + (m + 16 * q)) by lia.
    rewrite (proj2 (N.ltb_lt _ _) H). reflexivity.
Qed.

Lemma hexw_lt : forall w a b, a < b -> b < 16 ^ N.of_nat w -> bytes_ltb (hexw w a) (hexw w b) = true.
Proof.
  induction w as [|w IH]; intros a b H1 H2.
  - simpl in H2. lia.
  - cbn [hexw]. rewrite pow16_succ in H2.
    assert (Da := N.div_mod a 16 ltac:(discriminate)). assert (Db := N.div_mod b 16 ltac:(discriminate)).
    assert (Ma : a mod 16 < 16) by (apply N.mod_lt; discriminate).
    assert (Mb : b mod 16 < 16) by (apply N.mod_lt; discriminate).
    assert (Le : a / 16 <= b / 16) by (apply N.div_le_mono; [discriminate | lia]).
    destruct (N.eq_dec (a / 16) (b / 16)) as [E|NE].
    + rewrite E, bytes_ltb_app_common. simpl.
      rewrite hex_digit_mono; [reflexivity | lia | exact Mb].
    + apply bytes_ltb_app_l; [rewrite !hexw_length; reflexivity|].
      apply IH; [lia|]. apply N.div_lt_upper_bound; [discriminate | exact H2].
Qed.

Lemma parse_trim_zero : forall s, parse_hex_acc 0 (trim_left (s2l "0") s) = parse_hex_acc 0 s.
Proof.
  induction s as [|c s IH]; [reflexivity|].
  cbn [trim_left]. destruct (mem_byte c (s2l "0")) eqn:E; [|reflexivity].
  rewrite IH. change (s2l "0") with ["0"%char] in E. simpl in E. rewrite orb_false_r in E.
  apply Ascii.eqb_eq in E. subst c. reflexivity.
Qed.

Lemma two64_pow : two64N = 16 ^ N.of_nat 16.
Proof. reflexivity. Qed.

(* strconv.ParseUint(TrimLeft(%016x, "0"), 16, 64) inverts %016x on 1 .. 2^64-1 *)
Lemma parse_hex16 : forall n, 1 <= n -> n < two64N ->
  parse_hex64 (trim_left (s2l "0") (hex16 n)) = Some n.
Proof.
  intros n H1 H2.
  assert (P : parse_hex_acc 0 (trim_left (s2l "0") (hex16 n)) = Some n).
  { rewrite parse_trim_zero. unfold hex16. rewrite parse_hexw.
    - f_equal. rewrite N.mul_0_l, N.add_0_l. apply N.mod_small. rewrite <- two64_pow. exact H2.
    - rewrite N.mul_0_l, N.add_0_l. rewrite <- two64_pow.
      eapply N.le_lt_trans; [apply N.mod_le; discriminate | exact H2]. }
  unfold parse_hex64. destruct (trim_left (s2l "0") (hex16 n)) as [|c t] eqn:E.
  - simpl in P. inversion P. lia.
  - exact P.
Qed.

Lemma hex16_lt : forall a b, a < b -> b < two64N -> bytes_ltb (hex16 a) (hex16 b) = true.
Proof. intros. unfold hex16. apply hexw_lt; [assumption | rewrite <- two64_pow; assumption]. Qed.

Lemma hex16_safe : forall n, safe_elem (hex16 n).
Proof.
  intro n. unfold safe_elem, hex16. pose proof (hexw_length 16 n) as L.
  split; [|split; [|split]].
  - intro E. rewrite E in L. discriminate.
  - unfold no_byte. destruct (mem_byte slash (hexw 16 n)) eqn:E; [|reflexivity].
    apply mem_byte_In in E. apply hexw_chars in E. destruct E as [E _]. congruence.
  - unfold is_dot. apply bytes_eqb_neq. intro E. rewrite E in L. discriminate.
  - unfold is_dotdot. apply bytes_eqb_neq. intro E. rewrite E in L. discriminate.
Qed.
Local Close Scope N_scope.
