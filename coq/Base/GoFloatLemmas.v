(* Order facts about Go float64 (Flocq binary64) needed by the strategy proofs:
   [fle] is a total preorder on non-NaN values, [flt] is its strict part,
   adding a finite value to a non-NaN value never yields NaN, and adding a
   non-negative finite value never decreases a value (monotonicity of rounding
   to nearest).  Infinities are covered (a float sum may overflow).
   Then the value of each operation as a real number, for the error analyses. *)
From Coq Require Import Reals Lra Lia.
From Flocq Require Import Core IEEE754.BinarySingleNaN IEEE754.Binary IEEE754.Bits.
From Verif Require Import Base.GoFloat.
Local Open Scope R_scope.

Local Instance prec53_gt_0 : Prec_gt_0 53 := eq_refl.

Definition nn (f : f64) : Prop := is_nan 53 1024 f = false.

Lemma finite_nn f : f_finite f = true -> nn f.
Proof. unfold f_finite, nn. destruct f; simpl; congruence. Qed.

Inductive er := NegInf | Fin (r : R) | PosInf.
Definition er_le (a b : er) : Prop :=
  match a, b with
  | NegInf, _ => True
  | _, PosInf => True
  | Fin x, Fin y => x <= y
  | _, _ => False
  end.
Definition er_lt (a b : er) : Prop :=
  match a, b with
  | NegInf, NegInf => False
  | NegInf, _ => True
  | PosInf, _ => False
  | _, PosInf => True
  | Fin x, Fin y => x < y
  | _, _ => False
  end.

Definition ext (f : f64) : er :=
  match f with
  | B754_infinity _ _ true => NegInf
  | B754_infinity _ _ false => PosInf
  | _ => Fin (B2R 53 1024 f)
  end.

Lemma er_le_refl a : er_le a a.
Proof. destruct a; simpl; auto. lra. Qed.
Lemma er_le_trans a b c : er_le a b -> er_le b c -> er_le a c.
Proof. destruct a, b, c; simpl; auto; try tauto. lra. Qed.
Lemma er_le_total a b : er_le a b \/ er_le b a.
Proof. destruct a, b; simpl; auto. destruct (Rle_or_lt r r0); [left; auto|right; lra]. Qed.
Lemma er_lt_not_le a b : er_lt a b <-> ~ er_le b a.
Proof. destruct a, b; simpl; try tauto. split; lra. Qed.

Lemma Bcompare_ext (a b : f64) : nn a -> nn b ->
  Bcompare 53 1024 a b =
    Some (match ext a, ext b with
          | NegInf, NegInf => Eq | NegInf, _ => Lt
          | PosInf, PosInf => Eq | PosInf, _ => Gt
          | Fin _, NegInf => Gt | Fin _, PosInf => Lt
          | Fin x, Fin y => Rcompare x y
          end).
Proof.
  intros Ha Hb.
  destruct a as [sa|sa|sa pa Ha'|sa ma ea Ha']; try discriminate Ha;
  destruct b as [sb|sb|sb pb Hb'|sb mb eb Hb']; try discriminate Hb;
  try (destruct sa; reflexivity); try (destruct sb; reflexivity);
  try (destruct sa, sb; reflexivity);
  try (unfold ext; apply Bcompare_correct; reflexivity).
Qed.

Lemma fle_ext a b : nn a -> nn b -> (fle a b = true <-> er_le (ext a) (ext b)).
Proof.
  intros Ha Hb. unfold fle. rewrite (Bcompare_ext a b Ha Hb).
  destruct (ext a) as [|x|], (ext b) as [|y|]; simpl; try tauto; try (split; [discriminate|tauto]).
  destruct (Rcompare_spec x y); split; intro H0; try reflexivity; try discriminate; try lra.
Qed.

Lemma flt_ext a b : nn a -> nn b -> (flt a b = true <-> er_lt (ext a) (ext b)).
Proof.
  intros Ha Hb. unfold flt. rewrite (Bcompare_ext a b Ha Hb).
  destruct (ext a) as [|x|], (ext b) as [|y|]; simpl; try tauto; try (split; [discriminate|tauto]).
  destruct (Rcompare_spec x y); split; intro H0; try reflexivity; try discriminate; try lra.
Qed.

Lemma finite_ext a : f_finite a = true -> ext a = Fin (B2R 53 1024 a).
Proof. destruct a; try discriminate; reflexivity. Qed.

Lemma fle_refl a : nn a -> fle a a = true.
Proof. intro H. apply fle_ext; auto. apply er_le_refl. Qed.
Lemma fle_trans a b c : nn a -> nn b -> nn c -> fle a b = true -> fle b c = true -> fle a c = true.
Proof.
  intros Ha Hb Hc H1 H2. apply fle_ext; auto. apply fle_ext in H1; auto. apply fle_ext in H2; auto.
  eapply er_le_trans; eauto.
Qed.
Lemma fle_total a b : nn a -> nn b -> fle a b = true \/ fle b a = true.
Proof.
  intros Ha Hb. destruct (er_le_total (ext a) (ext b)); [left|right]; apply fle_ext; auto.
Qed.
Lemma negb_flt_fle a b : nn a -> nn b -> negb (flt b a) = fle a b.
Proof.
  intros Ha Hb. destruct (fle a b) eqn:E1, (flt b a) eqn:E2; try reflexivity; exfalso.
  - apply fle_ext in E1; auto. apply flt_ext in E2; auto. apply er_lt_not_le in E2. tauto.
  - assert (~ er_le (ext a) (ext b)) by (rewrite <- fle_ext by auto; congruence).
    assert (~ er_lt (ext b) (ext a)) by (rewrite <- flt_ext by auto; congruence).
    rewrite er_lt_not_le in H0. tauto.
Qed.

(* The value of an operation as a real number: every float operation is the rounding
   to nearest of the real operation (Flocq's B*_correct), and a rounding at magnitude
   <= 2^e is off by at most 2^(e-53). *)
Notation fexp64 := (SpecFloat.fexp 53 1024).
Notation rndNE := (round radix2 fexp64 (round_mode mode_NE)).

(* rounding to exponent 0 is rounding to an integer: the value of [f_trunc], [f_round] and the like *)
Lemma round_FIX0 rnd x : round radix2 (FIX_exp 0) rnd x = IZR (rnd x).
Proof.
  unfold round, scaled_mantissa, cexp, FIX_exp, F2R. simpl.
  rewrite Rmult_1_r. rewrite Rmult_1_r. reflexivity.
Qed.

Lemma valid64 : Valid_exp fexp64.
Proof. apply fexp_correct; reflexivity. Qed.

Lemma rndNE_near : forall x e, (-1022 <= e < 1024)%Z -> Rabs x <= bpow radix2 e ->
  Rabs (rndNE x - x) <= bpow radix2 (e - 53) /\
  Rlt_bool (Rabs (rndNE x)) (bpow radix2 1024) = true.
Proof.
  intros x e He Hx. pose proof valid64 as Hvalid.
  assert (Hfe : fexp64 (e + 1) = (e - 52)%Z) by (unfold SpecFloat.fexp, SpecFloat.emin; lia).
  split.
  - apply Rle_trans with (1 := error_le_half_ulp radix2 fexp64 _ x).
    replace (e - 53)%Z with (-1 + (e - 52))%Z by lia. rewrite bpow_plus.
    apply Rmult_le_compat_l; [simpl; lra|].
    rewrite <- Hfe, <- ulp_bpow.
    apply (@ulp_le radix2 fexp64 Hvalid (fexp_monotone 53 1024)).
    rewrite (Rabs_pos_eq (bpow radix2 e)) by apply bpow_ge_0. exact Hx.
  - apply Rlt_bool_true. apply Rle_lt_trans with (bpow radix2 e); [|apply bpow_lt; lia].
    apply abs_round_le_generic; [exact Hvalid|apply valid_rnd_round_mode| |exact Hx].
    apply generic_format_bpow. lia.
Qed.

Lemma format_IZR : forall z, (Z.abs z <= 2 ^ 53)%Z -> generic_format radix2 fexp64 (IZR z).
Proof.
  intros z Hz. apply (generic_format_FLT radix2 (-1074) 53).
  destruct (Z.eq_dec (Z.abs z) (2 ^ 53)) as [E|N].
  - exists (Float radix2 (Z.sgn z) 53); [unfold F2R; simpl; rewrite <- mult_IZR; f_equal; lia|simpl; lia|simpl; lia].
  - exists (Float radix2 z 0); [unfold F2R; simpl; ring|simpl; lia|simpl; lia].
Qed.

Lemma rndNE_ge_IZR : forall z x, (Z.abs z <= 2 ^ 53)%Z -> IZR z <= x -> IZR z <= rndNE x.
Proof.
  intros z x Hz. apply round_ge_generic; [apply valid64|apply valid_rnd_round_mode|apply format_IZR, Hz].
Qed.

Lemma f_of_Z_real : forall z, (Z.abs z <= 2 ^ 53)%Z ->
  is_finite 53 1024 (f_of_Z z) = true /\ B2R 53 1024 (f_of_Z z) = IZR z.
Proof.
  intros z Hz.
  pose proof (binary_normalize_correct 53 1024 eq_refl eq_refl mode_NE z 0 false) as H.
  replace (F2R (Float radix2 z 0)) with (IZR z) in H by (unfold F2R; simpl; ring).
  change (round radix2 _ _ (IZR z)) with (rndNE (IZR z)) in H.
  rewrite (round_generic _ _ _ _ (format_IZR z Hz)) in H.
  rewrite Rlt_bool_true in H; [split; apply H|].
  rewrite <- abs_IZR. apply Rle_lt_trans with (IZR (2 ^ 53)); [apply IZR_le; exact Hz|].
  change (IZR (2 ^ 53)) with (bpow radix2 53). apply bpow_lt. lia.
Qed.

(* Flocq's B*_correct theorems have this shape: without overflow the result is the rounding of the real one *)
Lemma op_real : forall (r : f64) v fin (P Q : Prop) e, (-1022 <= e < 1024)%Z -> Rabs v <= bpow radix2 e ->
  (if Rlt_bool (Rabs (rndNE v)) (bpow radix2 1024)
   then B2R 53 1024 r = rndNE v /\ is_finite 53 1024 r = fin /\ P else Q) ->
  is_finite 53 1024 r = fin /\ B2R 53 1024 r = rndNE v /\
  Rabs (B2R 53 1024 r - v) <= bpow radix2 (e - 53).
Proof.
  intros r v fin P Q e He Hv H. destruct (rndNE_near v e He Hv) as [E L]. rewrite L in H.
  destruct H as (R & F & _). rewrite R. auto.
Qed.

Lemma fmul_real : forall a b e, is_finite 53 1024 a = true -> is_finite 53 1024 b = true ->
  (-1022 <= e < 1024)%Z -> Rabs (B2R 53 1024 a * B2R 53 1024 b) <= bpow radix2 e ->
  is_finite 53 1024 (fmul a b) = true /\ B2R 53 1024 (fmul a b) = rndNE (B2R 53 1024 a * B2R 53 1024 b) /\
  Rabs (B2R 53 1024 (fmul a b) - B2R 53 1024 a * B2R 53 1024 b) <= bpow radix2 (e - 53).
Proof.
  intros a b e Ha Hb He Hv.
  pose proof (op_real _ _ _ _ _ e He Hv (Bmult_correct 53 1024 eq_refl eq_refl binop_nan_pl64 mode_NE a b)) as H.
  rewrite Ha, Hb in H. exact H.
Qed.

Lemma fsub_real : forall a b e, is_finite 53 1024 a = true -> is_finite 53 1024 b = true ->
  (-1022 <= e < 1024)%Z -> Rabs (B2R 53 1024 a - B2R 53 1024 b) <= bpow radix2 e ->
  is_finite 53 1024 (fsub a b) = true /\ B2R 53 1024 (fsub a b) = rndNE (B2R 53 1024 a - B2R 53 1024 b) /\
  Rabs (B2R 53 1024 (fsub a b) - (B2R 53 1024 a - B2R 53 1024 b)) <= bpow radix2 (e - 53).
Proof.
  intros a b e Ha Hb He Hv.
  exact (op_real _ _ _ _ _ e He Hv (Bminus_correct 53 1024 eq_refl eq_refl binop_nan_pl64 mode_NE a b Ha Hb)).
Qed.

Lemma fdiv_real : forall a b e, is_finite 53 1024 a = true -> B2R 53 1024 b <> 0 ->
  (-1022 <= e < 1024)%Z -> Rabs (B2R 53 1024 a / B2R 53 1024 b) <= bpow radix2 e ->
  is_finite 53 1024 (fdiv a b) = true /\ B2R 53 1024 (fdiv a b) = rndNE (B2R 53 1024 a / B2R 53 1024 b) /\
  Rabs (B2R 53 1024 (fdiv a b) - B2R 53 1024 a / B2R 53 1024 b) <= bpow radix2 (e - 53).
Proof.
  intros a b e Ha Hb He Hv.
  pose proof (op_real _ _ _ _ _ e He Hv (Bdiv_correct 53 1024 eq_refl eq_refl binop_nan_pl64 mode_NE a b Hb)) as H.
  rewrite Ha in H. exact H.
Qed.

Lemma flt_real : forall a b, is_finite 53 1024 a = true -> is_finite 53 1024 b = true ->
  flt a b = Rlt_bool (B2R 53 1024 a) (B2R 53 1024 b).
Proof. intros a b Ha Hb. unfold flt. rewrite Bcompare_correct by assumption. reflexivity. Qed.

Lemma fadd_inf_l s (r : f64) : f_finite r = true -> fadd (B754_infinity 53 1024 s) r = B754_infinity 53 1024 s.
Proof. destruct r; try discriminate; intros _; reflexivity. Qed.

(* a finite sum is the rounding of the real sum, unless that overflows: then it is the
   infinity of the sign the two operands share *)
Lemma fadd_real u r : is_finite 53 1024 u = true -> is_finite 53 1024 r = true ->
  is_finite 53 1024 (fadd u r) = true /\ B2R 53 1024 (fadd u r) = rndNE (B2R 53 1024 u + B2R 53 1024 r)
  \/ bpow radix2 1024 <= Rabs (rndNE (B2R 53 1024 u + B2R 53 1024 r))
     /\ fadd u r = B754_infinity 53 1024 (Bsign 53 1024 r).
Proof.
  intros Fu Fr.
  pose proof (Bplus_correct 53 1024 eq_refl eq_refl binop_nan_pl64 mode_NE u r Fu Fr) as H.
  change (Bplus 53 1024 _ _ binop_nan_pl64 mode_NE u r) with (fadd u r) in H.
  destruct (Rlt_bool_spec (Rabs (rndNE (B2R 53 1024 u + B2R 53 1024 r))) (bpow radix2 1024)) as [L|G].
  - left. split; apply H.
  - right. destruct H as (Ho & Hs). split; [exact G|]. rewrite <- Hs.
    destruct (fadd u r); try discriminate Ho. inversion Ho. reflexivity.
Qed.

Lemma fadd_nn u r : nn u -> f_finite r = true -> nn (fadd u r).
Proof.
  intros Hu Hr. destruct (is_finite 53 1024 u) eqn:Fu.
  - destruct (fadd_real u r Fu Hr) as [[Hf _]|[_ E]]; [apply finite_nn, Hf|rewrite E; reflexivity].
  - destruct u; try discriminate. rewrite fadd_inf_l by exact Hr. reflexivity.
Qed.

Lemma fzero_eq : fb 0 = B754_zero 53 1024 false.
Proof. reflexivity. Qed.

Lemma fadd_ge u r : nn u -> f_finite r = true -> fle (fb 0) r = true -> fle u (fadd u r) = true.
Proof.
  intros Hu Hr Hr0.
  assert (Hy : 0 <= B2R 53 1024 r).
  { apply fle_ext in Hr0; [|reflexivity|apply finite_nn, Hr]. rewrite (finite_ext r Hr) in Hr0. exact Hr0. }
  destruct (is_finite 53 1024 u) eqn:Fu.
  - pose proof (fadd_real u r Fu Hr) as A.
    set (x := B2R 53 1024 u) in *. set (y := B2R 53 1024 r) in *.
    destruct A as [[Hf HR]|[Hge Einf]].
    + unfold fle. rewrite (Bcompare_correct 53 1024 u (fadd u r) Fu Hf), HR. fold x.
      assert (x <= rndNE (x + y)).
      { apply round_ge_generic; [apply valid64|apply valid_rnd_round_mode|apply generic_format_B2R|lra]. }
      destruct (Rcompare_spec x (rndNE (x + y))); try reflexivity. lra.
    + (* overflow: r is positive, the sum is +infinity *)
      assert (Hyp : 0 < y).
      { destruct (Rle_lt_or_eq_dec 0 y Hy) as [|E0]; [assumption|exfalso].
        rewrite <- E0, Rplus_0_r, round_generic in Hge;
          [|apply valid_rnd_round_mode|apply generic_format_B2R].
        pose proof (abs_B2R_lt_emax 53 1024 u) as Hab. fold x in Hab. lra. }
      assert (Hsr : Bsign 53 1024 r = false).
      { destruct r as [sr|sr|sr pr Hpr|sr mr er Hbr]; try discriminate Hr.
        - unfold y in Hyp. simpl in Hyp. lra.
        - destruct sr; [|reflexivity]. exfalso. unfold y in Hyp. simpl in Hyp.
          pose proof (F2R_lt_0 radix2 (Float radix2 (Zneg mr) er) ltac:(simpl; lia)) as Hneg.
          simpl in Hneg. lra. }
      rewrite Einf, Hsr. apply fle_ext; [exact Hu|reflexivity|]. simpl. destruct (ext u); exact I.
  - destruct u; try discriminate. rewrite fadd_inf_l by exact Hr. apply fle_refl. reflexivity.
Qed.

Lemma fb_fbits f : fb (fbits f) = f.
Proof.
  unfold fb, fbits, b64_of_bits, bits_of_b64.
  exact (binary_float_of_bits_of_binary_float 52 11 (eq_refl _) (eq_refl _) (eq_refl _) f).
Qed.

Lemma flt_asym (a b : f64) : flt a b = true -> flt b a = false.
Proof.
  unfold flt. rewrite (Bcompare_swap 53 1024 a b).
  destruct (Bcompare 53 1024 a b) as [[| |]|]; simpl; congruence.
Qed.

Lemma er_le_antisym a b : er_le a b -> er_le b a -> a = b.
Proof. destruct a, b; simpl; try tauto. intros H1 H2. f_equal. lra. Qed.

Lemma fle_antisym_ext a b : nn a -> nn b -> fle a b = true -> fle b a = true -> ext a = ext b.
Proof.
  intros Ha Hb H1 H2. apply fle_ext in H1; auto. apply fle_ext in H2; auto. apply er_le_antisym; assumption.
Qed.

Lemma feq_zero_iff a : f_finite a = true -> (feq a (fb 0) = true <-> B2R 53 1024 a = 0).
Proof.
  intro Ha. rewrite fzero_eq. unfold feq.
  rewrite (Bcompare_correct 53 1024 a (B754_zero 53 1024 false) Ha (eq_refl true)). simpl.
  destruct (Rcompare_spec (B2R 53 1024 a) 0); split; intro H0; try reflexivity; try discriminate; lra.
Qed.

Lemma finite_nonzero_strict a : f_finite a = true -> B2R 53 1024 a <> 0 -> is_finite_strict 53 1024 a = true.
Proof. destruct a; try discriminate; simpl; intros _ H0; [exfalso; apply H0; reflexivity|reflexivity]. Qed.

Lemma same_value_same_bits a b : f_finite a = true -> f_finite b = true ->
  B2R 53 1024 a = B2R 53 1024 b ->
  (if feq a (fb 0) then 0%Z else fbits a) = (if feq b (fb 0) then 0%Z else fbits b).
Proof.
  intros Ha Hb E.
  destruct (feq a (fb 0)) eqn:Ea, (feq b (fb 0)) eqn:Eb; try reflexivity.
  - apply (feq_zero_iff a Ha) in Ea. exfalso.
    assert (feq b (fb 0) = true) by (apply (feq_zero_iff b Hb); lra). congruence.
  - apply (feq_zero_iff b Hb) in Eb. exfalso.
    assert (feq a (fb 0) = true) by (apply (feq_zero_iff a Ha); lra). congruence.
  - assert (Na : B2R 53 1024 a <> 0) by (intro H0; apply (feq_zero_iff a Ha) in H0; congruence).
    assert (Nb : B2R 53 1024 b <> 0) by (intro H0; apply (feq_zero_iff b Hb) in H0; congruence).
    f_equal. apply (B2R_inj 53 1024); auto using finite_nonzero_strict.
Qed.

