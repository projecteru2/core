(* RunLib: helpers used by the generated case files of the correspondence check;
   everything is executable. *)
From Coq Require Import List Bool String Ascii.
Import ListNotations.

Fixpoint bad_idx_from {A} (f : A -> bool) (l : list A) (i : nat) : list nat :=
  match l with
  | [] => []
  | x :: t => if f x then bad_idx_from f t (S i) else i :: bad_idx_from f t (S i)
  end.
Definition bad_idx {A} (f : A -> bool) (l : list A) : list nat := bad_idx_from f l 0.

(* strings are emitted by the harness as lists of byte values *)
Fixpoint str_of_bytes (l : list nat) : string :=
  match l with
  | [] => EmptyString
  | b :: t => String (ascii_of_nat b) (str_of_bytes t)
  end.
Notation "'s!' l" := (str_of_bytes l) (at level 0, l at level 0).

Fixpoint list_eqb {A} (eqb : A -> A -> bool) (l1 l2 : list A) : bool :=
  match l1, l2 with
  | [], [] => true
  | x :: t1, y :: t2 => eqb x y && list_eqb eqb t1 t2
  | _, _ => false
  end.

Definition option_eqb {A} (eqb : A -> A -> bool) (o1 o2 : option A) : bool :=
  match o1, o2 with
  | None, None => true
  | Some x, Some y => eqb x y
  | _, _ => false
  end.

Definition pair_eqb {A B} (ea : A -> A -> bool) (eb : B -> B -> bool) (p q : A * B) : bool :=
  ea (fst p) (fst q) && eb (snd p) (snd q).

Lemma list_eqb_spec {A} (eqb : A -> A -> bool) :
  (forall x y, eqb x y = true <-> x = y) ->
  forall l1 l2, list_eqb eqb l1 l2 = true <-> l1 = l2.
Proof.
  intros H l1; induction l1 as [|x t IH]; intros [|y t2]; simpl; split; intro E;
    try reflexivity; try discriminate.
  - apply andb_true_iff in E. destruct E as [E1 E2].
    apply H in E1. apply IH in E2. subst. reflexivity.
  - inversion E; subst. apply andb_true_iff. split; [apply H; reflexivity | apply IH; reflexivity].
Qed.

Definition sb := str_of_bytes.
