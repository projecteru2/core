(* Facts about the standard library's lists (filter, NoDup, firstn, existsb, repeat, StronglySorted)
   that Coq 8.16 does not provide; nothing here refers to a model. *)
From Coq Require Import List Bool Arith Permutation Sorted.
Import ListNotations.

Lemma filter_all {A} (f : A -> bool) l : (forall x, In x l -> f x = true) -> filter f l = l.
Proof.
  induction l as [|a l IH]; intro H; simpl; [reflexivity|].
  rewrite (H a (or_introl eq_refl)). f_equal. apply IH. intros x Hx. apply H. right. exact Hx.
Qed.

Lemma filter_none {A} (f : A -> bool) l : (forall x, In x l -> f x = false) -> filter f l = [].
Proof.
  induction l as [|a l IH]; intro H; simpl; [reflexivity|].
  rewrite (H a (or_introl eq_refl)). apply IH. intros x Hx. apply H. right. exact Hx.
Qed.

Lemma filter_map_comm {A B} (g : A -> B) (f : B -> bool) l :
  filter f (map g l) = map g (filter (fun x => f (g x)) l).
Proof. induction l as [|a l IH]; simpl; [reflexivity|]. destruct (f (g a)); simpl; rewrite IH; reflexivity. Qed.

Lemma existsb_false_in {A} (f : A -> bool) l : existsb f l = false -> forall x, In x l -> f x = false.
Proof.
  intros H x Hx. destruct (f x) eqn:E; [|reflexivity].
  rewrite <- H. symmetry. apply existsb_exists. exists x. split; assumption.
Qed.

Lemma existsb_eqb_In k l : existsb (Nat.eqb k) l = false -> ~ In k l.
Proof. intros H C. pose proof (existsb_false_in _ _ H k C) as E. rewrite Nat.eqb_refl in E. discriminate. Qed.

Lemma NoDup_map_filter {A B} (g : A -> B) (f : A -> bool) l : NoDup (map g l) -> NoDup (map g (filter f l)).
Proof.
  induction l as [|a t IH]; intro H; simpl; [constructor|].
  inversion H as [|? ? Na Nt]; subst. destruct (f a); simpl; [|exact (IH Nt)].
  constructor; [|exact (IH Nt)]. intro Hin. apply Na.
  apply in_map_iff in Hin. destruct Hin as [x [Hx Hi]]. apply filter_In in Hi.
  rewrite <- Hx. apply in_map. exact (proj1 Hi).
Qed.

Lemma NoDup_map_inj {A B} (g : A -> B) l x y :
  NoDup (map g l) -> In x l -> In y l -> g x = g y -> x = y.
Proof.
  induction l as [|a l IH]; intros ND Hx Hy E; [contradiction|].
  inversion ND as [|? ? Na NDl]; subst.
  destruct Hx as [<-|Hx]; destruct Hy as [<-|Hy]; auto.
  - elim Na. rewrite E. apply in_map, Hy.
  - elim Na. rewrite <- E. apply in_map, Hx.
Qed.

Lemma NoDup_fst_inj {A B} (l : list (A * B)) k a b :
  NoDup (map fst l) -> In (k, a) l -> In (k, b) l -> a = b.
Proof. intros ND Ha Hb. exact (f_equal snd (NoDup_map_inj fst l _ _ ND Ha Hb eq_refl)). Qed.

Lemma NoDup_app_iff {A} (l1 l2 : list A) :
  NoDup (l1 ++ l2) <-> NoDup l1 /\ NoDup l2 /\ forall x, In x l1 -> ~ In x l2.
Proof.
  induction l1 as [|x t IH]; simpl.
  - split; [intros H; repeat split; [constructor | exact H | tauto] | tauto].
  - rewrite !NoDup_cons_iff, IH, in_app_iff. split.
    + intros [Hx [H1 [H2 Hd]]]. repeat split; [tauto | exact H1 | exact H2|].
      intros y [Hy|Hy]; [subst; tauto | apply Hd; exact Hy].
    + intros [[Hx H1] [H2 Hd]]. repeat split; [|exact H1 | exact H2 | intros y Hy; apply Hd; right; exact Hy].
      intros [Hi|Hi]; [exact (Hx Hi) | exact (Hd x (or_introl eq_refl) Hi)].
Qed.

Lemma NoDup_app_l {A} (l1 l2 : list A) : NoDup (l1 ++ l2) -> NoDup l1.
Proof. intro H. exact (proj1 (proj1 (NoDup_app_iff l1 l2) H)). Qed.

Lemma NoDup_app_r {A} (l1 l2 : list A) : NoDup (l1 ++ l2) -> NoDup l2.
Proof. intro H. exact (proj1 (proj2 (proj1 (NoDup_app_iff l1 l2) H))). Qed.

Lemma NoDup_app_disjoint {A} (l1 l2 : list A) x : NoDup (l1 ++ l2) -> In x l1 -> In x l2 -> False.
Proof. intro H. exact (proj2 (proj2 (proj1 (NoDup_app_iff l1 l2) H)) x). Qed.

Lemma NoDup_snoc {A} (l : list A) x : NoDup l -> ~ In x l -> NoDup (l ++ [x]).
Proof.
  intros N H. apply NoDup_app_iff. repeat split; [exact N | repeat constructor; intros [] |].
  intros y Hy [<-|[]]. exact (H Hy).
Qed.

Lemma in_firstn {A} n (l : list A) x : In x (firstn n l) -> In x l.
Proof. intro H. rewrite <- (firstn_skipn n l). apply in_or_app. left. exact H. Qed.

Lemma rev_repeat {A} (x : A) n : rev (repeat x n) = repeat x n.
Proof. induction n as [|n IH]; simpl; [reflexivity|]. rewrite IH, <- repeat_cons. reflexivity. Qed.

Lemma sorted_snoc {A} (R : A -> A -> Prop) l x :
  StronglySorted R l -> Forall (fun y => R y x) l -> StronglySorted R (l ++ [x]).
Proof.
  induction 1 as [|y l Sl IH Hy]; intro F; simpl; [repeat constructor|]. inversion F; subst.
  constructor; [apply IH; assumption|]. apply Forall_app. split; [exact Hy | repeat constructor; assumption].
Qed.
