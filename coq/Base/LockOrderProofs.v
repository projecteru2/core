(* Generic theorem: threads that acquire in strictly increasing key order (and
   end with nothing held) cannot deadlock, under every schedule; plus mutual
   exclusion as an invariant of the transition system and termination of every
   maximal run with all locks free. *)
From Coq Require Import List Bool Lia Permutation.
From Verif Require Import Base.LockOrder.
Import ListNotations.

Section Proofs.
  Context {key : Type}.
  Variable eqb ltb : key -> key -> bool.
  Hypothesis eqb_spec : forall a b, eqb a b = true <-> a = b.
  Hypothesis ltb_irrefl : forall a, ltb a a = false.
  Hypothesis ltb_trans : forall a b c, ltb a b = true -> ltb b c = true -> ltb a c = true.

  Notation ord_run := (ord_run eqb ltb).
  Notation ordered := (ordered eqb ltb).
  Notation memb := (memb eqb).
  Notation removeb := (removeb eqb).
  Notation above := (above ltb).
  Notation step := (step eqb).
  Notation steps := (steps eqb).
  Notation holds_any := (holds_any eqb).
  Notation deadlocked := (deadlocked eqb).

  Lemma memb_In : forall k h, memb k h = true <-> In k h.
  Proof.
    intros k h. unfold LockOrder.memb. rewrite existsb_exists. split.
    - intros [x [Hin He]]. apply eqb_spec in He. subst. exact Hin.
    - intros Hin. exists k. split; [exact Hin | apply eqb_spec; reflexivity].
  Qed.

  Lemma memb_false : forall k h, memb k h = false <-> ~ In k h.
  Proof. intros k h. rewrite <- memb_In. symmetry. apply not_true_iff_false. Qed.

  Lemma above_spec : forall h k, above h k = true <-> forall x, In x h -> ltb x k = true.
  Proof. intros h k. unfold LockOrder.above. apply forallb_forall. Qed.

  Lemma above_not_in : forall h k, above h k = true -> ~ In k h.
  Proof.
    intros h k Ha Hin. rewrite above_spec in Ha. specialize (Ha k Hin).
    rewrite ltb_irrefl in Ha. discriminate.
  Qed.

  Lemma ordered_spec : forall sc, ordered sc = true <-> ord_run [] sc = Some [].
  Proof.
    intros sc. unfold LockOrder.ordered. destruct (ord_run [] sc) as [[|x l]|]; split; congruence.
  Qed.

  Lemma removeb_incl : forall k h x, In x (removeb k h) -> In x h.
  Proof.
    intros k h. induction h as [|y t IH]; simpl; intros x Hx; [exact Hx|].
    destruct (eqb k y); [right; exact Hx|]. destruct Hx as [Hx|Hx]; [left; exact Hx | right; apply IH; exact Hx].
  Qed.

  Lemma ord_run_app : forall e1 e2 h,
    ord_run h (e1 ++ e2) = match ord_run h e1 with Some h1 => ord_run h1 e2 | None => None end.
  Proof.
    induction e1 as [|e t IH]; intros e2 h; simpl; [reflexivity|].
    destruct e; simpl.
    - destruct (above h k); [apply IH | reflexivity].
    - destruct (above h k); [apply IH | reflexivity].
    - destruct (memb k h); [apply IH | reflexivity].
  Qed.

  Definition good (t : thread key) : Prop := ord_run (held t) (rest t) = Some [].
  Definition Inv (s : sys key) : Prop := forall t, In t s -> good t.

  Lemma inv_start : forall scripts,
    (forall sc, In sc scripts -> ordered sc = true) -> Inv (start scripts).
  Proof.
    intros scripts H t Ht. unfold start in Ht. apply in_map_iff in Ht.
    destruct Ht as [sc [E Hin]]. subst t. unfold good. simpl. apply ordered_spec. apply H. exact Hin.
  Qed.

  Lemma inv_replace : forall pre post (t t' : thread key),
    Inv (pre ++ t :: post) -> good t' -> Inv (pre ++ t' :: post).
  Proof.
    intros pre post t t' HI Hg u Hu. apply in_app_or in Hu. destruct Hu as [Hu|[Hu|Hu]].
    - apply HI. apply in_or_app. left. exact Hu.
    - subst u. exact Hg.
    - apply HI. apply in_or_app. right. right. exact Hu.
  Qed.

  (* the thread that moves passed the check of its head event *)
  Lemma inv_step : forall s s', Inv s -> step s s' -> Inv s'.
  Proof.
    intros s s' HI Hs. destruct Hs as [pre post h k r _ _|pre post h k r|pre post h k r];
      (eapply inv_replace; [exact HI|]); pose proof (HI _ (in_elt _ pre post)) as G;
      unfold good in *; simpl in *.
    - destruct (above h k); [exact G | discriminate].
    - destruct (above h k); [exact G | discriminate].
    - destruct (memb k h); [exact G | discriminate].
  Qed.

  Lemma steps_inv : forall P : sys key -> Prop, (forall s s', P s -> step s s' -> P s') ->
    forall s s', steps s s' -> P s -> P s'.
  Proof. intros P HP s s' H. induction H; intros; [assumption | eauto]. Qed.

  Lemma inv_reachable : forall scripts s,
    (forall sc, In sc scripts -> ordered sc = true) -> steps (start scripts) s -> Inv s.
  Proof. intros scripts s Ho Hst. exact (steps_inv Inv inv_step _ _ Hst (inv_start _ Ho)). Qed.

  Lemma max_exists : forall l : list key, l <> [] ->
    exists m, In m l /\ forall x, In x l -> ltb m x = false.
  Proof.
    induction l as [|a t IH]; intros Hne; [congruence|].
    destruct t as [|b t'].
    - exists a. split; [left; reflexivity|]. intros x [Hx|[]]. subst. apply ltb_irrefl.
    - destruct IH as [m [Hm Hmax]]; [discriminate|].
      destruct (ltb m a) eqn:E.
      + exists a. split; [left; reflexivity|]. intros x [Hx|Hx].
        * subst. apply ltb_irrefl.
        * destruct (ltb a x) eqn:E2; [|reflexivity].
          pose proof (ltb_trans _ _ _ E E2) as T. rewrite (Hmax x Hx) in T. discriminate.
      + exists m. split; [right; exact Hm|]. intros x [Hx|Hx]; [subst; exact E | apply Hmax; exact Hx].
  Qed.

  Definition want (t : thread key) : list key :=
    match rest t with Acq k :: _ => [k] | _ => [] end.

  Lemma classify : forall s : sys key,
    (exists pre t post, s = pre ++ t :: post /\
        exists k r, rest t = AcqFail k :: r \/ rest t = Rel k :: r)
    \/ (forall t, In t s -> rest t = [] \/ exists k r, rest t = Acq k :: r).
  Proof.
    induction s as [|t s IH]; [right; intros t []|].
    destruct (rest t) as [|[k|k|k] r] eqn:E.
    1, 2: destruct IH as [(pre & u & post & -> & H)|IH];
      [left; exists (t :: pre), u, post; split; [reflexivity | exact H] | right; intros u [<-|Hu]; eauto].
    all: left; exists [], t, s; eauto.
  Qed.

  Lemma in_wanted : forall (s : sys key) k,
    In k (flat_map want s) <-> exists t r, In t s /\ rest t = Acq k :: r.
  Proof.
    intros s k. rewrite in_flat_map. unfold want. split.
    - intros [t [Ht Hk]]. destruct (rest t) as [|[k'|k'|k'] r] eqn:E; try contradiction.
      destruct Hk as [->|[]]. eauto.
    - intros [t [r [Ht E]]]. exists t. rewrite E. split; [exact Ht | left; reflexivity].
  Qed.

  Lemma holder_waits_above : forall s, Inv s ->
    (forall t, In t s -> rest t = [] \/ exists k r, rest t = Acq k :: r) ->
    forall u m, In u s -> In m (held u) -> exists k, In k (flat_map want s) /\ ltb m k = true.
  Proof.
    intros s HI Hall u m Hu Hm. pose proof (HI u Hu) as G. unfold good in G.
    destruct (Hall u Hu) as [E|[k [r E]]]; rewrite E in G; simpl in G.
    - injection G as G. rewrite G in Hm. destruct Hm.
    - destruct (above (held u) k) eqn:Eu; [|discriminate]. exists k. split.
      + apply in_wanted. eauto.
      + apply (proj1 (above_spec _ _) Eu). exact Hm.
  Qed.

  Theorem progress : forall s, Inv s -> (exists t, In t s /\ rest t <> []) -> exists s', step s s'.
  Proof.
    intros s HI [t0 [Ht0 Hne]].
    destruct (classify s) as [[pre [t [post [Es [k [r [E|E]]]]]]]|Hall].
    - destruct t as [h rs]. simpl in E. subst rs s. eexists. apply st_fail.
    - destruct t as [h rs]. simpl in E. subst rs s. eexists. apply st_rel.
    - (* everybody unfinished waits for a key: the thread that wants a maximal one can take it *)
      set (W := flat_map want s).
      assert (HW : W <> []).
      { destruct (Hall t0 Ht0) as [E|[k [r E]]]; [congruence|]. intro HWn.
        assert (Hin : In k W) by (apply in_wanted; eauto). rewrite HWn in Hin. destruct Hin. }
      destruct (max_exists W HW) as [m [Hm Hmax]].
      apply in_wanted in Hm. destruct Hm as [[hm rm] [rm' [Htm E]]]. simpl in E. subst rm.
      destruct (in_split _ _ Htm) as [pre [post Es]].
      pose proof (HI _ Htm) as Gm. unfold good in Gm. simpl in Gm.
      destruct (above hm m) eqn:Ea; [|discriminate].
      exists (pre ++ mkT (m :: hm) rm' :: post). rewrite Es. apply st_acq.
      + apply not_true_iff_false. intros Eh. apply existsb_exists in Eh. destruct Eh as [u [Hu Hmu]].
        apply memb_In in Hmu.
        assert (Hus : In u s).
        { rewrite Es. apply in_app_or in Hu. apply in_or_app. destruct Hu; [left|right; right]; assumption. }
        destruct (holder_waits_above s HI Hall u m Hus Hmu) as [k [Hk L]].
        rewrite (Hmax k Hk) in L. discriminate.
      + apply memb_false, above_not_in. exact Ea.
  Qed.

  Theorem no_deadlock : forall scripts s,
    (forall sc, In sc scripts -> ordered sc = true) ->
    steps (start scripts) s -> ~ deadlocked s.
  Proof.
    intros scripts s Ho Hst [Hex Hno].
    destruct (progress s (inv_reachable _ _ Ho Hst) Hex) as [s' Hs']. exact (Hno s' Hs').
  Qed.

  Definition all_held (s : sys key) : list key := flat_map (@held key) s.

  Theorem stuck_is_done : forall scripts s,
    (forall sc, In sc scripts -> ordered sc = true) ->
    steps (start scripts) s -> (forall s', ~ step s s') ->
    all_finished s /\ all_held s = [].
  Proof.
    intros scripts s Ho Hst Hno. pose proof (inv_reachable _ _ Ho Hst) as HI.
    assert (Hfin : all_finished s).
    { intros t Ht. unfold finished. destruct (rest t) eqn:E; [reflexivity|]. exfalso.
      destruct (progress s HI) as [s' Hs']; [|exact (Hno s' Hs')].
      exists t. split; [exact Ht | rewrite E; discriminate]. }
    split; [exact Hfin|].
    unfold all_held. clear Hno Hst. induction s as [|t s IH]; [reflexivity|]. simpl.
    assert (G : good t) by (apply HI; left; reflexivity).
    unfold good in G. rewrite (Hfin t (or_introl eq_refl)) in G. simpl in G. injection G as G. rewrite G. simpl.
    apply IH.
    - intros u Hu. apply HI. right. exact Hu.
    - intros u Hu. apply Hfin. right. exact Hu.
  Qed.

  Definition size (s : sys key) : nat := fold_right (fun t n => length (rest t) + n) 0 s.

  Lemma size_app : forall a b, size (a ++ b) = size a + size b.
  Proof. induction a; intros; simpl; [reflexivity | rewrite IHa; lia]. Qed.

  Lemma step_size : forall s s', step s s' -> size s = S (size s').
  Proof. intros s s' H. inversion H; subst; rewrite !size_app; simpl; lia. Qed.

  Theorem steps_bounded : forall s s', steps s s' -> size s' <= size s.
  Proof. induction 1; [lia | apply step_size in H; lia]. Qed.

  Definition mutex (s : sys key) : Prop := NoDup (all_held s).

  Lemma all_held_app : forall a b, all_held (a ++ b) = all_held a ++ all_held b.
  Proof. intros. unfold all_held. apply flat_map_app. Qed.

  Lemma all_held_perm : forall pre t post,
    Permutation (all_held (pre ++ t :: post)) (held t ++ all_held (pre ++ post)).
  Proof.
    intros. rewrite !all_held_app. simpl. change (flat_map (@held key) post) with (all_held post).
    apply Permutation_app_swap_app.
  Qed.

  Lemma holds_any_false : forall s k, holds_any s k = false -> ~ In k (all_held s).
  Proof.
    intros s k H Hin. unfold all_held in Hin. apply in_flat_map in Hin. destruct Hin as [t [Ht Hk]].
    assert (holds_any s k = true); [|congruence].
    unfold LockOrder.holds_any. apply existsb_exists. exists t. split; [exact Ht | apply memb_In; exact Hk].
  Qed.

  Lemma NoDup_removeb : forall k h X, NoDup (h ++ X) -> NoDup (removeb k h ++ X).
  Proof.
    intros k h X. induction h as [|y t IH]; simpl; intros H; [exact H|].
    inversion H as [|? ? Hn Hd]; subst. destruct (eqb k y); [exact Hd|].
    simpl. constructor.
    - intro Hin. apply Hn. apply in_app_or in Hin. apply in_or_app.
      destruct Hin as [Hin|Hin]; [left; eapply removeb_incl; exact Hin | right; exact Hin].
    - apply IH. exact Hd.
  Qed.

  (* one thread changes what it holds: look at its keys in front of everybody else's *)
  Lemma mutex_replace : forall pre post (t t' : thread key),
    (NoDup (held t ++ all_held (pre ++ post)) -> NoDup (held t' ++ all_held (pre ++ post))) ->
    mutex (pre ++ t :: post) -> mutex (pre ++ t' :: post).
  Proof.
    intros pre post t t' H HM. unfold mutex in *.
    eapply Permutation_NoDup; [apply Permutation_sym, all_held_perm|].
    apply H. eapply Permutation_NoDup; [apply all_held_perm | exact HM].
  Qed.

  Lemma mutex_step : forall s s', mutex s -> step s s' -> mutex s'.
  Proof.
    intros s s' HM Hs. destruct Hs as [pre post h k r Hfree Hnot|pre post h k r|pre post h k r];
      revert HM; apply mutex_replace; simpl; intros HM.
    - constructor; [|exact HM]. intro Hin. apply in_app_or in Hin. destruct Hin as [Hin|Hin].
      + apply memb_false in Hnot. exact (Hnot Hin).
      + exact (holds_any_false _ _ Hfree Hin).
    - exact HM.
    - apply NoDup_removeb. exact HM.
  Qed.

  Lemma mutex_start : forall scripts, mutex (start scripts).
  Proof.
    intros. unfold mutex, all_held, start. induction scripts; simpl; [constructor | exact IHscripts].
  Qed.

  Theorem mutex_reachable : forall scripts s, steps (start scripts) s -> mutex s.
  Proof. intros scripts s H. exact (steps_inv mutex mutex_step _ _ H (mutex_start scripts)). Qed.
End Proofs.
