From Coq Require Import List Bool ZArith Lia.
From Verif Require Import Base.KV Base.ListFacts.
Import ListNotations.
Local Open Scope Z_scope.

Lemma filter_nil_all_false {A} (f : A -> bool) : forall l, filter f l = [] -> forall x, In x l -> f x = false.
Proof.
  induction l as [|a t IH]; intros H x Hin; simpl in *; [tauto|].
  destruct (f a) eqn:E; [discriminate|]. destruct Hin; subst; auto.
Qed.

Section EtcdFacts.
  Context {K V : Type}.
  Variable keqb : K -> K -> bool.
  Hypothesis keqb_eq : forall a b, keqb a b = true <-> a = b.

  Lemma keqb_refl : forall a, keqb a a = true.
  Proof. intros; apply keqb_eq; reflexivity. Qed.
  Lemma keqb_neq : forall a b, a <> b -> keqb a b = false.
  Proof. intros a b H. destruct (keqb a b) eqn:E; auto. apply keqb_eq in E. contradiction. Qed.

  Lemma e_get_some : forall (s : etcd K V) k x, e_get keqb s k = Some x -> In x (e_kvs s) /\ ek_key x = k.
  Proof.
    unfold e_get. intros s k x H. apply find_some in H. destruct H as [Hi He].
    apply keqb_eq in He. auto.
  Qed.

  Lemma e_get_none : forall (s : etcd K V) k x, e_get keqb s k = None -> In x (e_kvs s) -> ek_key x <> k.
  Proof.
    unfold e_get. intros s k x H Hi E. eapply find_none in H; eauto. simpl in H.
    rewrite E, keqb_refl in H. discriminate.
  Qed.

  Lemma e_get_in : forall (s : etcd K V) k x,
    NoDup (map ek_key (e_kvs s)) -> In x (e_kvs s) -> ek_key x = k -> e_get keqb s k = Some x.
  Proof.
    unfold e_get. intros s k x. induction (e_kvs s) as [|a t IH]; intros Hnd Hi E; simpl in *; [tauto|].
    inversion Hnd; subst. destruct Hi as [->|Hi].
    - rewrite keqb_refl. reflexivity.
    - destruct (keqb (ek_key a) (ek_key x)) eqn:Ek.
      + apply keqb_eq in Ek. exfalso. apply H1. rewrite Ek. apply in_map; auto.
      + apply IH; auto.
  Qed.

  Lemma e_get_absent : forall (s : etcd K V) k,
    (forall x, In x (e_kvs s) -> ek_key x <> k) -> e_get keqb s k = None.
  Proof.
    unfold e_get. intros s k H. destruct (find _ _) eqn:E; auto.
    apply find_some in E. destruct E as [Hi He]. apply keqb_eq in He. exfalso. eapply H; eauto.
  Qed.

  Lemma live_iff : forall (s : etcd K V) id, e_lease_live s id = true <-> In id (map l_id (e_leases s)).
  Proof.
    unfold e_lease_live, e_find_lease. intros s id. split.
    - destruct (find _ _) eqn:E; [|discriminate]. intros _. apply find_some in E.
      destruct E as [Hi He]. apply Z.eqb_eq in He. subst. apply in_map; auto.
    - intros Hi. apply in_map_iff in Hi. destruct Hi as [l [El Hi]].
      destruct (find _ _) eqn:E; auto. eapply find_none in E; eauto. simpl in E.
      rewrite El, Z.eqb_refl in E. discriminate.
  Qed.

  Lemma live_ids_eq : forall (s s' : etcd K V) id,
    map l_id (e_leases s') = map l_id (e_leases s) -> e_lease_live s' id = e_lease_live s id.
  Proof. intros s s' id H. apply Bool.eq_true_iff_eq. rewrite !live_iff, H. reflexivity. Qed.

  Lemma grant_shape : forall (s s' : etcd K V) ttl id,
    e_grant s ttl = (id, s') ->
    id = e_next_lease s /\ e_kvs s' = e_kvs s /\ e_rev s' = e_rev s /\
    e_leases s' = mkLease id ttl (e_now s + ttl) :: e_leases s /\ e_next_lease s' = id + 1.
  Proof. unfold e_grant. intros. inversion H; subst; simpl. repeat split; reflexivity. Qed.

  Lemma keepalive_shape : forall (s s' : etcd K V) id b,
    e_keepalive s id = (b, s') ->
    e_kvs s' = e_kvs s /\ e_rev s' = e_rev s /\ e_next_lease s' = e_next_lease s /\
    map l_id (e_leases s') = map l_id (e_leases s) /\ b = e_lease_live s id.
  Proof.
    unfold e_keepalive, e_lease_live. intros s s' id b H.
    destruct (e_find_lease s id) eqn:E; inversion H; subst; simpl; repeat split; auto.
    rewrite map_map. apply map_ext_in. intros a _. destruct (Z.eqb (l_id a) id) eqn:Ea; simpl; auto.
    apply Z.eqb_eq in Ea. auto.
  Qed.

  Lemma put_shape : forall (s s' : etcd K V) k v lid,
    e_get keqb s k = None -> e_put keqb s k v lid = Some s' ->
    e_rev s' = e_rev s + 1 /\
    e_kvs s' = e_kvs s ++ [mkEkv k v (e_rev s + 1) (e_rev s + 1) 1 lid] /\
    e_leases s' = e_leases s /\ e_next_lease s' = e_next_lease s /\
    (lid = 0 \/ e_lease_live s lid = true).
  Proof.
    unfold e_put. intros s s' k v lid Hg H. rewrite Hg in H.
    destruct (negb (Z.eqb lid 0) && negb (e_lease_live s lid)) eqn:E; [discriminate|].
    inversion H; subst; simpl. repeat split; auto.
    apply andb_false_iff in E. destruct E as [E|E]; apply negb_false_iff in E.
    - left. apply Z.eqb_eq; auto.
    - right; auto.
  Qed.

  Lemma put_none : forall (s : etcd K V) k v lid,
    e_put keqb s k v lid = None -> lid <> 0 /\ e_lease_live s lid = false.
  Proof.
    unfold e_put. intros s k v lid H.
    destruct (negb (Z.eqb lid 0) && negb (e_lease_live s lid)) eqn:E; [|discriminate].
    apply andb_true_iff in E. destruct E as [E1 E2].
    apply negb_true_iff in E1. apply negb_true_iff in E2. apply Z.eqb_neq in E1. auto.
  Qed.

  Lemma delete_shape : forall (s s' : etcd K V) k n,
    e_delete keqb s k = (n, s') ->
    e_kvs s' = filter (fun x => negb (keqb (ek_key x) k)) (e_kvs s) /\
    e_rev s <= e_rev s' <= e_rev s + 1 /\
    e_leases s' = e_leases s /\ e_next_lease s' = e_next_lease s.
  Proof.
    unfold e_delete. intros s s' k n H. destruct (e_get keqb s k) eqn:E; inversion H; subst; simpl.
    - repeat split; auto; lia.
    - repeat split; auto; try lia. symmetry. apply filter_all. intros x Hi.
      apply negb_true_iff. apply keqb_neq. eapply e_get_none; eauto.
  Qed.

  Lemma detach_shape : forall (s : etcd K V) id,
    e_kvs (e_detach s id) = filter (fun x => negb (Z.eqb (ek_lease x) id)) (e_kvs s) /\
    e_rev s <= e_rev (e_detach s id) <= e_rev s + 1 /\
    e_leases (e_detach s id) = filter (fun l => negb (Z.eqb (l_id l) id)) (e_leases s) /\
    e_next_lease (e_detach s id) = e_next_lease s.
  Proof. unfold e_detach. intros; simpl. repeat split; auto; destruct (existsb _ _); lia. Qed.

  Lemma detach_live : forall (s : etcd K V) id x,
    e_lease_live (e_detach s id) x = e_lease_live s x && negb (Z.eqb x id).
  Proof.
    intros s id x. destruct (detach_shape s id) as (_ & _ & Hl & _).
    destruct (e_lease_live (e_detach s id) x) eqn:E.
    - apply live_iff in E. rewrite Hl in E. apply in_map_iff in E. destruct E as [l [El Hi]].
      apply filter_In in Hi. destruct Hi as [Hi Hn]. subst.
      symmetry. apply andb_true_iff. split; auto. apply live_iff. apply in_map; auto.
    - destruct (e_lease_live s x) eqn:E1; auto. destruct (Z.eqb x id) eqn:E2; auto. simpl.
      apply live_iff in E1. apply in_map_iff in E1. destruct E1 as [l [El Hi]].
      assert (e_lease_live (e_detach s id) x = true); [|congruence].
      apply live_iff. rewrite Hl. apply in_map_iff. exists l. split; auto.
      apply filter_In. split; auto. rewrite El, E2. reflexivity.
  Qed.

  Lemma min_create_spec : forall (l : list (ekv K V)) m,
    min_create l = Some m -> In m l /\ forall x, In x l -> ek_create m <= ek_create x.
  Proof.
    induction l as [|a t IH]; intros m H; simpl in *; [discriminate|].
    destruct (min_create t) as [y|] eqn:E.
    - destruct (IH y eq_refl) as [Hy Hmin].
      destruct (Z.leb (ek_create a) (ek_create y)) eqn:L; inversion H; subst.
      + apply Z.leb_le in L. split; auto. intros x [->|Hx]; [lia|]. specialize (Hmin x Hx). lia.
      + apply Z.leb_gt in L. split; auto. intros x [->|Hx]; [lia|]. auto.
    - inversion H; subst. split; auto. intros x [->|Hx]; [lia|].
      destruct t; [destruct Hx|]. simpl in E. destruct (min_create t); [destruct (Z.leb _ _)|]; discriminate.
  Qed.

  Lemma min_create_none : forall (l : list (ekv K V)), min_create l = None -> l = [].
  Proof.
    destruct l as [|a t]; auto. simpl. destruct (min_create t); [destruct (Z.leb _ _)|]; discriminate.
  Qed.

  Lemma max_create_none : forall (l : list (ekv K V)), max_create l = None <-> l = [].
  Proof.
    split.
    - destruct l as [|a t]; auto. simpl. destruct (max_create t); [destruct (Z.leb _ _)|]; discriminate.
    - intros ->. reflexivity.
  Qed.

  Lemma last_create_upto_none : forall (s : etcd K V) p m,
    e_last_create_upto s p m = None <->
    (forall x, In x (e_kvs s) -> p (ek_key x) = true -> m < ek_create x).
  Proof.
    unfold e_last_create_upto, e_range. intros s p m. rewrite max_create_none. split.
    - intros H x Hi Hp. eapply filter_nil_all_false in H.
      + apply Z.leb_gt in H. exact H.
      + apply filter_In. split; eauto.
    - intros H. apply filter_none. intros x Hi. apply filter_In in Hi. destruct Hi as [Hi Hp].
      apply Z.leb_gt. auto.
  Qed.

  Lemma first_create_all : forall (s : etcd K V),
    e_first_create s (fun _ => true) = min_create (e_kvs s).
  Proof.
    unfold e_first_create, e_range. intros. rewrite filter_all; auto.
  Qed.
End EtcdFacts.

(* a redis store that only ever holds one key: the key equality answers true *)
Section RedisOneKey.
  Context {K V : Type}.
  Variable one : K -> K -> bool.
  Hypothesis one_true : forall a b, one a b = true.

  Definition kv1_ok (kv : redis K V) : Prop :=
    r_kvs kv = [] \/ exists x, r_kvs kv = [x] /\ rkv_live (r_now kv) x = true.

  Lemma remove_nil : forall (kv : redis K V) k, r_remove one kv k = [].
  Proof. intros kv k. unfold r_remove. apply filter_none. intros; rewrite one_true; reflexivity. Qed.

  Lemma get_empty : forall (kv : redis K V) k, r_kvs kv = [] -> r_get one kv k = None.
  Proof. intros kv k H. unfold r_get, r_find. rewrite H. reflexivity. Qed.

  Lemma get_one : forall (kv : redis K V) k x, r_kvs kv = [x] -> rkv_live (r_now kv) x = true ->
    r_get one kv k = Some (rk_val x) /\ r_find one kv k = Some x /\ r_exists one kv k = true.
  Proof. intros kv k x H L. unfold r_get, r_exists, r_find. rewrite H. simpl. rewrite one_true, L. auto. Qed.
End RedisOneKey.
