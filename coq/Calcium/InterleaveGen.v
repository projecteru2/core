(* Two operations interleaved at call granularity, for an arbitrary single-call semantics
   [ex] (the theorem does not depend on what a call does, only on the commutation of the two classes).

   [run2x sched p1 k1 p2 k2 w]: the schedule (a list of booleans) says which of the two operations performs its next
   call; each operation has its own fault position ([k1], [k2]: at most one fault per operation); when the schedule
   is used up, p1 runs to its end and then p2.  [run2x [] ...] is the sequential history "p1, then p2".

   interleave_is_sequentialx: if the calls of p1 lie in a class P1 and those of p2 in a class P2 (as long as the world
   satisfies an invariant I that all these calls maintain), and every P1 call commutes with every P2 call (same
   world, same replies, whichever goes first), then EVERY interleaving gives exactly the result of the sequential
   history, and the two sequential orders agree (sequential_orders_agreex).

   Used with [exec] (Interleave.v) and with [exec_h], the semantics that forgets the shared message channel: in the
   model all operations write to ONE channel [out], in the code each operation has its own; under [exec_h] a send is
   invisible, so operations that only update in place and send messages (dissociate) join the commuting family. *)
From Coq Require Import List.
From Verif Require Import Base.Effects Calcium.World.
Import ListNotations.

(* what the fault position says at call c: [None], the fault hits here; [Some k'], the call runs and k' remains *)
Definition tick (c : call) (k : option nat) : option (option nat) :=
  if is_faultable c then match k with Some O => None | Some (S j) => Some (Some j) | None => Some None end else Some k.

Lemma tick_None : forall c k, tick c k = None -> is_faultable c = true.
Proof. intros c k. unfold tick. destruct (is_faultable c); [reflexivity|discriminate]. Qed.

Definition commute (ex : world -> call -> world * reply) (c1 c2 : call) (w : world) : Prop :=
  fst (ex (fst (ex w c1)) c2) = fst (ex (fst (ex w c2)) c1) /\
  snd (ex (fst (ex w c1)) c2) = snd (ex w c2) /\
  snd (ex (fst (ex w c2)) c1) = snd (ex w c1).

Section Gen.
Variable ex : world -> call -> world * reply.

Definition crunkx {A} (p : cprog A) (w : world) (k : option nat) := runk call reply world ex fail_reply is_faultable p w k.

Definition step1x (c : call) (w : world) (k : option nat) : world * reply * option nat :=
  if is_faultable c then
    match k with
    | Some O => (w, fail_reply c, None)
    | Some (S j) => let (w', r) := ex w c in (w', r, Some j)
    | None => let (w', r) := ex w c in (w', r, None)
    end
  else let (w', r) := ex w c in (w', r, k).

Lemma step1x_tick : forall c w k, step1x c w k =
  match tick c k with Some k' => (fst (ex w c), snd (ex w c), k') | None => (w, fail_reply c, None) end.
Proof.
  intros c w k. unfold step1x, tick.
  destruct (is_faultable c); [destruct k as [[|j]|]|]; try reflexivity; destruct (ex w c); reflexivity.
Qed.

Lemma crunk_stepx : forall A c (q : reply -> cprog A) w k,
  crunkx (Do c q) w k = let '(w', r, k') := step1x c w k in crunkx (q r) w' k'.
Proof.
  intros. unfold crunkx, step1x. cbn [runk]. destruct (is_faultable c).
  - destruct k as [[|j]|]; [reflexivity| |]; destruct (ex w c); reflexivity.
  - destruct (ex w c); reflexivity.
Qed.

Fixpoint run2x {A B} (sched : list bool) (p1 : cprog A) (k1 : option nat) (p2 : cprog B) (k2 : option nat) (w : world)
  : world * A * B :=
  match sched with
  | [] => let '(w1, _, a) := crunkx p1 w k1 in let '(w2, _, b) := crunkx p2 w1 k2 in (w2, a, b)
  | true :: s =>
    match p1 with
    | Ret _ => run2x s p1 k1 p2 k2 w
    | Do c q => let '(w', r, k1') := step1x c w k1 in run2x s (q r) k1' p2 k2 w'
    end
  | false :: s =>
    match p2 with
    | Ret _ => run2x s p1 k1 p2 k2 w
    | Do c q => let '(w', r, k2') := step1x c w k2 in run2x s p1 k1 (q r) k2' w'
    end
  end.

(* every call the program makes is in P, for every reply a world satisfying I can give (and the injected failure) *)
Inductive safex {A} (P : call -> Prop) (I : world -> Prop) : cprog A -> Prop :=
| safe_retx : forall a, safex P I (Ret a)
| safe_dox : forall c q, P c ->
    (forall w, I w -> safex P I (q (snd (ex w c)))) ->
    (is_faultable c = true -> safex P I (q (fail_reply c))) ->
    safex P I (Do c q).

Lemma safex_step : forall A (P : call -> Prop) (I : world -> Prop), (forall c w, P c -> I w -> I (fst (ex w c))) ->
  forall c (q : reply -> cprog A) w k w' r k',
  safex P I (Do c q) -> I w -> step1x c w k = (w', r, k') -> P c /\ I w' /\ safex P I (q r).
Proof.
  intros A P I St c q w k w' r k' Hs HI E. inversion Hs as [|c0 q0 Hc Hq Hf]; subst. split; [exact Hc|].
  rewrite step1x_tick in E. destruct (tick c k) eqn:T; inversion E; subst.
  - split; [apply St; assumption|apply Hq; exact HI].
  - split; [exact HI|apply Hf, (tick_None _ _ T)].
Qed.

Section Commutex.
  Variables (P1 P2 : call -> Prop) (I : world -> Prop).
  Hypothesis stable1 : forall c w, P1 c -> I w -> I (fst (ex w c)).
  Hypothesis stable2 : forall c w, P2 c -> I w -> I (fst (ex w c)).
  Hypothesis indep : forall c1 c2 w, P1 c1 -> P2 c2 -> I w -> commute ex c1 c2 w.

  (* two single steps commute: whether the fault hits a step depends on its call and fault position only *)
  Lemma step_commx : forall c1 c2 w k1 k2 wa r2 k2' wab r1 k1', P1 c1 -> P2 c2 -> I w ->
    step1x c2 w k2 = (wa, r2, k2') -> step1x c1 wa k1 = (wab, r1, k1') ->
    exists wb, step1x c1 w k1 = (wb, r1, k1') /\ step1x c2 wb k2 = (wab, r2, k2').
  Proof.
    intros c1 c2 w k1 k2 wa r2 k2' wab r1 k1' H1 H2 HI E2 E1.
    destruct (indep c1 c2 w H1 H2 HI) as (Hw & Hr2 & Hr1).
    rewrite step1x_tick in E2, E1. rewrite (step1x_tick c1 w).
    destruct (tick c2 k2) eqn:T2, (tick c1 k1); inversion E2; inversion E1; subst;
      eexists; rewrite step1x_tick, T2, ?Hr1; (split; [reflexivity|]); rewrite ?Hw, ?Hr2; reflexivity.
  Qed.

  (* a step of the second operation can be moved behind a whole run of the first *)
  Lemma hoistx : forall A (p1 : cprog A) c2 w k1 k2 wa r2 k2' wab k1' a, safex P1 I p1 -> P2 c2 -> I w ->
    step1x c2 w k2 = (wa, r2, k2') -> crunkx p1 wa k1 = (wab, k1', a) ->
    exists wb, crunkx p1 w k1 = (wb, k1', a) /\ step1x c2 wb k2 = (wab, r2, k2').
  Proof.
    intros A p1. induction p1 as [a0|c1 q IH]; intros c2 w k1 k2 wa r2 k2' wab k1' a Hs Hc2 HI E2 E1.
    - inversion E1; subst. exists w. split; [reflexivity|exact E2].
    - rewrite crunk_stepx in E1. destruct (step1x c1 wa k1) as [[wa1 r1] k1a] eqn:Ea.
      assert (Hc1 : P1 c1) by (inversion Hs; assumption).
      destruct (step_commx c1 c2 w k1 k2 _ _ _ _ _ _ Hc1 Hc2 HI E2 Ea) as (wb & Eb & E2b).
      destruct (safex_step _ _ _ stable1 _ _ _ _ _ _ _ Hs HI Eb) as (_ & HIb & Hq).
      destruct (IH r1 c2 wb k1a k2 _ _ _ _ _ _ Hq Hc2 HIb E2b E1) as (wc & Ec & E2c).
      exists wc. split; [rewrite crunk_stepx, Eb; exact Ec|exact E2c].
  Qed.

  Theorem interleave_is_sequentialx : forall A B sched (p1 : cprog A) (p2 : cprog B) k1 k2 w,
    I w -> safex P1 I p1 -> safex P2 I p2 ->
    run2x sched p1 k1 p2 k2 w = run2x [] p1 k1 p2 k2 w.
  Proof.
    intros A B sched. induction sched as [|b s IH]; intros p1 p2 k1 k2 w HI H1 H2; [reflexivity|].
    destruct b; cbn [run2x].
    - destruct p1 as [a|c q]; [apply IH; assumption|].
      rewrite crunk_stepx. destruct (step1x c w k1) as [[w' r] k1'] eqn:E.
      destruct (safex_step _ _ _ stable1 _ _ _ _ _ _ _ H1 HI E) as (_ & HI' & Hq). apply IH; assumption.
    - destruct p2 as [b|c q]; [apply IH; assumption|].
      destruct (step1x c w k2) as [[w' r] k2'] eqn:E.
      destruct (safex_step _ _ _ stable2 _ _ _ _ _ _ _ H2 HI E) as (Hc & HI' & Hq).
      rewrite IH by assumption. cbn [run2x].
      destruct (crunkx p1 w' k1) as [[wab k1'] a] eqn:E1.
      destruct (hoistx _ p1 c w k1 k2 _ _ _ _ _ _ H1 Hc HI E E1) as (wb & -> & Eb).
      rewrite crunk_stepx, Eb. reflexivity.
  Qed.
End Commutex.

Theorem sequential_orders_agreex : forall (P1 P2 : call -> Prop) (I : world -> Prop),
  (forall c w, P1 c -> I w -> I (fst (ex w c))) ->
  (forall c w, P2 c -> I w -> I (fst (ex w c))) ->
  (forall c1 c2 w, P1 c1 -> P2 c2 -> I w ->
    fst (ex (fst (ex w c1)) c2) = fst (ex (fst (ex w c2)) c1) /\
    snd (ex (fst (ex w c1)) c2) = snd (ex w c2) /\
    snd (ex (fst (ex w c2)) c1) = snd (ex w c1)) ->
  forall A B (p2 : cprog B), safex P2 I p2 -> forall (p1 : cprog A) k1 k2 w, I w -> safex P1 I p1 ->
  run2x [] p1 k1 p2 k2 w = (let '(w', b, a) := run2x [] p2 k2 p1 k1 w in (w', a, b)).
Proof.
  intros P1 P2 I St1 St2 Ind A B p2. induction p2 as [b|c q IH]; intros H2 p1 k1 k2 w HI H1; cbn [run2x].
  - unfold crunkx at 2 3. cbn [runk]. destruct (crunkx p1 w k1) as [[w1 k1'] a]. reflexivity.
  - rewrite (crunk_stepx B c q w k2). destruct (step1x c w k2) as [[w' r] k2'] eqn:E.
    destruct (safex_step _ _ _ St2 _ _ _ _ _ _ _ H2 HI E) as (Hc & HI' & Hq).
    specialize (IH r Hq p1 k1 k2' w' HI' H1). cbn [run2x] in IH.
    destruct (crunkx p1 w' k1) as [[wab k1'] a] eqn:E1.
    destruct (hoistx P1 P2 I St1 Ind _ p1 c w k1 k2 _ _ _ _ _ _ H1 Hc HI E E1) as (wb & -> & Eb).
    rewrite crunk_stepx, Eb. exact IH.
Qed.

End Gen.

Definition hide (w : world) : world := set_out w [].
Definition exec_h (w : world) (c : call) : world * reply := let (w', r) := exec w c in (hide w', r).

(* no call reads the channel *)
Lemma exec_hide : forall w c, hide (fst (exec (hide w) c)) = hide (fst (exec w c)) /\ snd (exec (hide w) c) = snd (exec w c).
Proof.
  intros w c. destruct c; cbn [exec]; unfold hide, find_wl, find_plug, find_node, find_cont, wls_on;
    unfold set_pods, set_nodes, set_wls, set_markers, set_plugs, set_conts, set_wal, set_out;
    cbn [pods nodes wls markers plugs conts walq wal_seq out strict_remove script];
    repeat match goal with
           | |- context [match ?x with _ => _ end] => destruct x eqn:?; cbn [fst snd pods nodes wls markers plugs conts walq wal_seq out strict_remove script]
           end; split; reflexivity.
Qed.

Lemma exec_h_eq : forall w c, exec_h w c = (hide (fst (exec w c)), snd (exec w c)).
Proof. intros. unfold exec_h. destruct (exec w c); reflexivity. Qed.

(* the replies are those of [exec] *)
Lemma safex_exec_h : forall A (P : call -> Prop) (I : world -> Prop) (p : cprog A), safex exec P I p -> safex exec_h P I p.
Proof.
  intros A P I p H. induction H as [a|c q Hc Hq IHq Hf IHf]; constructor; auto.
  intros w HI. rewrite exec_h_eq. apply IHq. exact HI.
Qed.

Lemma step1_hide : forall c w k,
  step1x exec_h c (hide w) k = (let '(w', r, k') := step1x exec c w k in (hide w', r, k')).
Proof.
  intros c w k. rewrite !step1x_tick, exec_h_eq. destruct (exec_hide w c) as [-> ->]. destruct (tick c k); reflexivity.
Qed.

Lemma crunk_hide : forall A (p : cprog A) w k,
  crunkx exec_h p (hide w) k = (let '(w1, k1, a) := crunkx exec p w k in (hide w1, k1, a)).
Proof.
  intros A p. induction p as [a|c q IH]; intros w k.
  - reflexivity.
  - rewrite !crunk_stepx, step1_hide. destruct (step1x exec c w k) as [[w' r] k']. apply IH.
Qed.

Lemma run2x_hide : forall A B sched (p1 : cprog A) (p2 : cprog B) k1 k2 w,
  run2x exec_h sched p1 k1 p2 k2 (hide w) = (let '(wf, a, b) := run2x exec sched p1 k1 p2 k2 w in (hide wf, a, b)).
Proof.
  intros A B sched. induction sched as [|b s IH]; intros p1 p2 k1 k2 w.
  - cbn [run2x]. rewrite crunk_hide. destruct (crunkx exec p1 w k1) as [[w1 k1'] a].
    rewrite crunk_hide. destruct (crunkx exec p2 w1 k2) as [[w2 k2'] b]. reflexivity.
  - destruct b; cbn [run2x].
    + destruct p1 as [a|c q]; [apply IH|]. rewrite step1_hide. destruct (step1x exec c w k1) as [[w' r] k1']. apply IH.
    + destruct p2 as [a|c q]; [apply IH|]. rewrite step1_hide. destruct (step1x exec c w k2) as [[w' r] k2']. apply IH.
Qed.
