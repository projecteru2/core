(* Calcium/Sweeps.v — fault sweeps over fixed scenarios.

   For a FIXED world and operation the set of single-fault placements is finite: a
   fault at call index k behaves like the fault-free run up to call k, so k ranges over
   the calls of the fault-free run and every larger k is the fault-free run itself
   ([runk_beyond]).  [all_k] turns a computed check of those finitely many runs into a
   statement for EVERY k.  It is used (a) to refute the full statements of C10/C11 for
   replace and remove-node by concrete witnesses and (b) to establish the executable checks
   of C12 / C30 / C10 (Run.v) for every fault position on a family of explicit scenarios of
   create, run-and-wait and set-node. *)
From Coq Require Import List Bool Arith ZArith Lia.
From Verif Require Import Base.Effects Calcium.World Calcium.Ops Calcium.Run.
Import ListNotations.
Local Open Scope Z_scope.

(* the fault positions (faultable calls) a [crunk] run passes *)
Fixpoint calls_of {A} (p : cprog A) (w : world) (k : option nat) : list call :=
  match p with
  | Ret _ => []
  | Do c q =>
    if is_faultable c then
      c :: match k with
           | Some O => calls_of (q (fail_reply c)) w None
           | Some (S j) => let (w', r) := exec w c in calls_of (q r) w' (Some j)
           | None => let (w', r) := exec w c in calls_of (q r) w' None
           end
    else let (w', r) := exec w c in calls_of (q r) w' k
  end.

Definition ncalls {A} (p : cprog A) (w : world) : nat := length (calls_of p w None).

(* the address (key, ordinal) of the k-th call of the fault-free run *)
Definition count_key (key : World.key) (l : list call) : nat := length (filter (fun c => key_eqb (key_of c) key) l).
Definition addr_of {A} (p : cprog A) (w : world) (k : nat) : option cfault :=
  let cs := calls_of p w None in
  match nth_error cs k with
  | Some c => Some (mkFault (key_of c) (count_key (key_of c) (firstn k cs)) FailBefore)
  | None => None
  end.

Definition sum_onb (l : list wl) (m : name) : res := rsum (map w_res (filter (fun x => Nat.eqb (w_node x) m) l)).
Definition use_okb (w : world) : bool :=
  forallb (fun p => res_eqb (p_use p) (sum_onb (wls w) (p_node p)) && (snd (p_use p) <=? snd (p_cap p))) (plugs w).

Definition proj_w (w : world) : list (list Z) := proj_c11 (snap_of w).
Definition same_proj (a b : world) : bool := same_multiset (proj_w a) (proj_w b).

Definition final {A} (p : cprog A) (w : world) (k : option nat) : world * A :=
  let '(w', _, a) := crunk p w k in (w', a).

(* C12 on the model's own output for one create: [w] before, [w'] after, messages in [out w'] *)
Definition c12_check (w : world) (o : op) (w' : world) : bool :=
  let st := mkStep o None 0 (rev (out w')) (snap_of w') [] [] in
  c12_step_ok (snap_of w) st && use_okb w'.

Definition c30_check (w : world) (o : op) (waited : list wid) (w' : world) : bool :=
  let st := mkStep o None 0 (visible_msgs o (rev (out w'))) (snap_of w') [] waited in
  c30_step_ok (snap_of w) st && use_okb w'.

(* which workloads' wait call executed successfully in a run *)
Fixpoint waited_of {A} (p : cprog A) (w : world) (k : option nat) : list wid :=
  match p with
  | Ret _ => []
  | Do c q =>
    if is_faultable c then
      match k with
      | Some O => waited_of (q (fail_reply c)) w None
      | Some (S j) =>
        let (w', r) := exec w c in
        (match c, r with EWait id, RCode _ => [id] | _, _ => [] end) ++ waited_of (q r) w' (Some j)
      | None =>
        let (w', r) := exec w c in
        (match c, r with EWait id, RCode _ => [id] | _, _ => [] end) ++ waited_of (q r) w' None
      end
    else let (w', r) := exec w c in waited_of (q r) w' k
  end.

Definition run_hist (l : list op) (w : world) : world :=
  fold_left (fun w o => r_world (run_op w o None)) l w.

Definition base3 : world :=
  run_hist [OAddPod 0%nat; OAddPod 1%nat;
            OAddNode 0%nat 0%nat (400, 1000); OAddNode 1%nat 0%nat (400, 1000); OAddNode 2%nat 0%nat (400, 1000);
            OAddNode 3%nat 1%nat (400, 1000)] (empty_world true).
(* with two workloads already running on node 0 and one on node 1 *)
Definition busy3 : world :=
  run_hist [OCreate 7 0%nat 2 (50, 100) (Some [(0%nat, 2%nat)]); OCreate 8 0%nat 1 (100, 300) (Some [(1%nat, 1%nat)])] base3.

Definition create_ops : list op :=
  [ OCreate 9 0%nat 1 (50, 100) (Some [(0%nat, 1%nat)]);
    OCreate 9 0%nat 2 (50, 100) (Some [(0%nat, 2%nat)]);
    OCreate 9 0%nat 3 (50, 100) (Some [(0%nat, 2%nat); (1%nat, 1%nat)]);
    OCreate 9 0%nat 3 (50, 100) (Some [(2%nat, 1%nat); (1%nat, 1%nat); (0%nat, 1%nat)]);
    OCreate 9 0%nat 4 (100, 300) (Some [(1%nat, 2%nat); (2%nat, 2%nat)]);
    OCreate 9 0%nat 2 (50, 5000) None;
    OCreate 9 1%nat 2 (50, 100) (Some [(3%nat, 2%nat)]) ].

Definition prep (w : world) (o : op) : world := prepare_world w o.

Definition create_sweep_one (w : world) (o : op) : bool :=
  let p := script_of o in
  let w0 := prep w o in
  forallb (fun k => let '(w', _) := final p w0 (Some k) in c12_check w0 o w') (seq 0 (ncalls p w0))
  && (let '(w', _) := final p w0 None in c12_check w0 o w').

Definition lambda_ops : list op :=
  let sc (a b c : bool) (code : Z) := mkLs a b c code 2 in
  [ OLambda 9 0%nat 1 (50, 100) (Some [(0%nat, 1%nat)]) false (sc false false false 7);
    OLambda 9 0%nat 2 (50, 100) (Some [(0%nat, 1%nat); (1%nat, 1%nat)]) false (sc false false false 0);
    OLambda 9 0%nat 2 (50, 100) (Some [(2%nat, 2%nat)]) false (sc true false false 7);
    OLambda 9 0%nat 1 (50, 100) (Some [(1%nat, 1%nat)]) false (sc false false true 7);
    OLambda 9 0%nat 1 (50, 100) (Some [(1%nat, 1%nat)]) true (sc false false false 7);
    OLambda 9 0%nat 1 (50, 100) (Some [(1%nat, 1%nat)]) true (sc false true false 7);
    OLambda 9 0%nat 3 (50, 100) (Some [(0%nat, 1%nat); (1%nat, 2%nat)]) false (sc false false false 7) ].

(* [addr_of] on the calls of the fault-free run, which the sweep computes once *)
Definition addr_in (cs : list call) (k : nat) : option cfault :=
  match nth_error cs k with
  | Some c => Some (mkFault (key_of c) (count_key (key_of c) (firstn k cs)) FailBefore)
  | None => None
  end.

Definition lambda_sweep_one (w : world) (o : op) : bool :=
  let p := script_of o in
  let w0 := prep w o in
  let cs := calls_of p w0 None in
  forallb (fun k =>
             match addr_in cs k with Some f => in_cleanup f | None => false end
             || c30_check w0 o (waited_of p w0 (Some k)) (fst (final p w0 (Some k))))
          (seq 0 (length cs))
  && c30_check w0 o (waited_of p w0 None) (fst (final p w0 None)).

(* set-node (after 2cbaadc): failure => projection unchanged; usage invariant *)
Definition setnode_ops : list op :=
  [ OSetNode 0%nat (Some true) (Some (500, true)) None;
    OSetNode 1%nat None (Some (2000, false)) None;
    OSetNode 2%nat (Some false) None (Some 3%nat) ].
Definition atomic_sweep_one (w : world) (o : op) : bool :=
  let p := script_of o in
  let w0 := prep w o in
  forallb (fun k => let '(w', r) := final p w0 (Some k) in
                    use_okb w' && (is_ok r || same_proj w' w0)) (seq 0 (ncalls p w0))
  && (let '(w', r) := final p w0 None in use_okb w' && (is_ok r || same_proj w' w0)).

(* replace: the removal of the old workload fails after the new one was deployed *)
Definition replace_op : op := OReplace 9 [mkWid 7%nat 0%nat 0%nat].
Definition replace_fault : cfault := mk_fault MRemoveWorkload (TWid (mkWid 7%nat 0%nat 0%nat)) 0.
Definition replace_bad : opres := run_op busy3 replace_op (Some replace_fault).

(* remove-node: the plugin's RemoveNode fails after the store record is gone *)
Definition rmnode_op : op := ORemoveNode 2%nat.
Definition rmnode_fault : cfault := mk_fault MPRemoveNode (TName 2%nat) 0.
Definition rmnode_bad : opres := run_op busy3 rmnode_op (Some rmnode_fault).


Lemma runk_beyond : forall A (p : cprog A) w k,
  (ncalls p w <= k)%nat ->
  fst (fst (crunk p w (Some k))) = fst (fst (crunk p w None)) /\
  snd (crunk p w (Some k)) = snd (crunk p w None).
Proof.
  unfold ncalls, crunk. induction p as [a|c q IH]; intros w k Hk; simpl in *.
  - auto.
  - destruct (is_faultable c).
    + destruct k as [|j]; [simpl in Hk; lia|].
      destruct (exec w c) as [w' r]. apply IH. simpl in Hk. lia.
    + destruct (exec w c) as [w' r]. apply IH. exact Hk.
Qed.

Lemma final_beyond : forall A (p : cprog A) w k, (ncalls p w <= k)%nat -> final p w (Some k) = final p w None.
Proof.
  intros A p w k H. destruct (runk_beyond A p w k H) as [H1 H2]. unfold final.
  destruct (crunk p w (Some k)) as [[w1 k1] a1]. destruct (crunk p w None) as [[w2 k2] a2]. simpl in *. congruence.
Qed.

Lemma waited_beyond : forall A (p : cprog A) w k, (ncalls p w <= k)%nat ->
  waited_of p w (Some k) = waited_of p w None.
Proof.
  unfold ncalls. induction p as [a|c q IH]; intros w k Hk; simpl in *; [reflexivity|].
  destruct (is_faultable c).
  - destruct k as [|j]; [simpl in Hk; lia|]. destruct (exec w c) as [w' r]. f_equal. apply IH. simpl in Hk. lia.
  - destruct (exec w c) as [w' r]. apply IH. exact Hk.
Qed.

Lemma forallb_seq : forall (f : nat -> bool) n, forallb f (seq 0 n) = true -> forall k, (k < n)%nat -> f k = true.
Proof.
  intros f n H k Hk. rewrite forallb_forall in H. apply H. apply in_seq. lia.
Qed.

(* a check that from position n on is the check of the fault-free run holds for every position once it
   holds for the positions below n and for the fault-free run; [skip] marks positions left out *)
Lemma sweep_all_k : forall n (skip : nat -> bool) (chk : option nat -> bool),
  (forall k, (n <= k)%nat -> chk (Some k) = chk None) ->
  forallb (fun k => skip k || chk (Some k)) (seq 0 n) = true -> chk None = true ->
  forall k, skip k = false -> chk (Some k) = true.
Proof.
  intros n skip chk Hb Hall Hnone k Hs.
  destruct (le_lt_dec n k) as [Hge|Hlt].
  - rewrite Hb by exact Hge. exact Hnone.
  - pose proof (forallb_seq _ _ Hall k Hlt) as H. simpl in H. rewrite Hs in H. exact H.
Qed.

Lemma all_k : forall A (p : cprog A) w (chk : world -> A -> bool),
  forallb (fun k => let '(w', a) := final p w (Some k) in chk w' a) (seq 0 (ncalls p w)) = true ->
  (let '(w', a) := final p w None in chk w' a) = true ->
  forall k, (let '(w', a) := final p w k in chk w' a) = true.
Proof.
  intros A p w chk Hall Hnone [k|]; [|exact Hnone].
  apply (sweep_all_k (ncalls p w) (fun _ => false) (fun kk => let '(w', a) := final p w kk in chk w' a)); auto.
  intros j Hj. rewrite final_beyond by exact Hj. reflexivity.
Qed.

Lemma replace_breaks_usage :
  r_err replace_bad = 0 /\
  In (MReplace (mkWid 7%nat 0%nat 0%nat) (Some (mkWid 9%nat 0%nat 0%nat)) false (Some EInjected)) (r_msgs replace_bad) /\
  use_okb busy3 = true /\ use_okb (r_world replace_bad) = false /\
  same_proj (r_world replace_bad) busy3 = false.
Proof. vm_compute. repeat split; auto. Qed.

Lemma remove_node_not_atomic :
  r_err rmnode_bad = 1 /\ same_proj (r_world rmnode_bad) busy3 = false /\
  find_node (r_world rmnode_bad) 2%nat = None /\ find_plug (r_world rmnode_bad) 2%nat <> None.
Proof. vm_compute. repeat split; auto; discriminate. Qed.

Lemma create_sweeps : forallb (create_sweep_one busy3) create_ops = true /\ forallb (create_sweep_one base3) create_ops = true.
Proof. vm_compute. split; reflexivity. Qed.

Lemma lambda_sweeps : forallb (lambda_sweep_one busy3) lambda_ops = true.
Proof. vm_compute. reflexivity. Qed.

Lemma setnode_sweeps : forallb (atomic_sweep_one busy3) setnode_ops = true.
Proof. vm_compute. reflexivity. Qed.

(* a channel send is never a fault position *)
Lemma calls_faultable : forall A (p : cprog A) w k c, In c (calls_of p w k) -> is_faultable c = true.
Proof.
  intros A p. induction p as [a|c0 q IH]; intros w k c Hin; cbn [calls_of] in Hin; [destruct Hin|].
  destruct (is_faultable c0) eqn:E.
  - destruct Hin as [<-|Hin]; [exact E|].
    destruct k as [[|j]|]; [eapply IH; eauto| |]; destruct (exec w c0) as [w' r]; eapply IH; eauto.
  - destruct (exec w c0) as [w' r]; eapply IH; eauto.
Qed.


(* C12 (and the usage invariant, usage <= capacity) for EVERY fault position of every create scenario *)
Theorem create_scenarios_every_k : forall w o, (w = busy3 \/ w = base3) -> In o create_ops ->
  forall k, c12_check (prep w o) o (fst (final (script_of o) (prep w o) k)) = true.
Proof.
  intros w o Hw Ho k.
  assert (Hs : create_sweep_one w o = true).
  { destruct create_sweeps as [H1 H2]. destruct Hw as [-> | ->]; [rewrite forallb_forall in H1; apply H1|rewrite forallb_forall in H2; apply H2]; exact Ho. }
  unfold create_sweep_one in Hs. apply andb_true_iff in Hs. destruct Hs as [Hall Hnone].
  pose proof (all_k _ (script_of o) (prep w o) (fun w' _ => c12_check (prep w o) o w') Hall Hnone k) as H.
  destruct (final (script_of o) (prep w o) k). exact H.
Qed.

(* C30 for EVERY fault position outside the clean-up itself, every run-and-wait scenario *)
Theorem lambda_scenarios_every_k : forall o, In o lambda_ops ->
  forall k, match addr_of (script_of o) (prep busy3 o) k with Some f => in_cleanup f | None => false end = false ->
  c30_check (prep busy3 o) o (waited_of (script_of o) (prep busy3 o) (Some k))
            (fst (final (script_of o) (prep busy3 o) (Some k))) = true.
Proof.
  intros o Ho k Hc.
  assert (Hs : lambda_sweep_one busy3 o = true).
  { pose proof lambda_sweeps as H. rewrite forallb_forall in H. apply H. exact Ho. }
  unfold lambda_sweep_one in Hs. apply andb_true_iff in Hs. destruct Hs as [Hall Hnone].
  apply (sweep_all_k (ncalls (script_of o) (prep busy3 o))
           (fun kk => match addr_of (script_of o) (prep busy3 o) kk with Some f => in_cleanup f | None => false end)
           (fun kk => c30_check (prep busy3 o) o (waited_of (script_of o) (prep busy3 o) kk)
                                (fst (final (script_of o) (prep busy3 o) kk)))); auto.
  intros j Hj. rewrite final_beyond by exact Hj. rewrite waited_beyond by exact Hj. reflexivity.
Qed.

(* SetNode after 2cbaadc: every fault position leaves the projection unchanged on failure *)
Theorem setnode_scenarios_all_k : forall o, In o setnode_ops -> forall k,
  let '(w', r) := final (script_of o) (prep busy3 o) (Some k) in
  use_okb w' = true /\ (r <> None -> same_proj w' (prep busy3 o) = true).
Proof.
  intros o Ho k.
  assert (Hs : atomic_sweep_one busy3 o = true).
  { pose proof setnode_sweeps as H. rewrite forallb_forall in H. apply H. exact Ho. }
  unfold atomic_sweep_one in Hs. apply andb_true_iff in Hs. destruct Hs as [Hall Hnone].
  pose proof (all_k _ (script_of o) (prep busy3 o)
                (fun w' r => use_okb w' && (is_ok r || same_proj w' (prep busy3 o))) Hall Hnone (Some k)) as H.
  destruct (final (script_of o) (prep busy3 o) (Some k)) as [w' r].
  apply andb_true_iff in H. destruct H as [H1 H2]. split; [exact H1|].
  intros Hr. destruct r; [exact H2|congruence].
Qed.
