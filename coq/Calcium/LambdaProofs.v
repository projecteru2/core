(* Calcium/LambdaProofs.v — the lambda closure of run-and-wait for one created workload: the removal run
   without a fault succeeds; the body only reads, forwards output and waits; [lambda_one_spec]: for EVERY
   world, engine outcome and fault position, if the fault does not fall into the clean-up itself the
   workload is gone (record, container, usage) when the last message is sent. *)
From Coq Require Import List Bool Arith ZArith.
From Verif Require Import Base.Effects Calcium.World Calcium.Ops Calcium.OpsProofs Calcium.OpsProofs2 Calcium.DeployProofs Calcium.HistoryProofs Base.ListFacts.
Import ListNotations.
Local Open Scope Z_scope.

Lemma remove_txn_none : forall n x w p,
  find_wl w (w_id x) = Some x -> find_plug w n = Some p ->
  crunk (remove_txn n x true) w None =
  (oth w (del_wl (w_id x) (wls w)) (upd_plug n (sub_use (w_res x)) (plugs w)) (del_cont (w_id x) (conts w)), None, None).
Proof.
  intros n x w p Hx Hp. unfold find_wl in Hx. unfold find_plug in Hp.
  unfold remove_txn, do_remove_workload, txn, doc, call1, crunk. norm.
  cbn [exec]. look. rewrite Hp. norm. rewrite radd_0_r. cbn [exec]. look. norm.
  rewrite eremove_ok by (left; reflexivity). norm. look. reflexivity.
Qed.

Lemma exec_get_one : forall id w x, find_wl w id = Some x -> exec w (SGetWorkloads [id]) = (w, RWls [x]).
Proof. intros id w x Hx. cbn [exec forallb flat_map]. rewrite Hx. reflexivity. Qed.

Lemma with_workload_locked_none : forall id (body : wl -> cprog oerr) w x,
  find_wl w id = Some x ->
  exists w1 r, crunk (with_workload_locked id body) w None = (w1, None, r) /\ crunk (body x) w None = (w1, None, r).
Proof.
  intros id body w x Hx. unfold with_workload_locked. unfold crunk. lnorm.
  rewrite (exec_get_one id w x Hx). lnorm. cbn [exec]. lnorm. cbn [exec]. lnorm.
  destruct (locked_body_spec (body x) (LWl (w_id x)) w None) as [w' [k' [k2 [r [H1 H2]]]]].
  pose proof (crunk_none_k _ _ _ _ _ _ H1). pose proof (crunk_none_k _ _ _ _ _ _ H2). subst.
  unfold crunk in H1. exists w', r. split; [exact H1|exact H2].
Qed.

Definition removed_world (w : world) (x : wl) : world :=
  oth w (del_wl (w_id x) (wls w)) (upd_plug (w_node x) (sub_use (w_res x)) (plugs w)) (del_cont (w_id x) (conts w)).

Lemma crunk_call1 : forall c w, crunk (call1 c) w None = (fst (exec w c), None, snd (exec w c)).
Proof. intros. unfold call1, crunk. cbn [runk]. destruct (exec w c). destruct (is_faultable c); reflexivity. Qed.

Lemma remove_sync_none : forall id w x nd p,
  find_wl w id = Some x -> find_node w (w_node x) = Some nd -> find_plug w (w_node x) = Some p ->
  crunk (remove false [id] true) w None = (removed_world w x, None, None).
Proof.
  intros id w x nd p Hx Hnd Hp.
  assert (Hid : w_id x = id) by (apply find_wl_id in Hx; tauto).
  unfold remove. rewrite crunk_bind, crunk_call1.
  rewrite (exec_get_one id w x Hx). cbn [fst snd].
  cbn [group_by_node existsb]. cbn [for_all fst snd].
  rewrite crunk_bind. rewrite crunk_bind. rewrite crunk_bind.
  match goal with |- context [with_node_pod_locked ?n ?b] =>
    destruct (with_node_pod_locked_none n b w nd Hnd) as [w1 [e [H1 H2]]] end.
  rewrite H1.
  (* the body under the node lock *)
  cbn beta in H2. rewrite crunk_bind in H2. rewrite crunk_bind in H2. unfold remove_one in H2. rewrite crunk_bind in H2.
  destruct (with_workload_locked_none (w_id x) (fun x0 => remove_txn (w_node x) x0 true) w x) as [w2 [r2 [H3 H4]]].
  { rewrite Hid. exact Hx. }
  rewrite H3 in H2. rewrite (remove_txn_none (w_node x) x w p) in H4; [|rewrite Hid; exact Hx|exact Hp].
  inversion H4; subst w2 r2. clear H4.
  unfold maybe_send, skip, rok, crunk in H2. cbn [runk is_ok] in H2. inversion H2; subst w1 e. clear H2.
  unfold maybe_send, skip, rok, crunk. cbn [runk]. reflexivity.
Qed.

Record body_post (id : wid) (w w1 : world) : Prop := {
  bp_pods : pods w1 = pods w; bp_nodes : nodes w1 = nodes w; bp_wls : wls w1 = wls w; bp_plugs : plugs w1 = plugs w;
  bp_strict : strict_remove w1 = strict_remove w; bp_script : script w1 = script w;
  bp_conts : conts w1 = conts w \/ conts w1 = upd_cont id CStopped (conts w);
}.
Lemma body_post_refl : forall id w, body_post id w w.
Proof. intros. constructor; auto. Qed.
Lemma body_post_core : forall id w w1 w2, core3 w1 w (wls w) (conts w) -> body_post id w1 w2 -> body_post id w w2.
Proof.
  intros id w w1 w2 [? [? [? [? [? [? Hc]]]]]] [? ? ? ? ? ? Hc2]. constructor; try congruence.
  all: try (rewrite Hc in Hc2; exact Hc2).
Qed.

Lemma ends_read : forall A c (q : reply -> cprog A) w k Q, fst (exec w c) = w ->
  (forall r k', ends (q r) w k' Q) -> ends (Do c q) w k Q.
Proof.
  intros A c q w k Q Hw Hq. unfold ends, crunk in *. cbn [runk].
  destruct (is_faultable c); [destruct k as [[|j]|]|]; try apply Hq;
    destruct (exec w c) as [w' r]; cbn [fst] in Hw; subst w'; apply Hq.
Qed.

Lemma exec_getwl : forall id w, fst (exec w (SGetWorkload id)) = w.
Proof. intros. cbn [exec]. destruct (find_wl w id); reflexivity. Qed.
Lemma exec_logs : forall id w, fst (exec w (ELogs id)) = w.
Proof. intros. cbn [exec]. destruct (find_cont w id); [destruct (ls_logs_err (script w))|]; reflexivity. Qed.
Lemma exec_attach : forall id w, fst (exec w (EAttach id)) = w.
Proof. intros. cbn [exec]. destruct (find_cont w id); [destruct (ls_attach_err (script w))|]; reflexivity. Qed.

Lemma send_lines_exact : forall id n w k,
  crunk (send_lines id n) w k = (set_out w (repeat (MLambdaOut id) n ++ out w), k, tt).
Proof.
  induction n as [|n IH]; intros w k; cbn [send_lines].
  - unfold skip, crunk. cbn [runk repeat app]. destruct w; reflexivity.
  - rewrite crunk_bind, send_exact. rewrite IH. cbn [out set_out].
    replace (repeat (MLambdaOut id) n ++ MLambdaOut id :: out w) with (repeat (MLambdaOut id) (S n) ++ out w).
    + destruct w; reflexivity.
    + change (MLambdaOut id :: out w) with ([MLambdaOut id] ++ out w). rewrite app_assoc.
      change [MLambdaOut id] with (repeat (MLambdaOut id) 1). rewrite <- repeat_app. rewrite Nat.add_1_r. reflexivity.
Qed.

Record body_io (id : wid) (w w1 : world) (final : msg) : Prop := {
  bi_walq : walq w1 = walq w; bi_seq : wal_seq w1 = wal_seq w;
  bi_out : exists n, out w1 = repeat (MLambdaOut id) n ++ out w;
  bi_final : (final = MLambdaErr (Some id) /\ conts w1 = conts w) \/
             (final = MLambdaExit id (ls_code (script w)) /\ conts w1 = upd_cont id CStopped (conts w));
}.

Lemma body_io_err : forall id w, body_io id w w (MLambdaErr (Some id)).
Proof. intros. constructor; auto. exists 0%nat. reflexivity. Qed.

Lemma lambda_body_spec : forall stdin lines id w k,
  exists w1 k1 final, crunk (lambda_body stdin lines id) w k = (w1, k1, final) /\ body_post id w w1 /\ body_io id w w1 final.
Proof.
  intros stdin lines id w k. apply ends_ex. unfold lambda_body, doc, call1. norm.
  assert (Herr : forall k', ends (Ret (MLambdaErr (Some id))) w k' (fun w1 _ final => body_post id w w1 /\ body_io id w w1 final))
    by (intros; split; [apply body_post_refl|apply body_io_err]).
  apply ends_read; [apply exec_getwl|]. intros r1 k1. destruct r1; try apply Herr.
  apply ends_read; [apply exec_logs|]. intros r2 k2. destruct (err_of r2); [apply Herr|].
  apply ends_bind. apply (ends_mono _ _ _ _ (fun w' _ _ => w' = w)).
  { destruct stdin; [apply ends_read; [apply exec_attach|]; intros; reflexivity|reflexivity]. }
  intros w' k3 e3 ->. destruct e3; [apply Herr|].
  apply ends_bind. apply ends_ex. do 3 eexists. split; [apply send_lines_exact|].
  set (nl := if stdin then (lines + lines)%nat else lines). set (w4 := set_out w (repeat (MLambdaOut id) nl ++ out w)).
  (* the wait fails, by the fault or by itself: the container is as it was *)
  assert (Hfail : body_post id w w4 /\ body_io id w w4 (MLambdaErr (Some id))).
  { split; constructor; auto. exists nl. reflexivity. }
  step k3; [exact Hfail|]. cbn [exec].
  destruct (find_cont w4 id); [destruct (ls_wait_err (script w4))|]; norm; try exact Hfail.
  split; constructor; auto. exists nl. reflexivity.
Qed.

Lemma find_del_cont_none : forall l id, find (fun y => wid_eqb (c_id y) id) (del_cont id l) = None.
Proof.
  induction l as [|y t IH]; intros id; simpl; [reflexivity|].
  destruct (wid_eqb (c_id y) id) eqn:E; simpl; [apply IH|rewrite E; apply IH].
Qed.

Record lambda_removed (id : wid) (x : wl) (w w' : world) : Prop := {
  lr_wls : wls w' = del_wl id (wls w);
  lr_plugs : plugs w' = upd_plug (w_node x) (sub_use (w_res x)) (plugs w);
  lr_norec : find_wl w' id = None;
  lr_nocont : find_cont w' id = None;
  lr_nodes : nodes w' = nodes w;
  lr_conts_frame : forall j, find_cont w j = None -> find_cont w' j = None;   (* no container appears *)
}.

(* any world with the records, plugs, nodes and containers of [removed_world w x] *)
Lemma removed_world_removed : forall id x w0 w w', body_post id w0 w -> find_wl w0 id = Some x ->
  wls w' = wls (removed_world w x) -> plugs w' = plugs (removed_world w x) -> nodes w' = nodes w ->
  conts w' = conts (removed_world w x) -> lambda_removed id x w0 w'.
Proof.
  intros id x w0 w w' [_ Hn Hw Hpl _ _ Hc] Hx Hw' Hp' Hn' Hc'. assert (Hid : w_id x = id) by (apply find_wl_id in Hx; tauto).
  constructor; unfold find_wl, find_cont; rewrite ?Hw', ?Hp', ?Hn', ?Hc'; cbn [wls plugs conts removed_world oth]; rewrite ?Hid.
  - rewrite Hw. reflexivity.
  - rewrite Hpl. reflexivity.
  - apply find_del_none.
  - apply find_del_cont_none.
  - exact Hn.
  - intros j Hj. apply find_filter_none. destruct Hc as [-> | ->]; [exact Hj|]. apply find_cont_upd_none. exact Hj.
Qed.

Lemma cleanup_none : forall id tok final w0 w x nd p,
  body_post id w0 w -> find_wl w0 id = Some x -> find_node w0 (w_node x) = Some nd -> find_plug w0 (w_node x) = Some p ->
  exists w', crunk (lambda_cleanup id tok final) w None = (w', None, tt) /\ lambda_removed id x w0 w' /\
    out w' = final :: out w /\
    walq w' = filter (fun e => negb (Nat.eqb (fst e) tok)) (walq w).
Proof.
  intros id tok final w0 w x nd p Hb Hx Hnd Hplug. pose proof Hb as [_ Hn Hw Hpl _ _ _].
  unfold lambda_cleanup. rewrite crunk_bind. unfold ign at 1. rewrite crunk_bind.
  rewrite (remove_sync_none id w x nd p); [| unfold find_wl; rewrite Hw; exact Hx | unfold find_node; rewrite Hn; exact Hnd | unfold find_plug; rewrite Hpl; exact Hplug].
  rewrite crunk_ret. rewrite crunk_bind. unfold ign, doc, call1. unfold crunk at 1. cbn [bind runk exec is_faultable].
  rewrite send_exact.
  eexists. split; [reflexivity|]. split; [|split; reflexivity].
  apply (removed_world_removed id x w0 w); [assumption|assumption|reflexivity..].
Qed.

Lemma filter_token_fresh : forall (q : list (nat * event)) t ev, (forall e, ~ In (t, e) q) ->
  filter (fun e => negb (Nat.eqb (fst e) t)) (q ++ [(t, ev)]) = q.
Proof.
  intros q t ev H. rewrite filter_app. simpl. rewrite Nat.eqb_refl. simpl. rewrite app_nil_r.
  apply filter_all. intros [t' e'] Hin. simpl. destruct (Nat.eqb t' t) eqn:E; [|reflexivity].
  apply Nat.eqb_eq in E. subst. exfalso. eapply H; eauto.
Qed.

Record closure_post (id : wid) (x : wl) (w w' : world) : Prop := {
  cl_removed : lambda_removed id x w w';
  cl_wal : walq w' = walq w;                             (* the closure's WAL entry is committed: the queue is what it was *)
  (* the channel: forwarded output, then ONE last message, nothing after it; the last message carries the
     process's exit code exactly when the wait succeeded, an error otherwise *)
  cl_out : exists n final, out w' = final :: repeat (MLambdaOut id) n ++ out w /\
             (final = MLambdaErr (Some id) \/ final = MLambdaExit id (ls_code (script w)));
}.

(* C30, the lambda closure of one created workload, EVERY world, EVERY engine outcome, EVERY fault position:
   [kc] is the fault budget left when the clean-up starts; kc = None (no fault, or the fault fired earlier:
   WAL entry, record lookup, logs, attach, wait) means the clean-up runs undisturbed, and then the workload
   is gone (record, container, usage), the WAL entry is committed and the last message is the last thing sent.
   [forall e, ~ In (wal_seq w, e) (walq w)]: the token the WAL issues next is not in use (tokens only grow). *)
Theorem lambda_one_spec : forall stdin lines id r w k x nd p,
  find_wl w id = Some x -> find_node w (w_node x) = Some nd -> find_plug w (w_node x) = Some p ->
  (forall e, ~ In (wal_seq w, e) (walq w)) ->
  exists w' k' (kc : option nat), crunk (lambda_one stdin lines (MCreateOk id r)) w k = (w', k', tt) /\
    (k = None -> kc = None) /\ (k = Some 0%nat -> kc = None) /\
    (kc = None -> closure_post id x w w').
Proof.
  intros stdin lines id r w k x nd p Hx Hnd Hp Hwal.
  cbn [lambda_one]. rewrite crunk_bind. unfold call1 at 1. unfold crunk at 1.
  (* the WAL entry is written, which takes one from the budget *)
  assert (Hmain : k <> Some 0%nat -> let w0 := set_wal w (walq w ++ [(wal_seq w, EvLambda id)]) (S (wal_seq w)) in
     exists w' k' (kc : option nat),
       crunk (final <- lambda_body stdin lines id ;; lambda_cleanup id (wal_seq w) final) w0 (option_map pred k) = (w', k', tt) /\
       (k = None -> kc = None) /\ (k = Some 0%nat -> kc = None) /\ (kc = None -> closure_post id x w w')).
  { intros Hk w0. rewrite crunk_bind.
    destruct (lambda_body_spec stdin lines id w0 (option_map pred k)) as [w1 [k1 [final [H1 [Hb Hio]]]]]. rewrite H1.
    assert (Hb0 : body_post id w w1) by (apply (body_post_core id w w0 w1); [repeat split|exact Hb]).
    destruct (crunk (lambda_cleanup id (wal_seq w) final) w1 k1) as [[w' k'] []] eqn:Hc.
    exists w', k', k1. split; [reflexivity|]. split; [intros ->; exact (crunk_none_k _ _ _ _ _ _ H1)|].
    split; [intros E; contradiction|]. intros ->.
    destruct (cleanup_none id (wal_seq w) final w w1 x nd p Hb0 Hx Hnd Hp) as [w'' [Hc' [Hr [Ho Hq]]]].
    rewrite Hc' in Hc. injection Hc as <- _.
    destruct Hio as [Hwq _ [n Hout] Hfin]. constructor.
    - exact Hr.
    - rewrite Hq, Hwq. unfold w0. cbn [walq set_wal]. apply filter_token_fresh. exact Hwal.
    - exists n, final. split; [rewrite Ho, Hout; reflexivity|].
      destruct Hfin as [[-> _]|[-> _]]; [left; reflexivity|right; reflexivity]. }
  destruct k as [[|k]|]; cbn [runk fail_reply is_faultable].
  - (* the WAL entry cannot be written: the workload is removed all the same *)
    rewrite crunk_bind. unfold ign at 1. rewrite crunk_bind.
    rewrite (remove_sync_none id w x nd p Hx Hnd Hp). rewrite crunk_ret.
    unfold send, ign, doc, call1, crunk. cbn [bind runk exec is_faultable].
    do 3 eexists. split; [reflexivity|]. split; [discriminate|]. split; [intros _; reflexivity|]. intros _.
    constructor; [|reflexivity|].
    + apply (removed_world_removed id x w w); [apply body_post_refl|exact Hx|reflexivity..].
    + exists 0%nat, (MLambdaErr (Some id)). split; [reflexivity|left; reflexivity].
  - cbn [exec]. apply Hmain. discriminate.
  - cbn [exec]. apply Hmain. discriminate.
Qed.

(* the rpc handler passes every message of the channel to Send, whatever the stream does *)
Lemma rpc_forward_drains : forall ms n k, fst (rpc_forward ms n k) = ms.
Proof. induction ms as [|m rest IH]; intros n k; simpl; [reflexivity|]. rewrite IH. reflexivity. Qed.
Lemma rpc_forward_healthy : forall ms n, snd (rpc_forward ms n 0) = ms.
Proof. induction ms as [|m rest IH]; intros n; simpl; [reflexivity|]. rewrite IH. reflexivity. Qed.

(* the whole run-and-wait operation, EVERY world, EVERY fault position: the last thing it does is close the stream *)
Theorem lambda_closes : forall opi pod r plan stdin lines w k,
  exists w1 k', crunk (lambda opi pod r plan stdin lines) w k = (set_out w1 (MClose :: out w1), k', tt).
Proof.
  intros. unfold lambda. rewrite crunk_bind. destruct (crunk (create opi pod r plan) w k) as [[w0 k0] ms].
  rewrite crunk_bind. destruct (crunk (for_all (filter is_create_msg ms) (lambda_one stdin lines)) w0 k0) as [[w1 k1] []].
  rewrite send_exact. exists w1, k1. reflexivity.
Qed.
