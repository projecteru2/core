(* Calcium/CapProofs.v — "no allocation ever raises a node's memory usage above its capacity":
   create keeps usage <= capacity for every world (distinct plugin records), feasible plan and fault position. *)
From Coq Require Import List Bool Arith ZArith Lia.
From Verif Require Import Calcium.World Calcium.Ops Calcium.DeployProofs2 Calcium.CreateProofs Calcium.CreateProofs2 Calcium.NodeProofs.
Import ListNotations.
Local Open Scope Z_scope.

Definition cap_ok (w : world) : Prop := forall p, In p (plugs w) -> snd (p_use p) <= snd (p_cap p).

Lemma scale_snd : forall k r, snd (scale k r) = Z.of_nat k * snd r.
Proof.
  induction k as [|k IH]; intros r; cbn [scale].
  - reflexivity.
  - unfold radd. cbn [snd]. rewrite IH. lia.
Qed.

Lemma fits_cap : forall p k r, fits p (Z.of_nat k) r = true -> 0 <= snd r ->
  snd (p_use p) <= snd (p_cap p) -> snd (p_use p) + Z.of_nat k * snd r <= snd (p_cap p).
Proof.
  intros p k r Hf Hr Hu. unfold fits in Hf. apply andb_true_iff in Hf. destruct Hf as [_ Hf].
  apply orb_true_iff in Hf. destruct Hf as [Hf|Hf].
  - apply negb_true_iff in Hf. apply Z.ltb_ge in Hf. assert (snd r = 0) by lia. rewrite H. lia.
  - apply Z.leb_le in Hf.
    destruct (Z_lt_le_dec 0 (snd r)) as [Hpos|Hz]; [|assert (snd r = 0) by lia; rewrite H; lia].
    pose proof (Z.mul_quot_le (snd (p_cap p) - snd (p_use p)) (snd r) ltac:(lia) ltac:(lia)) as Hq. nia.
Qed.

Lemma atotal_zero_or_in : forall dm n, atotal dm n = 0%nat \/ In n (map fst dm).
Proof.
  induction dm as [|g t IH]; intros n; simpl; [left; reflexivity|].
  destruct (Nat.eqb (fst g) n) eqn:E.
  - right. left. apply Nat.eqb_eq. exact E.
  - destruct (IH n) as [H|H]; [left; simpl; exact H|right; right; exact H].
Qed.

Theorem create_keeps_capacity : forall opi pod r plan w k, create_hyp w opi r plan -> 0 <= snd r ->
  NoDup (pnames (plugs w)) -> cap_ok w ->
  cap_ok (fst (fst (crunk (create opi pod r plan) w k))).
Proof.
  intros opi pod r plan w k Hhyp Hr Hndp Hok.
  destruct (create_spec opi pod r plan w k Hhyp) as [w' [k' [ms [H P]]]]. rewrite H. cbn [fst].
  destruct P as [_ _ _ _ _ _ Hpl _ _ _ Hb].
  intros p' Hp'. rewrite Hpl in Hp'. apply in_map_iff in Hp'. destruct Hp' as [x [<- Hx]].
  cbn [add_use p_use p_cap]. unfold radd. cbn [snd]. rewrite scale_snd.
  pose proof (Hok x Hx) as Hux. specialize (Hb (p_node x)).
  destruct plan as [dm|]; [|assert (created_on ms (p_node x) = 0%nat) as -> by lia; lia].
  destruct Hhyp as [_ [Hnd [Hfe _]]].
  destruct (atotal_zero_or_in dm (p_node x)) as [Hz|Hin].
  - rewrite Hz in Hb. assert (created_on ms (p_node x) = 0%nat) as -> by lia. lia.
  - apply in_map_iff in Hin. destruct Hin as [[n cnt] [Hn Hin]]. cbn [fst] in Hn. subst n.
    rewrite (atotal_in dm (p_node x) cnt Hnd Hin) in Hb.
    destruct (Hfe (p_node x) cnt Hin) as [p [Hp Hfit]].
    unfold find_plug in Hp. apply find_some in Hp. destruct Hp as [Hpin Hpn]. apply Nat.eqb_eq in Hpn.
    assert (p = x) by (apply (nodup_pname_unique (plugs w)); auto). subst p.
    pose proof (fits_cap x cnt r Hfit Hr Hux) as Hbound. nia.
Qed.
