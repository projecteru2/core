(* The commuting family extended with dissociate: realloc, set-node and dissociate on disjoint footprints.
   dissociate updates in place (usage, record removal) and sends messages; in the model all operations share ONE
   channel [out] (in the code each has its own), so the statement (xops_interleave) is up to that channel: the
   worlds are equal in everything but [out]. *)
From Coq Require Import List ZArith.
From Verif Require Import Base.Effects Calcium.World Calcium.Ops Calcium.HistoryProofs Calcium.InterleaveGen Calcium.Interleave Calcium.InterleaveOps.
Import ListNotations.
Local Open Scope Z_scope.

Definition in_fpx (F : fp) (c : call) : Prop :=
  match c with
  | Send _ => True
  | _ => in_fpk F c
  end.

Lemma in_fpx_cases : forall F c, in_fpx F c -> in_fpk F c \/ exists m, c = Send m.
Proof. intros F c H. destruct c; try (left; exact H). right. eexists; reflexivity. Qed.

Lemma in_fp_fpx : forall F c, in_fp F c -> in_fpx F c.
Proof. intros F c H. apply in_fp_fpk in H. destruct c; try exact H. exact Logic.I. Qed.

(* a message is seen by no call: up to the channel, a send commutes with any call *)
Lemma send_commutes : forall m c w,
  hide (fst (exec (fst (exec w (Send m))) c)) = hide (fst (exec w c)) /\
  snd (exec (fst (exec w (Send m))) c) = snd (exec w c).
Proof.
  intros m c w. cbn [exec fst]. destruct (exec_hide (set_out w (m :: out w)) c) as [<- <-]. exact (exec_hide w c).
Qed.

Theorem fpx_calls_commute : forall F1 F2 c1 c2 w, disjoint F1 F2 -> in_fpx F1 c1 -> in_fpx F2 c2 -> commute exec_h c1 c2 w.
Proof.
  intros F1 F2 c1 c2 w D H1 H2. unfold commute. rewrite !exec_h_eq. cbn [fst snd].
  destruct (exec_hide (fst (exec w c1)) c2) as [-> ->]. destruct (exec_hide (fst (exec w c2)) c1) as [-> ->].
  destruct (in_fpx_cases F1 c1 H1) as [K1|[m ->]]; [destruct (in_fpx_cases F2 c2 H2) as [K2|[m ->]]|].
  - destruct (fpk_calls_commute F1 F2 c1 c2 w D K1 K2) as (-> & -> & ->). auto.
  - destruct (send_commutes m c1 w) as [-> ->]. split; [reflexivity|split; reflexivity].
  - destruct (send_commutes m c2 w) as [-> ->]. split; [reflexivity|split; reflexivity].
Qed.

Lemma group_node : forall l n idl, In (n, idl) (group_by_node l) -> exists x, In x l /\ w_node x = n.
Proof.
  induction l as [|x t IH]; intros n idl Hg; simpl in Hg; [destruct Hg|].
  destruct (existsb (fun p => Nat.eqb (fst p) (w_node x)) (group_by_node t)).
  - apply in_map_iff in Hg. destruct Hg as [p [Hp Hin]].
    destruct (Nat.eqb (fst p) (w_node x)) eqn:E.
    + inversion Hp; subst. apply Nat.eqb_eq in E. exists x. split; [left; reflexivity|auto].
    + subst p. destruct (IH n idl Hin) as [y [Hy H2]]. exists y. split; [right; exact Hy|auto].
  - destruct Hg as [Hg|Hg].
    + inversion Hg; subst. exists x. split; [left; reflexivity|auto].
    + destruct (IH n idl Hg) as [y [Hy H2]]. exists y. split; [right; exact Hy|auto].
Qed.

Section SafeX.
  Variable F : fp.
  Variable I : world -> Prop.
  Hypothesis I_fp : forall w, I w -> fp_inv F w.
  Let P := in_fpx F.

  Lemma safex_send : forall m, safeq P I (fun _ => True) (send m).
  Proof. intros m. apply safeq_ign, safeq_doc. exact Logic.I. Qed.

  Lemma safex_dissociate_txn : forall n x, f_nodes F n -> f_ids F (w_id x) -> safeq P I (fun _ => True) (dissociate_txn n x).
  Proof.
    intros n x Hn Hx. apply safeq_txn; [apply safeq_doc; exact Hn|apply safeq_doc; exact Hx|].
    intros [|]; [apply safeq_ret_any|apply safeq_doc; exact Hn].
  Qed.

  Theorem safex_dissociate : forall idl, (forall i, In i idl -> f_ids F i) -> safe P I (dissociate idl).
  Proof.
    intros idl Hids. apply (safeq_safe _ P I (fun _ => True)). unfold dissociate.
    eapply safeq_bind.
    - apply (safeq_call1 P I (fun r => match r with RWls l => forall x, In x l -> f_ids F (w_id x) /\ f_nodes F (w_node x) | _ => True end)).
      + exact Hids.
      + intros w HI. cbn [exec]. destruct (forallb _ idl); cbn; [|exact Logic.I].
        intros x Hx. apply in_flat_map in Hx. destruct Hx as [i [Hi Hx]].
        destruct (find_wl w i) as [y|] eqn:E; [|destruct Hx]. destruct Hx as [<-|[]].
        destruct (found_in_fp F I I_fp w i y HI (Hids i Hi) E) as [-> Hn]. split; [exact (Hids i Hi)|exact Hn].
      + intros _. exact Logic.I.
    - intros r Hr. destruct r; try apply safeq_ret_any.
      apply safeq_bind_any; [|intros _; apply safeq_then_ret, safex_send].
      apply safeq_for_all. intros [n il] Hg. apply safeq_ign. cbn [fst snd].
      destruct (group_node _ _ _ Hg) as [y [Hy Hyn]]. destruct (Hr y Hy) as [_ Hn]. rewrite Hyn in Hn.
      apply (safe_with_node F P I (in_fp_fpx F)); [exact Hn|]. intros _ _.
      apply safeq_then_ret.
      apply safeq_for_all. intros id Hid.
      destruct (group_in _ _ _ _ Hg Hid) as [z [Hz [Hzid _]]]. destruct (Hr z Hz) as [Hzf _]. rewrite Hzid in Hzf.
      apply safeq_bind_any; [|intros; apply safex_send].
      apply (safe_with_workload F P I (in_fp_fpx F) I_fp); [exact Hzf|]. intros x0 Hx0 _.
      apply safex_dissociate_txn; [exact Hn|rewrite Hx0; exact Hzf].
  Qed.
End SafeX.

Lemma fp_inv_hide : forall F w, fp_inv F (hide w) <-> fp_inv F w.
Proof. intros. unfold fp_inv, hide. simpl. tauto. Qed.

(* the channel is no part of the invariant *)
Lemma fpx_inv_stable : forall F1 F2 c w, disjoint F1 F2 -> in_fpx F1 c ->
  fp_inv F1 w /\ fp_inv F2 w -> fp_inv F1 (fst (exec_h w c)) /\ fp_inv F2 (fst (exec_h w c)).
Proof.
  intros F1 F2 c w D Hc HI. rewrite exec_h_eq.
  destruct (in_fpx_cases F1 c Hc) as [K|[m ->]]; [exact (fp_inv_stable F1 F2 c w D K HI)|exact HI].
Qed.

Inductive xop :=
| XRealloc (id : wid) (req : res)
| XSetNode (n : name) (bypass : option bool) (mem : option (Z * bool)) (label : option nat)
| XDissociate (ids : list wid).

Definition x_script (o : xop) : cprog oerr :=
  match o with XRealloc id req => realloc id req | XSetNode n b m l => set_node n b m l | XDissociate ids => dissociate ids end.
Definition x_in (F : fp) (o : xop) : Prop :=
  match o with XRealloc id _ => f_ids F id | XSetNode n _ _ _ => f_nodes F n | XDissociate ids => forall i, In i ids -> f_ids F i end.

Lemma x_safe : forall F (I : world -> Prop) o, (forall w, I w -> fp_inv F w) -> x_in F o -> safe (in_fpx F) I (x_script o).
Proof.
  intros F I o HI Ho. destruct o; [apply (safe_realloc F)|apply (safe_set_node F)|apply safex_dissociate]; try assumption;
    apply in_fp_fpx.
Qed.

(* two operations of the family on disjoint footprints: EVERY interleaving at call granularity, any two fault
   positions, gives the results and the world of the sequential history, up to the shared message channel *)
Theorem xops_interleave : forall F1 F2 o1 o2 w, disjoint F1 F2 -> x_in F1 o1 -> x_in F2 o2 ->
  fp_inv F1 w -> fp_inv F2 w ->
  forall sched k1 k2,
    let '(w1, a, b) := run2 sched (x_script o1) k1 (x_script o2) k2 w in
    let '(w2, a', b') := run2 [] (x_script o1) k1 (x_script o2) k2 w in
    hide w1 = hide w2 /\ a = a' /\ b = b'.
Proof.
  intros F1 F2 o1 o2 w D H1 H2 HI1 HI2 sched k1 k2.
  set (I := fun w => fp_inv F1 w /\ fp_inv F2 w).
  pose proof (fun c w Hc => fpx_inv_stable F1 F2 c w D Hc : I w -> I (fst (exec_h w c))) as St1.
  assert (St2 : forall c w, in_fpx F2 c -> I w -> I (fst (exec_h w c))).
  { intros c w0 Hc HI. apply and_comm, fpx_inv_stable; [exact (disjoint_sym _ _ D)|exact Hc|apply and_comm; exact HI]. }
  pose proof (fun c1 c2 w Hc1 Hc2 (_ : I w) => fpx_calls_commute F1 F2 c1 c2 w D Hc1 Hc2) as Ind.
  assert (S1 : safex exec_h (in_fpx F1) I (x_script o1)) by (apply safex_exec_h, safe_x, x_safe; [intros w0 [A _]; exact A|exact H1]).
  assert (S2 : safex exec_h (in_fpx F2) I (x_script o2)) by (apply safex_exec_h, safe_x, x_safe; [intros w0 [_ B]; exact B|exact H2]).
  pose proof (interleave_is_sequentialx exec_h (in_fpx F1) (in_fpx F2) I St1 St2 Ind _ _ sched (x_script o1) (x_script o2) k1 k2
                (hide w) (conj (proj2 (fp_inv_hide F1 w) HI1) (proj2 (fp_inv_hide F2 w) HI2)) S1 S2) as E.
  rewrite !run2_hide in E.
  destruct (run2 sched (x_script o1) k1 (x_script o2) k2 w) as [[w1 a] b].
  destruct (run2 [] (x_script o1) k1 (x_script o2) k2 w) as [[w2 a'] b'].
  repeat split; congruence.
Qed.
