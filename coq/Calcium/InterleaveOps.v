(* The commutation theorem of Interleave.v instantiated for the operations that update
   records in place (realloc, set-node): their calls on disjoint footprints (workload ids, node names) commute, so
   every interleaving of two such operations, each with its own fault position, equals the sequential history.
   What a call has to do with its footprint is said once per call (exec_local): it reads the world only under the
   keys of the footprint and changes it by one update under one of them.  That two such calls commute
   (fpk_calls_commute) is then a fact about updates under different keys (perform_frame, perform_comm). *)
From Coq Require Import List Bool ZArith.
From Verif Require Import Base.Effects Calcium.World Calcium.Ops Calcium.OpsProofs Calcium.OpsProofs2 Calcium.InterleaveGen Calcium.Interleave.
Import ListNotations.
Local Open Scope Z_scope.

Record fp := mkFp { f_ids : wid -> Prop; f_nodes : name -> Prop }.

(* the calls of the operations that update records in place (realloc, set-node): reads, locks, plugin and store
   updates of the footprint's entities.  Appending calls (AddWorkload, engine create, WAL, channel sends) are not
   in the class: two appends commute only up to the order of the appended elements. *)
Definition in_fp (F : fp) (c : call) : Prop :=
  match c with
  | SGetWorkload i => f_ids F i
  | SGetWorkloads l => forall i, In i l -> f_ids F i
  | SGetNode n => f_nodes F n
  | SCreateLock _ | LLock _ | LUnlock _ => True
  | PGetInfo n => f_nodes F n
  | EUpdateResource i => f_ids F i
  | PRealloc n _ _ => f_nodes F n
  | PRollbackRealloc n _ => f_nodes F n
  | PSetCapacity n _ _ => f_nodes F n
  | PRestoreCapacity n _ => f_nodes F n
  | SUpdateWorkload x => f_ids F (w_id x) /\ f_nodes F (w_node x)
  | SUpdateNode x => f_nodes F (n_name x)
  | _ => False
  end.

Definition disjoint (F1 F2 : fp) : Prop :=
  (forall i, f_ids F1 i -> f_ids F2 i -> False) /\ (forall n, f_nodes F1 n -> f_nodes F2 n -> False).

(* the class extended with the keyed calls of dissociate: usage updates, record removal *)
Definition in_fpk (F : fp) (c : call) : Prop :=
  match c with
  | PSetUsage n _ _ => f_nodes F n
  | SRemoveWorkload x => f_ids F (w_id x)
  | _ => in_fp F c
  end.

Lemma in_fp_fpk : forall F c, in_fp F c -> in_fpk F c.
Proof. intros F c H. destruct c; try exact H; destruct H. Qed.

Lemma disjoint_sym : forall F1 F2, disjoint F1 F2 -> disjoint F2 F1.
Proof. intros F1 F2 [A B]. split; intros; [eapply A|eapply B]; eauto. Qed.

(* lists of records with a key: updates and removals under different keys do not see each other and commute.
   [upd_plug], [upd_node], [upd_wl], [del_wl] are instances (by computation). *)
Section Keyed.
  Variables (A K : Type) (key : A -> K) (eqb : K -> K -> bool).
  Hypothesis eqb_eq : forall a b, eqb a b = true <-> a = b.

  Definition upd_at (k : K) (f : A -> A) (l : list A) : list A := map (fun x => if eqb (key x) k then f x else x) l.
  Definition del_at (k : K) (l : list A) : list A := filter (fun x => negb (eqb (key x) k)) l.
  Definition keeps_key (k : K) (f : A -> A) : Prop := forall x, key x = k -> key (f x) = k.

  Lemma key_eqb_neq : forall a b, a <> b -> eqb a b = false.
  Proof. intros a b H. destruct (eqb a b) eqn:E; [apply eqb_eq in E; contradiction|reflexivity]. Qed.

  Lemma upd_key : forall k f y, keeps_key k f -> key (if eqb (key y) k then f y else y) = key y.
  Proof. intros k f y Hf. destruct (eqb (key y) k) eqn:E; [apply eqb_eq in E; rewrite (Hf y E), E|]; reflexivity. Qed.

  Lemma find_upd_other : forall k f l k', keeps_key k f -> k <> k' ->
    find (fun x => eqb (key x) k') (upd_at k f l) = find (fun x => eqb (key x) k') l.
  Proof.
    intros k f l k' Hf H. induction l as [|y t IH]; [reflexivity|]. cbn [upd_at map find]. rewrite (upd_key k f y Hf).
    destruct (eqb (key y) k) eqn:E; [|fold (upd_at k f t); rewrite IH; reflexivity].
    apply eqb_eq in E. rewrite E, (key_eqb_neq _ _ H). exact IH.
  Qed.

  Lemma find_del_other : forall k l k', k <> k' ->
    find (fun x => eqb (key x) k') (del_at k l) = find (fun x => eqb (key x) k') l.
  Proof.
    intros k l k' H. induction l as [|y t IH]; [reflexivity|]. cbn [del_at filter find].
    destruct (eqb (key y) k) eqn:E; cbn [negb find].
    - apply eqb_eq in E. rewrite E, (key_eqb_neq _ _ H). exact IH.
    - fold (del_at k t). rewrite IH. reflexivity.
  Qed.

  Lemma upd_upd_comm : forall k1 k2 f g l, k1 <> k2 -> keeps_key k1 f -> keeps_key k2 g ->
    upd_at k1 f (upd_at k2 g l) = upd_at k2 g (upd_at k1 f l).
  Proof.
    intros k1 k2 f g l H Hf Hg. unfold upd_at. rewrite !map_map. apply map_ext. intros y.
    destruct (eqb (key y) k2) eqn:E2, (eqb (key y) k1) eqn:E1; rewrite ?E1, ?E2; try reflexivity.
    - apply eqb_eq in E1, E2. congruence.
    - apply eqb_eq in E2. rewrite (Hg y E2), key_eqb_neq by congruence. reflexivity.
    - apply eqb_eq in E1. rewrite (Hf y E1), key_eqb_neq by congruence. reflexivity.
  Qed.

  Lemma del_upd_comm : forall a k f l, keeps_key k f -> del_at a (upd_at k f l) = upd_at k f (del_at a l).
  Proof.
    intros a k f l Hf. induction l as [|y t IH]; [reflexivity|]. cbn [upd_at del_at map filter]. rewrite (upd_key k f y Hf).
    fold (upd_at k f t) (del_at a (upd_at k f t)) (del_at a t). rewrite IH. destruct (eqb (key y) a); reflexivity.
  Qed.
End Keyed.

Lemma filter_comm : forall A (p q : A -> bool) l, filter p (filter q l) = filter q (filter p l).
Proof.
  intros A p q l. induction l as [|y t IH]; [reflexivity|]. cbn [filter].
  destruct (q y) eqn:Eq, (p y) eqn:Ep; cbn [filter]; rewrite ?Ep, ?Eq, IH; reflexivity.
Qed.

(* what a call does to the world: nothing, or one update under one key *)
Inductive act :=
| ANone
| APlug (n : name) (f : plug -> plug)
| ANode (x : node)
| AWl (x : wl)
| ADel (i : wid).

Definition perform (a : act) (w : world) : world :=
  match a with
  | ANone => w
  | APlug n f => set_plugs w (upd_plug n f (plugs w))
  | ANode x => set_nodes w (upd_node x (nodes w))
  | AWl x => set_wls w (upd_wl x (wls w))
  | ADel i => set_wls w (del_wl i (wls w))
  end.

Definition act_in (F : fp) (a : act) : Prop :=
  match a with
  | ANone => True
  | APlug n f => f_nodes F n /\ forall p, p_node (f p) = p_node p
  | ANode x => f_nodes F (n_name x)
  | AWl x => f_ids F (w_id x) /\ f_nodes F (w_node x)
  | ADel i => f_ids F i
  end.

Definition agree (F : fp) (w w' : world) : Prop :=
  (forall n, f_nodes F n -> find_node w' n = find_node w n) /\
  (forall n, f_nodes F n -> find_plug w' n = find_plug w n) /\
  (forall i, f_ids F i -> find_wl w' i = find_wl w i) /\
  (forall i, f_ids F i -> find_cont w' i = find_cont w i).

Lemma agree_refl : forall F w, agree F w w.
Proof. repeat split. Qed.

Lemma get_wls_agree : forall w w' l, (forall i, In i l -> find_wl w' i = find_wl w i) ->
  forallb (fun id => match find_wl w' id with Some _ => true | None => false end) l =
  forallb (fun id => match find_wl w id with Some _ => true | None => false end) l /\
  flat_map (fun id => match find_wl w' id with Some x => [x] | None => [] end) l =
  flat_map (fun id => match find_wl w id with Some x => [x] | None => [] end) l.
Proof.
  intros w w' l H. induction l as [|i t IH]; [auto|]. cbn [forallb flat_map].
  rewrite (H i (or_introl eq_refl)). destruct IH as [-> ->]; [intros j Hj; apply H; right; exact Hj|]. auto.
Qed.

(* The normal form of a call with footprint F, at w: an action [a] inside F, chosen on the strength of the entries
   of w under the keys of F, which is what the call does, with the reply it gives at w, in every world that holds
   the same entries there. *)
Definition local_at (F : fp) (c : call) (w : world) : Prop :=
  exists a, (forall w', agree F w w' -> exec w' c = (perform a w', snd (exec w c))) /\ act_in F a.

(* in a world that agrees with w on the footprint, the call finds the entries it finds in w *)
Local Ltac agreeing := intros w' (An & Ap & Aw & Ac); rewrite ?An, ?Ap, ?Aw, ?Ac by assumption.
(* the call looks up the entry e of w and changes nothing *)
Local Ltac reads e := exists ANone; split; [agreeing; destruct e; reflexivity|exact Logic.I].
(* the call looks up the entry e of w: without it it changes nothing, with it it performs a; what is left to show
   is that a is inside F *)
Local Tactic Notation "updates" constr(e) uconstr(a) :=
  let E := fresh "E" in
  destruct e eqn:E; [eexists a|exists ANone]; (split; [agreeing; rewrite E; reflexivity|]); [|exact Logic.I].

Lemma exec_local : forall F c w, in_fpk F c -> local_at F c w.
Proof.
  intros F c w H. unfold local_at. destruct c; try contradiction; cbn [in_fpk in_fp] in H; cbn [exec]; cbv zeta.
  - (* SGetNode *) reads (find_node w n).
  - (* SUpdateNode *) exists (ANode x). split; [reflexivity|exact H].
  - (* SUpdateWorkload *) pose proof (proj1 H). updates (find_wl w (w_id x)) (AWl x). exact H.
  - (* SRemoveWorkload *) exists (ADel (w_id x)). split; [reflexivity|exact H].
  - (* SGetWorkload *) reads (find_wl w id).
  - (* SGetWorkloads *) exists ANone. split; [|exact Logic.I]. intros w' (_ & _ & Aw & _).
    destruct (get_wls_agree w w' ids) as [-> ->]; [intros i Hi; apply Aw, H, Hi|]. destruct (forallb _ ids); reflexivity.
  - (* SCreateLock *) exists ANone. split; [reflexivity|exact Logic.I].
  - (* LLock *) exists ANone. split; [reflexivity|exact Logic.I].
  - (* LUnlock *) exists ANone. split; [reflexivity|exact Logic.I].
  - (* PSetCapacity *) destruct req as [m|]; [|exists ANone; split; [reflexivity|exact Logic.I]].
    updates (find_plug w n) (APlug n _). split; [exact H|reflexivity].
  - (* PRestoreCapacity *) updates (find_plug w n) (APlug n _). split; [exact H|reflexivity].
  - (* PSetUsage *) updates (find_plug w n) (APlug n _). split; [exact H|destruct incr; reflexivity].
  - (* PGetInfo *) reads (find_plug w n).
  - (* PRealloc: the tests are on the request and on the entry found *)
    destruct (find_plug w n) as [p|] eqn:E; [|exists ANone; split; [agreeing; rewrite E; reflexivity|exact Logic.I]].
    destruct ((fst (radd origin req) <? 0) || (snd (radd origin req) <? 0)).
    + exists ANone. split; [agreeing; rewrite E; reflexivity|exact Logic.I].
    + destruct (fits (sub_use origin p) 1 (radd origin req)) eqn:E2.
      * eexists (APlug n _). split; [agreeing; rewrite E; cbv iota beta; rewrite E2; reflexivity|]. split; [exact H|reflexivity].
      * exists ANone. split; [agreeing; rewrite E; cbv iota beta; rewrite E2; reflexivity|exact Logic.I].
  - (* PRollbackRealloc *) updates (find_plug w n) (APlug n _). split; [exact H|reflexivity].
  - (* EUpdateResource *) reads (find_cont w id).
Qed.

Lemma perform_frame : forall F1 F2 a w, disjoint F1 F2 -> act_in F1 a -> agree F2 w (perform a w).
Proof.
  intros F1 F2 a w [Dids Dnodes] Ha. destruct a; cbn in Ha; try apply agree_refl; repeat split; try reflexivity.
  - intros m Hm. apply (find_upd_other plug name p_node Nat.eqb Nat.eqb_eq n f); [intros y <-; apply Ha|].
    intros ->. exact (Dnodes m (proj1 Ha) Hm).
  - intros m Hm. apply (find_upd_other node name n_name Nat.eqb Nat.eqb_eq (n_name x) (fun _ => x)); [intros _ _; reflexivity|].
    intros E. apply (Dnodes m); [rewrite <- E; exact Ha|exact Hm].
  - intros j Hj. apply (find_upd_other wl wid w_id wid_eqb wid_eqb_eq (w_id x) (fun _ => x)); [intros _ _; reflexivity|].
    intros E. apply (Dids j); [rewrite <- E; apply Ha|exact Hj].
  - intros j Hj. apply (find_del_other wl wid w_id wid_eqb wid_eqb_eq). intros E. apply (Dids j); [rewrite <- E; apply Ha|exact Hj].
Qed.

(* updates of different components commute by computation, those of one component because their keys differ *)
Lemma perform_comm : forall F1 F2 a1 a2 w, disjoint F1 F2 -> act_in F1 a1 -> act_in F2 a2 ->
  perform a1 (perform a2 w) = perform a2 (perform a1 w).
Proof.
  intros F1 F2 a1 a2 w [Dids Dnodes] H1 H2.
  destruct a1, a2; try reflexivity; cbn in H1, H2; unfold perform, set_plugs, set_nodes, set_wls;
    cbn [pods nodes wls markers plugs conts walq wal_seq out strict_remove script]; f_equal.
  - apply (upd_upd_comm plug name p_node Nat.eqb Nat.eqb_eq); [|intros y <-; apply H1|intros y <-; apply H2].
    intros ->. exact (Dnodes _ (proj1 H1) (proj1 H2)).
  - apply (upd_upd_comm node name n_name Nat.eqb Nat.eqb_eq _ _ (fun _ => x) (fun _ => x0)); [|intros _ _; reflexivity..].
    intros E. apply (Dnodes (n_name x0)); [rewrite <- E; exact H1|exact H2].
  - apply (upd_upd_comm wl wid w_id wid_eqb wid_eqb_eq _ _ (fun _ => x) (fun _ => x0)); [|intros _ _; reflexivity..].
    intros E. apply (Dids (w_id x0)); [rewrite <- E; apply H1|apply H2].
  - symmetry. apply (del_upd_comm wl wid w_id wid_eqb wid_eqb_eq i (w_id x) (fun _ => x)). intros _ _; reflexivity.
  - apply (del_upd_comm wl wid w_id wid_eqb wid_eqb_eq i (w_id x) (fun _ => x)). intros _ _; reflexivity.
  - apply filter_comm.
Qed.

(* Two calls with disjoint footprints commute: each does in the world the other leaves what it does in w, since the
   other's update is not seen under its keys, and the two updates commute. *)
Theorem fpk_calls_commute : forall F1 F2 c1 c2 w, disjoint F1 F2 -> in_fpk F1 c1 -> in_fpk F2 c2 -> commute exec c1 c2 w.
Proof.
  intros F1 F2 c1 c2 w D H1 H2. unfold commute.
  destruct (exec_local F1 c1 w H1) as (a1 & N1 & A1). destruct (exec_local F2 c2 w H2) as (a2 & N2 & A2).
  pose proof (N1 w (agree_refl _ _)) as E1. pose proof (N2 w (agree_refl _ _)) as E2.
  rewrite E1, E2. cbn [fst].
  rewrite (N2 (perform a1 w)) by exact (perform_frame F1 F2 a1 w D A1).
  rewrite (N1 (perform a2 w)) by exact (perform_frame F2 F1 a2 w (disjoint_sym _ _ D) A2).
  rewrite E1, E2. split; [symmetry; exact (perform_comm F1 F2 a1 a2 w D A1 A2)|split; reflexivity].
Qed.

Corollary fp_calls_commute : forall F1 F2 c1 c2 w, disjoint F1 F2 -> in_fp F1 c1 -> in_fp F2 c2 -> commute exec c1 c2 w.
Proof. intros F1 F2 c1 c2 w D H1 H2. apply (fpk_calls_commute F1 F2); [exact D|apply in_fp_fpk; exact H1|apply in_fp_fpk; exact H2]. Qed.

Definition fp_inv (F : fp) (w : world) : Prop :=
  forall x, In x (wls w) -> f_ids F (w_id x) -> f_nodes F (w_node x).

Lemma in_upd_wl_or : forall x' l y, In y (upd_wl x' l) -> In y l \/ y = x'.
Proof.
  intros x' l y H. unfold upd_wl in H. apply in_map_iff in H. destruct H as [z [Hz Hin]].
  destruct (wid_eqb (w_id z) (w_id x')); subst; auto.
Qed.

Lemma fp_inv_perform : forall F1 F2 a w, disjoint F1 F2 -> act_in F1 a ->
  fp_inv F1 w /\ fp_inv F2 w -> fp_inv F1 (perform a w) /\ fp_inv F2 (perform a w).
Proof.
  intros F1 F2 a w [Dids _] Ha [H1 H2]. destruct a; try (split; assumption); cbn in Ha.
  - (* the new record is on a node of F1 and has no id of F2 *)
    split; intros y Hy Hyid; apply in_upd_wl_or in Hy; destruct Hy as [Hy| ->];
      [apply H1; assumption|apply Ha|apply H2; assumption|destruct (Dids _ (proj1 Ha) Hyid)].
  - split; intros y Hy; apply filter_In in Hy; [apply H1|apply H2]; apply Hy.
Qed.

Lemma fp_inv_stable : forall F1 F2 c w, disjoint F1 F2 -> in_fpk F1 c ->
  fp_inv F1 w /\ fp_inv F2 w -> fp_inv F1 (fst (exec w c)) /\ fp_inv F2 (fst (exec w c)).
Proof.
  intros F1 F2 c w D Hc HI. destruct (exec_local F1 c w Hc) as (a & N & A).
  rewrite (N w (agree_refl _ _)). exact (fp_inv_perform F1 F2 a w D A HI).
Qed.

(* [safe] with a postcondition on the result, so that the rest of a script can use what a read returned *)
Inductive safeq {A} (P : call -> Prop) (I : world -> Prop) (Q : A -> Prop) : cprog A -> Prop :=
| sq_ret : forall a, Q a -> safeq P I Q (Ret a)
| sq_do : forall c q, P c ->
    (forall w, I w -> safeq P I Q (q (snd (exec w c)))) ->
    (is_faultable c = true -> safeq P I Q (q (fail_reply c))) ->
    safeq P I Q (Do c q).

Lemma safeq_safe : forall A P I Q (p : cprog A), safeq P I Q p -> safe P I p.
Proof. intros A P I Q p H. induction H; constructor; auto. Qed.

Lemma safeq_bind : forall A B P I (Q : A -> Prop) (R : B -> Prop) (p : cprog A) (f : A -> cprog B),
  safeq P I Q p -> (forall a, Q a -> safeq P I R (f a)) -> safeq P I R (bind p f).
Proof.
  intros A B P I Q R p f H Hf. induction H as [a Ha|c q Hc Hq IHq Hfl IHfl]; cbn [bind].
  - apply Hf. exact Ha.
  - constructor; auto.
Qed.

Lemma safeq_weak : forall A P I (Q Q' : A -> Prop) (p : cprog A), (forall a, Q a -> Q' a) -> safeq P I Q p -> safeq P I Q' p.
Proof. intros A P I Q Q' p HQ H. induction H; constructor; auto. Qed.

Lemma safeq_call1 : forall (P : call -> Prop) (I : world -> Prop) (Q : reply -> Prop) c, P c ->
  (forall w, I w -> Q (snd (exec w c))) -> (is_faultable c = true -> Q (fail_reply c)) -> safeq P I Q (call1 c).
Proof. intros P I Q c Hc Hq Hf. unfold call1. constructor; [exact Hc| |]; intros; constructor; auto. Qed.

Lemma safeq_ret_any : forall A (P : call -> Prop) (I : world -> Prop) (a : A), safeq P I (fun _ => True) (Ret a).
Proof. intros. constructor. exact Logic.I. Qed.

Lemma safeq_bind_any : forall A B (P : call -> Prop) (I : world -> Prop) (p : cprog A) (f : A -> cprog B),
  safeq P I (fun _ => True) p -> (forall a, safeq P I (fun _ => True) (f a)) -> safeq P I (fun _ => True) (bind p f).
Proof. intros A B P I p f Hp Hf. eapply safeq_bind; [exact Hp|]. intros a _. apply Hf. Qed.

Lemma safeq_then_ret : forall A B (P : call -> Prop) (I : world -> Prop) (p : cprog A) (g : A -> B),
  safeq P I (fun _ => True) p -> safeq P I (fun _ => True) (bind p (fun a => Ret (g a))).
Proof. intros A B P I p g Hp. apply safeq_bind_any; [exact Hp|]. intros a. apply safeq_ret_any. Qed.

Lemma safeq_call1_any : forall (P : call -> Prop) (I : world -> Prop) c, P c -> safeq P I (fun _ => True) (call1 c).
Proof. intros. apply safeq_call1; auto. Qed.

Lemma safeq_doc : forall (P : call -> Prop) (I : world -> Prop) c, P c -> safeq P I (fun _ => True) (doc c).
Proof. intros P I c Hc. apply safeq_then_ret, safeq_call1_any, Hc. Qed.

Lemma safeq_ign : forall (P : call -> Prop) (I : world -> Prop) (p : cprog oerr), safeq P I (fun _ => True) p -> safeq P I (fun _ => True) (ign p).
Proof. intros P I p H. apply safeq_then_ret, H. Qed.

Lemma safeq_for_all : forall (P : call -> Prop) (I : world -> Prop) X (xs : list X) (body : X -> cprog unit),
  (forall x, In x xs -> safeq P I (fun _ => True) (body x)) -> safeq P I (fun _ => True) (for_all xs body).
Proof.
  intros P I X xs body H. induction xs as [|x t IH]; cbn [for_all]; [apply safeq_ret_any|].
  apply safeq_bind_any; [apply H; left; reflexivity|]. intros _. apply IH. intros y Hy. apply H. right; exact Hy.
Qed.

Lemma safeq_txn : forall E (P : call -> Prop) (I : world -> Prop) (cond thn : cprog (option E)) rb,
  safeq P I (fun _ => True) cond -> safeq P I (fun _ => True) thn -> (forall b, safeq P I (fun _ => True) (rb b)) ->
  safeq P I (fun _ => True) (txn cond (Some thn) (Some rb)).
Proof.
  intros E P I cond thn rb Hc Ht Hr. unfold txn. apply safeq_bind_any; [exact Hc|]. intros [e|].
  - apply safeq_then_ret, Hr.
  - apply safeq_bind_any; [exact Ht|]. intros [e|]; [|apply safeq_ret_any].
    apply safeq_then_ret, Hr.
Qed.

Lemma safeq_txn_s : forall S E (P : call -> Prop) (I : world -> Prop) (s0 : S) (cond thn : S -> cprog (S * option E)) rb,
  safeq P I (fun _ => True) (cond s0) -> (forall s, safeq P I (fun _ => True) (thn s)) ->
  (forall s b, safeq P I (fun _ => True) (rb s b)) ->
  safeq P I (fun _ => True) (txn_s s0 cond (Some thn) (Some rb)).
Proof.
  intros S E P I s0 cond thn rb Hc Ht Hr. unfold txn_s. apply safeq_bind_any; [exact Hc|]. intros c. destruct (snd c).
  - apply safeq_then_ret, Hr.
  - apply safeq_bind_any; [apply Ht|]. intros r. destruct (snd r); [|apply safeq_ret_any].
    apply safeq_then_ret, Hr.
Qed.

(* the scripts of realloc and set-node make calls of the footprint only; P is any class that contains them *)
Section Safe.
  Variable F : fp.
  Variables (P : call -> Prop) (I : world -> Prop).
  Hypothesis P_fp : forall c, in_fp F c -> P c.
  Hypothesis I_fp : forall w, I w -> fp_inv F w.

  Lemma found_in_fp : forall w id x, I w -> f_ids F id -> find_wl w id = Some x -> w_id x = id /\ f_nodes F (w_node x).
  Proof.
    intros w id x HI Hid E. destruct (find_wl_id _ _ _ E) as [Hx Hin]. split; [exact Hx|].
    apply (I_fp w HI x Hin). rewrite Hx. exact Hid.
  Qed.

  Lemma safe_acquire : forall ks held, safeq P I (fun _ => True) (acquire ks held).
  Proof.
    induction ks as [|k rest IH]; intros held; cbn [acquire]; [apply safeq_ret_any|].
    apply safeq_bind_any; [apply safeq_doc, P_fp; exact Logic.I|]. intros [e|]; [apply safeq_ret_any|].
    apply safeq_bind_any; [apply safeq_doc, P_fp; exact Logic.I|]. intros [e|]; [|apply IH].
    apply safeq_then_ret, safeq_ign, safeq_doc, P_fp; exact Logic.I.
  Qed.

  Lemma safe_release : forall held, safeq P I (fun _ => True) (release held).
  Proof. intros held. apply safeq_for_all. intros k _. apply safeq_ign, safeq_doc, P_fp. exact Logic.I. Qed.

  Lemma safe_locked : forall A ks (on_err : err -> A) (body : cprog A), safeq P I (fun _ => True) body ->
    safeq P I (fun _ => True)
      (a <- acquire ks [] ;;
       match fst a with
       | Some e => release (snd a) ;;; Ret (on_err e)
       | None => x <- body ;; release (snd a) ;;; Ret x
       end).
  Proof.
    intros A ks on_err body Hb. apply safeq_bind_any; [apply safe_acquire|]. intros a. destruct (fst a).
    - apply safeq_then_ret, safe_release.
    - apply safeq_bind_any; [exact Hb|]. intros x. apply safeq_then_ret, safe_release.
  Qed.

  Lemma safe_with_node : forall n (body : node -> cprog oerr), f_nodes F n ->
    (forall x, n_name x = n -> safeq P I (fun _ => True) (body x)) ->
    safeq P I (fun _ => True) (with_node_pod_locked n body).
  Proof.
    intros n body Hn Hb. unfold with_node_pod_locked, with_nodes_pod_locked. cbn [filter_nodes get_nodes].
    apply safeq_bind_any.
    - apply safeq_bind_any; [apply safeq_call1_any, P_fp; exact Hn|]. intros r. destruct r; apply safeq_ret_any.
    - intros [e|ns]; [apply safeq_ret_any|]. apply safe_locked.
      destruct (find (fun x => Nat.eqb (n_name x) n) ns) as [x|] eqn:E; [|apply safeq_ret_any].
      apply Hb. apply find_some in E. destruct E as [_ E]. apply Nat.eqb_eq in E. exact E.
  Qed.

  Lemma safe_with_workload : forall id (body : wl -> cprog oerr), f_ids F id ->
    (forall x, w_id x = id -> f_nodes F (w_node x) -> safeq P I (fun _ => True) (body x)) ->
    safeq P I (fun _ => True) (with_workload_locked id body).
  Proof.
    intros id body Hid Hb. unfold with_workload_locked.
    eapply safeq_bind.
    - apply (safeq_call1 P I (fun r => match r with RWls (x :: _) => w_id x = id /\ f_nodes F (w_node x) | _ => True end)).
      + apply P_fp. simpl. intros i [<-|[]]. exact Hid.
      + intros w HI. cbn [exec forallb flat_map]. destruct (find_wl w id) as [x|] eqn:E; cbn; [|exact Logic.I].
        exact (found_in_fp w id x HI Hid E).
      + intros _. exact Logic.I.
    - intros r Hr. destruct r; try apply safeq_ret_any. destruct l as [|x t]; [apply safeq_ret_any|]. destruct Hr as [Hx Hn].
      apply safe_locked, Hb; assumption.
  Qed.

  Lemma safe_do_realloc : forall x origin req,
    f_ids F (w_id x) -> f_nodes F (w_node x) -> f_ids F (w_id origin) -> f_nodes F (w_node origin) ->
    safeq P I (fun _ => True) (do_realloc x origin req).
  Proof.
    intros x origin req Hx Hxn Ho Hon. unfold do_realloc.
    apply safeq_then_ret, safeq_txn_s.
    - apply safeq_bind_any; [apply safeq_call1_any, P_fp; exact Hxn|]. intros r. destruct r; try apply safeq_ret_any.
      apply safeq_bind_any; [apply safeq_doc, P_fp; split; assumption|]. intros [e|]; [|apply safeq_ret_any].
      apply safeq_then_ret, safeq_ign, safeq_doc, P_fp; exact Hxn.
    - intros s. apply safeq_then_ret, safeq_doc, P_fp; exact Hx.
    - intros s [|]; [apply safeq_ret_any|].
      apply safeq_bind_any; [apply safeq_ign, safeq_doc, P_fp; exact Hxn|]. intros _. apply safeq_doc, P_fp. split; assumption.
  Qed.

  Theorem safe_realloc : forall id req, f_ids F id -> safe P I (realloc id req).
  Proof.
    intros id req Hid. apply (safeq_safe _ P I (fun _ => True)). unfold realloc.
    eapply safeq_bind.
    - apply (safeq_call1 P I (fun r => match r with RWl x => w_id x = id /\ f_nodes F (w_node x) | _ => True end)).
      + apply P_fp. exact Hid.
      + intros w HI. cbn [exec]. destruct (find_wl w id) as [x|] eqn:E; cbn; [|exact Logic.I].
        exact (found_in_fp w id x HI Hid E).
      + intros _. exact Logic.I.
    - intros r Hr. destruct r; try apply safeq_ret_any. destruct Hr as [Ho Hon].
      apply safe_with_node; [exact Hon|]. intros _ _.
      apply safe_with_workload; [exact Hid|]. intros x0 Hx0 Hx0n.
      apply safe_do_realloc; try assumption; [rewrite Hx0|rewrite Ho]; exact Hid.
  Qed.

  Theorem safe_set_node : forall n bypass mem label, f_nodes F n -> safe P I (set_node n bypass mem label).
  Proof.
    intros n bypass mem label Hn. apply (safeq_safe _ P I (fun _ => True)). unfold set_node.
    apply safe_with_node; [exact Hn|]. intros x Hx.
    apply safeq_bind_any; [apply safeq_doc, P_fp; exact Hn|]. intros [e|]; [apply safeq_ret_any|].
    apply safeq_then_ret, safeq_txn_s.
    - destruct mem as [[m delta]|]; [|apply safeq_ret_any].
      apply safeq_bind_any; [apply safeq_call1_any, P_fp; exact Hn|]. intros r. destruct r; apply safeq_ret_any.
    - intros s. apply safeq_bind_any; [apply safeq_doc, P_fp; cbn; rewrite Hx; exact Hn|]. intros [e|]; [apply safeq_ret_any|].
      apply safeq_then_ret, safeq_ign, safeq_doc, P_fp; exact Hn.
    - intros s [|]; [apply safeq_ret_any|]. destruct mem as [[m delta]|]; [|apply safeq_ret_any].
      destruct s; [apply safeq_doc, P_fp; exact Hn|apply safeq_ret_any].
  Qed.
End Safe.

Inductive ipop :=
| IRealloc (id : wid) (req : res)
| ISetNode (n : name) (bypass : option bool) (mem : option (Z * bool)) (label : option nat).

Definition ip_script (o : ipop) : cprog oerr :=
  match o with IRealloc id req => realloc id req | ISetNode n b m l => set_node n b m l end.
Definition ip_in (F : fp) (o : ipop) : Prop :=
  match o with IRealloc id _ => f_ids F id | ISetNode n _ _ _ => f_nodes F n end.

Lemma ip_safe : forall F (P : call -> Prop) (I : world -> Prop) o, (forall c, in_fp F c -> P c) -> (forall w, I w -> fp_inv F w) ->
  ip_in F o -> safe P I (ip_script o).
Proof. intros F P I o HP HI Ho. destruct o; [apply (safe_realloc F)|apply (safe_set_node F)]; assumption. Qed.

Theorem inplace_ops_interleave : forall F1 F2 o1 o2 w, disjoint F1 F2 -> ip_in F1 o1 -> ip_in F2 o2 ->
  fp_inv F1 w -> fp_inv F2 w ->
  (forall sched k1 k2, run2 sched (ip_script o1) k1 (ip_script o2) k2 w = run2 [] (ip_script o1) k1 (ip_script o2) k2 w) /\
  (forall k1 k2, run2 [] (ip_script o1) k1 (ip_script o2) k2 w =
                 (let '(w', b, a) := run2 [] (ip_script o2) k2 (ip_script o1) k1 w in (w', a, b))).
Proof.
  intros F1 F2 o1 o2 w D H1 H2 HI1 HI2.
  set (I := fun w => fp_inv F1 w /\ fp_inv F2 w).
  pose proof (fun c w Hc => fp_inv_stable F1 F2 c w D Hc : I w -> I (fst (exec w c))) as St1.
  assert (St2 : forall c w, in_fpk F2 c -> I w -> I (fst (exec w c))).
  { intros c w0 Hc HI. apply and_comm, fp_inv_stable; [exact (disjoint_sym _ _ D)|exact Hc|apply and_comm; exact HI]. }
  pose proof (fun c1 c2 w Hc1 Hc2 (_ : I w) => fpk_calls_commute F1 F2 c1 c2 w D Hc1 Hc2) as Ind.
  assert (S1 : safe (in_fpk F1) I (ip_script o1)) by (apply (ip_safe F1); [apply in_fp_fpk|intros w0 [A _]; exact A|exact H1]).
  assert (S2 : safe (in_fpk F2) I (ip_script o2)) by (apply (ip_safe F2); [apply in_fp_fpk|intros w0 [_ B]; exact B|exact H2]).
  split.
  - intros sched k1 k2. apply (interleave_is_sequential (in_fpk F1) (in_fpk F2) I St1 St2 Ind); [split; assumption|exact S1|exact S2].
  - intros k1 k2. apply (sequential_orders_agree (in_fpk F1) (in_fpk F2) I St1 St2 Ind); [exact S2|split; assumption|exact S1].
Qed.

(* the common case: two reallocs of workloads recorded on different nodes *)
Corollary realloc_pair_interleave : forall id1 id2 n1 n2 req1 req2 w, id1 <> id2 -> n1 <> n2 ->
  (forall x, In x (wls w) -> w_id x = id1 -> w_node x = n1) ->
  (forall x, In x (wls w) -> w_id x = id2 -> w_node x = n2) ->
  forall sched k1 k2,
    run2 sched (realloc id1 req1) k1 (realloc id2 req2) k2 w = run2 [] (realloc id1 req1) k1 (realloc id2 req2) k2 w.
Proof.
  intros id1 id2 n1 n2 req1 req2 w Hid Hn H1 H2 sched k1 k2.
  destruct (inplace_ops_interleave (mkFp (eq id1) (eq n1)) (mkFp (eq id2) (eq n2)) (IRealloc id1 req1) (IRealloc id2 req2) w) as [A _].
  - split; simpl; intros; congruence.
  - reflexivity.
  - reflexivity.
  - intros x Hx Hxid. simpl in *. symmetry. apply H1; auto.
  - intros x Hx Hxid. simpl in *. symmetry. apply H2; auto.
  - apply A.
Qed.
