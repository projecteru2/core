(* Calcium/DeployPathCaps.v — the capacity the cpumem plugin computes for a node is a
   Go int (<= MaxInt): discharges the hypothesis [caps_int64] of Calcium/DeployPathProofs.v.

   memory-only requests: capacity is 0, MaxInt or availableMemory / request;
   bound requests: capacity is the number of CPU plans; every plan uses at least one
   piece of some core with free pieces (get_cpu_plans_content), all plans together
   never use more than the free pieces of a core, hence #plans <= total free pieces. *)
From Coq Require Import String Ascii.
From Coq Require Import List ZArith Lia Permutation.
From Verif Require Import Base.GoInt Base.GoFloat Cpumem.Types Cpumem.Schedule Cpumem.Calc
  Cpumem.SchedProofsMem Cpumem.SchedProofsFit Cpumem.SchedProofsFit2 Cpumem.SchedProofsTop.
(* not imported: its [plan] (Cpumem/Node.v) would hide Schedule.plan in the statements below *)
From Verif Require Cpumem.BookProofs.
Import ListNotations.
Local Open Scope Z_scope.

Definition ksum (f : string -> Z) (ks : list string) : Z := fold_right (fun k s => f k + s) 0 ks.

Lemma ksum_ge_member f ks k : (forall id, 0 <= f id) -> In k ks -> f k <= ksum f ks.
Proof.
  intros Hnn. induction ks as [|h t IH]; simpl; [tauto|].
  assert (0 <= ksum f t) by (clear -Hnn; induction t; simpl; [lia|specialize (Hnn a); lia]).
  intros [->|Hin]; [lia|]. specialize (IH Hin). specialize (Hnn h). lia.
Qed.

Lemma ksum_add f g ks : ksum (fun id => f id + g id) ks = ksum f ks + ksum g ks.
Proof. induction ks; simpl; lia. Qed.

Lemma ksum_le f g ks : (forall id, In id ks -> f id <= g id) -> ksum f ks <= ksum g ks.
Proof.
  induction ks as [|h t IH]; simpl; intro H; [lia|].
  pose proof (H h (or_introl eq_refl)). pose proof (IH (fun id Hid => H id (or_intror Hid))). lia.
Qed.

Lemma used_bounds (ps : list plan) k : (forall q, In q ps -> 0 <= lookup 0 q k) ->
  0 <= used ps k /\ forall p, In p ps -> lookup 0 p k <= used ps k.
Proof.
  induction ps as [|q t IH]; intro H; simpl; [split; [lia | intros p []]|].
  destruct IH as [I0 I1]; [intros r Hr; apply H; right; exact Hr|].
  pose proof (H q (or_introl eq_refl)). split; [lia|].
  intros p [<-|Hp]; [lia | specialize (I1 p Hp); lia].
Qed.

Lemma count_le_used (K : list string) : forall ps : list plan,
  (forall p, In p ps -> (forall id, 0 <= lookup 0 p id) /\ exists k, In k K /\ 1 <= lookup 0 p k) ->
  Z.of_nat (length ps) <= ksum (used ps) K.
Proof.
  induction ps as [|p t IH]; intro H; [simpl; clear; induction K; simpl; lia|].
  destruct (H p (or_introl eq_refl)) as (Hnn & k & Hk & H1).
  specialize (IH (fun q Hq => H q (or_intror Hq))).
  change (used (p :: t)) with (fun id => lookup 0 p id + used t id).
  rewrite ksum_add. pose proof (ksum_ge_member (lookup 0 p) K k Hnn Hk).
  cbn [length]. lia.
Qed.

Lemma mweight_ksum_aux (m : smap Z) : forall l : smap Z,
  (forall kv, In kv l -> lookup 0 m (fst kv) = snd kv) ->
  fold_right (fun kv s => Z.max 0 (snd kv) + s) 0 l = ksum (fun id => Z.max 0 (lookup 0 m id)) (keys l).
Proof.
  induction l as [|[k v] t IH]; intro Hl; [reflexivity|].
  cbn [fold_right keys map ksum fst snd]. pose proof (Hl (k, v) (or_introl eq_refl)) as E. cbn [fst snd] in E.
  rewrite E. f_equal.
  apply IH. intros kv Hin. apply Hl. right; exact Hin.
Qed.

Lemma mweight_ksum (m : smap Z) : NoDup (keys m) ->
  mweight m = ksum (fun id => Z.max 0 (lookup 0 m id)) (keys m).
Proof.
  intro Hnd. unfold mweight. apply mweight_ksum_aux.
  intros [k v] Hin. simpl. apply BookProofs.lookup_of_opt. apply BookProofs.lookup_opt_entry; auto.
Qed.

Section Caps.
Variable sortf : list keyed -> outcome (list keyed).
Hypothesis sortf_perm : forall l, exists l', sortf l = Ok l' /\ Permutation l' l.

Definition node_int64 (info : node_info) : Prop :=
  nr_mem (get_available_nofloat info) <= max_int /\
  mweight (nr_cpumap (get_available_nofloat info)) <= max_int.

Lemma plan_has_piece base cpu p : 0 < base -> any_shape base cpu p ->
  (forall id, 0 <= lookup 0 p id) /\ exists k, In k (keys p) /\ 1 <= lookup 0 p k.
Proof.
  intros Hb (IDS & Hpr & p0 & fr & E & Hnd & Hlen & Hall & Hfr & _).
  set (pr := pieces_request base cpu) in *.
  assert (Hpos : forall kv, In kv p -> 1 <= snd kv).
  { intros kv Hin. rewrite E in Hin. apply in_app_or in Hin. destruct Hin as [Hin|Hin].
    - rewrite Forall_forall in Hall. rewrite (Hall kv Hin). lia.
    - destruct Hfr as [[_ ->]|[Hf (k & ->)]]; [destruct Hin|]. destruct Hin as [<-|[]]. simpl. lia. }
  split.
  - intro id. unfold lookup. destruct (lookup_opt p id) as [v|] eqn:El; [|lia].
    assert (In (id, v) p).
    { clear -El. induction p as [|[k' v'] t IH]; simpl in *; [discriminate|].
      destruct (String.eqb id k') eqn:E; [injection El as <-; apply String.eqb_eq in E; subst; auto|right; auto]. }
    specialize (Hpos _ H). simpl in Hpos. lia.
  - (* the plan is not empty: full * base + fragment = pr > 0 *)
    destruct p as [|[k v] t].
    + exfalso. symmetry in E. apply app_eq_nil in E. destruct E as [-> ->]. simpl in Hlen.
      destruct Hfr as [[Hf _]|[Hf (k & Hk)]]; [|discriminate].
      pose proof (Z.quot_rem' pr base). lia.
    + exists k. split; [left; reflexivity|].
      rewrite (BookProofs.lookup_of_opt ((k, v) :: t) k v).
      * apply (Hpos (k, v)). left; reflexivity.
      * simpl. rewrite String.eqb_refl. reflexivity.
Qed.

Theorem node_capacity_int64 info base maxshare req order fuel c :
  node_capacity_g sortf info base maxshare req order fuel = Ok c ->
  node_int64 info -> wf_maps info -> NoDup order -> 0 < base -> 0 <= rq_mem_req req ->
  cap_capacity c <= max_int.
Proof.
  intros H [Hmem Hcpu] Wf Nd Hb Hm. unfold node_capacity_g in H.
  destruct (negb (rq_bind req)).
  - destruct (fgt _ _); [injection H as <-; cbn [cap_capacity]; unfold max_int; lia|].
    destruct (Z.eqb_spec (rq_mem_req req) 0); injection H as <-; cbn [cap_capacity]; [lia|].
    set (a := nr_mem (get_available_nofloat info)) in *.
    destruct (Z_lt_ge_dec a 0).
    + assert (Z.quot a (rq_mem_req req) <= 0).
      { replace a with (- (- a)) by lia. rewrite Z.quot_opp_l by lia.
        pose proof (Z.quot_pos (- a) (rq_mem_req req) ltac:(lia) ltac:(lia)). lia. }
      change (Z.quot a (rq_mem_req req) <= max_int). unfold max_int. lia.
    + assert (Z.quot a (rq_mem_req req) <= a) by (apply Z.quot_le_upper_bound; nia).
      change (Z.quot a (rq_mem_req req) <= max_int). lia.
  - apply bind_ok in H. destruct H as (plans & Ep & H). injection H as <-. cbn [cap_capacity].
    destruct (get_cpu_plans_content sortf sortf_perm _ _ _ _ _ _ _ _ Ep Hb (proj2 Wf) Nd (avail_nodup info Wf))
      as (A & _ & Sh).
    set (avail := nr_cpumap (get_available_nofloat info)) in *.
    assert (Hnd : NoDup (keys avail)) by (apply avail_nodup; exact Wf).
    assert (Hcount : Z.of_nat (length (map snd plans)) <= ksum (used (map snd plans)) (keys avail)).
    { apply count_le_used. intros p Hp. apply in_map_iff in Hp. destruct Hp as (tp & <- & Htp).
      destruct (plan_has_piece base (rq_cpu_req req) (snd tp) Hb (Sh tp Htp)) as (Hnn & k & Hk & H1).
      split; [exact Hnn|]. exists k. split; [|exact H1].
      (* k has free pieces, so it is a core of the node *)
      destruct (in_dec string_dec k (keys avail)) as [Hin|Hnin]; [exact Hin|exfalso].
      pose proof (A k) as Ak. rewrite (BookProofs.lookup_notin avail k Hnin) in Ak.
      assert (Hq0 : forall q, In q (map snd plans) -> 0 <= lookup 0 q k).
      { intros q Hq. apply in_map_iff in Hq. destruct Hq as (tq & <- & Htq).
        apply (plan_has_piece base (rq_cpu_req req) (snd tq) Hb (Sh tq Htq)). }
      pose proof (proj2 (used_bounds _ k Hq0) (snd tp) (in_map snd _ _ Htp)).
      lia. }
    rewrite map_length in Hcount.
    assert (Hsum : ksum (used (map snd plans)) (keys avail) <= mweight avail).
    { rewrite (mweight_ksum avail Hnd). apply ksum_le. intros id _. apply A. }
    lia.
Qed.
End Caps.

From Verif Require Import Cobalt.Capacity Cobalt.CapacityProofs Strategy.Model
  Calcium.DeployPath Calcium.DeployPathProofs.

Section Discharge.
Variable sortf : list keyed -> outcome (list keyed).
Hypothesis sortf_perm : forall l, exists l', sortf l = Types.Ok l' /\ Permutation l' l.
Variables (base maxshare : Z) (raw req : wreq) (orders : string -> list string).

(* what is assumed of the node records: Go ints, well-formed Go maps, a duplicate-free NUMA order *)
Definition nodes_ok (nodes : list pnode) : Prop :=
  forall n, In n nodes -> node_int64 (snd n) /\ wf_maps (snd n) /\ NoDup (orders (fst n)).

Lemma plugin_caps_int64 : forall nodes caps,
  wreq_validate raw = inr req -> 0 < base -> nodes_ok nodes ->
  plugin_caps sortf base maxshare req orders nodes = Types.Ok caps ->
  Forall (fun nc => cap_capacity (snd nc) <= max_int) caps.
Proof.
  intros nodes caps Hv Hb. pose proof (validate_mem_nonneg raw req Hv) as Hm.
  revert caps. induction nodes as [|n t IH]; intros caps Hok H; simpl in H.
  - injection H as <-. constructor.
  - destruct (node_capacity_g sortf (snd n) base maxshare req (orders (fst n)) (default_fuel (snd n))) as [c| | |] eqn:Ec;
      simpl in H; try discriminate.
    destruct (plugin_caps sortf base maxshare req orders t) as [r| | |] eqn:Er; simpl in H; try discriminate.
    injection H as <-. constructor.
    + simpl. destruct (Hok n (or_introl eq_refl)) as (H1 & H2 & H3).
      eapply node_capacity_int64; eauto.
    + apply IH; auto. intros m Hm'. apply Hok. right; exact Hm'.
Qed.

Theorem path_hyps_of_nodes nodes caps morder status need limit :
  wreq_validate raw = inr req -> NoDup (map fst nodes) -> 0 < base -> nodes_ok nodes ->
  plugin_caps sortf base maxshare req orders nodes = Types.Ok caps ->
  (forall k, 0 <= mget status k) ->
  Permutation (entries_of (fst (manager_capacity caps))) morder ->
  0 < need -> 0 <= limit ->
  path_hyps sortf base maxshare raw req orders nodes caps morder status need limit.
Proof.
  intros Hv Hnd Hb Hok Hc Hs Hp Hn Hl. unfold path_hyps. repeat split; auto.
  eapply plugin_caps_int64; eauto.
Qed.
End Discharge.
