(* Calcium/LambdaHistory.v — run-and-wait keeps the invariant of the history theorem (whole operation: create, the
   closure of every created workload, the stream's close; EVERY world satisfying Inv, EVERY fault position, no
   hypothesis beyond create's), and the history theorem with run-and-wait as a step. *)
From Coq Require Import List Bool ZArith.
From Verif Require Import Base.Effects Calcium.World Calcium.Ops Calcium.Run Calcium.InvProofs Calcium.CreateProofs2 Calcium.HistoryProofs Calcium.LambdaProofs.
Import ListNotations.
Local Open Scope Z_scope.

Lemma body_post_Inv : forall id w w1, body_post id w w1 -> Inv w -> Inv w1.
Proof.
  intros id w w1 [_ Hn Hw Hp _ _ Hc] HI. apply (Inv_core w w1 HI Hn Hp Hw).
  intros j Hj. unfold find_cont in *. destruct Hc as [->| ->]; [exact Hj|apply find_cont_upd_exists; exact Hj].
Qed.

Lemma send_keeps_Inv : forall m w k, Inv w -> Inv (after (send m) w k).
Proof. intros m w k HI. apply (send_shrink m w k HI). Qed.

Lemma wal_call_keeps_Inv : forall c w k, (exists q s, fst (exec w c) = set_wal w q s) -> Inv w -> Inv (after (call1 c) w k).
Proof.
  intros c w k [q [s E]] HI. destruct (call1_world c w k) as [-> | ->]; [exact HI|].
  rewrite E. apply (Inv_ext w); try reflexivity. exact HI.
Qed.

Lemma lambda_one_keeps_Inv : forall stdin lines m w k, Inv w -> Inv (after (lambda_one stdin lines m) w k).
Proof.
  intros stdin lines m w k HI.
  assert (Hrm : forall id w0 k0, Inv w0 -> Inv (after (ign (remove false [id] true)) w0 k0)).
  { intros. unfold ign. rewrite after_map_ret. apply remove_keeps_Inv; [assumption|left; reflexivity]. }
  destruct m as [|n0|i r0|i0 ok| |i0 e0|o1 o2 o3 o4|i0|i0|i0 c0|]; cbn [lambda_one]; try (apply send_keeps_Inv; exact HI).
  destruct (call1_cases (WLog (EvLambda i)) w k) as [k0 [Hlog|Hlog]]; rewrite (after_bind_eq _ _ Hlog).
  { (* the WAL entry could not be written *) cbn [fail_reply]. rewrite after_bind. apply send_keeps_Inv, Hrm, HI. }
  cbn [exec fst snd]. set (w0 := set_wal w (walq w ++ [(wal_seq w, EvLambda i)]) (S (wal_seq w))).
  assert (H1 : Inv w0) by (apply (Inv_ext w); try reflexivity; exact HI).
  destruct (lambda_body_spec stdin lines i w0 k0) as [w1 [k1 [final [H [Hb _]]]]]. rewrite (after_bind_eq _ _ H).
  unfold lambda_cleanup. rewrite !after_bind. apply send_keeps_Inv.
  unfold ign at 1, doc. rewrite !after_map_ret. apply wal_call_keeps_Inv; [do 2 eexists; reflexivity|]. apply Hrm.
  exact (body_post_Inv i w0 w1 Hb H1).
Qed.

Theorem lambda_keeps_Inv : forall opi pod r plan stdin lines w k, create_hyp w opi r plan -> Inv w ->
  Inv (after (lambda opi pod r plan stdin lines) w k).
Proof.
  intros opi pod r plan stdin lines w k Hhyp HI. unfold lambda. rewrite after_bind. rewrite after_bind.
  apply send_keeps_Inv.
  apply (for_all_world Inv); [intros m w1 k1 _ H1; apply lambda_one_keeps_Inv; exact H1|].
  apply create_keeps_Inv; assumption.
Qed.

Definition valid_step_all (w : world) (s : hstep) : Prop :=
  match fst s with
  | OLambda opi pod count r plan stdin ls =>
    count <> 0%nat -> (stdin = true -> count = 1%nat) -> create_hyp w opi r plan
  | _ => valid_step w s
  end.

Fixpoint valid_hist_all (w : world) (h : list hstep) : Prop :=
  match h with
  | [] => True
  | s :: t => valid_step_all w s /\ valid_hist_all (step_world w s) t
  end.

Lemma step_keeps_Inv_all : forall w o k, Inv w -> valid_step_all w (o, k) -> Inv (step_world w (o, k)).
Proof.
  intros w o k HI Hv.
  destruct o; try (apply step_keeps_Inv; [exact HI|exact Hv]).
  pose proof (prepare_Inv w (OLambda opi pod count r plan stdin ls) HI) as HI'.
  unfold valid_step_all, step_world in *. cbn [fst snd script_of] in *.
  destruct (Nat.eqb count 0) eqn:E0; [exact HI'|].
  destruct (stdin && negb (Nat.eqb count 1)) eqn:E1; [exact HI'|].
  unfold unit_ok, rok. rewrite after_map_ret. apply lambda_keeps_Inv; [|exact HI'].
  apply Hv; [apply Nat.eqb_neq; exact E0|].
  intros ->. apply negb_false_iff in E1. apply Nat.eqb_eq in E1. exact E1.
Qed.

Theorem history_all_keeps_Inv : forall h w, Inv w -> valid_hist_all w h -> Inv (run_hist w h).
Proof.
  induction h as [|[o k] t IH]; intros w HI Hv.
  - exact HI.
  - destruct Hv as [Hv Ht]. simpl. apply IH; [apply step_keeps_Inv_all; assumption|exact Ht].
Qed.

Corollary history_all_keeps_usage : forall h w, Inv w -> valid_hist_all w h -> use_ok (run_hist w h).
Proof. intros h w HI Hv. apply inv_use. apply history_all_keeps_Inv; assumption. Qed.

Lemma valid_hist_all_of : forall h w, valid_hist w h -> valid_hist_all w h.
Proof.
  induction h as [|[o k] t IH]; intros w Hv; [exact I|]. destruct Hv as [Hv Ht]. split; [|apply IH; exact Ht].
  unfold valid_step_all. destruct o; try exact Hv. destruct Hv.
Qed.
