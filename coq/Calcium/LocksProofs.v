(* Proofs for C20: every thread of every operation follows the global lock
   order, is well nested, touches node-operation keys only alone; hence no set
   of concurrently running operations can deadlock on locks (Base/LockOrder). *)
From Coq Require Import List Bool String Ascii Arith Lia NArith.
From Verif Require Import Base.LockOrder Base.LockOrderProofs Calcium.Locks.
Import ListNotations.
Local Open Scope string_scope.
Local Open Scope list_scope.

Lemma ascii_compare_refl : forall a, Ascii.compare a a = Eq.
Proof. intros. unfold Ascii.compare. apply N.compare_refl. Qed.

Lemma ascii_compare_lt_trans : forall a b c,
  Ascii.compare a b = Lt -> Ascii.compare b c = Lt -> Ascii.compare a c = Lt.
Proof.
  unfold Ascii.compare. intros a b c H1 H2. rewrite N.compare_lt_iff in *. eapply N.lt_trans; eauto.
Qed.

Lemma str_compare_refl : forall s, String.compare s s = Eq.
Proof. induction s; simpl; [reflexivity | rewrite ascii_compare_refl; exact IHs]. Qed.

Lemma str_compare_lt_trans : forall s1 s2 s3,
  String.compare s1 s2 = Lt -> String.compare s2 s3 = Lt -> String.compare s1 s3 = Lt.
Proof.
  induction s1 as [|a s1 IH]; intros [|b s2] [|c s3]; simpl; try congruence.
  destruct (Ascii.compare a b) eqn:E1; try discriminate;
  destruct (Ascii.compare b c) eqn:E2; try discriminate; intros H1 H2.
  - apply Ascii.compare_eq_iff in E1. apply Ascii.compare_eq_iff in E2. subst.
    rewrite ascii_compare_refl. eapply IH; eauto.
  - apply Ascii.compare_eq_iff in E1. subst. rewrite E2. reflexivity.
  - apply Ascii.compare_eq_iff in E2. subst. rewrite E1. reflexivity.
  - rewrite (ascii_compare_lt_trans _ _ _ E1 E2). reflexivity.
Qed.

Lemma str_ltb_irrefl : forall s, String.ltb s s = false.
Proof. intros. unfold String.ltb. rewrite str_compare_refl. reflexivity. Qed.

Lemma str_ltb_trans : forall a b c, String.ltb a b = true -> String.ltb b c = true -> String.ltb a c = true.
Proof.
  unfold String.ltb. intros a b c H1 H2.
  destruct (String.compare a b) eqn:E1; try discriminate.
  destruct (String.compare b c) eqn:E2; try discriminate.
  rewrite (str_compare_lt_trans _ _ _ E1 E2). reflexivity.
Qed.

Lemma str_trichotomy : forall a b, String.eqb a b = false -> String.ltb a b = false -> String.ltb b a = true.
Proof.
  intros a b He Hl. unfold String.ltb in *. rewrite String.compare_antisym.
  destruct (String.compare a b) eqn:E; simpl; try reflexivity; try discriminate.
  apply String.compare_eq_iff in E. subst. rewrite String.eqb_refl in He. discriminate.
Qed.

Lemma key_eqb_spec : forall a b, key_eqb a b = true <-> a = b.
Proof. intros. unfold key_eqb. apply String.eqb_eq. Qed.

Lemma key_eqb_refl : forall k, key_eqb k k = true.
Proof. intros. apply String.eqb_refl. Qed.

Lemma key_ltb_spec : forall a b, key_ltb a b = true <->
  class a < class b \/ (class a = class b /\ String.ltb a b = true).
Proof. intros. unfold key_ltb. rewrite orb_true_iff, andb_true_iff, Nat.ltb_lt, Nat.eqb_eq. reflexivity. Qed.

Lemma key_ltb_irrefl : forall a, key_ltb a a = false.
Proof.
  intros. unfold key_ltb. rewrite Nat.ltb_irrefl, Nat.eqb_refl, str_ltb_irrefl. reflexivity.
Qed.

Lemma key_ltb_trans : forall a b c, key_ltb a b = true -> key_ltb b c = true -> key_ltb a c = true.
Proof.
  intros a b c H1 H2. apply key_ltb_spec in H1, H2. apply key_ltb_spec.
  destruct H1 as [H1|[E1 L1]], H2 as [H2|[E2 L2]]; [left; lia | left; lia | left; lia | right].
  split; [congruence | eapply str_ltb_trans; eauto].
Qed.

Lemma prefix_nil : forall s, prefix "" s = true.
Proof. destruct s; reflexivity. Qed.
Lemma prefix_app : forall s t, prefix s (s ++ t)%string = true.
Proof.
  induction s as [|a s IH]; intros t; simpl; [apply prefix_nil|].
  destruct (ascii_dec a a); [apply IH | congruence].
Qed.

Lemma class_pod : forall p, class (pod_key p) = 0.
Proof. intros. unfold class, pod_key. rewrite prefix_app. reflexivity. Qed.
Lemma class_wl : forall i, class (wl_key i) = 1.
Proof.
  intros. unfold class, wl_key.
  replace (prefix "plock_" ("clock_" ++ i)%string) with false by reflexivity.
  rewrite prefix_app. reflexivity.
Qed.
Lemma class_nodeop : forall p n, class (nodeop_key p n) = 2.
Proof.
  intros. unfold class, nodeop_key.
  replace (prefix "plock_" ("cnode_op_" ++ p ++ "_" ++ n)%string) with false by reflexivity.
  replace (prefix "clock_" ("cnode_op_" ++ p ++ "_" ++ n)%string) with false by reflexivity.
  rewrite prefix_app. reflexivity.
Qed.

Inductive incr : list string -> Prop :=
| incr_nil : incr []
| incr_cons x l : (forall y, In y l -> String.ltb x y = true) -> incr l -> incr (x :: l).

Lemma insert_uniq_in : forall x l y, In y (insert_uniq x l) <-> In y (x :: l).
Proof.
  intros x l y. induction l as [|z t IH]; cbn [insert_uniq In]; [tauto|].
  destruct (String.eqb_spec x z) as [->|_]; [cbn [In]; tauto|].
  destruct (String.ltb x z); cbn [In]; rewrite ?IH; cbn [In]; tauto.
Qed.

Lemma insert_uniq_incr : forall x l, incr l -> incr (insert_uniq x l).
Proof.
  intros x l H. induction H as [|z t Hz Ht IH]; simpl.
  - constructor; [intros y []|constructor].
  - destruct (String.eqb x z) eqn:E; [constructor; assumption|].
    destruct (String.ltb x z) eqn:L.
    + constructor; [|constructor; assumption].
      intros y [Hy|Hy]; [subst; exact L | eapply str_ltb_trans; [exact L | apply Hz; exact Hy]].
    + constructor; [|exact IH].
      intros y Hy. apply insert_uniq_in in Hy. destruct Hy as [Hy|Hy].
      * subst. apply str_trichotomy; assumption.
      * apply Hz. exact Hy.
Qed.

Lemma sort_uniq_incr : forall l, incr (sort_uniq l).
Proof. induction l; simpl; [constructor | apply insert_uniq_incr; exact IHl]. Qed.

Lemma sort_uniq_in : forall l y, In y (sort_uniq l) <-> In y l.
Proof. induction l as [|x t IH]; intros y; simpl; [tauto|]. rewrite insert_uniq_in. simpl. rewrite IH. tauto. Qed.

(* "clock_" ++ _ compares like its argument *)
Lemma incr_map_wl_key : forall l, incr l -> incr (map wl_key l).
Proof.
  intros l Hl. induction Hl as [|x t Hx Ht IH]; simpl; constructor; [|exact IH].
  intros y Hy. apply in_map_iff in Hy. destruct Hy as [z [<- Hz]]. exact (Hx z Hz).
Qed.

Notation srun := (strict_run key_eqb key_ltb).

Definition key_of (e : lev) : key := match e with Acq k | AcqFail k | Rel k => k end.
Definition all_class_lt (c : nat) (h : list key) : Prop := forall x, In x h -> class x < c.
Definition keys_lt (hi : nat) (evs : list lev) : Prop := forall e, In e evs -> class (key_of e) < hi.

Definition run_ok (lo hi : nat) (evs : list lev) : Prop :=
  keys_lt hi evs /\ forall h, all_class_lt lo h -> srun h evs = Some h.
(* [script lo hi m]: whatever the oracle, the events of [m] touch only keys of
   class < hi and can be run, order and LIFO discipline checked, from any held
   set of keys of class < lo, ending with that same held set. *)
Definition script (lo hi : nat) (m : M) : Prop := forall fl n, run_ok lo hi (r_evs (m fl n)).

Lemma srun_app : forall e1 e2 h,
  srun h (e1 ++ e2) = match srun h e1 with Some h1 => srun h1 e2 | None => None end.
Proof.
  induction e1 as [|e t IH]; intros e2 h; simpl; [reflexivity|].
  destruct e; simpl.
  - destruct (above key_ltb h k); [apply IH | reflexivity].
  - destruct (above key_ltb h k); [apply IH | reflexivity].
  - destruct h as [|x h']; [reflexivity|]. destruct (key_eqb k x); [apply IH | reflexivity].
Qed.

Lemma srun_release : forall acq h0, srun (acq ++ h0) (map Rel acq) = Some h0.
Proof.
  induction acq as [|k t IH]; intros h0; simpl; [reflexivity|]. rewrite key_eqb_refl. apply IH.
Qed.

Lemma keys_lt_app : forall hi a b, keys_lt hi a -> keys_lt hi b -> keys_lt hi (a ++ b).
Proof. intros hi a b Ha Hb e He. apply in_app_or in He. destruct He; auto. Qed.

Lemma keys_lt_rel : forall hi acq, all_class_lt hi acq -> keys_lt hi (map Rel acq).
Proof. intros hi acq H e He. apply in_map_iff in He. destruct He as [x [<- Hx]]. apply H. exact Hx. Qed.

Lemma run_ok_nil : forall lo hi, run_ok lo hi [].
Proof. intros. split; [intros e [] | reflexivity]. Qed.

Lemma run_ok_app : forall lo hi a b, run_ok lo hi a -> run_ok lo hi b -> run_ok lo hi (a ++ b).
Proof.
  intros lo hi a b [Ka Ra] [Kb Rb]. split; [apply keys_lt_app; assumption|].
  intros h Hh. rewrite srun_app, (Ra h Hh). apply Rb. exact Hh.
Qed.

Lemma script_mono : forall lo hi lo' hi' m, script lo hi m -> lo' <= lo -> hi <= hi' -> script lo' hi' m.
Proof.
  intros lo hi lo' hi' m H Hlo Hhi fl n. destruct (H fl n) as [K R]. split.
  - intros e He. specialize (K e He). lia.
  - intros h Hh. apply R. intros x Hx. specialize (Hh x Hx). lia.
Qed.

Lemma script_ret : forall lo hi b, script lo hi (ret b).
Proof. intros lo hi b fl n. apply run_ok_nil. Qed.
Lemma script_spawn : forall lo hi nd, script lo hi (spawn_remap nd).
Proof. intros lo hi nd fl n. apply run_ok_nil. Qed.

Lemma script_bind_ign : forall lo hi a b, script lo hi a -> script lo hi b -> script lo hi (bind_ign a b).
Proof. intros lo hi a b Ha Hb fl n. unfold bind_ign. simpl. apply run_ok_app; [apply Ha | apply Hb]. Qed.

Lemma script_bind_err : forall lo hi a b, script lo hi a -> script lo hi b -> script lo hi (bind_err a b).
Proof.
  intros lo hi a b Ha Hb fl n. unfold bind_err. destruct (r_err (a fl n)); [apply Ha|].
  simpl. apply run_ok_app; [apply Ha | apply Hb].
Qed.

Lemma script_seq_all : forall lo hi ms, Forall (script lo hi) ms -> script lo hi (seq_all ms).
Proof. induction 1; simpl; [apply script_ret | apply script_bind_ign; assumption]. Qed.

(* The lock loop's invariant.  [keys]: still to lock, strictly increasing, all of
   class c; [acq]: locked so far, of class c and below every remaining key. *)
Definition lock_inv (c : nat) (keys acq : list key) : Prop :=
  incr keys /\ (forall k, In k keys -> class k = c) /\
  forall a, In a acq -> class a = c /\ forall k, In k keys -> String.ltb a k = true.

(* One turn: the least remaining key may be locked on top of [acq] and of anything
   of a lower class, and the invariant carries over. *)
Lemma lock_next : forall c k ks acq, lock_inv c (k :: ks) acq ->
  class k = c /\ (forall h0, all_class_lt c h0 -> above key_ltb (acq ++ h0) k = true) /\
  lock_inv c ks (k :: acq).
Proof.
  intros c k ks acq [Hincr [Hcls Hacq]]. inversion Hincr as [|? ? Hk Hks]; subst.
  assert (Ck : class k = c) by (apply Hcls; left; reflexivity).
  split; [exact Ck | split; [|split; [exact Hks | split]]].
  - intros h0 Hh0. apply (above_spec key_ltb). intros x Hx. apply key_ltb_spec.
    apply in_app_or in Hx. destruct Hx as [Hx|Hx]; [right | left; rewrite Ck; apply Hh0; exact Hx].
    destruct (Hacq x Hx) as [E L]. split; [congruence | apply L; left; reflexivity].
  - intros x Hx. apply Hcls. right. exact Hx.
  - intros a [<-|Ha]; [split; [exact Ck | exact Hk]|].
    destruct (Hacq a Ha) as [E L]. split; [exact E | intros x Hx; apply L; right; exact Hx].
Qed.

(* The body runs on top of the locked keys; the loop releases [acq] and leaves
   what was held before. *)
Lemma locked_run : forall c hi body, c < hi -> script (S c) hi body ->
  forall keys acq, lock_inv c keys acq -> forall fl n,
    keys_lt hi (r_evs (with_keys_from keys acq body fl n)) /\
    forall h0, all_class_lt c h0 -> srun (acq ++ h0) (r_evs (with_keys_from keys acq body fl n)) = Some h0.
Proof.
  intros c hi body Hc Hbody keys. induction keys as [|k ks IH]; intros acq Inv fl n; simpl; pose proof Inv as [_ [_ Hacq]].
  - destruct (Hbody fl n) as [Kb Rb]. split.
    + apply keys_lt_app; [exact Kb | apply keys_lt_rel]. intros a Ha. destruct (Hacq a Ha). lia.
    + intros h0 Hh0. rewrite srun_app, Rb; [apply srun_release|].
      intros x Hx. apply in_app_or in Hx. destruct Hx as [Hx|Hx]; [destruct (Hacq x Hx) | specialize (Hh0 x Hx)]; lia.
  - destruct (lock_next _ _ _ _ Inv) as [Ck [Hab Inv']].
    destruct (fl k n); simpl.
    + split.
      * intros e [<-|He]; [simpl; lia | revert e He; apply keys_lt_rel]. intros a Ha. destruct (Hacq a Ha). lia.
      * intros h0 Hh0. rewrite (Hab h0 Hh0). apply srun_release.
    + destruct (IH (k :: acq) Inv' fl (S n)) as [K R].
      split; [intros e [<-|He]; [simpl; lia | apply K; exact He]|].
      intros h0 Hh0. rewrite (Hab h0 Hh0). apply (R h0 Hh0).
Qed.

Lemma script_with_keys : forall c hi keys body,
  incr keys -> (forall k, In k keys -> class k = c) -> c < hi ->
  script (S c) hi body -> script c hi (with_keys keys body).
Proof.
  intros c hi keys body Hi Hcl Hc Hb fl n.
  exact (locked_run c hi body Hc Hb keys [] (conj Hi (conj Hcl (fun a (F : In a []) => match F with end))) fl n).
Qed.

Lemma script_with_nodes_locked : forall s f gen c hi body,
  (forall n, class (gen n) = c) -> c < hi -> (forall ns, script (S c) hi (body ns)) ->
  script c hi (with_nodes_locked s f gen body).
Proof.
  intros s f gen c hi body Hg Hc Hb. unfold with_nodes_locked.
  destruct (filter_nodes s f) as [ns|]; [|apply script_ret].
  apply script_with_keys; [apply sort_uniq_incr | | exact Hc | apply Hb].
  intros k Hk. apply sort_uniq_in, in_map_iff in Hk. destruct Hk as [a [<- _]]. apply Hg.
Qed.

Lemma script_nodes_pod_locked : forall s f body,
  (forall ns, script 1 2 (body ns)) -> script 0 2 (with_nodes_pod_locked s f body).
Proof. intros. apply script_with_nodes_locked; [intros; apply class_pod | lia | assumption]. Qed.

Lemma script_node_pod_locked : forall s name body,
  script 1 2 body -> script 0 2 (with_node_pod_locked s name body).
Proof.
  intros s name body Hb. apply script_nodes_pod_locked.
  intros ns. destruct (has_node name ns); [exact Hb | apply script_ret].
Qed.

Lemma script_workloads_locked : forall s gone ign ids body,
  script 2 2 body -> script 1 2 (with_workloads_locked s gone ign ids body).
Proof.
  intros s gone ign ids body Hb. unfold with_workloads_locked.
  destruct (existsb _ _); [apply script_ret|].
  destruct (get_all _ _); [|apply script_ret].
  destruct ign; [apply (script_mono 2 2); [exact Hb | lia | lia]|].
  apply script_with_keys; [apply incr_map_wl_key, sort_uniq_incr | | lia | exact Hb].
  intros k Hk. apply in_map_iff in Hk. destruct Hk as [i [<- _]]. apply class_wl.
Qed.

Lemma script_workload_alone : forall s gone ign id body,
  script 2 2 body -> script 0 2 (with_workload_locked s gone ign id body).
Proof. intros. apply (script_mono 1 2); [apply script_workloads_locked; assumption | lia | lia]. Qed.

Lemma script_each_workload : forall s ids gone, script 1 2 (each_workload s gone ids).
Proof.
  intros s ids. induction ids as [|i t IH]; intros gone fl n; simpl; [apply run_ok_nil|].
  apply run_ok_app; [|apply IH]. apply script_workloads_locked, script_ret.
Qed.

Lemma script_remap_thread : forall s name, script 2 3 (remap_thread s name).
Proof.
  intros. apply script_with_nodes_locked; [intros; apply class_nodeop | lia|].
  intros ns. destruct (has_node name ns); apply script_ret.
Qed.

Lemma script_remove_on_node : forall s nd ids, script 0 2 (remove_on_node s nd ids).
Proof.
  intros. apply script_node_pod_locked, script_bind_ign; [apply script_each_workload | apply script_spawn].
Qed.

Lemma script_wl_then_remap : forall s i b, script 0 2 (with_wl_then_remap s i b).
Proof.
  intros. apply script_workload_alone. destruct b; [|apply script_ret].
  destruct (get_wl s i); [apply script_spawn | apply script_ret].
Qed.

Definition is_wl_helper (o : op) : bool := match o with OHelperWorkloads _ _ _ => true | _ => false end.
Definition is_nodeop_thread (o : op) : bool :=
  match o with ORemap _ | OHelperNodes _ true => true | _ => false end.

Lemma Forall_one : forall {A} (Q : A -> Prop) x, Q x -> Forall Q [x].
Proof. intros. constructor; [assumption | constructor]. Qed.
Lemma Forall_map_all : forall {A B} (Q : B -> Prop) (f : A -> B) l, (forall x, Q (f x)) -> Forall Q (map f l).
Proof. intros A B Q f l H. apply Forall_map, Forall_forall. intros x _. apply H. Qed.

(* everything but remap and the node-operation helper touches only pod and
   workload keys; the multi-id workload helper is not LIFO and treated below *)
Theorem op_main_script : forall s o, is_wl_helper o = false ->
  Forall (script 0 (if is_nodeop_thread o then 3 else 2)) (op_main s o).
Proof.
  intros s o Hh. destruct o; try discriminate Hh; cbn [op_main is_nodeop_thread].
  - apply Forall_one, script_bind_err; [apply script_nodes_pod_locked; intros; apply script_ret|].
    apply script_bind_ign; apply script_seq_all, Forall_map_all; intros;
      [apply script_spawn | apply script_node_pod_locked, script_ret].
  - apply Forall_one, script_nodes_pod_locked. intros. apply script_ret.
  - apply Forall_one, script_nodes_pod_locked. intros. apply script_ret.
  - (* remove: one goroutine per node *)
    destruct (group_by_node s order); [|constructor].
    apply Forall_map_all. intros. apply script_remove_on_node.
  - (* dissociate: the nodes one after the other *)
    destruct (group_by_node s order); [|constructor].
    apply Forall_one, script_seq_all, Forall_map_all. intros. apply script_remove_on_node.
  - destruct (get_wl s id); [|constructor].
    apply Forall_one, script_node_pod_locked, script_workloads_locked.
    destruct succeeded; [apply script_spawn | apply script_ret].
  - clear Hh. revert succeeded. induction ids as [|i t IH]; intros succ; simpl; constructor; [|apply IH].
    apply script_wl_then_remap.
  - apply Forall_map_all. intros. apply script_workload_alone, script_ret.
  - apply Forall_map_all. intros. apply script_workload_alone, script_ret.
  - apply Forall_one, script_workload_alone, script_ret.
  - apply Forall_one, script_node_pod_locked. destruct updated; [apply script_spawn | apply script_ret].
  - apply Forall_one, script_node_pod_locked, script_ret.
  - apply Forall_one, script_node_pod_locked, script_ret.
  - apply Forall_map_all. intros. apply script_node_pod_locked, script_ret.
  - apply Forall_one, (script_mono 2 3); [apply script_remap_thread | lia | lia].
  - (* the node helpers called directly *)
    apply Forall_one. destruct node_op.
    + apply (script_mono 2 3); [|lia|lia].
      apply script_with_nodes_locked; [intros; apply class_nodeop | lia | intros; apply script_ret].
    + apply script_nodes_pod_locked. intros. apply script_ret.
Qed.

Notation orun := (ord_run key_eqb key_ltb).

Lemma srun_ord_lifo : forall evs h h', srun h evs = Some h' ->
  orun h evs = Some h' /\ lifo_run key_eqb h evs = Some h'.
Proof.
  induction evs as [|[k|k|k] t IH]; intros h h' H; simpl in *; [split; exact H| | |].
  - destruct (above key_ltb h k); [apply IH; exact H | discriminate].
  - destruct (above key_ltb h k); [apply IH; exact H | discriminate].
  - destruct h as [|x h0]; [discriminate|]. simpl.
    destruct (key_eqb k x); [apply IH; exact H | discriminate].
Qed.

Lemma keys_known : forall evs, keys_lt 3 evs -> known_class evs = true.
Proof.
  intros evs K. apply forallb_forall. intros e He. specialize (K e He).
  destruct e; apply Nat.ltb_lt; exact K.
Qed.

Lemma low_nodeop_run : forall evs, keys_lt 2 evs -> forall h, all_class_lt 2 h -> nodeop_run h evs = true.
Proof.
  induction evs as [|e t IH]; intros K h Hh; [reflexivity|].
  assert (Kt : keys_lt 2 t) by (intros x Hx; apply K; right; exact Hx).
  assert (N2 : forall k, class k < 2 -> Nat.eqb (class k) 2 = false) by (intros; apply Nat.eqb_neq; lia).
  assert (Hex : existsb (fun x => Nat.eqb (class x) 2) h = false).
  { apply not_true_iff_false. intros E. apply existsb_exists in E. destruct E as [x [Hx E]].
    rewrite (N2 x (Hh x Hx)) in E. discriminate. }
  pose proof (K e (or_introl eq_refl)) as Ke.
  destruct e as [k|k|k]; simpl in *.
  - rewrite (N2 k Ke), Hex. apply IH; [exact Kt|]. intros x [<-|Hx]; [exact Ke | apply Hh; exact Hx].
  - rewrite (N2 k Ke), Hex. apply IH; assumption.
  - apply IH; [exact Kt|]. intros x Hx. apply Hh. eapply (removeb_incl key_eqb); exact Hx.
Qed.

Lemma script_thread_ok : forall hi m fl, script 0 hi m -> hi <= 3 ->
  k_ordered (r_evs (m fl 0)) = true /\ k_nested (r_evs (m fl 0)) = true /\
  known_class (r_evs (m fl 0)) = true /\ (hi <= 2 -> nodeop_alone (r_evs (m fl 0)) = true).
Proof.
  intros hi m fl S Hhi. destruct (S fl 0) as [K R].
  destruct (srun_ord_lifo _ _ _ (R [] (fun x (F : In x []) => match F with end))) as [O L].
  unfold k_ordered, ordered, k_nested, well_nested. rewrite O, L.
  split; [reflexivity|]. split; [reflexivity|]. split.
  - apply keys_known. intros e He. specialize (K e He). lia.
  - intros H2. apply low_nodeop_run; [|intros x []]. intros e He. specialize (K e He). lia.
Qed.

Lemma one_node_filter_nodes : forall s name,
  filter_nodes s (one_node_filter name) = None \/
  exists n, filter_nodes s (one_node_filter name) = Some [n].
Proof.
  intros. unfold filter_nodes, one_node_filter. simpl.
  destruct (get_node s name) as [n|] eqn:E; [right|left; reflexivity].
  exists n. simpl. unfold get_node in E. apply find_some in E. destruct E as [_ E]. rewrite String.eqb_refl. reflexivity.
Qed.

(* the remap goroutine: nothing, one failed attempt, or lock + unlock of one key *)
Lemma remap_thread_alone : forall s name fl n, nodeop_alone (r_evs (remap_thread s name fl n)) = true.
Proof.
  intros. unfold remap_thread, with_node_op_locked, with_nodes_op_locked, with_nodes_locked.
  destruct (one_node_filter_nodes s name) as [E|[nd E]]; rewrite E; [reflexivity|].
  assert (C : class (gen_nodeop nd) = 2) by (apply class_nodeop).
  unfold map at 1. unfold sort_uniq, fold_right, insert_uniq, with_keys, with_keys_from.
  set (k := gen_nodeop nd) in *. clearbody k.
  destruct (fl k n); unfold nodeop_alone.
  - simpl. rewrite C. reflexivity.
  - destruct (has_node name [nd]); simpl; rewrite C; simpl; rewrite ?key_eqb_refl; reflexivity.
Qed.

Lemma remap_thread_ok : forall s nd fl,
  k_ordered (r_evs (remap_thread s nd fl 0)) = true /\ k_nested (r_evs (remap_thread s nd fl 0)) = true /\
  known_class (r_evs (remap_thread s nd fl 0)) = true /\ nodeop_alone (r_evs (remap_thread s nd fl 0)) = true.
Proof.
  intros. destruct (script_thread_ok 3 (remap_thread s nd) fl) as (O & N & K & _);
    [apply (script_mono 2 3); [apply script_remap_thread | lia | lia] | lia|].
  repeat split; try assumption. apply remap_thread_alone.
Qed.

Lemma ord_release : forall orc acq, is_perm orc acq = true -> orun acq (map Rel orc) = Some [].
Proof.
  induction orc as [|k t IH]; intros acq H; cbn in *.
  - destruct acq; [reflexivity | discriminate].
  - apply andb_true_iff in H. destruct H as [Hm Hp]. rewrite Hm. apply IH. exact Hp.
Qed.

Lemma is_perm_refl : forall l, is_perm l l = true.
Proof. induction l as [|k t IH]; [reflexivity|]. cbn. rewrite key_eqb_refl. cbn. exact IH. Qed.

Lemma release_order_perm : forall orc acq, is_perm (release_order orc acq) acq = true.
Proof. intros. unfold release_order. destruct (is_perm orc acq) eqn:E; [exact E | apply is_perm_refl]. Qed.

Lemma release_order_incl : forall orc acq x,
  In x (release_order (filter (fun y => memb key_eqb y acq) orc) acq) -> In x acq.
Proof.
  intros orc acq x. unfold release_order. destruct (is_perm _ acq); [|auto].
  intros H. apply filter_In in H. apply (memb_In key_eqb key_eqb_spec). apply H.
Qed.

(* as [locked_run], with nothing held below and the releases after a failed attempt in oracle order *)
Lemma helper_run : forall orc err keys acq, lock_inv 1 keys acq -> forall fl n,
    keys_lt 2 (r_evs (with_keys_from_o orc keys acq err fl n)) /\
    orun acq (r_evs (with_keys_from_o orc keys acq err fl n)) = Some [].
Proof.
  intros orc err keys. induction keys as [|k ks IH]; intros acq Inv fl n; cbn; pose proof Inv as [_ [_ Hacq]].
  - split; [apply keys_lt_rel; intros a Ha; destruct (Hacq a Ha); lia | apply ord_release, is_perm_refl].
  - destruct (lock_next _ _ _ _ Inv) as [Ck [Hab Inv']].
    specialize (Hab [] (fun x (F : In x []) => match F with end)). rewrite app_nil_r in Hab.
    destruct (fl k n); cbn; rewrite Hab.
    + split; [|apply ord_release, release_order_perm].
      intros e [<-|He]; [simpl; lia|]. apply in_map_iff in He. destruct He as [x [<- Hx]].
      apply release_order_incl in Hx. destruct (Hacq x Hx). simpl. lia.
    + destruct (IH (k :: acq) Inv' fl (S n)) as [K R].
      split; [intros e [<-|He]; [simpl; lia | apply K; exact He] | exact R].
Qed.

Theorem helper_wl_ok : forall s ign ids rel fl n,
  keys_lt 2 (r_evs (with_workloads_helper s ign ids rel fl n)) /\
  orun [] (r_evs (with_workloads_helper s ign ids rel fl n)) = Some [].
Proof.
  intros. unfold with_workloads_helper.
  destruct (get_all _ _); [|split; [intros e [] | reflexivity]].
  destruct ign; [split; [intros e [] | reflexivity]|].
  apply helper_run. split; [apply incr_map_wl_key, sort_uniq_incr | split; [|intros a []]].
  intros k Hk. apply in_map_iff in Hk. destruct Hk as [z [<- _]]. apply class_wl.
Qed.

Lemma in_run_indexed : forall ms i fls r, In r (run_indexed i ms fls) -> exists m fl, In m ms /\ r = m fl 0.
Proof.
  induction ms as [|m t IH]; intros i fls r H; simpl in H; [destruct H|].
  destruct H as [H|H].
  - exists m, (fls i). split; [left; reflexivity | symmetry; exact H].
  - destruct (IH _ _ _ H) as [m' [fl [Hm E]]]. exists m', fl. split; [right; exact Hm | exact E].
Qed.

Lemma thread_cases : forall s o fls flr t, In t (op_threads s o fls flr) ->
  (exists m fl, In m (op_main s o) /\ t = r_evs (m fl 0)) \/
  (exists nd fl, t = r_evs (remap_thread s nd fl 0)).
Proof.
  intros s o fls flr t H. unfold op_threads in H. apply in_app_or in H.
  destruct H as [H|H]; apply in_map_iff in H; destruct H as [r [<- Hr]];
    apply in_run_indexed in Hr; destruct Hr as [m [fl [Hm ->]]].
  - left. exists m, fl. auto.
  - right. apply in_map_iff in Hm. destruct Hm as [nd [<- _]]. exists nd, fl. reflexivity.
Qed.

Definition multi_nodeop (o : op) : bool := match o with OHelperNodes _ true => true | _ => false end.

Theorem threads_ok : forall s o fls flr t, In t (op_threads s o fls flr) ->
  k_ordered t = true /\ (is_wl_helper o = false -> k_nested t = true) /\
  known_class t = true /\ (multi_nodeop o = false -> nodeop_alone t = true).
Proof.
  intros s o fls flr t H. destruct (thread_cases _ _ _ _ _ H) as [(m & fl & Hm & ->)|(nd & fl & ->)].
  2: { destruct (remap_thread_ok s nd fl) as (O & N & K & A). auto. }
  destruct (is_wl_helper o) eqn:Eh.
  - destruct o; try discriminate. destruct Hm as [<-|[]].
    destruct (helper_wl_ok s ignore_lock ids rel fl 0) as [K O].
    split; [unfold k_ordered, ordered; rewrite O; reflexivity|]. split; [discriminate|]. split.
    + apply keys_known. intros e He. specialize (K e He). lia.
    + intros _. apply low_nodeop_run; [exact K | intros x []].
  - pose proof (op_main_script s o Eh) as S. rewrite Forall_forall in S. specialize (S m Hm).
    destruct (is_nodeop_thread o) eqn:En.
    + destruct (script_thread_ok 3 m fl S) as (O & N & K & _); [lia|].
      split; [exact O|]. split; [auto|]. split; [exact K|]. intros Hmulti.
      destruct o; try discriminate.
      * destruct Hm as [<-|[]]. apply remap_thread_alone.
      * destruct node_op; discriminate.
    + destruct (script_thread_ok 2 m fl S) as (O & N & K & A); [lia|]. auto.
Qed.

Theorem op_threads_ok : forall s o fls flr t, In t (op_threads s o fls flr) ->
  k_ordered t = true /\
  (match o with OHelperWorkloads _ _ _ => True | _ => k_nested t = true end) /\
  known_class t = true /\
  (match o with OHelperNodes _ true => True | _ => nodeop_alone t = true end).
Proof.
  intros s o fls flr t H. destruct (threads_ok _ _ _ _ _ H) as (O & N & K & A).
  split; [exact O|]. split; [|split; [exact K|]].
  - destruct o; first [exact I | apply N; reflexivity].
  - destruct o; try (apply A; reflexivity). destruct node_op; [exact I | apply A; reflexivity].
Qed.

Theorem op_thread_ok_bool : forall s o fls flr t,
  match o with OHelperNodes _ true => False | OHelperWorkloads _ _ _ => False | _ => True end ->
  In t (op_threads s o fls flr) -> thread_ok t = true.
Proof.
  intros s o fls flr t Ho H. destruct (threads_ok _ _ _ _ _ H) as (O & N & K & A).
  assert (E : is_wl_helper o = false /\ multi_nodeop o = false)
    by (destruct o; try destruct node_op; destruct Ho; split; reflexivity).
  unfold thread_ok. rewrite O, K, (N (proj1 E)), (A (proj2 E)). reflexivity.
Qed.

Record run_op := mkRun {
  ro_store : lstore; ro_op : op;
  ro_fls : nat -> key -> nat -> bool; ro_flr : nat -> key -> nat -> bool }.
Definition threads_of (ops : list run_op) : list (list lev) :=
  flat_map (fun r => op_threads (ro_store r) (ro_op r) (ro_fls r) (ro_flr r)) ops.

Lemma threads_ordered : forall ops sc, In sc (threads_of ops) -> ordered key_eqb key_ltb sc = true.
Proof.
  intros ops sc Hsc. apply in_flat_map in Hsc. destruct Hsc as [r [_ Hin]].
  exact (proj1 (threads_ok _ _ _ _ _ Hin)).
Qed.

Theorem no_deadlock_ops : forall ops st,
  steps key_eqb (start (threads_of ops)) st -> ~ deadlocked key_eqb st.
Proof.
  intros ops st.
  exact (no_deadlock key_eqb key_ltb key_eqb_spec key_ltb_irrefl key_ltb_trans _ st (threads_ordered ops)).
Qed.

Theorem mutex_ops : forall ops st,
  steps key_eqb (start (threads_of ops)) st -> mutex st.
Proof. intros ops st Hst. eapply (mutex_reachable key_eqb key_eqb_spec); exact Hst. Qed.

Theorem runs_end_unlocked : forall ops st,
  steps key_eqb (start (threads_of ops)) st -> (forall st', ~ step key_eqb st st') ->
  all_finished st /\ all_held st = [].
Proof.
  intros ops st.
  exact (stuck_is_done key_eqb key_ltb key_eqb_spec key_ltb_irrefl key_ltb_trans _ st (threads_ordered ops)).
Qed.

(* non-vacuity: the witness of the (repaired) cross-pod defect: two creates with
   include lists [a1(X), b1(Y)] and [a2(Y), b2(X)] lock plock_X then plock_Y both *)
Definition ex_store : lstore :=
  mkStore [mkNode "a1" "X" true []; mkNode "b1" "Y" true []; mkNode "a2" "Y" true []; mkNode "b2" "X" true []] [].
Definition no_fail : nat -> key -> nat -> bool := fun _ _ _ => false.
Example cross_pod_creates :
  op_threads ex_store (OCreate (mkFilter "X" ["a1"; "b1"] [] false []) true [] []) no_fail no_fail
  = [[Acq "plock_X"; Acq "plock_Y"; Rel "plock_Y"; Rel "plock_X"]] /\
  op_threads ex_store (OCreate (mkFilter "Y" ["a2"; "b2"] [] false []) true [] []) no_fail no_fail
  = [[Acq "plock_X"; Acq "plock_Y"; Rel "plock_Y"; Rel "plock_X"]].
Proof. split; reflexivity. Qed.

(* what the unrepaired code did (keys in node-name order): the second create took
   plock_Y before plock_X, which the global order rejects *)
Example unrepaired_order_violates :
  k_ordered [Acq "plock_Y"; Acq "plock_X"; Rel "plock_X"; Rel "plock_Y"] = false.
Proof. reflexivity. Qed.

