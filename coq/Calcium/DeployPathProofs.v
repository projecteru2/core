(* Calcium/DeployPathProofs.v — theorems about the composed deploy path
   (Calcium/DeployPath.v), obtained by composing the results of the layers:
     Cobalt/MergeProofs, MergeFloat: aggregate_f64, offered_iff_all,
        mincap_is_min, total_of_sat, merge_all_nodup, lookup_in
     Cobalt/CapacityProofs: capacity_is_max
     Strategy/ProofsGlue: glue_C01, glue_C02
   (a) the total handed to strategy.Deploy is the saturating sum of the offered
       capacities, so C02 holds along the path without assuming it;
   (b) every planned count is within the capacity every plugin reported for the
       node, hence (capacity_is_max) the per-node Alloc of the planned count is
       accepted on the unchanged node;
   (c) a node that some plugin does not offer never receives instances. *)
From Coq Require Import String Ascii.
From Coq Require Import List ZArith Lia Permutation.
From Verif Require Import Base.GoInt Base.GoFloat Cpumem.Types Cpumem.Schedule Cpumem.Calc
  Cobalt.Merge Cobalt.MergeProofs Cobalt.MergeFloat Cobalt.Capacity Cobalt.CapacityProofs
  Strategy.Model Strategy.Glue Strategy.ProofsBase Strategy.ProofsGlue Calcium.DeployPath Base.ListFacts.
Import ListNotations.
Local Open Scope Z_scope.

Lemma lookup_some_in {T} (m : list (string * ndc T)) k v : Merge.lookup k m = Some v -> In (k, v) m.
Proof.
  induction m as [|[k' v'] t IH]; simpl; [discriminate|].
  destruct (String.eqb k k') eqn:E.
  - intro H. injection H as <-. apply String.eqb_eq in E. subst. left; reflexivity.
  - intro H. right. apply IH. exact H.
Qed.

Lemma infos_of_lookup {T} n : forall (answers : list (list (string * ndc T))) is,
  infos_of n answers = Some is ->
  (forall a, In a answers -> exists i, In i is /\ Merge.lookup n a = Some i) /\
  (forall i, In i is -> exists a, In a answers /\ Merge.lookup n a = Some i).
Proof.
  induction answers as [|a t IH]; intros is H; simpl in H.
  - injection H as <-. split; intros ? [].
  - destruct (Merge.lookup n a) as [i|] eqn:El; [|discriminate].
    destruct (infos_of n t) as [l|] eqn:Et; [|discriminate].
    injection H as <-. destruct (IH l eq_refl) as [I1 I2]. split.
    + intros b [<-|Hb]; [exists i; split; [left; reflexivity | exact El]|].
      destruct (I1 b Hb) as (j & Hj & E). exists j. split; [right; exact Hj | exact E].
    + intros j [<-|Hj]; [exists a; split; [left; reflexivity | exact El]|].
      destruct (I2 j Hj) as (b & Hb & E). exists b. split; [right; exact Hb | exact E].
Qed.

Lemma fold_some {A B} (f : option A -> B -> A) l : forall x,
  exists m, fold_left (fun acc a => Some (f acc a)) l (Some x) = Some m.
Proof. induction l as [|a t IH]; intro x; simpl; [eauto|]. apply IH. Qed.

Lemma gndc_f_cons (a1 : famap) (rest : list famap) :
  exists m, merge_all fadd fmul (a1 :: rest) = Some m /\
    gndc_f (a1 :: rest) = (map (fun kv => (fst kv, finish fdiv (snd kv))) m,
                           total_of (map (fun kv => n_cap (snd kv)) m)).
Proof.
  destruct (fold_some (merge_capacity fadd fmul) rest (merge_capacity fadd fmul None a1)) as (m & E).
  exists m.
  assert (Em : merge_all fadd fmul (a1 :: rest) = Some m) by exact E.
  split; [exact Em|]. unfold gndc_f, gndc. rewrite Em. reflexivity.
Qed.

Lemma ne_cons {A} (l : list A) : l <> [] -> exists a t, l = a :: t.
Proof. destruct l as [|a t]; [congruence|]. intros _. eauto. Qed.

Lemma entries_names m : map ce_name (entries_of m) = map fst m.
Proof. unfold entries_of. rewrite map_map. reflexivity. Qed.
Lemma entries_caps m : map ce_cap (entries_of m) = map (fun kv => n_cap (snd kv)) m.
Proof. unfold entries_of. rewrite map_map. reflexivity. Qed.

Section AnyPlugins.
Variables (answers : list famap) (morder : list cap_entry) (status : plan) (need limit : Z).
Hypothesis Hne : answers <> [].
Hypothesis Hkeys : forall a, In a answers -> NoDup (map fst a).           (* Go maps *)
Hypothesis Hcaps : forall a k v, In a answers -> In (k, v) a -> 0 <= n_cap v <= max_int.
Hypothesis Hstatus : forall k, 0 <= mget status k.
Hypothesis Hperm : Permutation (entries_of (fst (gndc_f answers))) morder.
Hypothesis Hneed : 0 < need.
Hypothesis Hlimit : 0 <= limit.

Let merged := fst (gndc_f answers).

Lemma merged_nodup : NoDup (map fst merged).
Proof.
  unfold merged. destruct (ne_cons answers Hne) as (a1 & rest & Ea). rewrite Ea.
  destruct (gndc_f_cons a1 rest) as (m & Em & Eg). rewrite Eg. simpl. rewrite map_map. simpl.
  apply (merge_all_nodup f64 fadd fmul a1 rest m); [|exact Em].
  apply Hkeys. rewrite Ea. left; reflexivity.
Qed.

Lemma merged_cap k v : In (k, v) merged ->
  exists is, infos_of k answers = Some is /\ is <> [] /\
    (forall i, In i is -> n_cap v <= n_cap i) /\ (exists i, In i is /\ n_cap v = n_cap i).
Proof.
  intro Hin.
  assert (Hl : Merge.lookup k merged = Some v).
  { apply (lookup_in f64 merged k v); [exact merged_nodup|exact Hin]. }
  unfold merged in Hl. rewrite (aggregate_f64 answers k Hne) in Hl.
  destruct (infos_of k answers) as [[|i1 rest]|] eqn:Ei; try discriminate.
  injection Hl as <-. exists (i1 :: rest). split; [reflexivity|]. split; [discriminate|]. simpl.
  destruct (@mincap_is_min f64 i1 rest) as [Hmin Hex]. split; [exact Hmin|exact Hex].
Qed.

Lemma merged_caps_ok : Forall cap_ok (map (fun kv => n_cap (snd kv)) merged).
Proof.
  apply Forall_forall. intros c Hc. apply in_map_iff in Hc. destruct Hc as ([k v] & <- & Hin). simpl.
  destruct (merged_cap k v Hin) as (is & Ei & _ & _ & (i & Hi & E)).
  destruct (proj2 (infos_of_lookup k answers is Ei) i Hi) as (a & Ha & Hl).
  rewrite E. unfold cap_ok. apply (Hcaps a k i Ha). apply lookup_some_in. exact Hl.
Qed.

Lemma path_valid_caps : valid_caps (entries_of merged) status.
Proof.
  split; [rewrite entries_names; exact merged_nodup|]. split; [|exact Hstatus].
  apply Forall_forall. intros e He. unfold entries_of in He. apply in_map_iff in He.
  destruct He as ([k v] & <- & Hin). simpl.
  pose proof merged_caps_ok as H. rewrite Forall_forall in H.
  specialize (H (n_cap v)). unfold cap_ok in H. apply H. apply in_map_iff. exists (k, v). auto.
Qed.

(* (a) the total is the saturating sum of the offered capacities, whatever the
   iteration orders of the merged map *)
Theorem path_total : snd (gndc_f answers) = Model.satsum (map ce_cap morder).
Proof.
  assert (Hc := merged_caps_ok).
  assert (E1 : snd (gndc_f answers) = Merge.satsum (map (fun kv => n_cap (snd kv)) merged)).
  { unfold merged in *. destruct (ne_cons answers Hne) as (a1 & rest & Ea). rewrite Ea in *.
    destruct (gndc_f_cons a1 rest) as (m & Em & Eg). rewrite Eg in *. simpl in *.
    rewrite map_map in *. simpl in *.
    apply total_of_sat. exact Hc. }
  rewrite E1.
  assert (Hp : Permutation (map (fun kv => n_cap (snd kv)) merged) (map ce_cap morder)).
  { rewrite <- entries_caps. apply Permutation_map. exact Hperm. }
  assert (Hnn : Forall (fun z => 0 <= z) (map ce_cap morder)).
  { eapply Permutation_Forall; [exact Hp|]. eapply Forall_impl; [|exact Hc]. unfold cap_ok. simpl. intros; lia. }
  rewrite satsum_spec by exact Hnn. unfold Merge.satsum. f_equal. apply sum_perm. exact Hp.
Qed.

(* C02 along the path, with no assumption on the total *)
Theorem path_C02 s : s <> Other -> need <= max_int ->
  (feasible s need limit (glue_infos morder status) = true ->
     (exists p, manager_then_deploy answers morder status s need limit = Model.Ok p) \/
     manager_then_deploy answers morder status s need limit = AlreadyFilled []) /\
  (feasible s need limit (glue_infos morder status) = false ->
     manager_then_deploy answers morder status s need limit = Err EInsufficientResource \/
     manager_then_deploy answers morder status s need limit = Err EInsufficientCapacity).
Proof.
  intros Hs Hmax. unfold manager_then_deploy.
  apply (glue_C02 (entries_of merged) morder status need limit (snd (gndc_f answers))
           path_valid_caps Hperm Hneed Hlimit s Hs Hmax path_total).
Qed.

(* C01 along the path *)
Theorem path_C01 s p : manager_then_deploy answers morder status s need limit = Model.Ok p ->
  C01_spec s need limit (glue_infos morder status) p.
Proof.
  unfold manager_then_deploy. intro H.
  exact (glue_C01 (entries_of merged) morder status need limit _ path_valid_caps Hperm Hneed Hlimit s p H).
Qed.

(* (c) only nodes offered by every plugin receive instances *)
Theorem path_only_offered s p n :
  manager_then_deploy answers morder status s need limit = Model.Ok p ->
  mhas p n = true -> forall a, In a answers -> In n (map fst a).
Proof.
  intros H Hh. destruct (path_C01 s p H) as (_ & Hk & _).
  specialize (Hk n Hh). rewrite glue_names in Hk.
  assert (Hm : In n (map fst merged)).
  { rewrite <- entries_names. eapply Permutation_in; [symmetry; apply Permutation_map; exact Hperm|exact Hk]. }
  apply (offered_iff_all answers n Hne). exact Hm.
Qed.

(* (b) the planned count of a node is within the capacity EVERY plugin reported for it *)
Theorem path_within_every_plugin s p n a i :
  manager_then_deploy answers morder status s need limit = Model.Ok p ->
  In a answers -> Merge.lookup n a = Some i -> 0 <= mget p n <= n_cap i.
Proof.
  intros H Ha Hl. destruct (path_C01 s p H) as (_ & Hk & Hb & _).
  assert (Hi0 : 0 <= n_cap i) by (apply (Hcaps a n i Ha); apply lookup_some_in; exact Hl).
  destruct (mhas p n) eqn:Eh.
  - specialize (Hk n Eh). rewrite glue_names in Hk.
    apply in_map_iff in Hk. destruct Hk as (e & En & He).
    assert (Hx : In (mkInfo (ce_name e) (ce_usage e) (ce_rate e) (ce_cap e) (mget status (ce_name e)))
                    (glue_infos morder status)).
    { unfold glue_infos. apply in_map_iff. exists e. auto. }
    specialize (Hb _ Hx). simpl in Hb. rewrite En in Hb.
    assert (He' : In e (entries_of merged)) by (eapply Permutation_in; [symmetry; exact Hperm|exact He]).
    unfold entries_of in He'. apply in_map_iff in He'. destruct He' as ([k v] & Ee & Hin).
    subst e. simpl in *. subst k.
    destruct (merged_cap n v Hin) as (is & Ei & _ & Hmin & _).
    destruct (proj1 (infos_of_lookup n answers is Ei) a Ha) as (i' & Hi' & Hl').
    rewrite Hl in Hl'. injection Hl' as <-. specialize (Hmin i Hi'). lia.
  - rewrite (mhas_false_mget _ _ Eh). lia.
Qed.
End AnyPlugins.

Section Cpumem.
Variable sortf : list keyed -> outcome (list keyed).
Variables (base maxshare : Z) (raw req : wreq) (orders : string -> list string).
Variables (nodes : list pnode) (caps : list (string * capinfo)).
Variables (morder : list cap_entry) (status : plan) (need limit : Z).
Hypothesis Hreq : wreq_validate raw = inr req.
Hypothesis Hnames : NoDup (map fst nodes).
Hypothesis Hcaps : plugin_caps sortf base maxshare req orders nodes = Types.Ok caps.
(* named hypothesis [caps_int64]: the capacities the plugin computes are Go ints *)
Hypothesis caps_int64 : Forall (fun nc => cap_capacity (snd nc) <= max_int) caps.
Hypothesis Hstatus : forall k, 0 <= mget status k.
Hypothesis Hperm : Permutation (entries_of (fst (manager_capacity caps))) morder.
Hypothesis Hneed : 0 < need.
Hypothesis Hlimit : 0 <= limit.

Lemma plugin_caps_spec : forall ns cs, plugin_caps sortf base maxshare req orders ns = Types.Ok cs ->
  map fst cs = map fst ns /\
  forall n, In n ns -> exists c, In (fst n, c) cs /\
    node_capacity_g sortf (snd n) base maxshare req (orders (fst n)) (default_fuel (snd n)) = Types.Ok c.
Proof.
  induction ns as [|n t IH]; intros cs H; simpl in H.
  - injection H as <-. split; [reflexivity|]. intros n [].
  - destruct (node_capacity_g sortf (snd n) base maxshare req (orders (fst n)) (default_fuel (snd n))) as [c| | |] eqn:Ec;
      simpl in H; try discriminate.
    destruct (plugin_caps sortf base maxshare req orders t) as [r| | |] eqn:Er; simpl in H; try discriminate.
    injection H as <-. destruct (IH r eq_refl) as [I1 I2]. split; [simpl; rewrite I1; reflexivity|].
    intros m [->|Hm].
    + exists c. split; [left; reflexivity|exact Ec].
    + destruct (I2 m Hm) as (c' & Hc' & Ec'). exists c'. split; [right; exact Hc'|exact Ec'].
Qed.

Let answer : famap := map (fun nc => (fst nc, ndc_of_cap (snd nc))) (plugin_offered caps).

Lemma caps_nodup : NoDup (map fst caps).
Proof. rewrite (proj1 (plugin_caps_spec nodes caps Hcaps)). exact Hnames. Qed.

Lemma answer_nodup : NoDup (map fst answer).
Proof.
  unfold answer. rewrite map_map. simpl. unfold plugin_offered.
  pose proof caps_nodup as H. clear -H. induction caps as [|[k c] t IH]; simpl in *; [constructor|].
  inversion H as [|? ? Hk Ht]; subst. destruct (0 <? cap_capacity c); simpl; auto.
  constructor; auto. intro Hin. apply Hk. apply in_map_iff in Hin. destruct Hin as (y & Ey & Hy).
  apply filter_In in Hy. apply in_map_iff. exists y. tauto.
Qed.

(* the side conditions of the section above for the one answer *)
Lemma single_nodup a : In a [answer] -> NoDup (map fst a).
Proof. intros [<-|[]]. exact answer_nodup. Qed.
Lemma single_caps_ok a k v : In a [answer] -> In (k, v) a -> 0 <= n_cap v <= max_int.
Proof.
  intros [<-|[]] H. unfold answer in H. apply in_map_iff in H. destruct H as ([k' c] & E & Hin). inversion E; subst.
  apply filter_In in Hin. destruct Hin as [Hin Hpos]. simpl in *.
  rewrite Forall_forall in caps_int64. specialize (caps_int64 _ Hin). simpl in caps_int64. lia.
Qed.

Definition the_result (s : strategy) : result :=
  glue s need limit morder status (snd (manager_capacity caps)).

Lemma deploy_path_eq s :
  deploy_path sortf base maxshare raw orders nodes morder status s need limit = PResult (the_result s).
Proof. unfold deploy_path. rewrite Hreq, Hcaps. reflexivity. Qed.

Theorem cpumem_path_total : snd (manager_capacity caps) = Model.satsum (map ce_cap morder).
Proof. exact (path_total [answer] morder ltac:(discriminate) single_nodup single_caps_ok Hperm). Qed.

Lemma planned_is_offered s p n : the_result s = Model.Ok p -> mhas p n = true ->
  exists c, In (n, c) caps /\ 0 < cap_capacity c.
Proof.
  intros H Hh.
  pose proof (path_only_offered [answer] morder status need limit ltac:(discriminate) single_nodup single_caps_ok
                Hstatus Hperm Hneed Hlimit s p n H Hh answer (or_introl eq_refl)) as Hin.
  unfold answer in Hin. rewrite map_map in Hin. apply in_map_iff in Hin.
  destruct Hin as ([k c] & <- & Hoff). apply filter_In in Hoff. destruct Hoff as [Hc Hpos].
  exists c. split; [exact Hc | apply Z.ltb_lt; exact Hpos].
Qed.

(* (b) the Alloc of every planned count is accepted on the unchanged node *)
Theorem cpumem_path_alloc_accepted s p n :
  the_result s = Model.Ok p -> In n nodes -> 1 <= mget p (fst n) ->
  alloc_accepts sortf base maxshare raw orders n (mget p (fst n)) = true.
Proof.
  intros H Hn Hp1.
  destruct (proj2 (plugin_caps_spec nodes caps Hcaps) n Hn) as (c & Hc & Ec).
  assert (Hh : mhas p (fst n) = true).
  { destruct (mhas p (fst n)) eqn:E; [reflexivity|]. rewrite (mhas_false_mget _ _ E) in Hp1. lia. }
  destruct (planned_is_offered s p (fst n) H Hh) as (c' & Hc' & Hpos).
  rewrite (NoDup_fst_inj caps (fst n) c' c caps_nodup Hc' Hc) in Hpos.
  (* the planned count is within the capacity the plugin reported *)
  assert (Hl : Merge.lookup (fst n) answer = Some (ndc_of_cap c)).
  { apply (lookup_in f64 answer (fst n) (ndc_of_cap c)); [exact answer_nodup|].
    unfold answer. apply in_map_iff. exists (fst n, c). split; [reflexivity|].
    apply filter_In. split; [exact Hc | apply Z.ltb_lt; exact Hpos]. }
  pose proof (path_within_every_plugin [answer] morder status need limit ltac:(discriminate) single_nodup single_caps_ok
                Hstatus Hperm Hneed Hlimit s p (fst n) answer (ndc_of_cap c) H (or_introl eq_refl) Hl) as Hle.
  simpl in Hle.
  rewrite Forall_forall in caps_int64. pose proof (caps_int64 _ Hc) as Hmax. simpl in Hmax.
  unfold alloc_accepts.
  destruct (proj2 (capacity_is_max sortf (snd n) base maxshare raw req (orders (fst n)) (default_fuel (snd n))
                     (mget p (fst n)) c Hreq ltac:(lia) Ec) ltac:(lia)) as (r & Er).
  rewrite Er. reflexivity.
Qed.

(* (c) a node with no capacity receives nothing *)
Theorem cpumem_path_not_offered s p n c :
  the_result s = Model.Ok p -> In (n, c) caps -> cap_capacity c <= 0 -> mhas p n = false /\ mget p n = 0.
Proof.
  intros H Hc Hz.
  destruct (mhas p n) eqn:E; [exfalso|split; [reflexivity|apply mhas_false_mget; exact E]].
  destruct (planned_is_offered s p n H E) as (c' & Hc' & Hpos).
  rewrite (NoDup_fst_inj caps n c' c caps_nodup Hc' Hc) in Hpos. lia.
Qed.

Theorem cpumem_path_C02 s : s <> Other -> need <= max_int ->
  (feasible s need limit (glue_infos morder status) = true ->
     (exists p, the_result s = Model.Ok p) \/ the_result s = AlreadyFilled []) /\
  (feasible s need limit (glue_infos morder status) = false ->
     the_result s = Err EInsufficientResource \/ the_result s = Err EInsufficientCapacity).
Proof.
  exact (path_C02 [answer] morder status need limit ltac:(discriminate) single_nodup single_caps_ok
           Hstatus Hperm Hneed Hlimit s).
Qed.
End Cpumem.

Definition path_hyps sortf base maxshare (raw req : wreq) orders (nodes : list pnode)
    (caps : list (string * capinfo)) (morder : list cap_entry) (status : plan) (need limit : Z) : Prop :=
  wreq_validate raw = inr req /\ NoDup (map fst nodes) /\
  plugin_caps sortf base maxshare req orders nodes = Types.Ok caps /\
  Forall (fun nc => cap_capacity (snd nc) <= max_int) caps /\          (* caps_int64 *)
  (forall k, 0 <= mget status k) /\
  Permutation (entries_of (fst (manager_capacity caps))) morder /\
  0 < need /\ 0 <= limit.

Theorem deploy_path_total sortf base maxshare raw req orders nodes caps morder status need limit :
  path_hyps sortf base maxshare raw req orders nodes caps morder status need limit ->
  snd (manager_capacity caps) = Model.satsum (map ce_cap morder).
Proof.
  intros (H1 & H2 & H3 & H4 & H5 & H6 & H7 & H8).
  eapply cpumem_path_total; eauto.
Qed.

Theorem deploy_path_alloc_accepted sortf base maxshare raw req orders nodes caps morder status need limit s p n :
  path_hyps sortf base maxshare raw req orders nodes caps morder status need limit ->
  deploy_path sortf base maxshare raw orders nodes morder status s need limit = PResult (Model.Ok p) ->
  In n nodes -> 1 <= mget p (fst n) ->
  alloc_accepts sortf base maxshare raw orders n (mget p (fst n)) = true.
Proof.
  intros (H1 & H2 & H3 & H4 & H5 & H6 & H7 & H8) Hd Hn Hp.
  rewrite (deploy_path_eq sortf base maxshare raw req orders nodes caps morder status need limit H1 H3) in Hd.
  injection Hd as Hd. eapply cpumem_path_alloc_accepted; eauto.
Qed.

Theorem deploy_path_not_offered sortf base maxshare raw req orders nodes caps morder status need limit s p n c :
  path_hyps sortf base maxshare raw req orders nodes caps morder status need limit ->
  deploy_path sortf base maxshare raw orders nodes morder status s need limit = PResult (Model.Ok p) ->
  In (n, c) caps -> cap_capacity c <= 0 -> mhas p n = false /\ mget p n = 0.
Proof.
  intros (H1 & H2 & H3 & H4 & H5 & H6 & H7 & H8) Hd Hc Hz.
  rewrite (deploy_path_eq sortf base maxshare raw req orders nodes caps morder status need limit H1 H3) in Hd.
  injection Hd as Hd. eapply cpumem_path_not_offered; eauto.
Qed.

Theorem deploy_path_C02 sortf base maxshare raw req orders nodes caps morder status need limit s :
  path_hyps sortf base maxshare raw req orders nodes caps morder status need limit ->
  s <> Other -> need <= max_int ->
  (feasible s need limit (glue_infos morder status) = true ->
     (exists p, deploy_path sortf base maxshare raw orders nodes morder status s need limit = PResult (Model.Ok p)) \/
     deploy_path sortf base maxshare raw orders nodes morder status s need limit = PResult (AlreadyFilled [])) /\
  (feasible s need limit (glue_infos morder status) = false ->
     deploy_path sortf base maxshare raw orders nodes morder status s need limit = PResult (Err EInsufficientResource) \/
     deploy_path sortf base maxshare raw orders nodes morder status s need limit = PResult (Err EInsufficientCapacity)).
Proof.
  intros (H1 & H2 & H3 & H4 & H5 & H6 & H7 & H8) Hs Hmax.
  rewrite (deploy_path_eq sortf base maxshare raw req orders nodes caps morder status need limit H1 H3).
  destruct (cpumem_path_C02 sortf base maxshare req orders nodes caps morder status need limit
              H2 H3 H4 H5 H6 H7 H8 s Hs Hmax) as [I1 I2].
  split; intro Hf.
  - destruct (I1 Hf) as [(p & E)|E]; rewrite E; eauto.
  - destruct (I2 Hf) as [E|E]; rewrite E; auto.
Qed.
