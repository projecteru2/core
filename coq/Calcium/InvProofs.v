(* Calcium/InvProofs.v — C10: the plugin usage of every node equals the sum over the workloads
   recorded on it; the invariant survives the operations whose atomicity is proved in
   OpsProofs2.v, whatever the position of the injected fault. *)
From Coq Require Import List Bool Arith ZArith Permutation.
From Verif Require Import Calcium.World Calcium.Ops Calcium.OpsProofs Calcium.OpsProofs2 Base.ListFacts.
Import ListNotations.
Local Open Scope Z_scope.

Definition sum_on (l : list wl) (m : name) : res := rsum (map w_res (filter (fun x => Nat.eqb (w_node x) m) l)).
Definition use_ok (w : world) : Prop := forall p, In p (plugs w) -> p_use p = sum_on (wls w) (p_node p).

Lemma sum_on_perm : forall l l' m, Permutation l l' -> sum_on l m = sum_on l' m.
Proof.
  intros l l' m H. unfold sum_on. induction H; simpl.
  - reflexivity.
  - destruct (Nat.eqb (w_node x) m); simpl; rewrite IHPermutation; reflexivity.
  - destruct (Nat.eqb (w_node x) m), (Nat.eqb (w_node y) m); simpl; auto using radd_swap.
  - congruence.
Qed.

Lemma upd_wl_notin : forall t x', ~ In (w_id x') (ids t) -> upd_wl x' t = t.
Proof.
  intros t x' H. apply map_fix. intros z Hz.
  destruct (wid_eqb (w_id z) (w_id x')) eqn:E; auto. apply wid_eqb_eq in E. exfalso. apply H. rewrite <- E. apply in_map; auto.
Qed.

Lemma sum_on_del : forall l x m, NoDup (ids l) -> find (fun y => wid_eqb (w_id y) (w_id x)) l = Some x ->
  sum_on (del_wl (w_id x) l) m = rsub (sum_on l m) (if Nat.eqb (w_node x) m then w_res x else rzero).
Proof.
  induction l as [|y t IH]; intros x m Hnd Hf; simpl in *; [discriminate|].
  inversion Hnd as [|? ? Hn Hnd']; subst.
  destruct (wid_eqb (w_id y) (w_id x)) eqn:E; simpl.
  - inversion Hf; subst y. rewrite del_wl_notin by exact Hn.
    unfold sum_on. simpl. destruct (Nat.eqb (w_node x) m); simpl.
    + rewrite rsub_radd_l. reflexivity.
    + rewrite rsub_0_r. reflexivity.
  - unfold sum_on in *. simpl. destruct (Nat.eqb (w_node y) m); simpl.
    + rewrite (IH x m Hnd' Hf). rewrite radd_rsub_assoc. reflexivity.
    + apply IH; auto.
Qed.

Lemma sum_on_upd : forall l x x' m, NoDup (ids l) -> find (fun y => wid_eqb (w_id y) (w_id x')) l = Some x ->
  w_node x' = w_node x ->
  sum_on (upd_wl x' l) m = radd (sum_on l m) (if Nat.eqb (w_node x) m then rsub (w_res x') (w_res x) else rzero).
Proof.
  induction l as [|y t IH]; intros x x' m Hnd Hf Hnode; simpl in *; [discriminate|].
  inversion Hnd as [|? ? Hn Hnd']; subst.
  destruct (wid_eqb (w_id y) (w_id x')) eqn:E; simpl.
  - inversion Hf; subst y. apply wid_eqb_eq in E. rewrite E in Hn. rewrite upd_wl_notin by exact Hn.
    unfold sum_on. simpl. rewrite Hnode. destruct (Nat.eqb (w_node x) m); simpl.
    + apply radd_replace.
    + rewrite radd_0_r. reflexivity.
  - unfold sum_on in *. simpl. destruct (Nat.eqb (w_node y) m); simpl.
    + rewrite (IH x x' m Hnd' Hf Hnode). apply radd_assoc.
    + apply IH; auto.
Qed.

Lemma in_upd_plug : forall n f l q, In q (upd_plug n f l) ->
  exists p, In p l /\ q = if Nat.eqb (p_node p) n then f p else p.
Proof. intros n f l q H. unfold upd_plug in H. apply in_map_iff in H. destruct H as [p [H1 H2]]. exists p. auto. Qed.

Lemma use_ok_perm : forall w l, use_ok w -> Permutation l (wls w) -> use_ok (oth w l (plugs w) (conts w)).
Proof.
  intros w l H Hp q Hq. simpl in *. rewrite (sum_on_perm _ _ _ Hp). apply H; auto.
Qed.

Lemma use_ok_remove : forall w x n c, use_ok w -> NoDup (ids (wls w)) -> find_wl w (w_id x) = Some x -> w_node x = n ->
  use_ok (oth w (del_wl (w_id x) (wls w)) (upd_plug n (sub_use (w_res x)) (plugs w)) c).
Proof.
  intros w x n c H Hnd Hx Hn q Hq. simpl in *.
  apply in_upd_plug in Hq. destruct Hq as [p [Hp Hq]].
  rewrite (sum_on_del _ x _ Hnd Hx). rewrite Hn.
  destruct (Nat.eqb (p_node p) n) eqn:E; subst q.
  - apply Nat.eqb_eq in E. simpl. rewrite E, Nat.eqb_refl. rewrite (H p Hp), E. reflexivity.
  - rewrite Nat.eqb_sym, E. rewrite rsub_0_r. apply H; auto.
Qed.

Lemma use_ok_realloc : forall w x req c, use_ok w -> NoDup (ids (wls w)) -> find_wl w (w_id x) = Some x ->
  use_ok (oth w (upd_wl (mkWl (w_id x) (w_node x) (w_pod x) (radd (w_res x) req)) (wls w))
                (upd_plug (w_node x) (add_use req) (plugs w)) c).
Proof.
  intros w x req c H Hnd Hx q Hq. simpl in *.
  apply in_upd_plug in Hq. destruct Hq as [p [Hp Hq]].
  rewrite (sum_on_upd _ x _ _ Hnd); [|exact Hx|reflexivity]. simpl.
  rewrite rsub_radd_l.
  destruct (Nat.eqb (p_node p) (w_node x)) eqn:E; subst q.
  - apply Nat.eqb_eq in E. simpl. rewrite E, Nat.eqb_refl. rewrite (H p Hp), E. reflexivity.
  - rewrite Nat.eqb_sym, E. rewrite radd_0_r. apply H; auto.
Qed.

(* an operation that reports failure only with the world unchanged keeps what its success effect keeps *)
Lemma atomic_keeps : forall E (p : cprog (option E)) w k (P S : world -> Prop),
  (exists w' k' r, crunk p w k = (w', k', r) /\ (r <> None -> w' = w) /\ (r = None -> S w')) ->
  P w -> (forall w', S w' -> P w') -> P (fst (fst (crunk p w k))).
Proof.
  intros E p w k P S [w' [k' [r [-> [Hfail Hsucc]]]]] Hw HS. cbn [fst].
  destruct r; [rewrite Hfail by discriminate; exact Hw|apply HS, Hsucc; reflexivity].
Qed.

Theorem realloc_keeps_usage : forall id req w k, wf w -> use_ok w ->
  use_ok (fst (fst (crunk (realloc id req) w k))).
Proof.
  intros id req w k Hwf Hok. apply (atomic_keeps _ _ _ _ _ _ (realloc_atomic id req w k Hwf) Hok).
  intros w' [x [Hx ->]]. destruct (find_wl_id _ _ _ Hx) as [Hid _].
  apply use_ok_realloc; auto. apply (wf_ids w Hwf). rewrite Hid. exact Hx.
Qed.

Theorem remove_keeps_usage : forall n id force w k, wf w -> use_ok w ->
  (force = true \/ strict_remove w = false) ->
  (forall x, find_wl w id = Some x -> w_node x = n) ->
  use_ok (fst (fst (crunk (with_workload_locked id (fun x => remove_txn n x force)) w k))).
Proof.
  intros n id force w k Hwf Hok Hforce Hnode.
  destruct (remove_locked_atomic n id force w k Hwf Hforce Hnode) as [w' [k' [r [H [Hfail Hsucc]]]]]. rewrite H. simpl.
  destruct r as [e|].
  - destruct Hfail as [l [-> Hp]]; [discriminate|]. apply use_ok_perm; auto.
  - destruct (Hsucc eq_refl) as [x [Hx ->]].
    destruct (find_wl_id _ _ _ Hx) as [Hid _]. rewrite <- Hid.
    apply use_ok_remove; auto. apply (wf_ids w Hwf). rewrite Hid. exact Hx.
Qed.

Theorem dissociate_keeps_usage : forall n id w k, wf w -> use_ok w ->
  (forall x, find_wl w id = Some x -> w_node x = n) ->
  use_ok (fst (fst (crunk (with_workload_locked id (fun x => dissociate_txn n x)) w k))).
Proof.
  intros n id w k Hwf Hok Hnode. apply (atomic_keeps _ _ _ _ _ _ (dissociate_locked_atomic n id w k Hwf Hnode) Hok).
  intros w' [x [Hx ->]]. destruct (find_wl_id _ _ _ Hx) as [Hid _]. rewrite <- Hid.
  apply use_ok_remove; auto. apply (wf_ids w Hwf). rewrite Hid. exact Hx.
Qed.

Theorem add_node_keeps_usage : forall n p cap w k,
  existsb (Nat.eqb p) (pods w) = true -> find_node w n = None ->
  (forall x, In x (wls w) -> w_node x <> n) ->          (* no record refers to the new name *)
  use_ok w -> use_ok (fst (fst (crunk (add_node n p cap) w k))).
Proof.
  intros n p cap w k Hpod Hn Hfresh Hok. apply (atomic_keeps _ _ _ _ _ _ (add_node_atomic n p cap w k Hpod Hn) Hok).
  intros w' -> q Hq. simpl in *. apply in_app_or in Hq. destruct Hq as [Hq|[<-|[]]]; [apply Hok; auto|].
  simpl. unfold sum_on. rewrite filter_none; [reflexivity|].
  intros x Hx. apply Nat.eqb_neq, Hfresh, Hx.
Qed.
