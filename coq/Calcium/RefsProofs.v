(* Proofs for C22.
   - the full statement is false of the faithful model: three witnesses
     (AddNode || RemovePod, create || RemoveNode, RemoveNode with a failing
     plugin removal);
   - [explore] is a sound decision procedure for "every interleaving of these
     threads from this world ends quiescent with a good verdict"; with it: over
     the universe [u_worlds] x [u_ops], every single operation preserves Ref,
     and does so with every placement of one injected failure but for the
     named excuses;
   - every interleaving of every pair (and of every triple of pod / node
     operations, [t_worlds] x [t_ops]) over that universe either preserves Ref
     or contains one of the named windows, and never deadlocks: instances of
     the general theorems of RefsGeneral.v. *)
From Coq Require Import List Bool String.
From Verif Require Import Calcium.Refs Calcium.RefsGeneral.
Import ListNotations.
Local Open Scope string_scope.

Lemma finished_no_step : forall w i t, finished t = true -> step_thread w i t = None.
Proof. intros w i t H. unfold finished in H. unfold step_thread. destruct (t_prog t); [reflexivity | discriminate]. Qed.

Lemma explore_run : forall fuel good w ts acc, explore fuel good w ts acc = true ->
  forall sched w' ts' tr', run_sched w ts sched acc = (w', ts', tr') ->
  exists fuel' acc', tr' = rev acc' /\ explore fuel' good w' ts' acc' = true.
Proof.
  induction fuel as [|f IH]; intros good w ts acc H sched; [discriminate|].
  induction sched as [|i rest IHs]; intros w' ts' tr' R; simpl in R.
  - inversion R; subst. exists (S f), acc. split; [reflexivity | exact H].
  - destruct (nth_error ts i) as [t|] eqn:E; [|eapply IHs; eauto].
    destruct (step_thread w i t) as [[[w1 t1] e]|] eqn:S; [|eapply IHs; eauto].
    cbn [explore] in H. destruct (forallb finished ts) eqn:Fin.
    + rewrite finished_no_step in S; [discriminate|]. exact (proj1 (forallb_forall _ _) Fin _ (nth_error_In _ _ E)).
    + pose proof (in_enabled _ _ _ _ _ E S) as Hin.
      destruct (enabled_steps w ts) as [|s0 steps] eqn:En; [destruct Hin|].
      rewrite forallb_forall in H. specialize (H _ Hin). cbn beta iota in H.
      eapply IH; eauto.
Qed.

Lemma explore_accepts : forall fuel good w ts acc, explore fuel good w ts acc = true ->
  if forallb finished ts then good w (rev acc) = true else enabled_steps w ts <> [].
Proof.
  intros [|f] good w ts acc H; [discriminate|]. cbn [explore] in H.
  destruct (forallb finished ts); [exact H|]. destruct (enabled_steps w ts); discriminate.
Qed.

Theorem explore_sound : forall fuel good w ts tr, explore fuel good w ts tr = true ->
  forall sched w' ts' tr', run_sched w ts sched tr = (w', ts', tr') ->
  forallb finished ts' = true -> good w' tr' = true.
Proof.
  intros fuel good w ts tr H sched w' ts' tr' R F.
  destruct (explore_run _ _ _ _ _ H _ _ _ _ R) as (fuel' & acc' & -> & H').
  apply explore_accepts in H'. rewrite F in H'. exact H'.
Qed.

Theorem explore_no_deadlock : forall fuel good w ts tr, explore fuel good w ts tr = true ->
  forall sched w' ts' tr', run_sched w ts sched tr = (w', ts', tr') ->
  forallb finished ts' = true \/ enabled_steps w' ts' <> [].
Proof.
  intros fuel good w ts tr H sched w' ts' tr' R.
  destruct (explore_run _ _ _ _ _ H _ _ _ _ R) as (fuel' & acc' & _ & H').
  apply explore_accepts in H'. destruct (forallb finished ts'); [left; reflexivity | right; exact H'].
Qed.

Definition W0 := mkRw [] [] [] [] [].
Definition W1 := mkRw ["p"] [] [] [] [].
Definition W2 := mkRw ["p"] [("n", "p")] ["n"] [] [].
Definition W3 := mkRw ["p"] [("n", "p")] ["n"] [("w", "n")] [].
Definition W4 := mkRw ["p"; "q"] [("n", "p"); ("m", "q")] ["n"; "m"] [("w", "n")] [].
Definition u_worlds : list rw := [W0; W1; W2; W3; W4].
Definition u_ops : list rop :=
  [OAddPod "p"; ORemovePod "p"; OAddNode "n" "p"; OAddNode "m" "p"; ORemoveNode "n";
   OCreate "n" "x"; OCreate "n" "y"; ORemoveWl "w"].

Lemma u_worlds_ref : forallb ref_ok u_worlds = true.
Proof. vm_compute. reflexivity. Qed.

Lemma forallb2_In : forall {A B} (f : A -> B -> bool) la lb,
  forallb (fun a => forallb (f a) lb) la = true -> forall a b, In a la -> In b lb -> f a b = true.
Proof. intros A B f la lb H a b Ha Hb. rewrite forallb_forall in H. exact (proj1 (forallb_forall _ _) (H a Ha) b Hb). Qed.

Definition fault_opts : list (option nat) := None :: map Some (seq 0 10).

Definition fault_verdict (w : rw) (tr : list ev) : bool :=
  ref_ok w || fault_removenode_plugin tr || addnode_rollback_failed tr.
Definition check_single_fault_ref (w : rw) (a : rop) (fl : option nat) : bool :=
  explore 64 fault_verdict w (mk_threads [(a, fl)]) [].
Lemma check_single_fault_ref_ok :
  forallb (fun w => forallb (fun a => forallb (check_single_fault_ref w a) fault_opts) u_ops) u_worlds = true.
Proof. vm_compute. reflexivity. Qed.

Theorem single_fault_partial : forall w a fl sched w' ts' tr',
  In w u_worlds -> In a u_ops -> In fl fault_opts ->
  run_sched w (mk_threads [(a, fl)]) sched [] = (w', ts', tr') ->
  forallb finished ts' = true ->
  ref_ok w' = true \/ fault_removenode_plugin tr' = true \/ addnode_rollback_failed tr' = true.
Proof.
  intros w a fl sched w' ts' tr' Hw Ha Hf R F.
  pose proof (forallb2_In _ _ _ check_single_fault_ref_ok w a Hw Ha) as E.
  pose proof (explore_sound _ _ _ _ _ (proj1 (forallb_forall _ _) E fl Hf) _ _ _ _ R F) as V.
  unfold fault_verdict in V. rewrite !orb_true_iff in V.
  destruct V as [[V|V]|V]; [left | right; left | right; right]; exact V.
Qed.

Definition check_isolation (w : rw) (a : rop) : bool :=
  explore 64 (fun w' _ => ref_ok w') w (mk_threads [(a, None)]) [].
Lemma check_isolation_ok : forallb (fun w => forallb (check_isolation w) u_ops) u_worlds = true.
Proof. vm_compute. reflexivity. Qed.

Theorem isolation_partial : forall w a sched w' ts' tr',
  In w u_worlds -> In a u_ops ->
  run_sched w (mk_threads [(a, None)]) sched [] = (w', ts', tr') ->
  forallb finished ts' = true -> ref_ok w' = true.
Proof.
  intros w a sched w' ts' tr' Hw Ha R F.
  exact (explore_sound _ _ _ _ _ (forallb2_In _ _ _ check_isolation_ok w a Hw Ha) _ _ _ _ R F).
Qed.

Lemma u_worlds_init : forall w, In w u_worlds -> ref_ok w = true /\ NoDup (node_names w) /\ held w = [].
Proof.
  intros w Hw. split; [exact (proj1 (forallb_forall _ _) u_worlds_ref w Hw)|].
  repeat destruct Hw as [<-|Hw]; try contradiction; (split; [|reflexivity]);
    repeat (constructor; [cbn; intuition discriminate|]); constructor.
Qed.

Theorem pairs_partial : forall w a b sched w' ts' tr',
  In w u_worlds -> In a u_ops -> In b u_ops ->
  run_sched w (mk_threads [(a, None); (b, None)]) sched [] = (w', ts', tr') ->
  (forallb finished ts' = true \/ enabled_steps w' ts' <> []) /\
  (forallb finished ts' = true ->
   ref_ok w' = true \/ window_addnode_removepod tr' = true \/ window_create_removenode tr' = true).
Proof.
  intros w a b sched w' ts' tr' Hw _ _. destruct (u_worlds_init w Hw) as (Hr & Hnd & Hh).
  exact (general_rops w [a; b] sched w' ts' tr' Hr Hnd Hh).
Qed.

Definition quiescent_bad (w : rw) (ops : list (rop * option nat)) (sched : list nat) : Prop :=
  ref_ok w = true /\
  let '(w', ts', _) := run_sched w (mk_threads ops) sched [] in
  forallb finished ts' = true /\ ref_ok w' = false.

(* AddNode takes no pod lock: GetPod ok || RemovePod sees no node and deletes || node keys created *)
Theorem refuted_addnode_removepod :
  quiescent_bad W1 [(OAddNode "n" "p", None); (ORemovePod "p", None)] [0; 0; 1; 1; 1; 0].
Proof. vm_compute. repeat split. Qed.

(* create records the workload after the pod lock is released: RemoveNode finds the node empty and removes it *)
Theorem refuted_create_removenode :
  quiescent_bad W2 [(OCreate "n" "x", None); (ORemoveNode "n", None)] [0; 0; 0; 0; 0; 0; 1; 1; 1; 1; 1; 1; 1; 1; 1; 0].
Proof. vm_compute. repeat split. Qed.

(* ... after which the recorded workload cannot be fetched (GetWorkloads cannot bind the node) *)
Example dangling_workload_unlistable :
  let '(w', _, _) := run_sched W2 (mk_threads [(OCreate "n" "x", None); (ORemoveNode "n", None)])
                       [0; 0; 0; 0; 0; 0; 1; 1; 1; 1; 1; 1; 1; 1; 1; 0] [] in
  match exec w' 0 (CGetWl "x") with Some (_, r) => r_ok r = false | None => False end.
Proof. vm_compute. reflexivity. Qed.

(* single injected failure: RemoveNode's plugin removal fails after the store record is gone *)
Theorem refuted_removenode_fault :
  quiescent_bad W2 [(ORemoveNode "n", Some 6)] [0; 0; 0; 0; 0; 0; 0; 0; 0; 0; 0].
Proof. vm_compute. repeat split. Qed.

(* a three-operation race: a RemoveNode acting on the record it fetched BEFORE
   taking the pod lock would remove the plugin record of a concurrently re-added
   node.  RemoveNode fetches the node again under the lock (repair e1dbf90 in
   cluster/calcium/node.go), and this schedule ends in a consistent world *)
Example stale_removenode_closed :
  let '(w', ts', _) := run_sched W2 (mk_threads [(OAddNode "n" "p", None); (ORemoveNode "n", None); (ORemoveNode "n", None)])
                         [2; 1; 1; 1; 1; 1; 1; 1; 1; 1; 0; 2; 2; 2; 2; 2; 0; 0] [] in
  forallb finished ts' = true /\ ref_ok w' = true.
Proof. vm_compute. split; reflexivity. Qed.

Definition t_ops : list rop := [OAddPod "p"; ORemovePod "p"; OAddNode "n" "p"; ORemoveNode "n"].
Definition t_worlds : list rw := [W1; W2].

Theorem triples_partial : forall w a b c sched w' ts' tr',
  In w t_worlds -> In a t_ops -> In b t_ops -> In c t_ops ->
  run_sched w (mk_threads [(a, None); (b, None); (c, None)]) sched [] = (w', ts', tr') ->
  (forallb finished ts' = true \/ enabled_steps w' ts' <> []) /\
  (forallb finished ts' = true ->
   ref_ok w' = true \/ window_addnode_removepod tr' = true \/ window_create_removenode tr' = true).
Proof.
  intros w a b c sched w' ts' tr' Hw _ _ _.
  assert (Hu : In w u_worlds) by (destruct Hw as [<-|[<-|[]]]; cbn; tauto).
  destruct (u_worlds_init w Hu) as (Hr & Hnd & Hh).
  exact (general_rops w [a; b; c] sched w' ts' tr' Hr Hnd Hh).
Qed.
