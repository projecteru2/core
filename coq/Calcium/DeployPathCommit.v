(* Calcium/DeployPathCommit.v — the commit step of the composed deploy path: after
   the planned count has been allocated on a node (Manager.Alloc = CalculateDeploy +
   SetNodeResourceUsage), the node's capacity is unchanged and its memory usage is
   the usage before plus count * memory request; the number of workload resources
   recorded is the planned count.  Composes DeployPathProofs (allocation accepted)
   with the commit_usage lemmas (Cobalt/CapacityProofs.v) and deploy_struct (Cpumem/SchedProofsDeploy.v). *)
From Coq Require Import String Ascii.
From Coq Require Import List Bool ZArith Lia Permutation.
From Verif Require Import Base.GoFloat Cpumem.Types Cpumem.Schedule Cpumem.Calc
  Cpumem.BookProofs Cpumem.SchedProofsDeploy Cobalt.CapacityProofs
  Strategy.Model Calcium.DeployPath Calcium.DeployPathProofs Base.ListFacts.
From Verif Require Import Cpumem.SchedCase Cpumem.SchedProofsFit Cpumem.SchedProofsFit2 Cpumem.SchedProofsTop
  Cpumem.SchedProofsCommit.
Import ListNotations.
Local Open Scope Z_scope.

Lemma zs_mk_wr req (l : list (string * plan)) :
  zs wr_mem_req (map (mk_wr req) l) = Z.of_nat (length l) * rq_mem_req req.
Proof.
  unfold zs. induction l as [|x t IH]; [reflexivity|].
  cbn [map fold_right length]. rewrite IH. unfold mk_wr at 1. cbn [wr_mem_req]. lia.
Qed.

Section Commit.
Variable sortf : list keyed -> outcome (list keyed).
Variables (base maxshare : Z) (raw req : wreq) (orders : string -> list string).

Lemma memory_only_ws (n : pnode) count eps ws :
  wreq_validate raw = inr req -> rq_bind req = false ->
  calculate_deploy_g sortf (snd n) base maxshare count raw (orders (fst n)) (default_fuel (snd n)) = Types.Ok (inr (eps, ws)) ->
  ws = repeat_n (Z.to_nat count)
         (mkWR (rq_cpu_req req) (rq_cpu_lim req) (rq_mem_req req) (rq_mem_lim req) [] [] EmptyString).
Proof.
  intros Hv Eb H. unfold calculate_deploy_g in H. rewrite Hv, Eb in H. cbn [negb] in H.
  injection H as H. exact (alloc_by_memory_ws _ _ _ _ _ H).
Qed.

Lemma accepted_commit (n : pnode) count eps ws :
  wreq_validate raw = inr req -> 0 <= count ->
  calculate_deploy_g sortf (snd n) base maxshare count raw (orders (fst n)) (default_fuel (snd n)) = Types.Ok (inr (eps, ws)) ->
  length ws = Z.to_nat count /\
  ni_cap (commit_usage (snd n) ws) = ni_cap (snd n) /\
  nr_mem (ni_usage (commit_usage (snd n) ws)) = nr_mem (ni_usage (snd n)) + count * rq_mem_req req.
Proof.
  intros Hv Hc H. rewrite commit_usage_cap, commit_usage_mem.
  destruct (rq_bind req) eqn:Eb.
  - destruct (deploy_struct sortf _ _ _ _ _ _ _ _ _ _ H Hv Eb) as (plans & _ & Hle & _ & ->).
    rewrite zs_mk_wr, map_length, !firstn_length_le by lia.
    split; [reflexivity|]. split; [reflexivity|]. rewrite Z2Nat.id by lia. reflexivity.
  - rewrite (memory_only_ws n count eps ws Hv Eb H), repeat_n_mem. cbn [wr_mem_req].
    rewrite repeat_n_length. split; [reflexivity|]. split; [reflexivity|]. rewrite Z2Nat.id by lia. reflexivity.
Qed.

Lemma accepted_result (n : pnode) count :
  alloc_accepts sortf base maxshare raw orders n count = true ->
  exists eps ws,
    calculate_deploy_g sortf (snd n) base maxshare count raw (orders (fst n)) (default_fuel (snd n))
      = Types.Ok (inr (eps, ws)) /\
    node_after sortf base maxshare raw orders n count = Some (commit_usage (snd n) ws).
Proof.
  unfold alloc_accepts, node_after.
  destruct (calculate_deploy_g sortf (snd n) base maxshare count raw (orders (fst n)) (default_fuel (snd n)))
    as [[e|[eps ws]]| | |]; try discriminate.
  intros _. exists eps, ws. split; reflexivity.
Qed.

(* (d) along the path: every node that received instances ends with its capacity
   unchanged and memory usage = usage + planned count * request *)
Theorem deploy_path_commit nodes caps morder status need limit s p n :
  path_hyps sortf base maxshare raw req orders nodes caps morder status need limit ->
  deploy_path sortf base maxshare raw orders nodes morder status s need limit = PResult (Model.Ok p) ->
  In n nodes -> 1 <= mget p (fst n) ->
  exists info', node_after sortf base maxshare raw orders n (mget p (fst n)) = Some info' /\
    ni_cap info' = ni_cap (snd n) /\
    nr_mem (ni_usage info') = nr_mem (ni_usage (snd n)) + mget p (fst n) * rq_mem_req req.
Proof.
  intros Hh Hd Hn Hp.
  destruct (accepted_result n _ (deploy_path_alloc_accepted _ _ _ _ _ _ _ _ _ _ _ _ s p n Hh Hd Hn Hp)) as (eps & ws & E & Ea).
  destruct (accepted_commit n (mget p (fst n)) eps ws (proj1 Hh) ltac:(lia) E) as (_ & H2 & H3).
  exists (commit_usage (snd n) ws). split; [exact Ea|]. split; assumption.
Qed.
End Commit.

Section CommitCPU.
Variable sortf : list keyed -> outcome (list keyed).
Hypothesis sortf_perm : forall l, exists l', sortf l = Types.Ok l' /\ Permutation l' l.
Variables (base maxshare : Z) (raw req : wreq) (orders : string -> list string).

(* (d, cpu) along the path: on every node that received instances the usage of every core
   grows by exactly what the recorded workloads bind on it, and the node record stays valid
   (in particular: per-core usage <= capacity, memory usage <= capacity) *)
Theorem deploy_path_commit_cpu nodes caps morder status need limit s p n :
  path_hyps sortf base maxshare raw req orders nodes caps morder status need limit ->
  0 < base -> valid_node (snd n) = true -> NoDup (orders (fst n)) -> ~ In EmptyString (orders (fst n)) ->
  deploy_path sortf base maxshare raw orders nodes morder status s need limit = PResult (Model.Ok p) ->
  In n nodes -> 1 <= mget p (fst n) ->
  exists eps ws,
    calculate_deploy_g sortf (snd n) base maxshare (mget p (fst n)) raw (orders (fst n)) (default_fuel (snd n))
      = Types.Ok (inr (eps, ws)) /\
    node_after sortf base maxshare raw orders n (mget p (fst n)) = Some (commit_usage (snd n) ws) /\
    length ws = Z.to_nat (mget p (fst n)) /\
    (forall id, Types.lookup 0 (nr_cpumap (ni_usage (commit_usage (snd n) ws))) id =
                Types.lookup 0 (nr_cpumap (ni_usage (snd n))) id + used (map wr_cpumap ws) id) /\
    validate_ok (commit_usage (snd n) ws) = true.
Proof.
  intros Hh Hb Hvn Nd Hne Hd Hn Hp.
  destruct (accepted_result sortf base maxshare raw orders n _
              (deploy_path_alloc_accepted _ _ _ _ _ _ _ _ _ _ _ _ s p n Hh Hd Hn Hp)) as (eps & ws & E & Ea).
  destruct Hh as (Hv & _).
  exists eps, ws. split; [exact E|]. split; [exact Ea|].
  destruct (accepted_commit sortf base maxshare raw req orders n (mget p (fst n)) eps ws Hv ltac:(lia) E) as (Hl & _ & _).
  split; [exact Hl|].
  destruct (valid_node_wf (snd n) Hvn) as (Wf & _).
  destruct (commit_fold_spec ws (deploy_maps_nodup sortf sortf_perm _ _ _ _ _ _ _ _ _ E Wf Nd Hb) (ni_usage (snd n))) as (A & _).
  split; [exact A|].
  exact (proj1 (deploy_commit_valid sortf sortf_perm (snd n) base maxshare (mget p (fst n)) raw (orders (fst n))
                  (default_fuel (snd n)) eps ws E Hvn Nd Hne Hb ltac:(lia))).
Qed.
End CommitCPU.
