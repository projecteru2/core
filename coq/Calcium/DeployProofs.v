(* Calcium/DeployProofs.v — the per-instance transaction of a deployment (doDeployOneWorkload)
   for a fresh id, EVERY world and EVERY fault position: success = the workload is recorded and
   its container running; failure = no record and no container are left (markers and WAL aside). *)
From Coq Require Import List Bool Arith ZArith.
From Verif Require Import Base.Effects Calcium.World Calcium.Ops Calcium.OpsProofs.
Import ListNotations.
Local Open Scope Z_scope.

Lemma find_wl_none_notin : forall l id, find (fun y => wid_eqb (w_id y) id) l = None -> ~ In id (ids l).
Proof.
  intros l id H Hin. unfold ids in Hin. apply in_map_iff in Hin. destruct Hin as [y [Hy Hin]].
  eapply find_none in H; eauto. simpl in H. rewrite Hy, wid_eqb_refl in H. discriminate.
Qed.

Lemma upd_cont_app_new : forall l id st st', find (fun y => wid_eqb (c_id y) id) l = None ->
  upd_cont id st' (l ++ [mkCont id st]) = l ++ [mkCont id st'].
Proof.
  intros l id st st' H. unfold upd_cont. rewrite map_app. simpl. rewrite wid_eqb_refl. f_equal.
  apply map_fix. intros z Hz. rewrite (find_none _ _ H z Hz). reflexivity.
Qed.

Lemma exec_add_workload : forall w x decr, find_wl w (w_id x) = None ->
  exec w (SAddWorkload x decr) =
  (set_markers (set_wls w (wls w ++ [x]))
     (match decr with Some ident => decr_marker (w_node x) ident (markers w) | None => markers w end), ROk).
Proof. intros w x decr H. cbn [exec]. rewrite H. destruct decr; [reflexivity|]. destruct w; reflexivity. Qed.

(* everything but markers and the WAL *)
Definition core_eq (w' w : world) (l : list wl) (c : list cont) : Prop :=
  pods w' = pods w /\ nodes w' = nodes w /\ plugs w' = plugs w /\ out w' = out w /\
  strict_remove w' = strict_remove w /\ script w' = script w /\ wls w' = l /\ conts w' = c.

Lemma deploy_one_spec : forall x decr w k,
  find_wl w (w_id x) = None -> find_cont w (w_id x) = None ->
  exists w' k' r, crunk (deploy_one x decr) w k = (w', k', r) /\
  (r = None -> core_eq w' w (wls w ++ [x]) (conts w ++ [mkCont (w_id x) CRunning])) /\
  (r <> None -> core_eq w' w (wls w) (conts w) /\ k' = None).
Proof.
  intros x decr w k Hx Hc. unfold find_wl in Hx. unfold find_cont in Hc. apply ends_ex.
  unfold deploy_one, txn_s, ign, skip, doc, call1. norm.
  pose proof (del_wl_notin _ _ (find_wl_none_notin _ _ Hx)) as Hdel.
  pose proof (wid_eqb_refl (w_id x)) as Hrefl.
  (* the rollback removes the record (if it is there already) and the container *)
  assert (Hrb : forall w1 st (q : reply -> cprog oerr) (Q : world -> option nat -> oerr -> Prop),
            (wls w1 = wls w \/ wls w1 = wls w ++ [x]) -> conts w1 = conts w ++ [mkCont (w_id x) st] ->
            ends (q ROk) (set_conts (set_wls w1 (wls w)) (conts w)) None Q ->
            ends (Do (SRemoveWorkload x) (fun _ => Do (ERemove (w_id x) true) q)) w1 None Q).
  { intros w1 st q Q Hw1 Hc1 HQ. apply ends_run. exe. apply ends_run. rewrite eremove_ok by (left; reflexivity). look.
    rewrite Hc1. unfold del_cont. rewrite (filter_app_new _ (fun y => wid_eqb (c_id y) (w_id x))) by auto.
    destruct Hw1 as [->| ->]; [rewrite Hdel|unfold del_wl; rewrite (filter_app_new _ (fun y => wid_eqb (w_id y) (w_id x))) by auto];
      exact HQ. }
  assert (Hfail : forall w1 (e : err) (P : Prop), core_eq w1 w (wls w) (conts w) ->
            (Some e = None -> P) /\ (Some e <> None -> core_eq w1 w (wls w) (conts w) /\ @None nat = None))
    by (intros; split; [discriminate|auto]).
  step k; [apply Hfail; repeat split|]. exe.
  step k.
  { (* the WAL entry cannot be written: the created container is removed *)
    eapply Hrb; [left; reflexivity|reflexivity|]. norm. apply Hfail. repeat split. }
  exe. step k.
  { eapply Hrb; [left; reflexivity|reflexivity|]. norm. apply ends_run. exe. apply Hfail. repeat split. }
  rewrite exec_add_workload by exact Hx. norm. step k.
  { eapply Hrb; [right; reflexivity|reflexivity|]. norm. apply ends_run. exe. apply Hfail. repeat split. }
  exe. rewrite find_app_new by first [exact Hc|exact Hrefl]. norm. rewrite upd_cont_app_new by exact Hc. step k.
  { eapply Hrb; [right; reflexivity|reflexivity|]. norm. apply ends_run. exe. apply Hfail. repeat split. }
  exe. rewrite find_app_new by first [exact Hc|exact Hrefl]. norm.
  (* recorded and running; the outcome of the WAL commit is ignored *)
  step k; [|exe]; (split; [|congruence]; intros _; look; repeat split).
Qed.

(* everything but markers, the WAL and the output channel *)
Definition core3 (w' w : world) (l : list wl) (c : list cont) : Prop :=
  pods w' = pods w /\ nodes w' = nodes w /\ plugs w' = plugs w /\
  strict_remove w' = strict_remove w /\ script w' = script w /\ wls w' = l /\ conts w' = c.

Lemma core_eq_core3 : forall w' w l c, core_eq w' w l c -> core3 w' w l c.
Proof. unfold core_eq, core3. tauto. Qed.

Lemma core3_trans : forall w2 w1 w l c, core3 w2 w1 (wls w1) (conts w1) -> core3 w1 w l c -> core3 w2 w l c.
Proof. unfold core3. intros. intuition congruence. Qed.
Lemma core3_refl : forall w, core3 w w (wls w) (conts w).
Proof. unfold core3. intuition. Qed.

Lemma send_core : forall m w k, exists w', crunk (send m) w k = (w', k, tt) /\ core3 w' w (wls w) (conts w) /\ out w' = m :: out w.
Proof.
  intros m w k. unfold send, ign, doc, call1, crunk. norm. cbn [exec].
  eexists. split; [reflexivity|]. split; [repeat split|reflexivity].
Qed.

Definition fresh (w : world) (opi : nat) (n : name) (i : nat) : Prop :=
  find_wl w (mkWid opi n i) = None /\ find_cont w (mkWid opi n i) = None.

Lemma fresh_app : forall w w' opi n i (l : list wl) (c : list cont),
  fresh w opi n i -> wls w' = wls w ++ l -> conts w' = conts w ++ c ->
  (forall y, In y l -> w_id y <> mkWid opi n i) -> (forall y, In y c -> c_id y <> mkWid opi n i) ->
  fresh w' opi n i.
Proof.
  intros w w' opi n i l c [Hx Hc] Hw Hcc Hl Hcl. unfold fresh, find_wl, find_cont in *. rewrite Hw, Hcc.
  split; apply find_app_none; auto; intros y Hy; destruct (wid_eqb _ (mkWid opi n i)) eqn:E; auto;
    apply wid_eqb_eq in E; [destruct (Hl y Hy E)|destruct (Hcl y Hy E)].
Qed.
