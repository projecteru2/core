(* The retry loop is linearizable as one atomic "record + decrement" per caller:
   in every reachable state marker + (number of completed callers) = initial
   value; when all callers are done the marker dropped by exactly their number;
   and every run is finite: a step count bounded by n*(n+2) for n callers, under
   any schedule (a failed compare means somebody else succeeded). *)
From Coq Require Import List Bool ZArith Lia.
From Verif Require Import Calcium.DecrLoop.
Import ListNotations.
Local Open Scope Z_scope.

Definition cnt (f : tstate -> bool) (l : list tstate) : nat := List.length (filter f l).
Definition not_done (t : tstate) : bool := negb (is_done t).
Definition stale (m : Z) (t : tstate) : bool := match t with TTry v => negb (Z.eqb v m) | _ => false end.
(* a caller that must look at the marker (again) before its compare can succeed *)
Definition behind (m : Z) (t : tstate) : bool := match t with TRead => true | _ => stale m t end.

Lemma cnt_set_nth : forall f l i x y, nth_error l i = Some y ->
  (cnt f (set_nth i x l) + (if f y then 1 else 0) = cnt f l + (if f x then 1 else 0))%nat.
Proof.
  intros f l. induction l as [|z t IH]; intros i x y H; [destruct i; discriminate|].
  destruct i as [|j]; cbn in H.
  - inversion H; subst. unfold cnt. cbn. destruct (f x), (f y); cbn; lia.
  - specialize (IH j x y H). unfold cnt in *. cbn. destruct (f z); cbn; lia.
Qed.
Lemma length_set_nth : forall l i x, List.length (set_nth i x l) = List.length l.
Proof. induction l as [|z t IH]; intros [|j] x; cbn; auto. Qed.
Lemma cnt_le_length : forall f l, (cnt f l <= List.length l)%nat.
Proof. intros f l. unfold cnt. induction l as [|t l IH]; cbn; [lia|]. destruct (f t); cbn; lia. Qed.
Lemma cnt_repeat : forall f x n, cnt f (repeat x n) = if f x then n else 0%nat.
Proof. intros f x n. unfold cnt. induction n; cbn; [destruct (f x); reflexivity|]. destruct (f x); cbn; rewrite IHn; reflexivity. Qed.
Lemma cnt_all_done : forall l, forallb is_done l = true -> cnt is_done l = List.length l.
Proof.
  induction l as [|t l IH]; intros F; [reflexivity|]. cbn in F. apply andb_true_iff in F. destruct F as [F1 F2].
  unfold cnt in *. cbn. rewrite F1. cbn. rewrite IH by exact F2. reflexivity.
Qed.

(* The two kinds of request: a look at the marker (the first Get, or the Get of the Else
   branch after a failed compare), and a compare that succeeds. *)
Lemma dstep_cases : forall s i s', dstep s i = Some s' ->
  exists t, nth_error (threads s) i = Some t /\
    (behind (marker s) t = true /\ s' = mkDs (marker s) (added s) (set_nth i (TTry (marker s)) (threads s))
     \/ t = TTry (marker s) /\ s' = mkDs (marker s - 1) (added s + 1) (set_nth i TDone (threads s))).
Proof.
  intros s i s' H. unfold dstep in H. destruct (nth_error (threads s) i) as [[|v|]|]; try discriminate.
  - exists TRead. split; [reflexivity|]. left. inversion H. split; reflexivity.
  - exists (TTry v). split; [reflexivity|]. destruct (Z.eqb_spec (marker s) v) as [Ev|Hne]; inversion H.
    + right. rewrite Ev. split; reflexivity.
    + left. split; [|reflexivity]. apply negb_true_iff, Z.eqb_neq. congruence.
Qed.

(* whoever is not done can always issue a request: the loop never blocks *)
Theorem never_stuck : forall s i t, nth_error (threads s) i = Some t -> is_done t = false -> exists s', dstep s i = Some s'.
Proof.
  intros s i t E D. unfold dstep. rewrite E. destruct t; [eexists; reflexivity | | discriminate].
  destruct (Z.eqb (marker s) v); eexists; reflexivity.
Qed.

(* safety: no lost and no duplicated decrement *)
Definition Inv (k : Z) (s : dsys) : Prop :=
  marker s = k - Z.of_nat (cnt is_done (threads s)) /\ added s = Z.of_nat (cnt is_done (threads s)).

Lemma inv_step : forall k s i s', Inv k s -> dstep s i = Some s' -> Inv k s'.
Proof.
  intros k s i s' [I1 I2] H. destruct (dstep_cases _ _ _ H) as [t [E [[B ->]|[-> ->]]]]; unfold Inv; cbn [marker added threads].
  - pose proof (cnt_set_nth is_done _ _ (TTry (marker s)) _ E) as C. destruct t; try discriminate B; cbn in C; split; lia.
  - pose proof (cnt_set_nth is_done _ _ TDone _ E) as C. cbn in C. split; lia.
Qed.

Lemma inv_start : forall k n, Inv k (dstart k n).
Proof. intros. unfold Inv, dstart. cbn [marker added threads]. rewrite cnt_repeat. cbn. split; lia. Qed.

Theorem inv_run : forall k sched s, Inv k s -> Inv k (drun s sched).
Proof.
  intros k sched. induction sched as [|i rest IH]; intros s I; cbn; [exact I|].
  destruct (dstep s i) as [s'|] eqn:E; [apply IH; eapply inv_step; eauto | apply IH; exact I].
Qed.

Lemma dstep_length : forall s i s', dstep s i = Some s' -> List.length (threads s') = List.length (threads s).
Proof. intros s i s' H. destruct (dstep_cases _ _ _ H) as [t [_ [[_ ->]|[_ ->]]]]; apply length_set_nth. Qed.

Lemma drun_length : forall sched s, List.length (threads (drun s sched)) = List.length (threads s).
Proof.
  induction sched as [|i rest IH]; intros s; cbn; [reflexivity|].
  destruct (dstep s i) as [s'|] eqn:E; [|apply IH]. rewrite IH. eapply dstep_length. exact E.
Qed.

Theorem decr_exact : forall k n sched,
  let s := drun (dstart k n) sched in
  forallb is_done (threads s) = true ->
  marker s = k - Z.of_nat n /\ added s = Z.of_nat n.
Proof.
  intros k n sched s F. destruct (inv_run k sched _ (inv_start k n)) as [I1 I2]. fold s in I1, I2.
  assert (L : List.length (threads s) = n).
  { unfold s. rewrite drun_length. unfold dstart. cbn. apply repeat_length. }
  rewrite (cnt_all_done _ F), L in I1, I2. split; assumption.
Qed.

(* A look brings one caller up to date; a successful compare finishes one caller and may put
   all the others behind again, which the factor [S (length ...)] pays for. *)
Definition measure (s : dsys) : nat :=
  (cnt not_done (threads s) * S (List.length (threads s)) + cnt (behind (marker s)) (threads s))%nat.

Lemma stale_same : forall m l, cnt (stale m) l = cnt (stale m) l.
Proof. reflexivity. Qed.

Theorem step_decreases : forall s i s', dstep s i = Some s' -> (measure s' < measure s)%nat.
Proof.
  intros s i s' H. destruct (dstep_cases _ _ _ H) as [t [E [[B ->]|[-> ->]]]];
    unfold measure; cbn [threads marker]; rewrite length_set_nth.
  - pose proof (cnt_set_nth not_done _ _ (TTry (marker s)) _ E) as C1.
    pose proof (cnt_set_nth (behind (marker s)) _ _ (TTry (marker s)) _ E) as C2.
    rewrite B in C2. cbn in C1, C2. rewrite Z.eqb_refl in C2. destruct t; try discriminate B; cbn in C1, C2; nia.
  - pose proof (cnt_set_nth not_done _ _ TDone _ E) as C1. cbn in C1.
    pose proof (cnt_le_length (behind (marker s - 1)) (set_nth i TDone (threads s))) as L. rewrite length_set_nth in L.
    nia.
Qed.

Fixpoint executed (s : dsys) (sched : list nat) : nat :=
  match sched with
  | [] => 0
  | i :: rest => match dstep s i with Some s' => S (executed s' rest) | None => executed s rest end
  end.

Theorem run_bounded : forall sched s, (executed s sched + measure (drun s sched) <= measure s)%nat.
Proof.
  induction sched as [|i rest IH]; intros s; cbn; [lia|].
  destruct (dstep s i) as [s'|] eqn:E; [|apply IH].
  pose proof (step_decreases _ _ _ E). specialize (IH s'). lia.
Qed.

Theorem requests_bounded : forall k n sched, (executed (dstart k n) sched <= n * (n + 2))%nat.
Proof.
  intros k n sched. pose proof (run_bounded sched (dstart k n)) as B.
  assert (M : measure (dstart k n) = (n * (n + 2))%nat).
  { unfold measure, dstart. cbn [threads marker]. rewrite repeat_length, !cnt_repeat. cbn. lia. }
  lia.
Qed.
