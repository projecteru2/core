(* C10 over histories: one invariant, kept by every operation at every fault position, hence by every history.

   Inv w  :=  the ids of the recorded workloads are distinct, each recorded workload's node has a plugin record
              and the workload has a container  (wf w)
           /\ for every plugin record, usage = sum of the resources of the workloads recorded on its node  (use_ok w)
           /\ one plugin record per node name
           /\ every node record is available (no operation of the history marks a live node down).

   The per-operation theorems are whole-operation theorems (RemoveWorkload and DissociateWorkload including the
   loops over nodes and ids and the messages), for EVERY world satisfying Inv and EVERY fault position.
   ReplaceWorkload keeps Inv unless the replacement of some workload failed after its new workload was deployed
   (the known finding: old and new both recorded, rp_window of replace_post). *)
From Coq Require Import List Bool Arith ZArith Lia Permutation.
From Verif Require Import Base.Effects Calcium.World Calcium.Ops Calcium.Run Calcium.OpsProofs Calcium.OpsProofs2 Calcium.InvProofs Calcium.DeployProofs Calcium.DeployProofs2 Calcium.CreateProofs2 Calcium.CapProofs Calcium.NodeProofs Base.ListFacts.
Import ListNotations.
Local Open Scope Z_scope.

Record Inv (w : world) : Prop := {
  inv_wf : wf w;
  inv_use : use_ok w;
  inv_pnames : NoDup (pnames (plugs w));
  inv_up : forall y, In y (nodes w) -> n_avail y = true;
}.

Lemma Inv_core : forall w w', Inv w -> nodes w' = nodes w -> plugs w' = plugs w -> wls w' = wls w ->
  (forall id, (exists x, find_cont w id = Some x) -> exists x, find_cont w' id = Some x) -> Inv w'.
Proof.
  intros w w' [[H1 H2 H3] H4 H5 H6] Hn Hp Hw Hc. constructor; [constructor|..].
  - rewrite Hw; exact H1.
  - intros x Hx. rewrite Hw in Hx. unfold find_plug. rewrite Hp. apply H2; exact Hx.
  - intros x Hx. rewrite Hw in Hx. apply Hc. apply H3; exact Hx.
  - intros p Hp'. rewrite Hp in Hp'. rewrite Hw. apply H4; exact Hp'.
  - rewrite Hp; exact H5.
  - intros y Hy. rewrite Hn in Hy. auto.
Qed.

Lemma Inv_ext : forall w w', nodes w' = nodes w -> wls w' = wls w -> plugs w' = plugs w -> conts w' = conts w ->
  Inv w -> Inv w'.
Proof. intros w w' Hn Hw Hpl Hc HI. apply (Inv_core w w' HI Hn Hpl Hw). unfold find_cont. rewrite Hc. auto. Qed.

Lemma Inv_out : forall w o, Inv w -> Inv (set_out w o).
Proof. intros w o. apply Inv_ext; reflexivity. Qed.

Lemma core3_Inv : forall w w', core3 w' w (wls w) (conts w) -> Inv w -> Inv w'.
Proof. intros w w' [_ [? [? [_ [_ [? ?]]]]]]. apply Inv_ext; assumption. Qed.

Lemma ids_perm : forall l l', Permutation l l' -> Permutation (ids l) (ids l').
Proof. intros. unfold ids. apply Permutation_map. auto. Qed.

Lemma Inv_perm : forall w l, Inv w -> Permutation l (wls w) -> Inv (oth w l (plugs w) (conts w)).
Proof.
  intros w l [[H1 H2 H3] H4 H5 H6] Hp. constructor; [constructor|..]; simpl.
  - eapply Permutation_NoDup; [apply Permutation_sym, ids_perm; exact Hp|exact H1].
  - intros x Hx. apply H2. eapply Permutation_in; eauto.
  - intros x Hx. apply H3. eapply Permutation_in; eauto.
  - apply use_ok_perm; auto.
  - exact H5.
  - exact H6.
Qed.

Lemma in_del_wl : forall l id x, In x (del_wl id l) -> In x l /\ wid_eqb (w_id x) id = false.
Proof. intros l id x H. unfold del_wl in H. apply filter_In in H. destruct H as [H1 H2]. apply negb_true_iff in H2. auto. Qed.

Lemma nodup_ids_del : forall l id, NoDup (ids l) -> NoDup (ids (del_wl id l)).
Proof.
  induction l as [|y t IH]; intros id H; simpl; [constructor|].
  inversion H as [|? ? Hn Hnd]; subst. destruct (wid_eqb (w_id y) id); simpl; [apply IH; auto|].
  constructor; [|apply IH; auto]. intro Hin. apply Hn. unfold ids in *. apply in_map_iff in Hin.
  destruct Hin as [z [Hz Hin]]. apply in_del_wl in Hin. rewrite <- Hz. apply in_map. tauto.
Qed.

Lemma find_cont_del_other : forall l id id', wid_eqb id' id = false ->
  find (fun y => wid_eqb (c_id y) id') (del_cont id l) = find (fun y => wid_eqb (c_id y) id') l.
Proof.
  induction l as [|y t IH]; intros id id' H; simpl; [reflexivity|].
  destruct (wid_eqb (c_id y) id) eqn:E; simpl.
  - apply wid_eqb_eq in E. rewrite E. assert (wid_eqb id id' = false) as ->.
    { destruct (wid_eqb id id') eqn:E2; auto. apply wid_eqb_eq in E2. subst. rewrite wid_eqb_refl in H. discriminate. }
    apply IH; auto.
  - destruct (wid_eqb (c_id y) id'); [reflexivity|apply IH; auto].
Qed.

Lemma pnames_upd : forall n f l, (forall x, p_node (f x) = p_node x) -> pnames (upd_plug n f l) = pnames l.
Proof.
  intros n f l Hf. unfold pnames, upd_plug. rewrite map_map. apply map_ext. intros x.
  destruct (Nat.eqb (p_node x) n); [apply Hf|reflexivity].
Qed.

Lemma find_plug_upd_some : forall n f l m, (forall x, p_node (f x) = p_node x) ->
  (exists p, find (fun x => Nat.eqb (p_node x) m) l = Some p) ->
  exists p, find (fun x => Nat.eqb (p_node x) m) (upd_plug n f l) = Some p.
Proof. intros n f l m Hf [p Hp]. rewrite find_plug_upd by exact Hf. rewrite Hp. eexists; reflexivity. Qed.

Lemma Inv_removed : forall w x c, Inv w -> find_wl w (w_id x) = Some x ->
  (c = conts w \/ c = del_cont (w_id x) (conts w)) ->
  Inv (oth w (del_wl (w_id x) (wls w)) (upd_plug (w_node x) (sub_use (w_res x)) (plugs w)) c).
Proof.
  intros w x c [[H1 H2 H3] H4 H5 H6] Hx Hc. constructor; [constructor|..]; simpl.
  - apply nodup_ids_del; auto.
  - intros y Hy. apply in_del_wl in Hy. apply find_plug_upd_some; [reflexivity|]. apply H2, Hy.
  - intros y Hy. apply in_del_wl in Hy. destruct Hy as [Hy Hne]. destruct (H3 y Hy) as [c0 Hc0].
    unfold find_cont in *. simpl. destruct Hc as [->| ->]; [eauto|].
    rewrite find_cont_del_other by exact Hne. eauto.
  - apply use_ok_remove; auto.
  - rewrite pnames_upd by reflexivity. exact H5.
  - exact H6.
Qed.

Lemma ids_upd_wl : forall x' l, ids (upd_wl x' l) = ids l.
Proof.
  intros x' l. unfold ids, upd_wl. rewrite map_map. apply map_ext_in. intros y _.
  destruct (wid_eqb (w_id y) (w_id x')) eqn:E; [|reflexivity]. apply wid_eqb_eq in E. auto.
Qed.

Lemma in_upd_wl : forall x' l y, In y (upd_wl x' l) -> exists z, In z l /\ w_id y = w_id z /\ (y = z \/ (y = x' /\ w_id z = w_id x')).
Proof.
  intros x' l y H. unfold upd_wl in H. apply in_map_iff in H. destruct H as [z [Hz Hin]].
  exists z. split; [exact Hin|]. destruct (wid_eqb (w_id z) (w_id x')) eqn:E.
  - apply wid_eqb_eq in E. subst y. split; [auto|]. right. auto.
  - subst y. auto.
Qed.

Lemma Inv_realloc : forall w x req, Inv w -> find_wl w (w_id x) = Some x ->
  Inv (oth w (upd_wl (mkWl (w_id x) (w_node x) (w_pod x) (radd (w_res x) req)) (wls w))
             (upd_plug (w_node x) (add_use req) (plugs w)) (conts w)).
Proof.
  intros w x req [[H1 H2 H3] H4 H5 H6] Hx. constructor; [constructor|..]; simpl.
  - rewrite ids_upd_wl. exact H1.
  - intros y Hy. apply in_upd_wl in Hy. destruct Hy as [z [Hz [Hid [->|[-> Hzid]]]]].
    + apply find_plug_upd_some; [reflexivity|]. apply H2, Hz.
    + apply find_plug_upd_some; [reflexivity|]. apply (H2 x). apply find_wl_id in Hx. apply Hx.
  - intros y Hy. apply in_upd_wl in Hy. destruct Hy as [z [Hz [Hid _]]]. rewrite Hid. apply H3. exact Hz.
  - apply use_ok_realloc; auto.
  - rewrite pnames_upd by reflexivity. exact H5.
  - exact H6.
Qed.

Lemma in_upd_node : forall x' l y, In y (upd_node x' l) -> In y l \/ y = x'.
Proof.
  intros x' l y H. unfold upd_node in H. apply in_map_iff in H. destruct H as [z [Hz Hin]].
  destruct (Nat.eqb (n_name z) (n_name x')); subst; auto.
Qed.

Lemma Inv_set_node : forall w x' f, Inv w -> n_avail x' = true ->
  (forall p, p_node (f p) = p_node p) -> (forall p, p_use (f p) = p_use p) ->
  Inv (othnp w (upd_node x' (nodes w)) (upd_plug (n_name x') f (plugs w))).
Proof.
  intros w x' f [[H1 H2 H3] H4 H5 H6] Hav Hf1 Hf2. constructor; [constructor|..]; simpl.
  - exact H1.
  - intros y Hy. apply find_plug_upd_some; [exact Hf1|]. apply H2, Hy.
  - exact H3.
  - intros q Hq. simpl in *. apply in_upd_plug in Hq. destruct Hq as [p [Hp Hq]].
    destruct (Nat.eqb (p_node p) (n_name x')); subst q; [rewrite Hf1, Hf2|]; apply H4; exact Hp.
  - rewrite pnames_upd by exact Hf1. exact H5.
  - intros y Hy. apply in_upd_node in Hy. destruct Hy as [Hy| ->]; auto.
Qed.

Definition after {A} (p : cprog A) (w : world) (k : option nat) : world := fst (fst (crunk p w k)).

Lemma ends_after : forall A (p : cprog A) w k (P : world -> Prop), ends p w k (fun w' _ _ => P w') -> P (after p w k).
Proof. intros A p w k P. unfold ends, after. destruct (crunk p w k) as [[w' k'] a]. auto. Qed.

Lemma after_bind : forall A B (p : cprog A) (f : A -> cprog B) w k,
  after (bind p f) w k = after (f (snd (crunk p w k))) (after p w k) (snd (fst (crunk p w k))).
Proof. intros. unfold after. rewrite crunk_bind. destruct (crunk p w k) as [[w1 k1] a]. reflexivity. Qed.

Lemma after_bind_eq : forall {A B} (p : cprog A) (f : A -> cprog B) {w k w1 k1 a},
  crunk p w k = (w1, k1, a) -> after (bind p f) w k = after (f a) w1 k1.
Proof. intros A B p f w k w1 k1 a H. rewrite after_bind. unfold after at 2. rewrite H. reflexivity. Qed.

Lemma after_map_ret : forall A B (p : cprog A) (f : A -> B) w k, after (x <- p ;; Ret (f x)) w k = after p w k.
Proof. intros. rewrite after_bind. reflexivity. Qed.

Lemma call1_cases : forall c w k, exists k',
  crunk (call1 c) w k = (w, k', fail_reply c) \/ crunk (call1 c) w k = (fst (exec w c), k', snd (exec w c)).
Proof.
  intros c w k. unfold call1, crunk. cbn [runk].
  destruct (is_faultable c); [destruct k as [[|j]|]|]; try (eexists; left; reflexivity);
    destruct (exec w c); eexists; right; reflexivity.
Qed.

Lemma call1_world : forall c w k, after (call1 c) w k = w \/ after (call1 c) w k = fst (exec w c).
Proof. intros c w k. unfold after. destruct (call1_cases c w k) as [k' [-> | ->]]; auto. Qed.

Lemma send_exact : forall m w k, crunk (send m) w k = (set_out w (m :: out w), k, tt).
Proof. intros. unfold send, ign, doc, call1, crunk. cbn [bind runk exec is_faultable]. reflexivity. Qed.

Lemma after_send : forall m w k, after (send m) w k = set_out w (m :: out w).
Proof. intros. unfold after. rewrite send_exact. reflexivity. Qed.

Lemma locked_world : forall n (body : node -> cprog oerr) w k (R : world -> Prop),
  R w -> (forall x k1, R (after (body x) w k1)) -> R (after (with_node_pod_locked n body) w k).
Proof.
  intros n body w k R Hw Hb. unfold after at 1.
  destruct (with_node_pod_locked_spec n body w k) as [w' [k' [r [H [[_ ->]|[x [k1 [k2 [_ [_ H2]]]]]]]]]]; rewrite H; simpl.
  - exact Hw.
  - specialize (Hb x k1). unfold after in Hb. rewrite H2 in Hb. exact Hb.
Qed.

(* AddNode, every outcome (also a refused store AddNode followed by a failing plugin RemoveNode) *)
Lemma add_node_outcomes : forall n p cap w k,
  ends (add_node n p cap) w k (fun w' _ _ => w' = w \/
    (find_plug w n = None /\ exists ns, (ns = nodes w \/ ns = nodes w ++ [mkNode n p false true 0]) /\
       w' = othn w ns (plugs w ++ [mkPlug n cap rzero]))).
Proof.
  intros n p cap w k. unfold find_plug, add_node, txn, doc, call1. norm.
  step k; [left; reflexivity|]. exe.
  step k; [left; reflexivity|]. exe.
  destruct (find (fun x => Nat.eqb (p_node x) n) (plugs w)) eqn:Hp; norm; [left; reflexivity|].
  (* the store refuses the node, or the fault hits it: the plugin record is removed again, unless the fault hits that *)
  assert (Hback : forall k0 (e : err), ends (Do (PRemoveNode n) (fun _ => Ret (Some e)))
            (othn w (nodes w) (plugs w ++ [mkPlug n cap rzero])) k0
            (fun w' _ _ => w' = w \/ (@None plug = None /\ exists ns, (ns = nodes w \/ ns = nodes w ++ [mkNode n p false true 0]) /\
                                     w' = othn w ns (plugs w ++ [mkPlug n cap rzero])))).
  { intros k0 e. unfold othn. step k0.
    - right. split; [reflexivity|]. exists (nodes w). auto.
    - exe. rewrite find_plug_app_new by exact Hp. norm. left. look. rewrite del_plug_app_new by exact Hp. destruct w; reflexivity. }
  step k; [apply (Hback None)|]. exe.
  destruct (negb (existsb (Nat.eqb p) (pods w))); [|destruct (find (fun x => Nat.eqb (n_name x) n) (nodes w))]; norm.
  - apply Hback.
  - apply Hback.
  - right. split; [reflexivity|]. eexists. split; [right; reflexivity|]. look. reflexivity.
Qed.

Lemma find_app_some : forall {A} (f : A -> bool) l l' x, find f l = Some x -> find f (l ++ l') = Some x.
Proof. intros A f l l' x. induction l as [|y t IH]; simpl; [discriminate|]. destruct (f y); auto. Qed.

Lemma sum_on_none : forall l n, (forall x, In x l -> w_node x <> n) -> sum_on l n = rzero.
Proof.
  intros l n H. unfold sum_on. induction l as [|x t IH]; simpl; [reflexivity|].
  assert (Nat.eqb (w_node x) n = false) as ->. { apply Nat.eqb_neq. apply H. left; reflexivity. }
  apply IH. intros y Hy. apply H. right; exact Hy.
Qed.

Lemma pnames_app : forall l l', pnames (l ++ l') = pnames l ++ pnames l'.
Proof. intros. unfold pnames. apply map_app. Qed.

Lemma Inv_add_node : forall w n p cap ns, Inv w -> find_plug w n = None ->
  (ns = nodes w \/ ns = nodes w ++ [mkNode n p false true 0]) ->
  Inv (othn w ns (plugs w ++ [mkPlug n cap rzero])).
Proof.
  intros w n p cap ns [[H1 H2 H3] H4 H5 H6] Hp Hns.
  assert (Hfresh : forall x, In x (wls w) -> w_node x <> n).
  { intros x Hx E. destruct (H2 x Hx) as [q Hq]. rewrite E in Hq. congruence. }
  constructor; [constructor|..]; simpl.
  - exact H1.
  - intros x Hx. destruct (H2 x Hx) as [q Hq]. unfold find_plug in *. simpl.
    exists q. apply find_app_some. exact Hq.
  - exact H3.
  - intros q Hq. simpl in *. apply in_app_or in Hq. destruct Hq as [Hq|[<-|[]]]; [apply H4; exact Hq|].
    simpl. symmetry. apply sum_on_none. exact Hfresh.
  - rewrite pnames_app. simpl. apply NoDup_snoc; [exact H5|].
    intro Hin. unfold pnames in Hin. apply in_map_iff in Hin. destruct Hin as [q [Hq Hin]].
    unfold find_plug in Hp. eapply find_none in Hp; eauto. simpl in Hp. rewrite Hq, Nat.eqb_refl in Hp. discriminate.
  - intros y Hy. destruct Hns as [->| ->]; [auto|]. apply in_app_or in Hy. destruct Hy as [Hy|[<-|[]]]; auto.
Qed.

Lemma remove_node_inner_busy : forall n w k, wls_on w n <> [] -> after (remove_node_inner n) w k = w.
Proof.
  intros n w k Hb. unfold remove_node_inner.
  destruct (call1_cases (SListNodeWorkloads n) w k) as [k' [H|H]]; rewrite (after_bind_eq _ _ H); [reflexivity|].
  cbn [exec fst snd]. destruct (wls_on w n); [congruence|reflexivity].
Qed.

Lemma remove_node_busy : forall n w k, wls_on w n <> [] -> after (remove_node n) w k = w.
Proof.
  intros n w k Hb. rewrite remove_node_is_body. apply (locked_world n _ w k (fun w' => w' = w)); [reflexivity|].
  intros x k1. unfold remove_node_body.
  destruct (call1_cases (SGetNode n) w k1) as [k' [H|H]]; rewrite (after_bind_eq _ _ H); [reflexivity|].
  cbn [exec]. destruct (find_node w n); [|reflexivity]. cbn [fst snd].
  destruct (Nat.eqb _ _); [apply remove_node_inner_busy; exact Hb|reflexivity].
Qed.

Lemma in_del_node : forall n l y, In y (del_node n l) -> In y l.
Proof. intros n l y H. unfold del_node in H. apply filter_In in H. tauto. Qed.

Lemma Inv_del_node : forall w n, Inv w -> Inv (othnp w (del_node n (nodes w)) (plugs w)).
Proof.
  intros w n [[H1 H2 H3] H4 H5 H6]. constructor; [constructor|..]; simpl; auto.
  intros y Hy. apply in_del_node in Hy. auto.
Qed.

Lemma find_del_plug_other : forall l n m, n <> m ->
  find (fun x => Nat.eqb (p_node x) m) (del_plug n l) = find (fun x => Nat.eqb (p_node x) m) l.
Proof.
  induction l as [|y t IH]; intros n m H; simpl; [reflexivity|].
  destruct (Nat.eqb (p_node y) n) eqn:E; simpl.
  - apply Nat.eqb_eq in E. assert (Nat.eqb (p_node y) m = false) as -> by (apply Nat.eqb_neq; congruence). apply IH; auto.
  - destruct (Nat.eqb (p_node y) m); [reflexivity|apply IH; auto].
Qed.

Lemma Inv_del_node_plug : forall w n, Inv w -> wls_on w n = [] ->
  Inv (othnp w (del_node n (nodes w)) (del_plug n (plugs w))).
Proof.
  intros w n [[H1 H2 H3] H4 H5 H6] Hempty.
  assert (Hfresh : forall x, In x (wls w) -> w_node x <> n).
  { intros x Hx E. assert (In x (wls_on w n)). { unfold wls_on. apply filter_In. split; [auto|]. apply Nat.eqb_eq; auto. }
    rewrite Hempty in H. destruct H. }
  constructor; [constructor|..]; simpl; auto.
  - intros x Hx. destruct (H2 x Hx) as [q Hq]. unfold find_plug in *. simpl.
    rewrite find_del_plug_other; [eauto|]. intro E. apply (Hfresh x Hx). auto.
  - intros q Hq. simpl in *. unfold del_plug in Hq. apply filter_In in Hq. apply H4. tauto.
  - unfold pnames, del_plug. apply NoDup_map_filter. exact H5.
  - intros y Hy. apply in_del_node in Hy. auto.
Qed.

Theorem realloc_keeps_Inv : forall id req w k, Inv w -> Inv (after (realloc id req) w k).
Proof.
  intros id req w k HI. unfold after.
  destruct (realloc_atomic id req w k (inv_wf w HI)) as [w' [k' [r [H [Hfail Hsucc]]]]]. rewrite H. simpl.
  destruct r as [e|].
  - rewrite Hfail by discriminate. exact HI.
  - destruct (Hsucc eq_refl) as [x [Hx ->]]. destruct (find_wl_id _ _ _ Hx) as [Hid _]. subst id.
    apply Inv_realloc; auto.
Qed.

Theorem set_node_keeps_Inv : forall n bypass mem label w k, Inv w -> Inv (after (set_node n bypass mem label) w k).
Proof.
  intros n bypass mem label w k HI. unfold after.
  destruct (set_node_atomic n bypass mem label w k (inv_pnames w HI)) as [w' [k' [r [H [Hfail Hsucc]]]]]. rewrite H. simpl.
  destruct r as [e|].
  - rewrite Hfail by discriminate. exact HI.
  - destruct (Hsucc eq_refl) as [x [Hx ->]]. unfold find_node in Hx. apply find_some in Hx. destruct Hx as [Hin Hn].
    apply Nat.eqb_eq in Hn. subst n.
    apply (Inv_set_node w (mkNode (n_name x) (n_pod x) (match bypass with Some b => b | None => n_bypass x end) (n_avail x)
                             (match label with Some l => l | None => n_label x end)) (new_cap mem) HI).
    + exact (inv_up w HI x Hin).
    + intros q. unfold new_cap. destruct mem as [[m d]|]; reflexivity.
    + intros q. unfold new_cap. destruct mem as [[m d]|]; reflexivity.
Qed.

Theorem add_node_keeps_Inv : forall n p cap w k, Inv w -> Inv (after (add_node n p cap) w k).
Proof.
  intros n p cap w k HI. apply ends_after. eapply ends_mono; [apply add_node_outcomes|].
  intros w' _ _ [->|[Hp [ns [Hns ->]]]]; [exact HI|]. apply (Inv_add_node w n p cap ns); auto.
Qed.

Theorem remove_node_keeps_Inv : forall n w k, Inv w -> Inv (after (remove_node n) w k).
Proof.
  intros n w k HI. destruct (wls_on w n) eqn:Hl.
  - unfold after. destruct (remove_node_partial n w k) as [w' [k' [r [H [Hfail Hsucc]]]]].
    { intros y Hy _. apply (inv_up w HI). exact Hy. }
    rewrite H. simpl. destruct r as [e|].
    + destruct Hfail as [->| ->]; [discriminate|exact HI|apply Inv_del_node; exact HI].
    + rewrite Hsucc by reflexivity. apply Inv_del_node_plug; auto.
  - rewrite remove_node_busy; [exact HI|congruence].
Qed.

Theorem add_pod_keeps_Inv : forall p w k, Inv w -> Inv (after (add_pod p) w k).
Proof.
  intros p w k HI. unfold add_pod, doc. rewrite after_map_ret.
  destruct (call1_world (SAddPod p) w k) as [-> | ->]; [exact HI|].
  cbn [exec]. destruct (existsb (Nat.eqb p) (pods w)); [exact HI|]. apply (Inv_ext w); try reflexivity. exact HI.
Qed.

Definition shrink (w w' : world) : Prop :=
  Inv w' /\ strict_remove w' = strict_remove w /\ incl (wls w') (wls w).

Lemma shrink_refl : forall w, Inv w -> shrink w w.
Proof. intros w H. split; [exact H|]. split; [reflexivity|apply incl_refl]. Qed.

Lemma shrink_then : forall w1 w2 w3, shrink w1 w2 -> (Inv w2 -> shrink w2 w3) -> shrink w1 w3.
Proof.
  intros w1 w2 w3 [H1 [H2 H3]] H. destruct (H H1) as [H4 [H5 H6]].
  split; [exact H4|]. split; [congruence|]. eapply incl_tran; eauto.
Qed.

Lemma shrink_core3 : forall w w', Inv w -> core3 w' w (wls w) (conts w) -> shrink w w'.
Proof.
  intros w w' HI Hc. split; [eapply core3_Inv; eauto|].
  destruct Hc as [? [? [? [? [? [Hw ?]]]]]]. split; [auto|]. rewrite Hw. apply incl_refl.
Qed.

Lemma for_all_world : forall {X} (R : world -> Prop) (xs : list X) (body : X -> cprog unit),
  (forall x w k, In x xs -> R w -> R (after (body x) w k)) ->
  forall w k, R w -> R (after (for_all xs body) w k).
Proof.
  intros X R xs body. induction xs as [|x t IH]; intros Hb w k Hw.
  - exact Hw.
  - cbn [for_all]. rewrite after_bind. apply IH.
    + intros y w1 k1 Hy. apply Hb. right; exact Hy.
    + apply Hb; [left; reflexivity|exact Hw].
Qed.

Lemma send_shrink : forall m w k, Inv w -> shrink w (after (send m) w k).
Proof.
  intros m w k HI. unfold after. destruct (send_core m w k) as [w' [H [Hc _]]]. rewrite H. simpl. apply shrink_core3; auto.
Qed.

Lemma maybe_send_shrink : forall b m w k, Inv w -> shrink w (after (maybe_send b m) w k).
Proof. intros [|] m w k HI; [apply send_shrink; exact HI|apply shrink_refl; exact HI]. Qed.

Lemma del_wl_incl : forall id l, incl (del_wl id l) l.
Proof. intros id l x Hx. apply in_del_wl in Hx. tauto. Qed.

Lemma removed_shrink : forall w n id x c, Inv w -> find_wl w id = Some x -> w_node x = n ->
  (c = conts w \/ c = del_cont id (conts w)) ->
  shrink w (oth w (del_wl id (wls w)) (upd_plug n (sub_use (w_res x)) (plugs w)) c).
Proof.
  intros w n id x c HI Hx <- Hc. destruct (find_wl_id _ _ _ Hx) as [<- _].
  split; [apply Inv_removed; assumption|]. split; [reflexivity|apply del_wl_incl].
Qed.

Lemma remove_one_shrink : forall emit n force id w k, Inv w ->
  (force = true \/ strict_remove w = false) ->
  (forall x, find_wl w id = Some x -> w_node x = n) ->
  shrink w (after (remove_one emit n force id) w k).
Proof.
  intros emit n force id w k HI Hf Hnode. unfold remove_one.
  destruct (remove_locked_atomic n id force w k (inv_wf w HI) Hf Hnode) as [w' [k' [r [H [Hfail Hsucc]]]]].
  rewrite (after_bind_eq _ _ H). apply (shrink_then w w'); [|apply maybe_send_shrink].
  destruct r as [e|].
  - destruct Hfail as [l [-> Hp]]; [discriminate|]. split; [apply Inv_perm; auto|]. split; [reflexivity|].
    intros y. apply Permutation_in. exact Hp.
  - destruct (Hsucc eq_refl) as [x [Hx ->]]. apply removed_shrink; auto.
Qed.

Lemma dissociate_one_shrink : forall n id w k, Inv w ->
  (forall x, find_wl w id = Some x -> w_node x = n) ->
  shrink w (after (e <- with_workload_locked id (fun x => dissociate_txn n x) ;; send (MDissociate id e)) w k).
Proof.
  intros n id w k HI Hnode.
  destruct (dissociate_locked_atomic n id w k (inv_wf w HI) Hnode) as [w' [k' [r [H [Hfail Hsucc]]]]].
  rewrite (after_bind_eq _ _ H). apply (shrink_then w w'); [|apply send_shrink].
  destruct r as [e|].
  - rewrite Hfail by discriminate. apply shrink_refl; exact HI.
  - destruct (Hsucc eq_refl) as [x [Hx ->]]. apply removed_shrink; auto.
Qed.

Lemma group_in : forall l n idl id, In (n, idl) (group_by_node l) -> In id idl ->
  exists x, In x l /\ w_id x = id /\ w_node x = n.
Proof.
  induction l as [|x t IH]; intros n idl id Hg Hid; simpl in Hg; [destruct Hg|].
  destruct (existsb (fun p => Nat.eqb (fst p) (w_node x)) (group_by_node t)).
  - apply in_map_iff in Hg. destruct Hg as [p [Hp Hin]].
    destruct (Nat.eqb (fst p) (w_node x)) eqn:E.
    + inversion Hp; subst. apply Nat.eqb_eq in E. destruct Hid as [<-|Hid].
      * exists x. split; [left; reflexivity|auto].
      * destruct (IH (fst p) (snd p) id) as [y [Hy [H1 H2]]]; [destruct p; exact Hin|exact Hid|].
        exists y. split; [right; exact Hy|auto].
    + subst p. destruct (IH n idl id Hin Hid) as [y [Hy [H1 H2]]]. exists y. split; [right; exact Hy|auto].
  - destruct Hg as [Hg|Hg].
    + inversion Hg; subst. destruct Hid as [<-|[]]. exists x. split; [left; reflexivity|auto].
    + destruct (IH n idl id Hg Hid) as [y [Hy [H1 H2]]]. exists y. split; [right; exact Hy|auto].
Qed.

Lemma nodup_ids_inj : forall l x y, NoDup (ids l) -> In x l -> In y l -> w_id x = w_id y -> x = y.
Proof.
  induction l as [|z t IH]; intros x y Hnd Hx Hy E; [destruct Hx|].
  simpl in Hnd. inversion Hnd as [|? ? Hn Ht]; subst.
  destruct Hx as [->|Hx], Hy as [->|Hy]; auto.
  - exfalso. apply Hn. rewrite E. unfold ids. apply in_map. exact Hy.
  - exfalso. apply Hn. rewrite <- E. unfold ids. apply in_map. exact Hx.
Qed.

Definition grp_ok (grp : list (name * list wid)) (w : world) : Prop :=
  forall n idl x, In (n, idl) grp -> In x (wls w) -> In (w_id x) idl -> w_node x = n.

Lemma grp_ok_incl : forall grp w w', grp_ok grp w -> incl (wls w') (wls w) -> grp_ok grp w'.
Proof. intros grp w w' H Hi n idl x Hg Hx Hid. eapply H; eauto. Qed.

Lemma fetched_in : forall w idl x,
  In x (flat_map (fun id => match find_wl w id with Some x => [x] | None => [] end) idl) -> In x (wls w).
Proof.
  intros w idl x H. apply in_flat_map in H. destruct H as [id [_ H]].
  destruct (find_wl w id) as [y|] eqn:E; [|destruct H]. destruct H as [<-|[]]. apply find_wl_id in E. tauto.
Qed.

Lemma group_fetched_ok : forall w idl, NoDup (ids (wls w)) ->
  grp_ok (group_by_node (flat_map (fun id => match find_wl w id with Some x => [x] | None => [] end) idl)) w.
Proof.
  intros w idl Hnd n il x Hg Hx Hid.
  destruct (group_in _ _ _ _ Hg Hid) as [y [Hy [H1 H2]]]. apply fetched_in in Hy.
  assert (x = y) by (eapply nodup_ids_inj; eauto). subst x. exact H2.
Qed.

Lemma fetch_grouped : forall idl w k, NoDup (ids (wls w)) ->
  exists k' r, crunk (call1 (SGetWorkloads idl)) w k = (w, k', r) /\
    forall l, r = RWls l -> grp_ok (group_by_node l) w.
Proof.
  intros idl w k Hnd. destruct (call1_cases (SGetWorkloads idl) w k) as [k' [H|H]]; rewrite H.
  - do 2 eexists. split; [reflexivity|discriminate].
  - cbn [exec]. destruct (forallb _ idl); do 2 eexists; (split; [reflexivity|]); intros l E; inversion E.
    apply group_fetched_ok; exact Hnd.
Qed.

Lemma locked_group_shrink : forall (one : wid -> cprog unit) w0 n il,
  (forall id w k, shrink w0 w -> (forall x, find_wl w id = Some x -> w_node x = n) -> shrink w (after (one id) w k)) ->
  (forall x, In x (wls w0) -> In (w_id x) il -> w_node x = n) ->
  forall w k, shrink w0 w -> shrink w0 (after (with_node_pod_locked n (fun _ => for_all il one ;;; rok)) w k).
Proof.
  intros one w0 n il Hone Hg w k Hs. apply locked_world; [exact Hs|]. intros _ k1. unfold rok. rewrite after_map_ret.
  apply (for_all_world (shrink w0)); [|exact Hs].
  intros id w1 k2 Hid Hs1. apply (shrink_then _ _ _ Hs1). intros _. apply Hone; [exact Hs1|].
  intros x Hx. apply find_wl_id in Hx. destruct Hx as [<- Hin]. apply Hg; [apply Hs1; exact Hin|exact Hid].
Qed.

Theorem remove_keeps_Inv : forall emit idl force w k, Inv w ->
  (force = true \/ strict_remove w = false) ->
  Inv (after (remove emit idl force) w k).
Proof.
  intros emit idl force w k HI Hf. unfold remove.
  destruct (fetch_grouped idl w k (wf_ids w (inv_wf w HI))) as [k0 [r [H Hg]]]. rewrite (after_bind_eq _ _ H).
  destruct r as [| | | |l| | | | | | |]; try exact HI. specialize (Hg l eq_refl).
  unfold rok. rewrite after_bind, after_map_ret. eapply shrink_then; [|apply maybe_send_shrink].
  apply (for_all_world (shrink w)); [|apply shrink_refl; exact HI].
  intros [n il] w1 k1 Hgin Hs1. cbn [fst snd]. rewrite after_bind. eapply shrink_then.
  - apply locked_group_shrink; [|exact (fun x => Hg n il x Hgin)|exact Hs1].
    intros id w2 k2 Hs2 Hnode. apply remove_one_shrink; [apply Hs2| |exact Hnode].
    destruct Hs2 as [_ [-> _]]. exact Hf.
  - intros HI1. destruct (snd (crunk _ w1 k1)); [apply maybe_send_shrink|apply shrink_refl]; exact HI1.
Qed.

Theorem dissociate_keeps_Inv : forall idl w k, Inv w -> Inv (after (dissociate idl) w k).
Proof.
  intros idl w k HI. unfold dissociate.
  destruct (fetch_grouped idl w k (wf_ids w (inv_wf w HI))) as [k0 [r [H Hg]]]. rewrite (after_bind_eq _ _ H).
  destruct r as [| | | |l| | | | | | |]; try exact HI. specialize (Hg l eq_refl).
  unfold rok. rewrite after_bind, after_map_ret. eapply shrink_then; [|apply send_shrink].
  apply (for_all_world (shrink w)); [|apply shrink_refl; exact HI].
  intros [n il] w1 k1 Hgin Hs1. cbn [fst snd]. unfold ign. rewrite after_map_ret.
  apply locked_group_shrink; [|exact (fun x => Hg n il x Hgin)|exact Hs1].
  intros id w2 k2 Hs2 Hnode. apply dissociate_one_shrink; [apply Hs2|exact Hnode].
Qed.

(* facts that hold of every program, because [exec] itself maintains them *)
Lemma crunk_exec_inv : forall (P : world -> Prop), (forall w c, P w -> P (fst (exec w c))) ->
  forall A (p : cprog A) w k, P w -> P (after p w k).
Proof.
  intros P HP A p. induction p as [a|c q IH]; intros w k Hw.
  - exact Hw.
  - unfold after, crunk in *. cbn [runk]. specialize (HP w c Hw).
    destruct (is_faultable c); [destruct k as [[|j]|]|]; try (apply IH; exact Hw);
      destruct (exec w c) as [w1 r]; apply IH; exact HP.
Qed.

(* the cases of [exec w c]: every test the model makes on the world and on the call's arguments *)
Ltac exec_cases := repeat match goal with |- context [match ?x with _ => _ end] => destruct x eqn:?; simpl end.

Lemma ids_app : forall l l', ids (l ++ l') = ids l ++ ids l'.
Proof. intros. unfold ids. apply map_app. Qed.

Lemma find_wl_none_notin : forall w id, find_wl w id = None -> ~ In id (ids (wls w)).
Proof.
  intros w id H Hin. unfold ids in Hin. apply in_map_iff in Hin. destruct Hin as [x [Hx Hin]].
  unfold find_wl in H. eapply find_none in H; eauto. simpl in H. rewrite Hx, wid_eqb_refl in H. discriminate.
Qed.

Lemma exec_keeps_ids : forall w c, NoDup (ids (wls w)) -> NoDup (ids (wls (fst (exec w c)))).
Proof.
  intros w c H. destruct c; simpl; try exact H; exec_cases; try exact H.
  all: try (rewrite ids_app; simpl; apply NoDup_snoc; [exact H|apply find_wl_none_notin; assumption]).
  all: try (rewrite ids_upd_wl; exact H).
  all: try (apply nodup_ids_del; exact H).
Qed.

Lemma find_cont_app_in : forall l l' id, (exists c, In c l' /\ c_id c = id) ->
  exists c, find (fun y => wid_eqb (c_id y) id) (l ++ l') = Some c.
Proof.
  intros l l' id [c [Hc Hid]].
  destruct (find (fun y => wid_eqb (c_id y) id) (l ++ l')) as [c0|] eqn:E; [eauto|].
  exfalso. eapply find_none in E; [|apply in_or_app; right; exact Hc]. simpl in E. rewrite Hid, wid_eqb_refl in E. discriminate.
Qed.

Lemma created_on_pos : forall ms p, In p (created_of ms) -> (1 <= created_on ms (wi_node (fst p)))%nat.
Proof.
  intros ms p Hp. unfold created_on.
  assert (In p (filter (fun q => Nat.eqb (wi_node (fst q)) (wi_node (fst p))) (created_of ms))).
  { apply filter_In. split; [exact Hp|apply Nat.eqb_refl]. }
  destruct (filter _ (created_of ms)); [destruct H|simpl; lia].
Qed.

Lemma created_node_known : forall opi pod r plan w w' ms p,
  create_hyp w opi r plan -> create_post opi pod r plan w w' ms -> In p (created_of ms) ->
  (exists nd, find_node w (wi_node (fst p)) = Some nd) /\ (exists q, find_plug w (wi_node (fst p)) = Some q).
Proof.
  intros opi pod r plan w w' ms p Hhyp P Hp. pose proof (created_on_pos ms p Hp) as Hpos.
  pose proof (cr_bound _ _ _ _ _ _ _ P (wi_node (fst p))) as Hb.
  destruct plan as [dm|]; [|lia]. destruct Hhyp as [_ [_ [Hfeas Hnodes]]].
  destruct (atotal_zero_or_in dm (wi_node (fst p))) as [Hz|Hin]; [lia|]. split.
  - destruct (find_node w (wi_node (fst p))) as [nd|] eqn:E; [eauto|]. exfalso. exact (Hnodes _ Hin E).
  - apply in_map_iff in Hin. destruct Hin as [[n cnt] [<- Hin]]. destruct (Hfeas _ _ Hin) as [q [Hq _]]. eauto.
Qed.

Theorem create_keeps_Inv : forall opi pod r plan w k, create_hyp w opi r plan -> Inv w ->
  Inv (after (create opi pod r plan) w k).
Proof.
  intros opi pod r plan w k Hhyp HI.
  assert (Hids : NoDup (ids (wls (after (create opi pod r plan) w k)))).
  { apply (crunk_exec_inv (fun w => NoDup (ids (wls w))) exec_keeps_ids). apply (inv_wf w HI). }
  pose proof (create_keeps_usage opi pod r plan w k Hhyp (inv_use w HI)) as Huse.
  unfold after in *.
  destruct (create_spec opi pod r plan w k Hhyp) as [w' [k' [ms [H P]]]]. rewrite H in *. cbn [fst] in *.
  destruct HI as [[H1 H2 H3] H4 H5 H6].
  pose proof P as [_ Hn _ _ Hw Hc Hpl _ _ _ _].
  constructor; [constructor|..].
  - exact Hids.
  - intros x Hx. rewrite Hw in Hx. unfold find_plug. rewrite Hpl. rewrite find_plug_map by reflexivity.
    apply in_app_or in Hx. destruct Hx as [Hx|Hx].
    + destruct (H2 x Hx) as [q Hq]. unfold find_plug in Hq. rewrite Hq. eexists; reflexivity.
    + apply in_map_iff in Hx. destruct Hx as [p [<- Hp]]. simpl.
      destruct (created_node_known _ _ _ _ _ _ _ p Hhyp P Hp) as [_ [q Hq]].
      unfold find_plug in Hq. rewrite Hq. eexists; reflexivity.
  - intros x Hx. rewrite Hw in Hx. unfold find_cont. rewrite Hc.
    apply in_app_or in Hx. destruct Hx as [Hx|Hx].
    + destruct (H3 x Hx) as [c0 Hc0]. exists c0. apply find_app_some. exact Hc0.
    + apply in_map_iff in Hx. destruct Hx as [p [<- Hp]]. simpl. apply find_cont_app_in.
      exists (cont_of p). split; [apply in_map; exact Hp|reflexivity].
  - exact Huse.
  - rewrite Hpl. unfold pnames. rewrite map_map. simpl. exact H5.
  - intros y Hy. rewrite Hn in Hy. auto.
Qed.

(* doRemoveWorkload with force: only the injected fault can make it fail *)
Lemma do_remove_workload_spec : forall x w k,
  NoDup (ids (wls w)) -> find_wl w (w_id x) = Some x ->
  ends (do_remove_workload x true) w k (fun w' k' r =>
    (r = None -> w' = oth w (del_wl (w_id x) (wls w)) (plugs w) (del_cont (w_id x) (conts w))) /\
    (r <> None -> k' = None /\ exists l, w' = oth w l (plugs w) (conts w) /\ Permutation l (wls w))).
Proof.
  intros x w k Hnd Hx. unfold find_wl in Hx. unfold do_remove_workload, txn, doc, call1. norm.
  step k.
  - split; [discriminate|]. intros _. split; [reflexivity|]. exists (wls w). split; [apply oth_same|reflexivity].
  - exe. step k.
    + (* the engine's removal fails: the record is added again *)
      apply ends_run. exe. rewrite find_del_none. norm.
      split; [discriminate|]. intros _. split; [reflexivity|]. eexists. split; [look; reflexivity|apply del_add_perm; auto].
    + rewrite eremove_ok by (left; reflexivity). norm. split; [|congruence]. intros _. look. reflexivity.
Qed.

Lemma prep_node_ends : forall n w k, ends (get_and_prepare_node n) w k (fun w' _ _ => w' = w).
Proof.
  intros n w k. unfold get_and_prepare_node, prepare_image, doc, call1. norm.
  step k; [reflexivity|]. exe. destruct (find _ (nodes w)); norm; [|reflexivity].
  step k; [apply ends_run; exe; reflexivity|]. exe.
  step k; [apply ends_run; exe; reflexivity|]. exe. reflexivity.
Qed.

(* the rollback of doReplaceWorkload: it runs after the fault has fired *)
Lemma estart_ends : forall A id w c (q : reply -> cprog A) Q, find_cont w id = Some c ->
  ends (q ROk) (set_conts w (upd_cont id CRunning (conts w))) None Q -> ends (Do (EStart id) q) w None Q.
Proof. intros A id w c q Q H HQ. apply ends_run. cbn [exec]. rewrite H. exact HQ. Qed.

Lemma find_cont_upd : forall l id id' st,
  find (fun y => wid_eqb (c_id y) id') (upd_cont id st l) =
  option_map (fun x => if wid_eqb (c_id x) id then mkCont id st else x) (find (fun y => wid_eqb (c_id y) id') l).
Proof.
  induction l as [|y t IH]; intros id id' st; simpl; [reflexivity|].
  destruct (wid_eqb (c_id y) id) eqn:E; simpl; [apply wid_eqb_eq in E; rewrite <- E|];
    (destruct (wid_eqb (c_id y) id'); simpl; [rewrite ?E, ?wid_eqb_refl; reflexivity|apply IH]).
Qed.

Lemma find_cont_upd_none : forall l id id' st, find (fun y => wid_eqb (c_id y) id') l = None ->
  find (fun y => wid_eqb (c_id y) id') (upd_cont id st l) = None.
Proof. intros l id id' st H. rewrite find_cont_upd, H. reflexivity. Qed.

Lemma find_cont_upd_exists : forall l id id' st, (exists c, find (fun y => wid_eqb (c_id y) id') l = Some c) ->
  exists c, find (fun y => wid_eqb (c_id y) id') (upd_cont id st l) = Some c.
Proof. intros l id id' st [c H]. rewrite find_cont_upd, H. eexists; reflexivity. Qed.

Lemma find_cont_upd_same : forall l id st c, find (fun y => wid_eqb (c_id y) id) l = Some c ->
  find (fun y => wid_eqb (c_id y) id) (upd_cont id st l) = Some (mkCont id st).
Proof.
  intros l id st c H. rewrite find_cont_upd, H. apply find_some in H. destruct H as [_ H]. simpl. rewrite H. reflexivity.
Qed.

Definition new_of (opi index : nat) (old : wl) : wl := mkWl (mkWid opi (w_node old) index) (w_node old) (w_pod old) (w_res old).

(* the three ways doReplaceWorkload can end *)
Record replace_post (opi index : nat) (old : wl) (w w' : world) (r : option wid * bool * oerr) : Prop := {
  rp_pods : pods w' = pods w; rp_nodes : nodes w' = nodes w; rp_plugs : plugs w' = plugs w;
  rp_strict : strict_remove w' = strict_remove w; rp_out : out w' = out w;
  (* success: the old workload is gone (record and container), the new one is recorded and running on the old allocation *)
  rp_ok : snd r = None ->
     fst r = (Some (w_id (new_of opi index old)), true) /\
     wls w' = del_wl (w_id old) (wls w ++ [new_of opi index old]) /\
     conts w' = del_cont (w_id old) (upd_cont (w_id old) CStopped (conts w) ++ [mkCont (w_id (new_of opi index old)) CRunning]);
  (* failure before the new workload exists: nothing is recorded or removed, the old container is untouched or (re)started *)
  rp_fail : snd r <> None -> fst (fst r) = None ->
     snd (fst r) = false /\ wls w' = wls w /\
     (conts w' = conts w \/ conts w' = upd_cont (w_id old) CRunning (conts w) \/
      conts w' = upd_cont (w_id old) CRunning (upd_cont (w_id old) CStopped (conts w)));
  (* failure after the new workload was deployed: only the removal of the old one can have failed (the known
     finding): old AND new are recorded, the old container is restarted *)
  rp_window : snd r <> None -> fst (fst r) <> None ->
     fst r = (Some (w_id (new_of opi index old)), false) /\
     Permutation (wls w') (wls w ++ [new_of opi index old]) /\
     conts w' = upd_cont (w_id old) CRunning (upd_cont (w_id old) CStopped (conts w) ++ [mkCont (w_id (new_of opi index old)) CRunning]);
}.

Theorem do_replace_spec : forall opi index old w k c0,
  NoDup (ids (wls w)) -> find_wl w (w_id old) = Some old -> find_cont w (w_id old) = Some c0 ->
  find_wl w (w_id (new_of opi index old)) = None -> find_cont w (w_id (new_of opi index old)) = None ->
  exists w' k' r, crunk (do_replace opi index old) w k = (w', k', r) /\ replace_post opi index old w w' r.
Proof.
  intros opi index old w k c0 Hnd Hold Hc0 Hfw Hfc. apply ends_ex.
  set (new := new_of opi index old) in *.
  unfold do_replace, txn_s, doc, call1. norm.
  apply ends_bind. eapply ends_mono; [apply prep_node_ends|]. intros w1 k1 e ->.
  destruct e as [e|]; norm.
  { constructor; cbn [fst snd]; try reflexivity; try congruence. intros _ _. auto. }
  fold new. change (mkWid opi (w_node old) index) with (w_id new).
  step k1.
  - (* stop fails: the old container is started again *)
    apply (estart_ends _ _ _ c0); [exact Hc0|]. norm.
    constructor; cbn [fst snd pods nodes plugs strict_remove out wls conts set_conts]; try reflexivity; try congruence.
    intros _ _. auto.
  - cbn [exec]. rewrite Hc0. norm. do 4 apply ends_bind.
    change (mkWl (w_id new) (w_node old) (w_pod old) (w_res old)) with new.
    eapply ends_mono; [apply ends_ex, deploy_one_spec; [exact Hfw|apply find_cont_upd_none; exact Hfc]|].
    intros w2 k2 r2 [Hok2 Hfail2]. apply ends_ret. norm. destruct r2 as [e2|]; norm.
    + (* the new workload could not be deployed: the old container is started again *)
      destruct (Hfail2 ltac:(discriminate)) as [[Hp [Hn [Hpl [Ho [Hs [Hsc [Hw Hc]]]]]]] ->].
      cbn [pods nodes plugs strict_remove out wls conts set_conts] in Hp, Hn, Hpl, Ho, Hs, Hw, Hc.
      apply ends_ret. norm. apply (estart_ends _ _ _ (mkCont (w_id old) CStopped)).
      { unfold find_cont. rewrite Hc. eapply find_cont_upd_same; exact Hc0. }
      norm. constructor; cbn [fst snd pods nodes plugs strict_remove out wls conts set_conts]; try congruence.
      intros _ _. split; [reflexivity|]. split; [rewrite Hw; reflexivity|]. right. right. rewrite Hc. reflexivity.
    + destruct (Hok2 eq_refl) as [Hp [Hn [Hpl [Ho [Hs [Hsc [Hw Hc]]]]]]].
      cbn [pods nodes plugs strict_remove out wls conts set_conts] in Hp, Hn, Hpl, Ho, Hs, Hw, Hc.
      do 2 apply ends_bind. eapply ends_mono; [apply (do_remove_workload_spec old w2 k2)|].
      { rewrite Hw. rewrite ids_app. simpl. apply NoDup_snoc; [exact Hnd|apply find_wl_none_notin; exact Hfw]. }
      { unfold find_wl. rewrite Hw. apply find_app_some. exact Hold. }
      intros w3 k3 r3 [Hok3 Hfail3]. apply ends_ret. norm. destruct r3 as [e3|]; norm; do 2 (apply ends_ret; norm).
      * (* the known window: the removal of the old workload failed *)
        destruct (Hfail3 ltac:(discriminate)) as [-> [l [-> Hperm]]].
        apply (estart_ends _ _ _ (mkCont (w_id old) CStopped)).
        { unfold find_cont. cbn [conts oth]. rewrite Hc. apply find_app_some. eapply find_cont_upd_same; exact Hc0. }
        norm. constructor; cbn [fst snd pods nodes plugs strict_remove out wls conts set_conts oth]; try congruence.
        intros _ _. split; [reflexivity|]. split; [rewrite Hw in Hperm; exact Hperm|]. rewrite Hc. reflexivity.
      * rewrite (Hok3 eq_refl).
        constructor; cbn [fst snd pods nodes plugs strict_remove out wls conts set_conts oth]; try congruence.
        intros _. split; [reflexivity|]. rewrite Hw, Hc. split; reflexivity.
Qed.

(* the part of [replace_loop]'s body that handles one workload under its lock *)
Definition replace_block (opi index : nat) (id : wid) : cprog (option wid * bool * oerr) :=
  x <- call1 (SGetWorkloads [id]) ;;
  match x with
  | RWls (old :: _) =>
    a <- acquire [LWl (w_id old)] [] ;;
    match fst a with
    | Some e => release (snd a) ;;; Ret (None, false, Some e)
    | None => t <- do_replace opi index old ;; release (snd a) ;;; Ret t
    end
  | RWls [] => Ret (None, false, Some ENatural)
  | RErr e => Ret (None, false, Some e)
  | _ => Ret (None, false, Some ENatural)
  end.

Lemma replace_loop_unfold : forall opi index id rest,
  replace_loop opi index (id :: rest) =
  (r <- replace_block opi index id ;; send (MReplace id (fst (fst r)) (snd (fst r)) (snd r)) ;;; replace_loop opi (S index) rest).
Proof. reflexivity. Qed.

Definition early_fail (r : option wid * bool * oerr) : Prop := fst (fst r) = None /\ snd (fst r) = false /\ snd r <> None.

Lemma replace_block_spec : forall opi index id w k,
  NoDup (ids (wls w)) -> (forall x, In x (wls w) -> exists c, find_cont w (w_id x) = Some c) ->
  (forall n, find_wl w (mkWid opi n index) = None /\ find_cont w (mkWid opi n index) = None) ->
  exists w1 k1 r, crunk (replace_block opi index id) w k = (w1, k1, r) /\
    ((w1 = w /\ early_fail r) \/
     (exists old, find_wl w id = Some old /\ w_id old = id /\ replace_post opi index old w w1 r)).
Proof.
  intros opi index id w k Hnd Hcont Hfresh. apply ends_ex. unfold replace_block, call1. norm.
  assert (Hearly : forall e, (w = w /\ early_fail (None, false, Some e)) \/
            (exists old, find_wl w id = Some old /\ w_id old = id /\ replace_post opi index old w w (None, false, Some e)))
    by (intros e; left; repeat split; discriminate).
  step k; [apply Hearly|]. cbn [exec forallb flat_map].
  destruct (find_wl w id) as [old|] eqn:Hold; cbn [andb app]; norm; [|apply Hearly].
  apply locked_ends; [exact Hearly|]. intros k1.
  destruct (find_wl_id _ _ _ Hold) as [Hid Hin]. destruct (Hcont old Hin) as [c0 Hc0]. destruct (Hfresh (w_node old)) as [Hfw Hfc].
  eapply ends_mono; [apply ends_ex, (do_replace_spec opi index old w k1 c0 Hnd); [rewrite Hid; exact Hold|exact Hc0|exact Hfw|exact Hfc]|].
  intros w2 k2 r Hpost k3 _. right. exists old. auto.
Qed.

Definition fresh_from (opi index : nat) (w : world) : Prop :=
  forall n i, (index <= i)%nat -> find_wl w (mkWid opi n i) = None /\ find_cont w (mkWid opi n i) = None.

Lemma find_filter_none : forall {A} (f g : A -> bool) l, find f l = None -> find f (filter g l) = None.
Proof.
  intros A f g l. induction l as [|y t IH]; simpl; intros H; [reflexivity|].
  destruct (f y) eqn:E; [discriminate|]. destruct (g y); simpl; [rewrite E|]; auto.
Qed.

Lemma wid_neq_idx : forall opi n m i j, i <> j -> mkWid opi n i <> mkWid opi m j.
Proof. intros opi n m i j H E. inversion E. contradiction. Qed.

Lemma wid_eqb_neq : forall a b, a <> b -> wid_eqb a b = false.
Proof. intros a b H. destruct (wid_eqb a b) eqn:E; [|reflexivity]. apply wid_eqb_eq in E. contradiction. Qed.

Lemma replace_post_Inv : forall opi index old w w1 r,
  Inv w -> fresh_from opi index w -> find_wl w (w_id old) = Some old ->
  replace_post opi index old w w1 r ->
  ~ (snd r <> None /\ fst (fst r) <> None) ->
  Inv w1 /\ fresh_from opi (S index) w1.
Proof.
  intros opi index old w w1 r HI Hfr Hold [Hp Hn Hpl Hs Ho Hok Hfail Hwin] Hnw.
  pose proof (find_wl_id _ _ _ Hold) as [_ Hoin].
  destruct (snd r) as [e|] eqn:Er.
  - (* failure before the new workload exists *)
    assert (Hnone : fst (fst r) = None).
    { destruct (fst (fst r)) eqn:E; [|reflexivity]. exfalso. apply Hnw. split; discriminate. }
    destruct (Hfail ltac:(discriminate) Hnone) as [_ [Hw Hc]].
    assert (Hcases : forall id, (forall x, find_cont w id = Some x -> exists x', find_cont w1 id = Some x') /\
                                (find_cont w id = None -> find_cont w1 id = None)).
    { intros id. unfold find_cont. destruct Hc as [->|[->| ->]].
      - split; [eauto|auto].
      - split; [intros x Hx; apply find_cont_upd_exists; eauto|apply find_cont_upd_none].
      - split; [intros x Hx; do 2 apply find_cont_upd_exists; eauto|intros Hx; do 2 apply find_cont_upd_none; exact Hx]. }
    split.
    + apply (Inv_core w w1 HI Hn Hpl Hw). intros id [x Hx]. apply (proj1 (Hcases id) x Hx).
    + intros n i Hi. destruct (Hfr n i ltac:(lia)) as [Hf1 Hf2]. split.
      * unfold find_wl. rewrite Hw. exact Hf1.
      * apply (proj2 (Hcases _) Hf2).
  - destruct (Hok eq_refl) as [_ [Hw Hc]].
    set (new := new_of opi index old) in *.
    destruct (Hfr (w_node old) index ltac:(lia)) as [Hfw Hfc]. change (mkWid opi (w_node old) index) with (w_id new) in Hfw, Hfc.
    assert (Hnd2 : NoDup (ids (wls w ++ [new]))).
    { rewrite ids_app. simpl. apply NoDup_snoc; [apply (wf_ids w (inv_wf w HI))|apply find_wl_none_notin; exact Hfw]. }
    assert (Hold2 : find (fun y => wid_eqb (w_id y) (w_id old)) (wls w ++ [new]) = Some old) by (apply find_app_some; exact Hold).
    split.
    + destruct HI as [[H1 H2 H3] H4 H5 H6]. constructor; [constructor|..].
      * rewrite Hw. apply nodup_ids_del. exact Hnd2.
      * intros x Hx. rewrite Hw in Hx. apply in_del_wl in Hx. destruct Hx as [Hx _]. unfold find_plug. rewrite Hpl.
        apply in_app_or in Hx. destruct Hx as [Hx|[<-|[]]]; [apply H2; exact Hx|]. apply (H2 old Hoin).
      * intros x Hx. rewrite Hw in Hx. apply in_del_wl in Hx. destruct Hx as [Hx Hxne]. unfold find_cont. rewrite Hc.
        rewrite find_cont_del_other by exact Hxne.
        apply in_app_or in Hx. destruct Hx as [Hx|[<-|[]]].
        -- destruct (find_cont_upd_exists (conts w) (w_id old) (w_id x) CStopped (H3 x Hx)) as [c Hcx].
           exists c. apply find_app_some. exact Hcx.
        -- apply find_cont_app_in. exists (mkCont (w_id new) CRunning). split; [left; reflexivity|reflexivity].
      * intros p Hp'. rewrite Hpl in Hp'. rewrite Hw.
        rewrite (sum_on_del _ old _ Hnd2 Hold2). rewrite sum_on_app. rewrite (H4 p Hp').
        unfold sum_on at 3. simpl. destruct (Nat.eqb (w_node old) (p_node p)); simpl; rewrite !radd_0_r; symmetry;
          [apply rsub_radd|apply rsub_0_r].
      * rewrite Hpl. exact H5.
      * intros y Hy. rewrite Hn in Hy. auto.
    + intros n i Hi. destruct (Hfr n i ltac:(lia)) as [Hf1 Hf2]. split.
      * unfold find_wl. rewrite Hw. unfold del_wl. apply find_filter_none. apply find_app_none; [exact Hf1|]. intros y [<-|[]].
        apply wid_eqb_neq, wid_neq_idx. lia.
      * unfold find_cont. rewrite Hc. unfold del_cont. apply find_filter_none. apply find_app_none.
        -- apply find_cont_upd_none. exact Hf2.
        -- intros y [<-|[]]. cbn [c_id]. apply wid_eqb_neq, wid_neq_idx. lia.
Qed.

Lemma exec_out_grows : forall w c, exists l, out (fst (exec w c)) = l ++ out w.
Proof.
  intros w c. destruct c; simpl; exec_cases; try (exists []; reflexivity).
  eexists [_]. reflexivity.
Qed.

Lemma crunk_out_grows : forall A (p : cprog A) w k, exists l, out (after p w k) = l ++ out w.
Proof.
  intros A p w k. apply (crunk_exec_inv (fun w' => exists l, out w' = l ++ out w)); [|exists []; reflexivity].
  intros w1 c [l Hl]. destruct (exec_out_grows w1 c) as [l0 Hl0]. exists (l0 ++ l). rewrite Hl0, Hl. apply app_assoc.
Qed.

(* the message of a workload whose replacement failed AFTER its new workload was deployed: the known finding *)
Definition is_window (m : msg) : Prop :=
  match m with MReplace _ (Some _) false (Some _) => True | _ => False end.

Lemma fresh_from_mono : forall opi i j w, (i <= j)%nat -> fresh_from opi i w -> fresh_from opi j w.
Proof. intros opi i j w H Hf n x Hx. apply Hf. lia. Qed.

Lemma replace_loop_Inv : forall opi ids index w k l, Inv w -> fresh_from opi index w ->
  out (after (replace_loop opi index ids) w k) = l ++ out w ->
  (forall m, In m l -> ~ is_window m) ->
  Inv (after (replace_loop opi index ids) w k).
Proof.
  intros opi ids. induction ids as [|id rest IH]; intros index w k l HI Hfr.
  - intros _ _. exact HI.
  - rewrite replace_loop_unfold.
    destruct (replace_block_spec opi index id w k (wf_ids w (inv_wf w HI)) (wf_cont w (inv_wf w HI)))
      as [w1 [k1 [r [H1 Hcase]]]].
    { intros n. apply Hfr. lia. }
    rewrite (after_bind_eq _ _ H1). cbn beta. set (m0 := MReplace id (fst (fst r)) (snd (fst r)) (snd r)).
    rewrite (after_bind_eq _ _ (send_exact m0 w1 k1)). set (w2 := set_out w1 (m0 :: out w1)). intros Hout Hnw.
    destruct (crunk_out_grows _ (replace_loop opi (S index) rest) w2 k1) as [l' Hl'].
    assert (H2 : out w1 = out w /\ (~ is_window m0 -> Inv w1 /\ fresh_from opi (S index) w1)).
    { destruct Hcase as [[-> _]|[old [Hold [Hid Hp]]]].
      - split; [reflexivity|]. intros _. split; [exact HI|eapply fresh_from_mono; [|exact Hfr]; lia].
      - split; [apply (rp_out _ _ _ _ _ _ Hp)|]. intros Hm0.
        apply (replace_post_Inv opi index old w w1 r HI Hfr); [rewrite Hid; exact Hold|exact Hp|].
        intros [Hr Hn]. apply Hm0. unfold m0, is_window.
        destruct (rp_window _ _ _ _ _ _ Hp Hr Hn) as [Hw _]. rewrite Hw. cbn [fst snd].
        destruct (snd r); [exact I|congruence]. }
    destruct H2 as [Ho1 H2].
    assert (Hl : l = l' ++ [m0]).
    { rewrite Hl' in Hout. unfold w2 in Hout. cbn [out set_out] in Hout. rewrite Ho1 in Hout.
      change (m0 :: out w) with ([m0] ++ out w) in Hout. rewrite app_assoc in Hout. apply app_inv_tail in Hout. auto. }
    destruct H2 as [HI1 Hfr1]; [apply Hnw; rewrite Hl; apply in_or_app; right; left; reflexivity|].
    apply (IH (S index) w2 k1 l').
    + apply Inv_out. exact HI1.
    + exact Hfr1.
    + exact Hl'.
    + intros m Hm. apply Hnw. rewrite Hl. apply in_or_app. left; exact Hm.
Qed.

(* whole ReplaceWorkload, EVERY world satisfying Inv, EVERY fault position: unless some workload's replacement
   reported a failure after its new workload was deployed (the known finding), the invariant is kept *)
Theorem replace_keeps_Inv : forall opi idl w k l, Inv w -> fresh_from opi 0 w ->
  out (after (replace opi idl) w k) = l ++ out w ->
  (forall m, In m l -> ~ is_window m) ->
  Inv (after (replace opi idl) w k).
Proof.
  intros opi idl w k l HI Hfr. unfold replace. rewrite after_bind, after_send. cbn [out set_out]. intros Hout Hnw.
  destruct (crunk_out_grows _ (replace_loop opi 0 idl) w k) as [l' Hl'].
  assert (Hl : l = MClose :: l').
  { rewrite Hl' in Hout. change (MClose :: l' ++ out w) with ((MClose :: l') ++ out w) in Hout. apply app_inv_tail in Hout. auto. }
  apply Inv_out. apply (replace_loop_Inv opi idl 0 w k l' HI Hfr Hl'). intros m Hm. apply Hnw. rewrite Hl. right; exact Hm.
Qed.

(* C11 for replace: whatever made the replacement of one workload fail, the old workload is still recorded, the
   plugin's usage is untouched and the old container is untouched or running (again) *)
Theorem replace_failed_keeps_old : forall opi index old w k c0,
  NoDup (ids (wls w)) -> find_wl w (w_id old) = Some old -> find_cont w (w_id old) = Some c0 ->
  find_wl w (w_id (new_of opi index old)) = None -> find_cont w (w_id (new_of opi index old)) = None ->
  exists w' k' r, crunk (do_replace opi index old) w k = (w', k', r) /\
    (snd r <> None ->
       In old (wls w') /\ plugs w' = plugs w /\ nodes w' = nodes w /\
       (conts w' = conts w \/ find_cont w' (w_id old) = Some (mkCont (w_id old) CRunning))) /\
    (snd r <> None -> fst (fst r) = None -> wls w' = wls w).
Proof.
  intros opi index old w k c0 Hnd Hold Hc0 Hfw Hfc.
  destruct (do_replace_spec opi index old w k c0 Hnd Hold Hc0 Hfw Hfc) as [w' [k' [r [H [Hp Hn Hpl Hs Ho Hok Hfail Hwin]]]]].
  exists w', k', r. split; [exact H|]. split.
  - intros Hr. destruct (fst (fst r)) as [nid|] eqn:E.
    + destruct (Hwin Hr ltac:(discriminate)) as [_ [Hperm Hc]].
      split; [eapply Permutation_in; [apply Permutation_sym; exact Hperm|apply in_or_app; left; apply find_wl_id in Hold; tauto]|].
      split; [exact Hpl|]. split; [exact Hn|]. right. unfold find_cont. rewrite Hc.
      eapply find_cont_upd_same. apply find_app_some. eapply find_cont_upd_same. exact Hc0.
    + destruct (Hfail Hr eq_refl) as [_ [Hw Hc]].
      split; [rewrite Hw; apply find_wl_id in Hold; tauto|]. split; [exact Hpl|]. split; [exact Hn|].
      unfold find_cont. destruct Hc as [->|[->| ->]]; [left; reflexivity| |]; right.
      * eapply find_cont_upd_same. exact Hc0.
      * eapply find_cont_upd_same. eapply find_cont_upd_same. exact Hc0.
  - intros Hr Hnone. destruct (Hfail Hr Hnone) as [_ [Hw _]]. exact Hw.
Qed.

(* the side condition of the replace step is necessary: in EVERY world satisfying Inv, the outcome "failed after the
   new workload was deployed" breaks the invariant as soon as the old workload holds any resource *)
Theorem replace_window_breaks_usage : forall opi index old w w' r,
  Inv w -> find_wl w (w_id old) = Some old -> w_res old <> rzero ->
  replace_post opi index old w w' r -> snd r <> None -> fst (fst r) <> None ->
  ~ use_ok w'.
Proof.
  intros opi index old w w' r HI Hold Hres [Hp Hn Hpl Hs Ho Hok Hfail Hwin] Hr Hnew Huse.
  destruct (Hwin Hr Hnew) as [_ [Hperm _]].
  destruct (find_wl_id _ _ _ Hold) as [_ Hin].
  destruct (wf_plug w (inv_wf w HI) old Hin) as [p Hfp].
  unfold find_plug in Hfp. apply find_some in Hfp. destruct Hfp as [Hpin Hpn]. apply Nat.eqb_eq in Hpn.
  assert (Hp' : In p (plugs w')) by (rewrite Hpl; exact Hpin).
  pose proof (Huse p Hp') as E. rewrite (sum_on_perm _ _ _ Hperm) in E. rewrite sum_on_app in E.
  rewrite (inv_use w HI p Hpin) in E. unfold sum_on at 3 in E. simpl in E. rewrite Hpn, Nat.eqb_refl in E. simpl in E.
  apply Hres. destruct (sum_on (wls w) (w_node old)) as [a b], (w_res old) as [c d].
  unfold radd, rzero in *; simpl in *. inversion E. f_equal; lia.
Qed.

(* One step of a history: an operation of the cluster API and the position of its (at most one) fault among
   the faultable calls the operation makes ([None], or a position beyond the last call: no fault). *)
Definition hstep := (op * option nat)%type.

Definition step_world (w : world) (s : hstep) : world := after (script_of (fst s)) (prepare_world w (fst s)) (snd s).
Definition run_hist (w : world) (h : list hstep) : world := fold_left step_world h w.

(* what a step needs of the world it starts in.
   - create: the inputs of the strategy (the plan is feasible on the capacity of the moment, names distinct, nodes exist)
     and an operation index never used before;
   - remove: the engine's refusal of a running container without force ([strict_remove]) together with an injected
     fault on the compensation would be a second, independent failure;
   - replace: the operation index is fresh, and no workload's replacement reported a failure AFTER its new workload
     was deployed (message MReplace id (Some new) false (Some err)): that outcome is the known finding
     replace-remove-old-fails, it breaks the invariant (replace_window_breaks_usage, C10_replace_refuted);
   - lambda: not part of this theorem. *)
Definition valid_step (w : world) (s : hstep) : Prop :=
  match fst s with
  | OCreate opi pod count r plan => count <> 0%nat -> create_hyp w opi r plan
  | ORemove ids force => force = true \/ strict_remove w = false
  | OReplace opi idl => fresh_from opi 0 w /\ (forall m, In m (out (step_world w s)) -> ~ is_window m)
  | OLambda _ _ _ _ _ _ _ => False
  | _ => True
  end.

Fixpoint valid_hist (w : world) (h : list hstep) : Prop :=
  match h with
  | [] => True
  | s :: t => valid_step w s /\ valid_hist (step_world w s) t
  end.

Lemma prepare_Inv : forall w o, Inv w -> Inv (prepare_world w o).
Proof. intros w o HI. destruct o; apply (Inv_ext w); try reflexivity; exact HI. Qed.

Lemma step_keeps_Inv : forall w o k, Inv w -> valid_step w (o, k) -> Inv (step_world w (o, k)).
Proof.
  intros w o k HI Hv. pose proof (prepare_Inv w o HI) as HI'.
  unfold valid_step, step_world in *. cbn [fst snd] in *. destruct o; cbn [script_of] in *.
  - apply add_pod_keeps_Inv; exact HI'.
  - apply add_node_keeps_Inv; exact HI'.
  - apply remove_node_keeps_Inv; exact HI'.
  - apply set_node_keeps_Inv; exact HI'.
  - destruct (Nat.eqb count 0) eqn:E; [exact HI'|]. unfold rok. rewrite after_map_ret.
    apply create_keeps_Inv; [|exact HI']. apply Hv. apply Nat.eqb_neq. exact E.
  - apply remove_keeps_Inv; [exact HI'|exact Hv].
  - apply dissociate_keeps_Inv; exact HI'.
  - apply realloc_keeps_Inv; exact HI'.
  - destruct Hv as [Hfr Hnw]. unfold unit_ok, rok in *. rewrite after_map_ret in *.
    apply (replace_keeps_Inv opi ids _ k (out (after (replace opi ids) (prepare_world w (OReplace opi ids)) k)));
      [exact HI'|exact Hfr|cbn [prepare_world out set_out]; rewrite app_nil_r; reflexivity|exact Hnw].
  - destruct Hv.
Qed.

Theorem history_keeps_Inv : forall h w, Inv w -> valid_hist w h -> Inv (run_hist w h).
Proof.
  induction h as [|[o k] t IH]; intros w HI Hv.
  - exact HI.
  - destruct Hv as [Hv Ht]. simpl. apply IH; [apply step_keeps_Inv; assumption|exact Ht].
Qed.

(* C10 itself: usage = sum of the recorded workloads, after every history *)
Corollary history_keeps_usage : forall h w, Inv w -> valid_hist w h -> use_ok (run_hist w h).
Proof. intros h w HI Hv. apply inv_use. apply history_keeps_Inv; assumption. Qed.
