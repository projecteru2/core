(* Calcium/DeployProofs2.v — the deployment step of create (doDeployWorkloads) for EVERY world, plan
   and fault position: one message per planned instance; exactly the instances reported as created are
   recorded and running, nothing else changes; per node, instances to roll back + instances created =
   instances planned. *)
From Coq Require Import List Bool Arith ZArith Lia.
From Verif Require Import Base.Effects Calcium.World Calcium.Ops Calcium.Run Calcium.OpsProofs Calcium.DeployProofs Base.ListFacts.
Import ListNotations.
Local Open Scope Z_scope.

Definition wl_of (pod : name) (p : wid * res) : wl := mkWl (fst p) (wi_node (fst p)) pod (snd p).
Definition cont_of (p : wid * res) : cont := mkCont (fst p) CRunning.

Lemma created_of_app : forall a b, created_of (a ++ b) = created_of a ++ created_of b.
Proof. intros. unfold created_of. apply flat_map_app. Qed.
Lemma created_of_errs : forall k, created_of (repeat MCreateErr k) = [].
Proof. induction k; simpl; auto. Qed.

Definition fresh_on (w : world) (opi : nat) (ns : list name) : Prop := forall n i, In n ns -> fresh w opi n i.

Definition node_msgs_ok (opi : nat) (n : name) (r : res) (ms : list msg) : Prop :=
  forall p, In p (created_of ms) -> wi_op (fst p) = opi /\ wi_node (fst p) = n /\ snd p = r.

(* what a deployment leaves: its messages on the channel, the record and the container of each instance created *)
Definition deployed (pod : name) (w w' : world) (ms : list msg) : Prop :=
  out w' = rev ms ++ out w /\
  core3 w' w (wls w ++ map (wl_of pod) (created_of ms)) (conts w ++ map cont_of (created_of ms)).

Lemma deployed_app : forall pod w w1 w2 ms1 ms2,
  deployed pod w w1 ms1 -> deployed pod w1 w2 ms2 -> deployed pod w w2 (ms1 ++ ms2).
Proof.
  intros pod w w1 w2 ms1 ms2 [Ho1 [? [? [? [? [? [Hw1 Hc1]]]]]]] [Ho2 [? [? [? [? [? [Hw2 Hc2]]]]]]].
  unfold deployed, core3. rewrite created_of_app, !map_app, !app_assoc, <- Hw1, <- Hc1, rev_app_distr, <- app_assoc, <- Ho1.
  repeat split; congruence.
Qed.

Definition node_post (opi : nat) (pod n : name) (r : res) (cnt : nat) (w w' : world) (k' : option nat)
           (failed : list nat) (ms : list msg) : Prop :=
  length ms = cnt /\
  (length failed + length (created_of ms) = cnt)%nat /\
  node_msgs_ok opi n r ms /\
  (failed <> [] -> k' = None) /\
  deployed pod w w' ms.

Lemma deploy_loop_ms : forall opi pod n r idxs w k,
  NoDup idxs -> (forall i, In i idxs -> fresh w opi n i) ->
  ends (deploy_loop opi pod n r idxs) w k (fun w' k' fm => node_post opi pod n r (length idxs) w w' k' (fst fm) (snd fm)).
Proof.
  intros opi pod n r idxs. induction idxs as [|i rest IH]; intros w k Hnd Hfresh.
  - unfold node_post, node_msgs_ok, deployed. cbn. rewrite !app_nil_r.
    repeat split; try congruence; contradiction.
  - inversion Hnd as [|? ? Hni Hnd']; subst. cbn [deploy_loop]. apply ends_bind.
    destruct (Hfresh i (or_introl eq_refl)) as [Hx Hc].
    eapply ends_mono; [apply ends_ex, (deploy_one_spec (mkWl (mkWid opi n i) n pod r) (Some opi) w k Hx Hc)|].
    intros w1 k1 e [Hok Hfail]. unfold send, ign, doc, call1. norm. apply ends_send. apply ends_bind.
    set (m := if is_ok e then MCreateOk (mkWid opi n i) r else MCreateFail n).
    (* what this instance left: its record and container if it was created, nothing if not *)
    assert (H1 : core_eq w1 w (wls w ++ map (wl_of pod) (created_of [m])) (conts w ++ map cont_of (created_of [m]))
                 /\ (e <> None -> k1 = None) /\ (forall p, In p (created_of [m]) -> p = (mkWid opi n i, r))
                 /\ (length (if is_ok e then [] else [i]) + length (created_of [m]) = 1)%nat).
    { destruct e as [err|]; cbn.
      - destruct (Hfail ltac:(discriminate)) as [H ->]. rewrite !app_nil_r.
        split; [exact H|]. split; [reflexivity|]. split; [intros p []|reflexivity].
      - split; [apply Hok; reflexivity|]. split; [congruence|]. split; [intros p [<-|[]]|]; reflexivity. }
    destruct H1 as [Hce [Hk1 [Hcr1 Hlen1]]]. pose proof Hce as [_ [_ [_ [Ho1 [_ [_ [Hw1 Hc1]]]]]]].
    eapply ends_mono; [apply ends_budget, (IH _ k1 Hnd')|].
    { intros j Hj. apply (fresh_app w _ opi n j _ _ (Hfresh j (or_intror Hj)) Hw1 Hc1);
        intros y Hy E; apply in_map_iff in Hy; destruct Hy as [p [<- Hp]]; rewrite (Hcr1 p Hp) in E;
        inversion E; subst; auto. }
    intros w3 k3 [failed ms] [[Hl [Hcnt [Hok3 [Hk3 Hd3]]]] Hb]. apply ends_ret. cbn [fst snd] in *.
    change (m :: ms) with ([m] ++ ms). unfold node_post. rewrite created_of_app.
    split; [cbn; congruence|]. split; [rewrite app_length; destruct (is_ok e); cbn in *; lia|].
    split; [|split].
    + intros p Hp. rewrite created_of_app in Hp. apply in_app_or in Hp. destruct Hp as [Hp|Hp]; [|apply Hok3, Hp].
      rewrite (Hcr1 p Hp). cbn. auto.
    + destruct e as [err|]; cbn [is_ok]; [intros _; apply Hb, Hk1; discriminate|exact Hk3].
    + refine (deployed_app pod w (set_out w1 (m :: out w1)) w3 [m] ms (conj _ (core_eq_core3 w1 w _ _ Hce)) Hd3).
      cbn [out set_out rev app]. rewrite Ho1. reflexivity.
Qed.

Lemma sends_ends : forall (l : list nat) m w k,
  ends (for_all l (fun _ => send m)) w k (fun w' k' _ => k' = k /\ core3 w' w (wls w) (conts w) /\ out w' = repeat m (length l) ++ out w).
Proof.
  induction l as [|x t IH]; intros m w k; cbn [for_all].
  - split; [reflexivity|]. split; [apply core3_refl|reflexivity].
  - unfold send, ign, doc, call1. norm. apply ends_send.
    eapply ends_mono; [apply IH|]. intros w' k' _ [-> [Hc Ho]]. split; [reflexivity|].
    split; [eapply core3_trans; [exact Hc|repeat split]|].
    rewrite Ho. cbn [out set_out length repeat]. rewrite repeat_cons, <- app_assoc. reflexivity.
Qed.

(* doGetAndPrepareNode only reads; on an existing node it can only fail by the injected fault *)
Lemma prep_node_neutral : forall n w k, find_node w n <> None ->
  ends (get_and_prepare_node n) w k (fun w' k' e => w' = w /\ (e <> None -> k' = None)).
Proof.
  intros n w k Hn. unfold get_and_prepare_node, prepare_image, doc, call1. norm.
  step k; [split; reflexivity|]. cbn [exec]. destruct (find_node w n); [|congruence]. norm.
  (* a failed look-up of the image falls back to a pull *)
  step k; [apply ends_run; exe; split; [reflexivity|congruence]|]. exe.
  step k; [apply ends_run; exe; split; [reflexivity|congruence]|]. exe.
  split; [reflexivity|congruence].
Qed.

Lemma seq_nat_nodup : forall len start, NoDup (seq_nat start len).
Proof.
  assert (H : forall len start i, In i (seq_nat start len) -> (start <= i)%nat).
  { induction len as [|l IH]; intros start i Hi; simpl in Hi; [destruct Hi|]. destruct Hi as [<-|Hi]; [lia|]. apply IH in Hi. lia. }
  induction len as [|l IH]; intros start; simpl; constructor; auto.
  intro Hin. apply H in Hin. lia.
Qed.
Lemma seq_nat_length : forall len start, length (seq_nat start len) = len.
Proof. induction len as [|l IH]; intros; simpl; auto. Qed.

Lemma deploy_on_node_ms : forall opi pod n cnt r w k,
  fresh_on w opi [n] -> find_node w n <> None ->
  ends (deploy_on_node opi pod n cnt r) w k (fun w' k' fm => node_post opi pod n r cnt w w' k' (fst fm) (snd fm)).
Proof.
  intros opi pod n cnt r w k Hf Hnode. unfold deploy_on_node. apply ends_bind.
  eapply ends_mono; [apply (prep_node_neutral n w k Hnode)|]. intros w1 k1 e [-> He].
  destruct e as [err|].
  - (* the node could not be prepared: one error message per instance, all to be rolled back *)
    apply ends_bind. eapply ends_mono; [apply sends_ends|]. intros w2 k2 _ [-> [Hc2 Ho2]].
    apply ends_ret. unfold node_post, node_msgs_ok, deployed. cbn [fst snd]. rewrite seq_nat_length in Ho2.
    rewrite created_of_errs, repeat_length, seq_nat_length, rev_repeat, Ho2. cbn [map length In]. rewrite !app_nil_r.
    repeat split; try apply Hc2; try lia; try contradiction. intros _. apply He. discriminate.
  - eapply ends_mono; [apply deploy_loop_ms; [apply seq_nat_nodup|intros i _; apply Hf; left; reflexivity]|].
    intros w' k' fm H. rewrite seq_nat_length in H. exact H.
Qed.

Fixpoint plan_total (plan : list (name * nat)) : nat := match plan with [] => 0 | (_, k) :: t => k + plan_total t end.
Fixpoint rb_len (rb : list (name * list nat)) (n : name) : nat :=
  match rb with
  | [] => 0%nat
  | g :: t => ((if Nat.eqb (fst g) n then length (snd g) else 0) + rb_len t n)%nat
  end.
Definition created_on (ms : list msg) (n : name) : nat := length (filter (fun p => Nat.eqb (wi_node (fst p)) n) (created_of ms)).

(* a node whose instances were all created is left out of the rollback map *)
Lemma rb_len_skip_nil : forall n failed rb m,
  rb_len (match failed with [] => rb | _ => (n, failed) :: rb end) m =
  ((if Nat.eqb n m then length failed else 0) + rb_len rb m)%nat.
Proof. intros n [|f ft] rb m; [destruct (Nat.eqb n m)|]; reflexivity. Qed.

Lemma created_on_node : forall opi n r ms m, node_msgs_ok opi n r ms ->
  created_on ms m = if Nat.eqb n m then length (created_of ms) else 0%nat.
Proof.
  intros opi n r ms m H. unfold created_on. destruct (Nat.eqb n m) eqn:E.
  - apply Nat.eqb_eq in E. subst m. f_equal. apply filter_all. intros p Hp. destruct (H p Hp) as [_ [-> _]]. apply Nat.eqb_refl.
  - rewrite filter_none; [reflexivity|]. intros p Hp. destruct (H p Hp) as [_ [-> _]]. exact E.
Qed.

Lemma created_on_notin : forall ms (nodes : list name) n,
  (forall p, In p (created_of ms) -> In (wi_node (fst p)) nodes) -> ~ In n nodes -> created_on ms n = 0%nat.
Proof.
  intros ms nodes n H Hn. unfold created_on. rewrite filter_none; [reflexivity|].
  intros p Hp. apply Nat.eqb_neq. intro E. apply Hn. rewrite <- E. apply H. exact Hp.
Qed.

Definition plan_post (opi : nat) (pod : name) (r : res) (plan : list (name * nat)) (w w' : world) (k' : option nat)
           (rb : list (name * list nat)) (ms : list msg) : Prop :=
  length ms = plan_total plan /\
  (rb <> [] -> k' = None) /\
  (forall p, In p (created_of ms) -> wi_op (fst p) = opi /\ In (wi_node (fst p)) (map fst plan) /\ snd p = r) /\
  (forall n cnt, In (n, cnt) plan -> (rb_len rb n + created_on ms n = cnt)%nat) /\
  (forall n, ~ In n (map fst plan) -> rb_len rb n = 0%nat) /\
  (forall g, In g rb -> In (fst g) (map fst plan)) /\
  deployed pod w w' ms.

Lemma deploy_all_ends : forall opi pod r plan w k,
  NoDup (map fst plan) -> fresh_on w opi (map fst plan) -> (forall n, In n (map fst plan) -> find_node w n <> None) ->
  ends (deploy_all opi pod r plan) w k (fun w' k' a => plan_post opi pod r plan w w' k' (fst a) (snd a)).
Proof.
  intros opi pod r plan. induction plan as [|[n cnt] rest IH]; intros w k Hnd Hf Hnodes.
  - apply ends_ret. unfold plan_post, deployed. cbn. rewrite !app_nil_r. repeat split; try congruence; contradiction.
  - cbn [map fst] in *. inversion Hnd as [|? ? Hni Hnd']; subst. cbn [deploy_all]. apply ends_bind.
    eapply ends_mono; [apply (deploy_on_node_ms opi pod n cnt r w k)|].
    { intros n0 i [<-|[]]. apply Hf. left; reflexivity. }
    { apply Hnodes. left; reflexivity. }
    intros w1 k1 [failed ms1] [Hl1 [Hcnt1 [Hok1 [Hk1 Hd1]]]]. cbn [fst snd] in *. apply ends_bind.
    assert (Hf1 : fresh_on w1 opi (map fst rest)).
    { intros n' i Hn'. assert (Hne : n' <> n) by (intro; subst; auto).
      destruct Hd1 as [_ [_ [_ [_ [_ [_ [Hw1 Hcc1]]]]]]].
      apply (fresh_app w w1 opi n' i _ _ (Hf n' i (or_intror Hn')) Hw1 Hcc1);
        intros y Hy E; apply in_map_iff in Hy; destruct Hy as [p [<- Hp]]; destruct (Hok1 p Hp) as [_ [Hn _]];
        cbn in E; rewrite E in Hn; exact (Hne Hn). }
    assert (Hnodes1 : forall n', In n' (map fst rest) -> find_node w1 n' <> None).
    { intros n' Hn'. unfold find_node. destruct Hd1 as [_ [_ [Hnn _]]]. rewrite Hnn. apply Hnodes. right; exact Hn'. }
    eapply ends_mono; [apply ends_budget, (IH w1 k1 Hnd' Hf1 Hnodes1)|].
    intros w2 k2 [rb ms2] [[Hl2 [Hk2 [Hok2 [Hcnt2 [Hrb0 [Hrbin Hd2]]]]]] Hb]. apply ends_ret. cbn [fst snd] in *.
    (* no instance created later is on n *)
    assert (Hon2 : created_on ms2 n = 0%nat).
    { apply (created_on_notin ms2 (map fst rest)); [|exact Hni]. intros p Hp. destruct (Hok2 p Hp) as [_ [Hn _]]. exact Hn. }
    assert (Happ : forall m, created_on (ms1 ++ ms2) m = (created_on ms1 m + created_on ms2 m)%nat).
    { intros m. unfold created_on. rewrite created_of_app, filter_app, app_length. reflexivity. }
    split; [rewrite app_length, Hl1, Hl2; reflexivity|].
    split.
    { destruct failed as [|f0 ft]; [exact Hk2|]. intros _. apply Hb, Hk1. discriminate. }
    split.
    { intros p Hp. rewrite created_of_app in Hp. apply in_app_or in Hp. destruct Hp as [Hp|Hp].
      - destruct (Hok1 p Hp) as [? [? ?]]. split; auto. split; auto. left; auto.
      - destruct (Hok2 p Hp) as [? [? ?]]. split; auto. split; auto. right; auto. }
    split.
    { intros n' cnt' [Heq|Hin]; rewrite rb_len_skip_nil, Happ, (created_on_node _ _ _ _ _ Hok1).
      - inversion Heq; subst. rewrite Nat.eqb_refl, Hon2, (Hrb0 n' Hni). lia.
      - assert (Nat.eqb n n' = false) as ->
          by (apply Nat.eqb_neq; intro; subst; apply Hni; apply in_map_iff; exists (n', cnt'); auto).
        apply Hcnt2; exact Hin. }
    split.
    { intros n' Hn'. rewrite rb_len_skip_nil.
      assert (Nat.eqb n n' = false) as -> by (apply Nat.eqb_neq; intro; subst; apply Hn'; left; reflexivity).
      apply Hrb0. intro. apply Hn'. right; auto. }
    split.
    { intros g Hg. destruct failed as [|f0 ft]; [right; apply Hrbin; exact Hg|].
      destruct Hg as [<-|Hg]; [left; reflexivity|right; apply Hrbin; exact Hg]. }
    exact (deployed_app pod w w1 w2 ms1 ms2 Hd1 Hd2).
Qed.

Lemma deploy_all_ms : forall opi pod r plan w k,
  NoDup (map fst plan) -> fresh_on w opi (map fst plan) -> (forall n, In n (map fst plan) -> find_node w n <> None) ->
  exists w' k' rb ms, crunk (deploy_all opi pod r plan) w k = (w', k', (rb, ms)) /\
    length ms = plan_total plan /\
    (rb <> [] -> k' = None) /\
    (forall p, In p (created_of ms) -> wi_op (fst p) = opi /\ In (wi_node (fst p)) (map fst plan) /\ snd p = r) /\
    (forall n cnt, In (n, cnt) plan -> (rb_len rb n + created_on ms n = cnt)%nat) /\
    (forall n, ~ In n (map fst plan) -> rb_len rb n = 0%nat) /\
    (forall g, In g rb -> In (fst g) (map fst plan)) /\
    out w' = rev ms ++ out w /\
    core3 w' w (wls w ++ map (wl_of pod) (created_of ms)) (conts w ++ map cont_of (created_of ms)).
Proof.
  intros opi pod r plan w k Hnd Hf Hnodes.
  destruct (proj1 (ends_ex _ _ _ _ _) (deploy_all_ends opi pod r plan w k Hnd Hf Hnodes)) as [w' [k' [[rb ms] [E H]]]].
  exists w', k', rb, ms. split; [exact E|exact H].
Qed.
