(* Calcium/OpsProofs2.v — the lock wrappers change nothing and fail only by the injected fault;
   whole-operation atomicity theorems (realloc, add-node, the locked transactions of remove and
   dissociate) for every world and every fault position. *)
From Coq Require Import List Bool Arith ZArith Permutation.
From Verif Require Import Base.Effects Calcium.World Calcium.Ops Calcium.OpsProofs.
Import ListNotations.
Local Open Scope Z_scope.

(* [norm] that also unfolds the lock loops and the call wrappers, for scripts unfolded down to [runk] *)
Ltac lnorm := repeat (progress (cbn [bind err_of fst snd rsum is_ok rok fail_reply runk is_faultable for_all get_nodes filter_nodes acquire release
                                    dedupe_keys existsb map lockkey_eqb orb]; try unfold call1; try unfold doc; try unfold ign)).

Lemma release_ends : forall held w k, ends (release held) w k (fun w' _ _ => w' = w).
Proof.
  unfold release. induction held as [|key rest IH]; intros w k; cbn [for_all]; [reflexivity|].
  unfold ign, doc, call1. norm. step k; [|exe]; apply IH.
Qed.

Lemma acquire_ends : forall ks held w k,
  ends (acquire ks held) w k (fun w' k' a => w' = w /\ (fst a <> None -> k' = None)).
Proof.
  induction ks as [|key rest IH]; intros held w k; cbn [acquire].
  - split; [reflexivity|]. cbn [fst]. congruence.
  - unfold ign, doc, call1. norm. step k.
    + split; reflexivity.
    + exe. step k.
      * apply ends_run. exe. split; reflexivity.
      * exe. apply IH.
Qed.

Lemma release_neutral : forall held w k, exists k', crunk (release held) w k = (w, k', tt).
Proof.
  intros held w k. destruct (proj1 (ends_ex _ _ _ _ _) (release_ends held w k)) as [w' [k' [[] [E ->]]]]. eauto.
Qed.

(* a body run under locks: taking the locks fails only by the injected fault and leaves the world as it
   was; the release after the body changes nothing and keeps a spent budget spent *)
Lemma locked_ends : forall A ks (on_err : err -> A) (body : cprog A) w k (Q : world -> option nat -> A -> Prop),
  (forall e, Q w None (on_err e)) ->
  (forall k1, ends body w k1 (fun w' k2 a => forall k3, (k2 = None -> k3 = None) -> Q w' k3 a)) ->
  ends (a <- acquire ks [] ;;
        match fst a with
        | Some e => release (snd a) ;;; Ret (on_err e)
        | None => x <- body ;; release (snd a) ;;; Ret x
        end) w k Q.
Proof.
  intros A ks on_err body w k Q Herr Hbody.
  apply ends_bind. eapply ends_mono; [apply acquire_ends|]. intros w1 k1 a [-> Hk].
  destruct (fst a) as [e|]; apply ends_bind.
  - rewrite (Hk ltac:(discriminate)). apply ends_none.
    eapply ends_mono; [apply release_ends|]. intros w2 _ _ ->. apply Herr.
  - eapply ends_mono; [apply Hbody|]. intros w2 k2 x HQ. apply ends_bind.
    eapply ends_mono; [apply ends_budget, release_ends|]. intros w3 k3 _ [-> Hk3]. apply HQ, Hk3.
Qed.

(* the three lock wrappers of the scripts.  In the first two [Q] does not look at the budget. *)
Lemma with_node_pod_locked_ends : forall n body w k (Q : world -> oerr -> Prop),
  (forall e, Q w (Some e)) ->
  (forall x k1, find_node w n = Some x -> n_name x = n -> ends (body x) w k1 (fun w' _ r => Q w' r)) ->
  ends (with_node_pod_locked n body) w k (fun w' _ r => Q w' r).
Proof.
  intros n body w k Q Herr Hbody.
  unfold with_node_pod_locked, with_nodes_pod_locked. cbn [filter_nodes get_nodes]. unfold call1. norm.
  step k; [apply Herr|]. cbn [exec].
  destruct (find_node w n) as [x|] eqn:Hx; norm; [|apply Herr].
  assert (Hn : n_name x = n) by (apply find_some in Hx; apply Nat.eqb_eq, Hx).
  apply locked_ends; [exact Herr|]. intros k1. cbn [find]. rewrite Hn, Nat.eqb_refl.
  eapply ends_mono; [apply (Hbody x k1 eq_refl Hn)|]. auto.
Qed.

Lemma with_workload_locked_ends : forall id body w k (Q : world -> oerr -> Prop),
  (forall e, Q w (Some e)) ->
  (forall x k1, find_wl w id = Some x -> ends (body x) w k1 (fun w' _ r => Q w' r)) ->
  ends (with_workload_locked id body) w k (fun w' _ r => Q w' r).
Proof.
  intros id body w k Q Herr Hbody. unfold with_workload_locked, call1. norm.
  step k; [apply Herr|]. cbn [exec forallb flat_map].
  destruct (find_wl w id) as [x|] eqn:Hx; norm; [|apply Herr].
  apply locked_ends; [exact Herr|]. intros k1.
  eapply ends_mono; [apply (Hbody x k1 eq_refl)|]. auto.
Qed.

Lemma with_pod_locked_ends : forall pod A (on_err : err -> A) (body : list node -> cprog A) w k
  (Q : world -> option nat -> A -> Prop),
  (forall e, Q w None (on_err e)) ->
  (forall ns k1, ends (body ns) w k1 (fun w' k2 a => forall k3, (k2 = None -> k3 = None) -> Q w' k3 a)) ->
  ends (with_nodes_pod_locked (FPod pod false) on_err body) w k Q.
Proof.
  intros pod A on_err body w k Q Herr Hbody.
  unfold with_nodes_pod_locked, filter_nodes, call1. norm.
  step k; [apply Herr|]. cbn [exec]. norm. apply locked_ends; [exact Herr|]. intros k1. apply Hbody.
Qed.

Lemma locked_body_spec : forall (body : cprog oerr) key w kk,
  exists w' k' k2 r, crunk (a <- body ;; release [key] ;;; Ret a) w kk = (w', k', r) /\ crunk body w kk = (w', k2, r).
Proof.
  intros body key w kk. rewrite crunk_bind. destruct (crunk body w kk) as [[w1 k2] r1].
  rewrite crunk_bind. destruct (release_neutral [key] w1 k2) as [k3 ->]. rewrite crunk_ret. do 4 eexists. split; reflexivity.
Qed.

Lemma with_node_pod_locked_spec : forall n body w k,
  exists w' k' r, crunk (with_node_pod_locked n body) w k = (w', k', r) /\
   ((r <> None /\ w' = w) \/
    (exists x k1 k2, find_node w n = Some x /\ n_name x = n /\ crunk (body x) w k1 = (w', k2, r))).
Proof.
  intros n body w k. apply ends_ex.
  apply (with_node_pod_locked_ends n body w k (fun w' r => (r <> None /\ w' = w) \/
    (exists x k1 k2, find_node w n = Some x /\ n_name x = n /\ crunk (body x) w k1 = (w', k2, r)))).
  - intros e. left. split; [discriminate|reflexivity].
  - intros x k1 Hx Hn. unfold ends. destruct (crunk (body x) w k1) as [[w' k2] r] eqn:E. right. exists x, k1, k2. auto.
Qed.

Lemma with_node_pod_locked_none : forall n (body : node -> cprog oerr) w x,
  find_node w n = Some x ->
  exists w1 r, crunk (with_node_pod_locked n body) w None = (w1, None, r) /\ crunk (body x) w None = (w1, None, r).
Proof.
  intros n body w x Hx.
  assert (Hn : n_name x = n) by (apply find_some in Hx; apply Nat.eqb_eq, Hx).
  unfold with_node_pod_locked, with_nodes_pod_locked. unfold crunk. lnorm.
  cbn [exec]. rewrite Hx. lnorm. cbn [exec]. lnorm. cbn [exec]. lnorm. cbn [find]. rewrite Hn, Nat.eqb_refl.
  destruct (locked_body_spec (body x) (LPod (n_pod x)) w None) as [w' [k' [k2 [r [H1 H2]]]]].
  pose proof (crunk_none_k _ _ _ _ _ _ H1). pose proof (crunk_none_k _ _ _ _ _ _ H2). subst.
  unfold crunk in H1. exists w', r. split; [exact H1|exact H2].
Qed.

Record wf (w : world) : Prop := {
  wf_ids : NoDup (ids (wls w));
  wf_plug : forall x, In x (wls w) -> exists p, find_plug w (w_node x) = Some p;
  wf_cont : forall x, In x (wls w) -> exists c, find_cont w (w_id x) = Some c;
}.

Lemma find_wl_id : forall w id x, find_wl w id = Some x -> w_id x = id /\ In x (wls w).
Proof. intros w id x H. apply find_wl_in in H. tauto. Qed.


(* ReallocResource: reported failure => the world is exactly what it was;
   success => usage grew by the request and the record carries the new resources *)
Theorem realloc_atomic : forall id req w k, wf w ->
  exists w' k' r, crunk (realloc id req) w k = (w', k', r) /\
  (r <> None -> w' = w) /\
  (r = None -> exists x, find_wl w id = Some x /\
     w' = oth w (upd_wl (mkWl (w_id x) (w_node x) (w_pod x) (radd (w_res x) req)) (wls w))
                (upd_plug (w_node x) (add_use req) (plugs w)) (conts w)).
Proof.
  intros id req w k Hwf. apply ends_ex. unfold realloc, call1. norm.
  assert (Herr : forall (e : err) (P : Prop), (Some e <> None -> w = w) /\ (Some e = None -> P))
    by (split; [reflexivity|discriminate]).
  step k; [apply Herr|]. cbn [exec].
  destruct (find_wl w id) as [x0|] eqn:Hx0; norm; [|apply Herr].
  apply with_node_pod_locked_ends; [intros; apply Herr|].
  intros _ k1 _ _. apply with_workload_locked_ends; [intros; apply Herr|]. intros x k2 Hx.
  assert (x = x0) by congruence. subst x0.
  destruct (find_wl_id _ _ _ Hx) as [Hid Hin].
  destruct (wf_plug w Hwf x Hin) as [p Hp]. destruct (wf_cont w Hwf x Hin) as [c Hc].
  eapply ends_mono; [apply (do_realloc_spec x req w k2 p c (wf_ids w Hwf)); auto; rewrite Hid; exact Hx|].
  intros w' _ r [Hok Hfail]. split; [exact Hfail|]. intros E. exists x. auto.
Qed.

(* the locked transaction of one workload inside RemoveWorkload *)
Theorem remove_locked_atomic : forall n id force w k, wf w ->
  (force = true \/ strict_remove w = false) ->
  (forall x, find_wl w id = Some x -> w_node x = n) ->
  exists w' k' r, crunk (with_workload_locked id (fun x => remove_txn n x force)) w k = (w', k', r) /\
  (r <> None -> exists l, w' = oth w l (plugs w) (conts w) /\ Permutation l (wls w)) /\
  (r = None -> exists x, find_wl w id = Some x /\
     w' = oth w (del_wl id (wls w)) (upd_plug n (sub_use (w_res x)) (plugs w)) (del_cont id (conts w))).
Proof.
  intros n id force w k Hwf Hforce Hnode. apply ends_ex.
  apply with_workload_locked_ends.
  - intros e. split; [|discriminate]. intros _. exists (wls w). split; [apply oth_same|reflexivity].
  - intros x k1 Hx. destruct (find_wl_id _ _ _ Hx) as [Hid Hin].
    destruct (wf_plug w Hwf x Hin) as [p Hp]. rewrite (Hnode x Hx) in Hp.
    eapply ends_mono; [apply (remove_txn_spec n x force w k1 p (wf_ids w Hwf)); auto; rewrite Hid; exact Hx|].
    rewrite Hid. intros w' _ r [Hok Hfail]. split; [exact Hfail|]. intros E. exists x. auto.
Qed.

(* the locked transaction of one workload inside DissociateWorkload *)
Theorem dissociate_locked_atomic : forall n id w k, wf w ->
  (forall x, find_wl w id = Some x -> w_node x = n) ->
  exists w' k' r, crunk (with_workload_locked id (fun x => dissociate_txn n x)) w k = (w', k', r) /\
  (r <> None -> w' = w) /\
  (r = None -> exists x, find_wl w id = Some x /\
     w' = oth w (del_wl id (wls w)) (upd_plug n (sub_use (w_res x)) (plugs w)) (conts w)).
Proof.
  intros n id w k Hwf Hnode. apply ends_ex.
  apply with_workload_locked_ends.
  - intros e. split; [reflexivity|discriminate].
  - intros x k1 Hx. destruct (find_wl_id _ _ _ Hx) as [Hid Hin].
    destruct (wf_plug w Hwf x Hin) as [p Hp]. rewrite (Hnode x Hx) in Hp.
    eapply ends_mono; [apply (dissociate_txn_spec n x w k1 p); auto; rewrite Hid; exact Hx|].
    rewrite Hid. intros w' _ r [Hok Hfail]. split; [exact Hfail|]. intros E. exists x. auto.
Qed.

Lemma find_plug_app_new : forall l n cap,
  find (fun x => Nat.eqb (p_node x) n) l = None ->
  find (fun x => Nat.eqb (p_node x) n) (l ++ [mkPlug n cap rzero]) = Some (mkPlug n cap rzero).
Proof. intros l n cap H. apply find_app_new; [exact H|apply Nat.eqb_refl]. Qed.
Lemma del_plug_app_new : forall l n cap,
  find (fun x => Nat.eqb (p_node x) n) l = None -> del_plug n (l ++ [mkPlug n cap rzero]) = l.
Proof. intros l n cap H. apply (filter_app_new _ (fun x => Nat.eqb (p_node x) n)); [exact H|apply Nat.eqb_refl]. Qed.

Definition othn (w : world) (ns : list node) (p : list plug) : world :=
  mkWorld (pods w) ns (wls w) (markers w) p (conts w) (walq w) (wal_seq w) (out w) (strict_remove w) (script w).

(* AddNode of a fresh node name into an existing pod (so the store's own AddNode can only
   fail by the injected fault; a second, natural failure next to the injected one is outside
   the single-fault quantifier) *)
Theorem add_node_atomic : forall n p cap w k,
  existsb (Nat.eqb p) (pods w) = true -> find_node w n = None ->
  exists w' k' r, crunk (add_node n p cap) w k = (w', k', r) /\
  (r <> None -> w' = w) /\
  (r = None -> w' = othn w (nodes w ++ [mkNode n p false true 0]) (plugs w ++ [mkPlug n cap rzero])).
Proof.
  intros n p cap w k Hpod Hn. unfold find_node in Hn. apply ends_ex. unfold add_node, txn, doc, call1. norm.
  step k; [split; [reflexivity|discriminate]|]. exe.
  step k; [split; [reflexivity|discriminate]|]. exe.
  destruct (find (fun x => Nat.eqb (p_node x) n) (plugs w)) eqn:Hp; norm; [split; [reflexivity|discriminate]|].
  step k.
  - (* store AddNode fails: the plugin record is removed again *)
    apply ends_run. exe. rewrite find_plug_app_new by exact Hp. norm.
    split; [|discriminate]. intros _. look. rewrite del_plug_app_new by exact Hp. destruct w; reflexivity.
  - exe. rewrite Hpod. cbn [negb]. rewrite Hn. norm. split; [congruence|]. intros _. look. reflexivity.
Qed.
