(* Calcium/CreateProofs2.v — assembly: the net effect of allocation and
   rollback on the plugin records, the three closures of the transaction in doCreateWorkloads, and
   [create_spec] (C12 / C10 for create): for EVERY world in which the op index is fresh, EVERY feasible
   plan (or a refusal) and EVERY position of the single injected fault. *)
From Coq Require Import List Bool Arith ZArith Lia.
From Verif Require Import Base.Effects Calcium.World Calcium.Ops Calcium.Run Calcium.OpsProofs Calcium.OpsProofs2 Calcium.InvProofs Calcium.DeployProofs Calcium.DeployProofs2 Calcium.CreateProofs Base.ListFacts.
Import ListNotations.
Local Open Scope Z_scope.

Fixpoint atotal (done : list (name * nat)) (n : name) : nat :=
  match done with [] => 0%nat | g :: t => ((if Nat.eqb (fst g) n then snd g else 0) + atotal t n)%nat end.

Lemma scale_add : forall a b r, scale (a + b) r = radd (scale a r) (scale b r).
Proof.
  induction a as [|a IH]; intros b r; simpl.
  - destruct (scale b r) as [x y]. unfold radd, rzero; simpl. f_equal; lia.
  - rewrite IH. destruct r as [r1 r2], (scale a (r1, r2)) as [x y], (scale b (r1, r2)) as [u v]. unfold radd; simpl. f_equal; lia.
Qed.
Lemma add_use_0 : forall x, add_use rzero x = x.
Proof. intros [n c [u v]]. unfold add_use, radd, rzero; simpl. f_equal. f_equal; lia. Qed.
Lemma add_use_add : forall a b x, add_use b (add_use a x) = add_use (radd a b) x.
Proof. intros [a1 a2] [b1 b2] [n c [u v]]. unfold add_use, radd; simpl. f_equal. f_equal; lia. Qed.

Lemma alloc_eff_map : forall r done P,
  alloc_eff r done P = map (fun x => add_use (scale (atotal done (p_node x)) r) x) P.
Proof.
  intros r done. induction done as [|g t IH]; intros P.
  - unfold alloc_eff. simpl. rewrite <- (map_id P) at 1. apply map_ext. intros x. symmetry. apply add_use_0.
  - unfold alloc_eff in *. cbn [fold_left]. rewrite IH. unfold upd_plug. rewrite map_map. apply map_ext. intros x.
    cbn [atotal]. rewrite (Nat.eqb_sym (p_node x)). destruct (Nat.eqb (fst g) (p_node x)); [|reflexivity].
    rewrite add_use_add, <- scale_add. reflexivity.
Qed.

Lemma sub_use_0 : forall x, sub_use rzero x = x.
Proof. intros [n c [u v]]. unfold sub_use, rsub, rzero; simpl. f_equal. f_equal; lia. Qed.
Lemma sub_use_sub : forall a b x, sub_use b (sub_use a x) = sub_use (radd a b) x.
Proof. intros [a1 a2] [b1 b2] [n c [u v]]. unfold sub_use, rsub, radd; simpl. f_equal. f_equal; lia. Qed.

Lemma rollback_eff_map : forall r rb P,
  rollback_eff r rb P = map (fun x => sub_use (scale (rb_len rb (p_node x)) r) x) P.
Proof.
  intros r rb. induction rb as [|g t IH]; intros P.
  - unfold rollback_eff. simpl. rewrite <- (map_id P) at 1. apply map_ext. intros x. symmetry. apply sub_use_0.
  - unfold rollback_eff in *. cbn [fold_left]. rewrite IH. unfold upd_plug. rewrite map_map. apply map_ext. intros x.
    cbn [rb_len]. rewrite (Nat.eqb_sym (p_node x)). destruct (Nat.eqb (fst g) (p_node x)); [|reflexivity].
    rewrite sub_use_sub, <- scale_add. reflexivity.
Qed.

Lemma sub_add_net : forall b c r x, sub_use (scale b r) (add_use (scale (b + c) r) x) = add_use (scale c r) x.
Proof.
  intros b c r x. rewrite scale_add. destruct x as [n cp [u v]], (scale b r) as [b1 b2], (scale c r) as [c1 c2].
  unfold sub_use, add_use, rsub, radd; simpl. f_equal. f_equal; lia.
Qed.

(* giving back, per node, part of what was allocated leaves the rest *)
Lemma rollback_alloc_net : forall r rb done P (c : name -> nat), (forall n, atotal done n = (rb_len rb n + c n)%nat) ->
  rollback_eff r rb (alloc_eff r done P) = map (fun x => add_use (scale (c (p_node x)) r) x) P.
Proof.
  intros r rb done P c H. rewrite rollback_eff_map, alloc_eff_map, map_map. apply map_ext. intros x.
  replace (p_node (add_use (scale (atotal done (p_node x)) r) x)) with (p_node x) by reflexivity.
  rewrite H. apply sub_add_net.
Qed.

Lemma rb_len_of_alloc : forall done n, rb_len (map (fun a => (fst a, seq_nat 0 (snd a))) done) n = atotal done n.
Proof.
  induction done as [|g t IH]; intros n; simpl; [reflexivity|]. rewrite seq_nat_length, IH. reflexivity.
Qed.

Lemma atotal_notin : forall done n, ~ In n (map fst done) -> atotal done n = 0%nat.
Proof.
  induction done as [|g t IH]; intros n H; simpl; [reflexivity|].
  assert (Nat.eqb (fst g) n = false) as -> by (apply Nat.eqb_neq; intro; apply H; left; auto).
  apply IH. intro; apply H; right; auto.
Qed.
Lemma atotal_in : forall done n cnt, NoDup (map fst done) -> In (n, cnt) done -> atotal done n = cnt.
Proof.
  induction done as [|g t IH]; intros n cnt Hnd Hin; [destruct Hin|].
  simpl in Hnd. inversion Hnd as [|? ? Hni Hnd']; subst. simpl. destruct Hin as [->|Hin].
  - simpl. rewrite Nat.eqb_refl. rewrite (atotal_notin t n Hni). lia.
  - assert (Nat.eqb (fst g) n = false) as ->.
    { apply Nat.eqb_neq. intro; subst. apply Hni. apply in_map_iff. exists (fst g, cnt). auto. }
    simpl. apply IH; auto.
Qed.

Definition cst := (cstate_create * list (name * list nat) * list msg)%type.
Definition st0 : cst := (mkCS None [] [] [], @nil (name * list nat), @nil msg).

Definition cond_fn (opi : nat) (pod : name) (r : res) (plan : option (list (name * nat))) (st : cst) : cprog (cst * oerr) :=
  x <- with_nodes_pod_locked (FPod pod false) (fun e => (fst (fst st), Some e)) (cond_body opi r plan (fst (fst st))) ;;
  match snd x with
  | Some e => send MCreateErr ;;; Ret ((fst x, snd (fst st), [MCreateErr]), Some e)
  | None => Ret ((fst x, snd (fst st), snd st), None)
  end.
Definition then_fn (opi : nat) (pod : name) (r : res) (st : cst) : cprog (cst * oerr) :=
  d <- deploy_all opi pod r (cs_plan (fst (fst st))) ;;
  Ret ((fst (fst st), fst d, snd st ++ snd d), match fst d with [] => None | _ => Some ENatural end).
Definition rb_fn (r : res) (st : cst) (by_cond : bool) : cprog oerr :=
  let rb := if by_cond then map (fun a => (fst a, seq_nat 0 (snd a))) (cs_alloc (fst (fst st))) else snd (fst st) in
  rollback_prog r rb ;;; rok.
Definition defers (opi : nat) (s : cstate_create) (ms : list msg) : cprog (list msg) :=
  for_all (cs_plan s) (fun g => ign (doc (SDeleteProcessing (fst g) opi))) ;;;
  commit_processing opi (cs_ptokens s) ;;;
  (match cs_rtoken s with Some t => ign (doc (WCommit t (EvAlloc []))) | None => skip end) ;;;
  send MClose ;;;
  Ret ms.

Lemma create_unfold : forall opi pod r plan,
  create opi pod r plan =
  (res <- txn_s st0 (cond_fn opi pod r plan) (Some (then_fn opi pod r)) (Some (rb_fn r)) ;;
   defers opi (fst (fst (fst res))) (snd (fst res))).
Proof. reflexivity. Qed.

Lemma defers_spec : forall opi s ms w k,
  ends (defers opi s ms) w k (fun w' _ a => a = ms /\ core3 w' w (wls w) (conts w) /\ out w' = MClose :: out w).
Proof.
  intros opi s ms w k. unfold defers. apply ends_bind.
  eapply ends_mono; [apply quiet_for_all; intros g; apply quiet_delproc|]. intros w1 k1 _ [Hc1 Ho1]. apply ends_bind.
  eapply ends_mono; [apply quiet_commit_processing|]. intros w2 k2 _ [Hc2 Ho2]. apply ends_bind.
  eapply ends_mono; [destruct (cs_rtoken s); [apply quiet_commit|apply quiet_ret]|]. intros w3 k3 _ [Hc3 Ho3].
  unfold send, ign, doc, call1. norm. apply ends_send. split; [reflexivity|]. split.
  - apply (core3_trans _ w3); [repeat split|]. apply (core3_trans _ w2 _ _ _ Hc3). apply (core3_trans _ w1 _ _ _ Hc2). exact Hc1.
  - cbn [out set_out]. congruence.
Qed.

Lemma defers_neutral : forall opi s ms, core_neutral (defers opi s ms).
Proof.
  intros opi s ms w k. destruct (proj1 (ends_ex _ _ _ _ _) (defers_spec opi s ms w k)) as [w' [k' [a [H [_ [Hc _]]]]]]. eauto.
Qed.

Definition create_hyp (w : world) (opi : nat) (r : res) (plan : option (list (name * nat))) : Prop :=
  (forall n i, fresh w opi n i) /\
  match plan with
  | Some dm => NoDup (map fst dm) /\ feasible w r dm /\ (forall n, In n (map fst dm) -> find_node w n <> None)
  | None => True
  end.

(* what create guarantees, stated on the messages it returns *)
Record create_post (opi : nat) (pod : name) (r : res) (plan : option (list (name * nat))) (w w' : world) (ms : list msg) : Prop := {
  cr_pods : pods w' = pods w; cr_nodes : nodes w' = nodes w;
  cr_strict : strict_remove w' = strict_remove w; cr_script : script w' = script w;
  cr_wls : wls w' = wls w ++ map (wl_of pod) (created_of ms);
  cr_conts : conts w' = conts w ++ map cont_of (created_of ms);
  cr_plugs : plugs w' = map (fun x => add_use (scale (created_on ms (p_node x)) r) x) (plugs w);
  cr_msgs : ms = [MCreateErr] \/ exists dm, plan = Some dm /\ length ms = plan_total dm;
  cr_created : forall p, In p (created_of ms) -> wi_op (fst p) = opi /\ snd p = r;
  cr_out : out w' = MClose :: rev ms ++ out w;
  cr_bound : forall n, (created_on ms n <= match plan with Some dm => atotal dm n | None => 0 end)%nat;
}.

Lemma find_plug_map : forall (G : plug -> plug) P n, (forall x, p_node (G x) = p_node x) ->
  find (fun x => Nat.eqb (p_node x) n) (map G P) = option_map G (find (fun x => Nat.eqb (p_node x) n) P).
Proof.
  intros G P n HG. induction P as [|x t IH]; simpl; [reflexivity|]. rewrite HG.
  destruct (Nat.eqb (p_node x) n); [reflexivity|exact IH].
Qed.

Lemma created_on_nil : forall n, created_on [MCreateErr] n = 0%nat.
Proof. reflexivity. Qed.

Lemma plugs_id_map : forall r (P : list plug), P = map (fun x => add_use (scale 0 r) x) P.
Proof. intros. rewrite <- (map_id P) at 1. apply map_ext. intros x. symmetry. apply add_use_0. Qed.

Record cond_fn_post (r : res) (plan : option (list (name * nat))) (w w1 : world) (k1 : option nat) (st1 : cst) (e : oerr) : Prop := {
  cf_pods : pods w1 = pods w; cf_nodes : nodes w1 = nodes w; cf_wls : wls w1 = wls w; cf_conts : conts w1 = conts w;
  cf_strict : strict_remove w1 = strict_remove w; cf_script : script w1 = script w;
  cf_plugs : plugs w1 = alloc_eff r (cs_alloc (fst (fst st1))) (plugs w);
  cf_rb : snd (fst st1) = [];
  cf_out : out w1 = (match e with Some _ => [MCreateErr] | None => [] end) ++ out w;
  cf_prefix : match plan with Some dm => exists rest, dm = cs_alloc (fst (fst st1)) ++ rest | None => cs_alloc (fst (fst st1)) = [] end;
  cf_ok : e = None -> snd st1 = [] /\ exists dm, plan = Some dm /\ cs_alloc (fst (fst st1)) = dm /\ cs_plan (fst (fst st1)) = dm;
  cf_fail : e <> None -> snd st1 = [MCreateErr] /\ (cs_alloc (fst (fst st1)) = [] \/ k1 = None);
}.

Lemma cond_fn_spec : forall opi pod r plan w k, create_hyp w opi r plan ->
  ends (cond_fn opi pod r plan st0) w k (fun w1 k1 se => cond_fn_post r plan w w1 k1 (fst se) (snd se)).
Proof.
  intros opi pod r plan w k [Hfresh Hplan].
  unfold cond_fn, st0. cbn [fst snd]. apply ends_bind. apply with_pod_locked_ends.
  - (* the lock could not be taken *)
    intros e. cbn [snd fst]. unfold send, ign, doc, call1. norm. apply ends_send. apply ends_ret.
    constructor; cbn [fst snd cs_alloc app]; auto; try discriminate.
    destruct plan; [eexists; reflexivity|reflexivity].
  - intros ns k1. eapply ends_mono; [apply cond_body_spec|].
    { destruct plan as [dm|]; [|exact I]. destruct Hplan as [? [? ?]]. auto. }
    intros w1 k2 [s1 e] Hp k3 Hk.
    destruct Hp as [cpp cpn cpw cpc cps cpsc cppl cpout cppre cp_ok0 cp_fail0]. cbn [snd fst] in *.
    destruct e as [err|].
    + unfold send, ign, doc, call1. norm. apply ends_send. apply ends_ret.
      constructor; cbn [fst snd app pods nodes wls conts strict_remove script plugs out set_out]; try congruence.
      split; [reflexivity|]. destruct (cp_fail0 ltac:(discriminate)) as [Ha|Hk2]; [left; exact Ha|right; exact (Hk Hk2)].
    + apply ends_ret. constructor; cbn [fst snd app]; try congruence.
      intros _. split; [reflexivity|]. apply cp_ok0. reflexivity.
Qed.

Lemma fresh_core : forall w w1 opi, wls w1 = wls w -> conts w1 = conts w -> (forall n i, fresh w opi n i) -> forall ns, fresh_on w1 opi ns.
Proof.
  intros w w1 opi Hw Hc H ns n i _. destruct (H n i) as [H1 H2]. unfold fresh, find_wl, find_cont in *. rewrite Hw, Hc. auto.
Qed.

(* the nodes of a feasible plan still have their node and plugin records once part of it is allocated *)
Lemma planned_known : forall w w1 r dm done n,
  feasible w r dm -> (forall n, In n (map fst dm) -> find_node w n <> None) ->
  nodes w1 = nodes w -> plugs w1 = alloc_eff r done (plugs w) ->
  In n (map fst dm) -> find_node w1 n <> None /\ find_plug w1 n <> None.
Proof.
  intros w w1 r dm done n Hfe Hnodes Hn Hpl Hin. split.
  - unfold find_node. rewrite Hn. apply Hnodes, Hin.
  - apply in_map_iff in Hin. destruct Hin as [[n' cnt] [<- Hin]]. destruct (Hfe n' cnt Hin) as [p [Hp _]].
    unfold find_plug in *. cbn [fst]. rewrite Hpl, alloc_eff_map, find_plug_map by reflexivity. rewrite Hp. discriminate.
Qed.

(* doCreateWorkloads, every world, every feasible plan (or refusal), every fault position *)
Theorem create_spec : forall opi pod r plan w k, create_hyp w opi r plan ->
  exists w' k' ms, crunk (create opi pod r plan) w k = (w', k', ms) /\ create_post opi pod r plan w w' ms.
Proof.
  intros opi pod r plan w k Hhyp. pose proof Hhyp as [Hfresh Hplan]. apply ends_ex.
  (* the clean-up ends every run: it is enough to have the guarantee, but for the closed channel, before it *)
  assert (Hend : forall w2 k2 s ms, create_post opi pod r plan w (set_out w2 (MClose :: out w2)) ms ->
            ends (defers opi s ms) w2 k2 (fun w' _ ms' => create_post opi pod r plan w w' ms')).
  { intros w2 k2 s ms [? ? ? ? ? ? ? ? ? ? ?]. eapply ends_mono; [apply defers_spec|].
    intros w3 _ a [-> [[? [? [? [? [? [? ?]]]]]] Ho3]].
    cbn [pods nodes strict_remove script wls conts plugs out set_out] in *. constructor; first [assumption|congruence]. }
  rewrite create_unfold. apply ends_bind. unfold txn_s. apply ends_bind.
  eapply ends_mono; [apply cond_fn_spec, Hhyp|]. intros w1 k1 [st1 e] P1. cbn [fst snd] in *.
  destruct P1 as [cfp cfn cfw cfc cfs cfsc cfpl cfrb cfout cfpre cfok cffail].
  destruct e as [err|].
  - (* the condition step failed: whatever was allocated is given back *)
    destruct (cffail ltac:(discriminate)) as [Hms Hor].
    apply ends_bind. unfold rb_fn. apply ends_bind.
    set (rb := map (fun a => (fst a, seq_nat 0 (snd a))) (cs_alloc (fst (fst st1)))).
    assert (Hrb : ends (rollback_prog r rb) w1 k1 (fun w2 _ _ => plugs_only w1 w2 (plugs w))).
    { destruct Hor as [Ha|Hk].
      - unfold rb. rewrite Ha. repeat split. rewrite cfpl, Ha. reflexivity.
      - subst k1. eapply ends_mono; [apply rollback_spec|].
        + intros g Hg. unfold rb in Hg. apply in_map_iff in Hg. destruct Hg as [a [<- Ha]]. cbn [fst].
          destruct plan as [dm|]; [|rewrite cfpre in Ha; destruct Ha].
          destruct cfpre as [rest Hdm]. destruct Hplan as [Hnd [Hfe Hnodes]].
          apply (planned_known w w1 r dm _ _ Hfe Hnodes cfn cfpl). rewrite Hdm, map_app. apply in_or_app. left. apply in_map, Ha.
        + intros w2 _ _ [? [? [? [? [? [? [? Hpl]]]]]]]. repeat split; auto.
          rewrite Hpl, cfpl, (rollback_alloc_net r rb _ _ (fun _ => 0%nat)); [symmetry; apply plugs_id_map|].
          intros n. unfold rb. rewrite rb_len_of_alloc. apply plus_n_O. }
    eapply ends_mono; [exact Hrb|]. intros w2 k2 _ [? [? [? [? [? [? [Ho2 Hpl2]]]]]]].
    apply ends_ret, ends_ret. cbn [fst snd]. apply Hend. rewrite Hms.
    constructor; cbn [pods nodes strict_remove script wls conts plugs out set_out created_of flat_map map app rev];
      try rewrite app_nil_r; try congruence.
    + rewrite Hpl2. apply plugs_id_map.
    + left; reflexivity.
    + intros p [].
    + rewrite Ho2, cfout. reflexivity.
    + intros n. cbn. lia.
  - (* the condition step succeeded: deploy *)
    destruct (cfok eq_refl) as [Hms0 [dm [-> [Halloc Hcsplan]]]].
    destruct Hplan as [Hnd [Hfe Hnodes]].
    apply ends_bind. unfold then_fn. apply ends_bind. rewrite Hcsplan.
    eapply ends_mono; [apply (deploy_all_ends opi pod r dm w1 k1 Hnd (fresh_core w w1 opi cfw cfc Hfresh (map fst dm)))|].
    { intros n Hn. unfold find_node. rewrite cfn. apply Hnodes. exact Hn. }
    intros w2 k2 [rb ms] [Hlen [Hkn [Hcreated [Hcnt [Hrb0 [Hrbin [Hout2 Hcore2]]]]]]]. cbn [fst snd] in *.
    destruct Hcore2 as [Hp2 [Hn2 [Hpl2 [Hs2 [Hsc2 [Hw2 Hc2]]]]]].
    assert (Hnet : forall n, atotal dm n = (rb_len rb n + created_on ms n)%nat).
    { intros n. destruct (in_dec Nat.eq_dec n (map fst dm)) as [Hin|Hnin].
      - apply in_map_iff in Hin. destruct Hin as [[n' cnt] [Hn' Hin]]. cbn [fst] in Hn'. subst n'.
        rewrite (atotal_in dm n cnt Hnd Hin). symmetry. apply Hcnt. exact Hin.
      - rewrite (atotal_notin dm n Hnin), (Hrb0 n Hnin).
        rewrite (created_on_notin ms (map fst dm) n); auto. intros p Hp. destruct (Hcreated p Hp) as [_ [H _]]. exact H. }
    (* what is left once the instances that failed, if any, are given back *)
    assert (Hfin : forall w3 k3, plugs_only w2 w3 (rollback_eff r rb (plugs w2)) ->
              ends (defers opi (fst (fst st1)) ms) w3 k3 (fun w' _ ms' => create_post opi pod r (Some dm) w w' ms')).
    { intros w3 k3 [? [? [Hw3 [Hc3 [? [? [Ho3 Hpl3]]]]]]]. apply Hend.
      constructor; cbn [pods nodes strict_remove script wls conts plugs out set_out]; try congruence.
      - rewrite Hpl3, Hpl2, cfpl, Halloc. apply rollback_alloc_net, Hnet.
      - right. exists dm. auto.
      - intros p Hp. destruct (Hcreated p Hp) as [? [_ ?]]. auto.
      - rewrite Ho3, Hout2, cfout. reflexivity.
      - intros n. rewrite Hnet. lia. }
    rewrite Hms0. cbn [app]. destruct rb as [|g rbt]; apply ends_ret; cbn [fst snd].
    + apply ends_ret. cbn [fst snd]. apply Hfin. repeat split.
    + (* some instance failed: the single fault has fired, the rollback runs undisturbed *)
      rewrite (Hkn ltac:(discriminate)). apply ends_bind. unfold rb_fn. cbn [fst snd]. apply ends_bind.
      eapply ends_mono; [apply rollback_spec|].
      * intros g' Hg'. apply (planned_known w w2 r dm dm _ Hfe Hnodes); [congruence|congruence|apply Hrbin, Hg'].
      * intros w3 k3 u H3. apply ends_ret, ends_ret. cbn [fst snd]. apply Hfin, H3.
Qed.

Lemma rsum_app : forall a b, rsum (a ++ b) = radd (rsum a) (rsum b).
Proof.
  induction a as [|x t IH]; intros b; simpl.
  - destruct (rsum b) as [u v]. unfold radd, rzero; simpl. f_equal; lia.
  - rewrite IH. destruct x as [x1 x2], (rsum t) as [t1 t2], (rsum b) as [b1 b2]. unfold radd; simpl. f_equal; lia.
Qed.

Lemma sum_on_app : forall a b n, sum_on (a ++ b) n = radd (sum_on a n) (sum_on b n).
Proof. intros. unfold sum_on. rewrite filter_app, map_app. apply rsum_app. Qed.

Lemma sum_on_created : forall pod r cr n, (forall p, In p cr -> snd p = r) ->
  sum_on (map (wl_of pod) cr) n = scale (length (filter (fun p => Nat.eqb (wi_node (fst p)) n) cr)) r.
Proof.
  intros pod r cr n H. unfold sum_on. induction cr as [|p t IH]; simpl; [reflexivity|].
  destruct (Nat.eqb (wi_node (fst p)) n); simpl.
  - rewrite (H p (or_introl eq_refl)). f_equal. apply IH. intros q Hq. apply H. right; auto.
  - apply IH. intros q Hq. apply H. right; auto.
Qed.

Theorem create_keeps_usage : forall opi pod r plan w k, create_hyp w opi r plan -> use_ok w ->
  use_ok (fst (fst (crunk (create opi pod r plan) w k))).
Proof.
  intros opi pod r plan w k Hhyp Hok.
  destruct (create_spec opi pod r plan w k Hhyp) as [w' [k' [ms [H P]]]]. rewrite H. cbn [fst].
  destruct P as [_ _ _ _ Hw _ Hpl _ Hcr _ _].
  intros p' Hp'. rewrite Hpl in Hp'. apply in_map_iff in Hp'. destruct Hp' as [x [<- Hx]].
  cbn [add_use p_use p_node]. rewrite Hw, sum_on_app. rewrite (Hok x Hx).
  rewrite (sum_on_created pod r); [reflexivity|]. intros p Hp. apply (Hcr p Hp).
Qed.

