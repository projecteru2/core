(* Non-vacuity: the hypotheses of the C10/C11 theorems hold of a concrete world
   (3 nodes in pod 0, 1 node in pod 1, three running workloads). *)
From Coq Require Import List Bool Arith ZArith.
From Verif Require Import Calcium.World Calcium.Ops Calcium.Run Calcium.OpsProofs Calcium.OpsProofs2 Calcium.InvProofs Calcium.Sweeps.
Import ListNotations.

Definition busy3v : world := Eval vm_compute in busy3.

Example busy3_wf : wf busy3v.
Proof.
  constructor.
  - unfold busy3v, ids; simpl. repeat constructor; simpl; intuition discriminate.
  - intros x Hx. unfold busy3v in *; simpl in Hx.
    destruct Hx as [<-|[<-|[<-|[]]]]; eexists; reflexivity.
  - intros x Hx. unfold busy3v in *; simpl in Hx.
    destruct Hx as [<-|[<-|[<-|[]]]]; eexists; reflexivity.
Qed.

Example busy3_use_ok : use_ok busy3v.
Proof.
  intros p Hp. unfold busy3v in *; simpl in Hp.
  destruct Hp as [<-|[<-|[<-|[<-|[]]]]]; reflexivity.
Qed.

Example realloc_example :
  snd (crunk (realloc (mkWid 7 0 0) (50, 100)%Z) busy3v None) = None /\
  snd (crunk (realloc (mkWid 7 0 0) (50, 100)%Z) busy3v (Some 8)) = Some EInjected /\
  fst (fst (crunk (realloc (mkWid 7 0 0) (50, 100)%Z) busy3v (Some 8))) = busy3v.
Proof. vm_compute. repeat split; reflexivity. Qed.

(* the hypotheses of the create theorem hold of a concrete request *)
From Verif Require Import Calcium.CreateProofs2.
Definition base3v : world := Eval vm_compute in base3.
Example create_hyp_example : create_hyp base3v 9 (50, 100)%Z (Some [(0%nat, 2%nat); (1%nat, 1%nat)]).
Proof.
  split.
  - intros n i. split; reflexivity.
  - split; [repeat constructor; simpl; intuition discriminate|]. split.
    + intros n cnt [E|[E|[]]]; inversion E; subst; eexists; split; reflexivity.
    + intros n [<-|[<-|[]]]; discriminate.
Qed.

(* the invariant of the history theorem holds of a concrete world, and a concrete history with faults is valid *)
From Verif Require Import Calcium.NodeProofs Calcium.HistoryProofs.
Example busy3_Inv : Inv busy3v.
Proof.
  constructor; [exact busy3_wf|exact busy3_use_ok| |].
  - unfold busy3v, pnames; simpl. repeat constructor; simpl; intuition discriminate.
  - intros y Hy. unfold busy3v in Hy; simpl in Hy. destruct Hy as [<-|[<-|[<-|[<-|[]]]]]; reflexivity.
Qed.


Definition history_example : list hstep :=
  [ (OCreate 9 0 3 (50, 100)%Z (Some [(0%nat, 2%nat); (1%nat, 1%nat)]), Some 20%nat);
    (ORealloc (mkWid 7 0 0) (50, 100)%Z, Some 8%nat);
    (ORemove [mkWid 7 0 0; mkWid 9 1 0] true, Some 11%nat);
    (OSetNode 1 None (Some (4096%Z, true)) None, Some 4%nat);
    (ODissociate [mkWid 9 0 0], Some 6%nat);
    (OAddNode 7 0 (400, 8192)%Z, Some 2%nat) ].

Example history_example_valid : valid_hist busy3v history_example.
Proof.
  unfold history_example. cbn [valid_hist valid_step fst snd].
  split.
  - intros _. split.
    + intros n i. (split; reflexivity).
    + (split; [repeat constructor; simpl; intuition discriminate|]). split.
      * (intros n cnt [E|[E|[]]]; inversion E; subst; eexists; split; reflexivity).
      * (intros n [<-|[<-|[]]]; discriminate).
  - (repeat split; try exact I). left; reflexivity.
Qed.

Example history_example_Inv : Inv (run_hist busy3v history_example).
Proof. apply history_keeps_Inv; [exact busy3_Inv|exact history_example_valid]. Qed.

(* a replace hit by a fault while the new workload is being deployed: a valid step, the invariant is kept *)
Definition history_example2 : list hstep :=
  [ (OReplace 11 [mkWid 7 0 0], Some 9%nat); (ORealloc (mkWid 7 0 0) (50, 100)%Z, None) ].

Example history_example2_reports_failure :
  out (step_world busy3v (OReplace 11 [mkWid 7 0 0], Some 9%nat)) =
  [MClose; MReplace (mkWid 7 0 0) None false (Some EInjected)].
Proof. vm_compute. reflexivity. Qed.

Example history_example2_valid : valid_hist busy3v history_example2.
Proof.
  unfold history_example2. cbn [valid_hist]. split; [|split; exact I].
  unfold valid_step. cbn [fst]. split.
  - intros n i _. split; reflexivity.
  - intros m Hm. rewrite history_example2_reports_failure in Hm.
    destruct Hm as [<-|[<-|[]]]; exact (fun x => x).
Qed.

(* two reallocs on different nodes, interleaved call by call, one of them hit by a fault: the hypotheses of the
   commutation theorem hold of the concrete world, and (computed) the alternating schedule gives the sequential result *)
From Verif Require Import Calcium.Interleave Calcium.InterleaveOps.
Example realloc_pair_example : forall sched k1 k2,
  run2 sched (realloc (mkWid 7 0 0) (50, 100)%Z) k1 (realloc (mkWid 8 1 0) (100, 200)%Z) k2 busy3v =
  run2 [] (realloc (mkWid 7 0 0) (50, 100)%Z) k1 (realloc (mkWid 8 1 0) (100, 200)%Z) k2 busy3v.
Proof.
  apply (realloc_pair_interleave (mkWid 7 0 0) (mkWid 8 1 0) 0%nat 1%nat).
  - discriminate.
  - discriminate.
  - intros x Hx Hid. unfold busy3v in Hx; simpl in Hx. destruct Hx as [<-|[<-|[<-|[]]]]; try reflexivity; discriminate.
  - intros x Hx Hid. unfold busy3v in Hx; simpl in Hx. destruct Hx as [<-|[<-|[<-|[]]]]; try reflexivity; discriminate.
Qed.

Example realloc_pair_computed :
  let alternating := [true; false; true; false; true; false; true; false; true; false; true; false; true; false; true; false] in
  run2 alternating (realloc (mkWid 7 0 0) (50, 100)%Z) (Some 8%nat) (realloc (mkWid 8 1 0) (100, 200)%Z) None busy3v =
  run2 [] (realloc (mkWid 7 0 0) (50, 100)%Z) (Some 8%nat) (realloc (mkWid 8 1 0) (100, 200)%Z) None busy3v /\
  snd (fst (run2 [] (realloc (mkWid 7 0 0) (50, 100)%Z) (Some 8%nat) (realloc (mkWid 8 1 0) (100, 200)%Z) None busy3v)) = Some EInjected /\
  snd (run2 [] (realloc (mkWid 7 0 0) (50, 100)%Z) (Some 8%nat) (realloc (mkWid 8 1 0) (100, 200)%Z) None busy3v) = None.
Proof. vm_compute. repeat split; reflexivity. Qed.
