(* C22, unbounded: ANY world, ANY names, ANY number of concurrent AddPod /
   RemovePod / AddNode / RemoveNode / create / remove-workload operations, EVERY
   schedule (no injected failure).  An inductive (ownership) invariant over the
   interleaving system of Refs.v shows: at every reachable state either the
   trace contains one of the two check-then-act overlaps
   (window_addnode_removepod, window_create_removenode), or the invariant
   holds; when all operations have finished the invariant is Ref.

   Method: each operation's program is unfolded into a first-order control
   state [pc] with [prog_at pc] its remaining program; [pc_sim] and
   [step_refines] show that one step of Refs.step_thread from [prog_at pc] is
   the call [call_of pc] and leaves [prog_at (next pc reply)].  All invariant
   work is done on pcs.

   The invariant splits by what its preservation depends on.  The lock table
   is the lock footprint of the control states after every step, overlaps or
   not ([LockI_astep], from what [exec] does to [held] and [next] to [holds]):
   that alone gives deadlock freedom ([general_progress]).  The trace
   invariants follow from the assertion of the stepping control state.  Only
   Ref, ownership and the assertions ([WInv]) depend on what a step does to the
   world: the steps of all but seven control states ([writer]) frame it. *)
From Coq Require Import List Bool String Arith Lia.
From Verif Require Import Calcium.Refs Calcium.RefsIsolation Base.ListFacts.
Import ListNotations.
Local Open Scope string_scope.

Inductive pc :=
| Done (b : bool)
| AP (p : string)
| RP_list1 (p : string)
| RP_lock (p : string)
| RP_list2 (p : string) (lk : bool)
| RP_del (p : string) (lk : bool)
| RP_unlock (p : string) (b : bool)
| AN_padd (n p : string)
| AN_getpod (n p : string)
| AN_create (n p : string)
| AN_rollback (n : string)
| RN_get1 (n : string)
| RN_lock (n p : string)
| RN_get2 (n p : string)
| RN_list (n p : string)
| RN_setst (n p : string)
| RN_rm (n p : string)
| RN_delst (n p : string)
| RN_prm (n p : string)
| RN_unlock (p : string) (b : bool)
(* create of one instance (id) on node n *)
| CR_get1 (n id : string)
| CR_lock (n id p : string)
| CR_cap (n id p : string)
| CR_alloc (n id p : string)
| CR_unlock (n id p : string) (b : bool)
| CR_get2 (n id : string)
| CR_addwl (n id : string)
| CR_rmwl (n id : string)
(* create's rollback of the allocation *)
| RB_get (n : string)
| RB_lock (n p : string)
| RB_ralloc (n p : string)
(* remove of workload id *)
| RW_getwl1 (id : string)
| RW_getnode (id n : string)
| RW_lockp (id n p : string)
| RW_getwl2 (id n p : string)
| RW_lockc (id n p : string)
| RW_usage (id n p : string)
| RW_rm (id n p : string)
| RW_usage2 (id n p : string)
| RW_fin (id p : string) (b : bool).

Definition call_of (c : pc) : option rcall :=
  match c with
  | Done _ => None
  | AP p => Some (CAddPod p)
  | RP_list1 p | RP_list2 p _ => Some (CListPodNodes p)
  | RP_lock p => Some (CLock (plock p))
  | RP_del p _ => Some (CDeletePod p)
  | RP_unlock p _ | RN_unlock p _ => Some (CUnlock (plock p))
  | AN_padd n _ => Some (PAddNode n)
  | AN_getpod _ p => Some (CGetPod p)
  | AN_create n p => Some (CCreateNode n p)
  | AN_rollback n | RN_prm n _ => Some (PRemoveNode n)
  | RN_get1 n | RN_get2 n _ => Some (CGetNode n)
  | RN_lock _ p => Some (CLock (plock p))
  | RN_list n _ => Some (CListNodeWls n)
  | RN_rm n _ => Some (CRemoveNode n)
  | RN_setst n _ => Some (CSetStatus n)
  | RN_delst n _ => Some (CDelStatus n)
  | CR_get1 n _ | CR_get2 n _ | RB_get n | RW_getnode _ n => Some (CGetNode n)
  | CR_lock _ _ p | RB_lock _ p | RW_lockp _ _ p => Some (CLock (plock p))
  | CR_cap n _ _ => Some (PCapacity n)
  | CR_alloc n _ _ => Some (PAlloc n)
  | CR_unlock _ _ p _ => Some (CUnlock (plock p))
  | CR_addwl n id => Some (CAddWl id n)
  | CR_rmwl _ id | RW_rm id _ _ => Some (CRemoveWl id)
  | RB_ralloc n _ => Some (PRollbackAlloc n)
  | RW_getwl1 id | RW_getwl2 id _ _ => Some (CGetWl id)
  | RW_lockc id _ _ => Some (CLock (clock id))
  | RW_usage _ n _ | RW_usage2 _ n _ => Some (PSetUsage n)
  | RW_fin id _ _ => Some (CUnlock (clock id))
  end.

Definition next (c : pc) (r : reply) : pc :=
  match c with
  | Done b => Done b
  | AP _ => Done (r_ok r)
  | RP_list1 p => if negb (r_ok r) then Done false else if is_nil (r_strs r) then RP_list2 p false else RP_lock p
  | RP_lock p => RP_list2 p true
  | RP_list2 p lk => if r_ok r && is_nil (r_strs r) then RP_del p lk
                     else if lk then RP_unlock p false else Done false
  | RP_del p lk => if lk then RP_unlock p (r_ok r) else Done (r_ok r)
  | RP_unlock _ b | RN_unlock _ b => Done b
  | AN_padd n p => if negb (r_ok r) then Done false else AN_getpod n p
  | AN_getpod n p => if negb (r_ok r) then AN_rollback n else AN_create n p
  | AN_create n _ => if r_ok r then Done true else AN_rollback n
  | AN_rollback _ => Done false
  | RN_get1 n => if negb (r_ok r) then Done false else RN_lock n (hd_str (r_strs r))
  | RN_lock n p => RN_get2 n p
  | RN_get2 n p => if negb (r_ok r && String.eqb (hd_str (r_strs r)) p) then RN_unlock p false else RN_list n p
  | RN_list n p => if r_ok r && is_nil (r_strs r) then RN_setst n p else RN_unlock p false
  | RN_setst n p => RN_rm n p
  | RN_rm n p => if negb (r_ok r) then RN_unlock p false else RN_delst n p
  | RN_delst n p => RN_prm n p
  | RN_prm _ p => RN_unlock p (r_ok r)
  | CR_get1 n id => if negb (r_ok r) then Done false else CR_lock n id (hd_str (r_strs r))
  | CR_lock n id p => CR_cap n id p
  | CR_cap n id p => if negb (r_ok r) then RN_unlock p false else CR_alloc n id p
  | CR_alloc n id p => CR_unlock n id p (r_ok r)
  | CR_unlock n id _ b => if negb b then Done false else CR_get2 n id
  | CR_get2 n id => if negb (r_ok r) then RB_get n else CR_addwl n id
  | CR_addwl n id => if r_ok r then Done true else CR_rmwl n id
  | CR_rmwl n _ => RB_get n
  | RB_get n => if negb (r_ok r) then Done false else RB_lock n (hd_str (r_strs r))
  | RB_lock n p => RB_ralloc n p
  | RB_ralloc _ p => RN_unlock p false
  | RW_getwl1 id => if negb (r_ok r) then Done false else RW_getnode id (hd_str (r_strs r))
  | RW_getnode id n => if negb (r_ok r) then Done false else RW_lockp id n (hd_str (r_strs r))
  | RW_lockp id n p => RW_getwl2 id n p
  | RW_getwl2 id n p => if negb (r_ok r) then RN_unlock p false else RW_lockc id n p
  | RW_lockc id n p => RW_usage id n p
  | RW_usage id n p => if negb (r_ok r) then RW_fin id p false else RW_rm id n p
  | RW_rm id n p => if r_ok r then RW_fin id p true else RW_usage2 id n p
  | RW_usage2 id _ p => RW_fin id p false
  | RW_fin _ p b => RN_unlock p b
  end.

Definition unl (lk : bool) (p : string) (q : prog) : prog :=
  if lk then Do (CUnlock (plock p)) (fun _ => q) else q.
Definition rp_body (p : string) (lk : bool) : prog :=
  Do (CListPodNodes p) (fun r2 =>
    if r_ok r2 && is_nil (r_strs r2)
    then Do (CDeletePod p) (fun r3 => unl lk p (Ret (r_ok r3)))
    else unl lk p (Ret false)).
Definition an_rollback (n : string) : prog := Do (PRemoveNode n) (fun _ => Ret false).
Definition an_create (n p : string) : prog :=
  Do (CCreateNode n p) (fun r3 => if r_ok r3 then Ret true else an_rollback n).
Definition an_getpod (n p : string) : prog :=
  Do (CGetPod p) (fun r2 => if negb (r_ok r2) then an_rollback n else an_create n p).
Definition rn_unlock (p : string) (b : bool) : prog := Do (CUnlock (plock p)) (fun _ => Ret b).
Definition rn_prm (n p : string) : prog := Do (PRemoveNode n) (fun r4 => rn_unlock p (r_ok r4)).
Definition rn_delst (n p : string) : prog := Do (CDelStatus n) (fun _ => rn_prm n p).
Definition rn_rm (n p : string) : prog :=
  Do (CRemoveNode n) (fun r3 => if negb (r_ok r3) then rn_unlock p false else rn_delst n p).
Definition rn_setst (n p : string) : prog := Do (CSetStatus n) (fun _ => rn_rm n p).
Definition rn_list (n p : string) : prog :=
  Do (CListNodeWls n) (fun r2 => if r_ok r2 && is_nil (r_strs r2) then rn_setst n p else rn_unlock p false).
Definition rn_get2 (n p : string) : prog :=
  Do (CGetNode n) (fun r' =>
    if negb (r_ok r' && String.eqb (hd_str (r_strs r')) p) then rn_unlock p false else rn_list n p).

Definition rb_ralloc (n p : string) : prog := Do (PRollbackAlloc n) (fun _ => rn_unlock p false).
Definition cr_rmwl (n id : string) : prog := Do (CRemoveWl id) (fun _ => rollback_alloc n).
Definition cr_addwl (n id : string) : prog := Do (CAddWl id n) (fun r4 => if r_ok r4 then Ret true else cr_rmwl n id).
Definition cr_get2 (n id : string) : prog :=
  Do (CGetNode n) (fun r3 => if negb (r_ok r3) then rollback_alloc n else cr_addwl n id).
Definition cr_unlock (n id p : string) (b : bool) : prog :=
  Do (CUnlock (plock p)) (fun _ => if negb b then Ret false else cr_get2 n id).
Definition cr_alloc (n id p : string) : prog := Do (PAlloc n) (fun r2 => cr_unlock n id p (r_ok r2)).
Definition cr_cap (n id p : string) : prog :=
  Do (PCapacity n) (fun r1 => if negb (r_ok r1) then rn_unlock p false else cr_alloc n id p).
Definition rw_fin (id p : string) (b : bool) : prog := Do (CUnlock (clock id)) (fun _ => rn_unlock p b).
Definition rw_usage2 (id n p : string) : prog := Do (PSetUsage n) (fun _ => rw_fin id p false).
Definition rw_rm (id n p : string) : prog :=
  Do (CRemoveWl id) (fun r4 => if r_ok r4 then rw_fin id p true else rw_usage2 id n p).
Definition rw_usage (id n p : string) : prog :=
  Do (PSetUsage n) (fun r3 => if negb (r_ok r3) then rw_fin id p false else rw_rm id n p).
Definition rw_lockc (id n p : string) : prog := Do (CLock (clock id)) (fun _ => rw_usage id n p).
Definition rw_getwl2 (id n p : string) : prog :=
  Do (CGetWl id) (fun r2 => if negb (r_ok r2) then rn_unlock p false else rw_lockc id n p).
Definition rw_lockp (id n p : string) : prog := Do (CLock (plock p)) (fun _ => rw_getwl2 id n p).
Definition rw_getnode (id n : string) : prog :=
  Do (CGetNode n) (fun r1 => if negb (r_ok r1) then Ret false else rw_lockp id n (hd_str (r_strs r1))).

Definition prog_at (c : pc) : prog :=
  match c with
  | Done b => Ret b
  | AP p => add_pod p
  | RP_list1 p => remove_pod p
  | RP_lock p => Do (CLock (plock p)) (fun _ => rp_body p true)
  | RP_list2 p lk => rp_body p lk
  | RP_del p lk => Do (CDeletePod p) (fun r3 => unl lk p (Ret (r_ok r3)))
  | RP_unlock p b | RN_unlock p b => rn_unlock p b
  | AN_padd n p => add_node n p
  | AN_getpod n p => an_getpod n p
  | AN_create n p => an_create n p
  | AN_rollback n => an_rollback n
  | RN_get1 n => remove_node n
  | RN_lock n p => Do (CLock (plock p)) (fun _ => rn_get2 n p)
  | RN_get2 n p => rn_get2 n p
  | RN_list n p => rn_list n p
  | RN_setst n p => rn_setst n p
  | RN_rm n p => rn_rm n p
  | RN_delst n p => rn_delst n p
  | RN_prm n p => rn_prm n p
  | CR_get1 n id => create n id
  | CR_lock n id p => Do (CLock (plock p)) (fun _ => cr_cap n id p)
  | CR_cap n id p => cr_cap n id p
  | CR_alloc n id p => cr_alloc n id p
  | CR_unlock n id p b => cr_unlock n id p b
  | CR_get2 n id => cr_get2 n id
  | CR_addwl n id => cr_addwl n id
  | CR_rmwl n id => cr_rmwl n id
  | RB_get n => rollback_alloc n
  | RB_lock n p => Do (CLock (plock p)) (fun _ => rb_ralloc n p)
  | RB_ralloc n p => rb_ralloc n p
  | RW_getwl1 id => remove_wl id
  | RW_getnode id n => rw_getnode id n
  | RW_lockp id n p => rw_lockp id n p
  | RW_getwl2 id n p => rw_getwl2 id n p
  | RW_lockc id n p => rw_lockc id n p
  | RW_usage id n p => rw_usage id n p
  | RW_rm id n p => rw_rm id n p
  | RW_usage2 id n p => rw_usage2 id n p
  | RW_fin id p b => rw_fin id p b
  end.

Inductive pnop := PAddPod (p : string) | PRemovePod (p : string) | PAddNode_ (n p : string) | PRemoveNode_ (n : string)
  | PCreate (n id : string) | PRemoveWl (id : string).
Definition rop_of (o : pnop) : rop :=
  match o with PAddPod p => OAddPod p | PRemovePod p => ORemovePod p | PAddNode_ n p => OAddNode n p | PRemoveNode_ n => ORemoveNode n
  | PCreate n id => OCreate n id | PRemoveWl id => ORemoveWl id end.
Definition pc0 (o : pnop) : pc :=
  match o with PAddPod p => AP p | PRemovePod p => RP_list1 p | PAddNode_ n p => AN_padd n p | PRemoveNode_ n => RN_get1 n
  | PCreate n id => CR_get1 n id | PRemoveWl id => RW_getwl1 id end.

Lemma prog_at_pc0 : forall o, prog_of (rop_of o) = prog_at (pc0 o).
Proof. destruct o; reflexivity. Qed.

Lemma pc_sim : forall c,
  match call_of c with
  | None => exists b, prog_at c = Ret b
  | Some call => exists k, prog_at c = Do call k /\ forall r, k r = prog_at (next c r)
  end.
Proof.
  (* by cases on the control state and on what its program and [next] look at in the reply *)
  destruct c; cbn [call_of]; try (eexists; reflexivity);
    (eexists; split; [reflexivity|]; intros [o s]; cbn;
     try reflexivity;
     try (destruct o; cbn; try reflexivity; destruct s; reflexivity);
     try (destruct lk; reflexivity);
     try (destruct (o && String.eqb (hd_str s) p); reflexivity);
     try (destruct (o && is_nil s); [reflexivity | destruct lk; reflexivity]);
     try (destruct b; reflexivity)).
Qed.

Definition astep (w : rw) (i : nat) (c : pc) : option (rw * pc * ev) :=
  match call_of c with
  | None => None
  | Some call => match exec w i call with
                 | None => None
                 | Some (w', r) => Some (w', next c r, (i, call, r_ok r))
                 end
  end.

Definition R (t : thread) (c : pc) : Prop := t_prog t = prog_at c /\ t_fault t = None.

Lemma step_refines : forall w i t c, R t c ->
  match step_thread w i t with
  | None => astep w i c = None
  | Some (w', t', e) => exists c', astep w i c = Some (w', c', e) /\ R t' c'
  end.
Proof.
  intros w i t c [Hp Hf]. unfold step_thread, astep. rewrite Hp, Hf. pose proof (pc_sim c) as S.
  destruct (call_of c) as [call|].
  - destruct S as [k [E K]]. rewrite E. rewrite andb_false_r.
    destruct (exec w i call) as [[w' r]|]; [|reflexivity].
    exists (next c r). split; [reflexivity|]. split; [apply K | reflexivity].
  - destruct S as [b E]. rewrite E. reflexivity.
Qed.

Lemma nth_set_nth_eq : forall {A} (l : list A) i x y, nth_error l i = Some y -> nth_error (set_nth i x l) i = Some x.
Proof.
  intros A l. induction l as [|a t IH]; intros i x y H; destruct i; simpl in *; try discriminate; [reflexivity | eapply IH; exact H].
Qed.
Lemma nth_set_nth_neq : forall {A} (l : list A) i j x, i <> j -> nth_error (set_nth i x l) j = nth_error l j.
Proof.
  intros A l. induction l as [|a t IH]; intros i j x H; destruct i, j; simpl; try reflexivity; [congruence | apply IH; congruence].
Qed.
Lemma nth_set_nth_cases : forall {A} (l : list A) i j x y z, nth_error l i = Some y ->
  nth_error (set_nth i x l) j = Some z -> (j = i /\ z = x) \/ (j <> i /\ nth_error l j = Some z).
Proof.
  intros A l i j x y z H H2. destruct (Nat.eq_dec i j) as [E|E].
  - subst j. rewrite (nth_set_nth_eq l i x y H) in H2. inversion H2. left. split; reflexivity.
  - rewrite nth_set_nth_neq in H2 by exact E. right. split; [congruence | exact H2].
Qed.
Lemma Forall2_nth : forall {A B} (P : A -> B -> Prop) l1 l2 i a, Forall2 P l1 l2 -> nth_error l1 i = Some a ->
  exists b, nth_error l2 i = Some b /\ P a b.
Proof.
  intros A B P l1 l2 i a F. revert i. induction F as [|x y l l' Hxy F IHF]; intros i Hn; destruct i; simpl in *; try discriminate.
  - inversion Hn; subst. eexists; split; [reflexivity | assumption].
  - apply IHF. exact Hn.
Qed.
Lemma Forall2_nth_r : forall {A B} (P : A -> B -> Prop) l1 l2 i b, Forall2 P l1 l2 -> nth_error l2 i = Some b ->
  exists a, nth_error l1 i = Some a /\ P a b.
Proof.
  intros A B P l1 l2 i b F. revert i. induction F as [|x y l l' Hxy F IHF]; intros i Hn; destruct i; simpl in *; try discriminate.
  - inversion Hn; subst. eexists; split; [reflexivity | assumption].
  - apply IHF. exact Hn.
Qed.
Lemma Forall2_set_nth : forall {A B} (P : A -> B -> Prop) l1 l2 i a b, Forall2 P l1 l2 -> P a b ->
  Forall2 P (set_nth i a l1) (set_nth i b l2).
Proof.
  intros A B P l1 l2 i a b F Hab. revert i. induction F; intros i; destruct i; simpl; constructor; auto.
Qed.
Lemma NoDup_fst_inj : forall {A B} (l : list (A * B)) k a b, NoDup (map fst l) -> In (k, a) l -> In (k, b) l -> a = b.
Proof. exact (@ListFacts.NoDup_fst_inj). Qed.
Lemma NoDup_map_filter : forall {A B} (f : A -> B) (g : A -> bool) l, NoDup (map f l) -> NoDup (map f (filter g l)).
Proof. exact (@ListFacts.NoDup_map_filter). Qed.

Definition ev_at (tr : list ev) (j : nat) (e : ev) : Prop := nth_error tr j = Some e.
Lemma ev_at_lt : forall tr j e, ev_at tr j e -> j < List.length tr.
Proof. intros tr j e H. apply nth_error_Some. unfold ev_at in H. congruence. Qed.
Lemma ev_at_ext : forall tr j e x, ev_at tr j e -> ev_at (tr ++ [x]) j e.
Proof. intros tr j e x H. unfold ev_at. rewrite nth_error_app1 by (eapply ev_at_lt; exact H). exact H. Qed.
Lemma ev_at_last : forall tr e, ev_at (tr ++ [e]) (List.length tr) e.
Proof. intros. unfold ev_at. rewrite nth_error_app2 by lia. rewrite Nat.sub_diag. reflexivity. Qed.
Lemma ev_at_app_inv : forall tr x j e, ev_at (tr ++ [x]) j e -> ev_at tr j e \/ (j = List.length tr /\ e = x).
Proof.
  intros tr x j e H. unfold ev_at in *. destruct (Nat.lt_ge_cases j (List.length tr)) as [L|L].
  - rewrite nth_error_app1 in H by exact L. left. exact H.
  - rewrite nth_error_app2 in H by exact L. destruct (j - List.length tr) as [|m] eqn:E.
    + simpl in H. inversion H. right. split; [lia | reflexivity].
    + simpl in H. destruct m; discriminate.
Qed.

Lemma existsb_at : forall (tr : list ev) f j e, ev_at tr j e -> f j = true -> existsb f (seq 0 (List.length tr)) = true.
Proof.
  intros tr f j e H F. apply existsb_exists. exists j. split; [|exact F].
  apply in_seq. pose proof (ev_at_lt _ _ _ H). lia.
Qed.

(* the AddNode/RemovePod overlap, as a proposition *)
Definition Ovl (tr : list ev) : Prop :=
  exists ig ic id il t1 t2 p n okl,
    t1 <> t2 /\ ev_at tr ig (t1, CGetPod p, true) /\ ev_at tr ic (t1, CCreateNode n p, true)
    /\ ev_at tr id (t2, CDeletePod p, true) /\ ev_at tr il (t2, CListPodNodes p, okl)
    /\ ig < ic /\ ig < id /\ il < id /\ il < ic.

Lemma Ovl_ext : forall tr x, Ovl tr -> Ovl (tr ++ [x]).
Proof.
  intros tr x (ig & ic & id & il & t1 & t2 & p & n & okl & H0 & H1 & H2 & H3 & H4 & H5).
  exists ig, ic, id, il, t1, t2, p, n, okl. repeat split; try apply ev_at_ext; tauto.
Qed.

Lemma Ovl_window : forall tr, Ovl tr -> window_addnode_removepod tr = true.
Proof.
  intros tr (ig & ic & id & il & t1 & t2 & p & n & okl & Hne & Hg & Hc & Hd & Hl & L1 & L2 & L3 & L4).
  apply Nat.eqb_neq in Hne. apply Nat.ltb_lt in L1, L2, L3, L4. unfold window_addnode_removepod.
  apply (existsb_at _ _ _ _ Hg). rewrite Hg.
  apply (existsb_at _ _ _ _ Hc). rewrite Hc, Nat.eqb_refl, String.eqb_refl, L1. cbn [andb].
  apply (existsb_at _ _ _ _ Hd). rewrite Hd, Hne, String.eqb_refl, L2. cbn [negb andb].
  apply (existsb_at _ _ _ _ Hl). rewrite Hl, Nat.eqb_refl, String.eqb_refl, L3, L4. reflexivity.
Qed.

(* the create/RemoveNode overlap (window 2), as a proposition *)
Definition Ovl2 (tr : list ev) : Prop :=
  exists ia ir il ig t1 t2 n id okl,
    t1 <> t2 /\ ev_at tr ia (t1, CAddWl id n, true) /\ ev_at tr ir (t2, CRemoveNode n, true)
    /\ ev_at tr il (t2, CListNodeWls n, okl) /\ ev_at tr ig (t1, CGetNode n, true)
    /\ il < ia /\ il < ir /\ ig < ir /\ ig < ia.
Lemma Ovl2_ext : forall tr x, Ovl2 tr -> Ovl2 (tr ++ [x]).
Proof.
  intros tr x (ia & ir & il & ig & t1 & t2 & n & id & okl & H0 & H1 & H2 & H3 & H4 & H5).
  exists ia, ir, il, ig, t1, t2, n, id, okl. repeat split; try apply ev_at_ext; tauto.
Qed.
Lemma Ovl2_window : forall tr, Ovl2 tr -> window_create_removenode tr = true.
Proof.
  intros tr (ia & ir & il & ig & t1 & t2 & n & id & okl & Hne & Ha & Hr & Hl & Hg & L1 & L2 & L3 & L4).
  apply Nat.eqb_neq in Hne. apply Nat.ltb_lt in L1, L2, L3, L4. unfold window_create_removenode.
  apply (existsb_at _ _ _ _ Ha). rewrite Ha.
  apply (existsb_at _ _ _ _ Hr). rewrite Hr, Hne, String.eqb_refl. cbn [negb andb]. apply andb_true_iff. split.
  - apply (existsb_at _ _ _ _ Hl). rewrite Hl, Nat.eqb_refl, String.eqb_refl, L1, L2. reflexivity.
  - apply (existsb_at _ _ _ _ Hg). rewrite Hg, Nat.eqb_refl, String.eqb_refl, L3, L4. reflexivity.
Qed.

Definition owns (c : pc) (n : string) : Prop :=
  match c with
  | AN_getpod m _ | AN_create m _ | AN_rollback m | RN_delst m _ | RN_prm m _ => m = n
  | _ => False
  end.
Definition holds (c : pc) (k : string) : Prop :=
  match c with
  | RP_list2 p true | RP_del p true => k = plock p
  | RP_unlock p _ | RN_unlock p _ | RN_get2 _ p | RN_list _ p | RN_setst _ p | RN_rm _ p | RN_delst _ p | RN_prm _ p => k = plock p
  | CR_cap _ _ p | CR_alloc _ _ p | CR_unlock _ _ p _ | RB_ralloc _ p | RW_getwl2 _ _ p | RW_lockc _ _ p => k = plock p
  | RW_usage id _ p | RW_rm id _ p | RW_usage2 id _ p | RW_fin id p _ => k = plock p \/ k = clock id
  | _ => False
  end.
Definition nowl (w : rw) (n : string) : Prop := forall id, ~ In (id, n) (wls w).
Definition nonode (w : rw) (p : string) : Prop := forall n, ~ In (n, p) (nodes w).

Definition Qa (w : rw) (tr : list ev) (i : nat) (p : string) : Prop :=
  exists il okl, ev_at tr il (i, CListPodNodes p, okl) /\
    (nonode w p \/
     exists ic t1 n ig, t1 <> i /\ il < ic /\ ev_at tr ic (t1, CCreateNode n p, true)
                        /\ ev_at tr ig (t1, CGetPod p, true) /\ ig < ic).
Definition P2 (w : rw) (tr : list ev) (i : nat) (p : string) : Prop :=
  exists ig, ev_at tr ig (i, CGetPod p, true) /\
    (In p (pods w) \/ exists id t2, t2 <> i /\ ig < id /\ ev_at tr id (t2, CDeletePod p, true)).
(* RemoveNode after its workload list came back empty: still no workload on n, or
   a create recorded one after my list (having fetched the node before) *)
Definition NW (w : rw) (tr : list ev) (i : nat) (n : string) : Prop :=
  exists il okl, ev_at tr il (i, CListNodeWls n, okl) /\
    (nowl w n \/
     exists ia t1 id ig, t1 <> i /\ il < ia /\ ev_at tr ia (t1, CAddWl id n, true)
                         /\ ev_at tr ig (t1, CGetNode n, true) /\ ig < ia).
(* create about to record its workload: the node it fetched still exists, or a
   RemoveNode removed it after my fetch *)
Definition P3 (w : rw) (tr : list ev) (i : nat) (n : string) : Prop :=
  exists ig, ev_at tr ig (i, CGetNode n, true) /\
    (In n (node_names w) \/ exists ir t2, t2 <> i /\ ig < ir /\ ev_at tr ir (t2, CRemoveNode n, true)).
Definition assert (w : rw) (tr : list ev) (i : nat) (c : pc) : Prop :=
  match c with
  | RP_del p _ => Qa w tr i p
  | AN_create _ p => P2 w tr i p
  | RN_list n p => node_pod w n = Some p
  | RN_setst n p | RN_rm n p => node_pod w n = Some p /\ NW w tr i n
  | CR_addwl n _ => P3 w tr i n
  | _ => True
  end.

Record RefI (w : rw) : Prop := {
  i_pod : forall n p, In (n, p) (nodes w) -> In p (pods w);
  i_res : forall n p, In (n, p) (nodes w) -> In n (nres w);
  i_wl : forall id n, In (id, n) (wls w) -> In n (node_names w);
  i_nd : NoDup (node_names w)
}.
Record OwnI (w : rw) (pcs : list pc) : Prop := {
  i_own : forall n, In n (nres w) -> In n (node_names w) \/ exists i c, nth_error pcs i = Some c /\ owns c n;
  i_ownf : forall i c n, nth_error pcs i = Some c -> owns c n -> In n (nres w) /\ ~ In n (node_names w);
  i_own1 : forall i j ci cj n, nth_error pcs i = Some ci -> nth_error pcs j = Some cj ->
             owns ci n -> owns cj n -> i = j
}.
Record LockI (w : rw) (pcs : list pc) : Prop := {
  i_hnd : NoDup (map fst (held w));
  i_held : forall k i, In (k, i) (held w) <-> exists c, nth_error pcs i = Some c /\ holds c k
}.
Definition TraceI (tr : list ev) : Prop :=
  forall id t p, ev_at tr id (t, CDeletePod p, true) ->
    exists il okl, il < id /\ ev_at tr il (t, CListPodNodes p, okl).
Definition TraceR (tr : list ev) : Prop :=
  forall ir t n, ev_at tr ir (t, CRemoveNode n, true) ->
    exists il okl, il < ir /\ ev_at tr il (t, CListNodeWls n, okl).
Definition PcI (w : rw) (pcs : list pc) (tr : list ev) : Prop :=
  forall i c, nth_error pcs i = Some c -> assert w tr i c.

Record Inv (w : rw) (pcs : list pc) (tr : list ev) : Prop := {
  v_ref : RefI w; v_own : OwnI w pcs; v_lock : LockI w pcs; v_tr : TraceI tr; v_tr2 : TraceR tr; v_pc : PcI w pcs tr
}.

Definition WInv (w : rw) (pcs : list pc) (tr : list ev) : Prop := RefI w /\ OwnI w pcs /\ PcI w pcs tr.

Lemma names_eq : forall w w', nodes w' = nodes w -> node_names w' = node_names w.
Proof. intros w w' E. unfold node_names. rewrite E. reflexivity. Qed.

Lemma upd_owns : forall pcs i c c' j cj n, nth_error pcs i = Some c -> (forall m, owns c' m -> owns c m) ->
  nth_error (set_nth i c' pcs) j = Some cj -> owns cj n -> exists cj0, nth_error pcs j = Some cj0 /\ owns cj0 n.
Proof.
  intros pcs i c c' j cj n Hi Hsub Hj Ho. destruct (nth_set_nth_cases _ _ _ _ _ _ Hi Hj) as [[-> ->]|[Hne Hold]].
  - exists c. split; [exact Hi | apply Hsub; exact Ho].
  - exists cj. split; assumption.
Qed.
Lemma upd_holds_iff : forall pcs i c c' j k, nth_error pcs i = Some c -> (forall m, holds c' m <-> holds c m) ->
  ((exists cj, nth_error (set_nth i c' pcs) j = Some cj /\ holds cj k) <-> (exists cj, nth_error pcs j = Some cj /\ holds cj k)).
Proof.
  intros pcs i c c' j k Hi Hs. destruct (Nat.eq_dec j i) as [E|E].
  - subst j. rewrite (nth_set_nth_eq pcs i c' c Hi). split; intros [cj [Hj Hh]].
    + inversion Hj; subst. exists c. split; [exact Hi | apply Hs; exact Hh].
    + rewrite Hi in Hj. inversion Hj; subst. exists c'. split; [reflexivity | apply Hs; exact Hh].
  - rewrite nth_set_nth_neq by congruence. tauto.
Qed.

Lemma owns_fun : forall c a b, owns c a -> owns c b -> a = b.
Proof. destruct c; cbn; intros; try contradiction; congruence. Qed.

Lemma OwnI_same : forall w w' pcs i c c', OwnI w pcs -> nth_error pcs i = Some c ->
  nres w' = nres w -> nodes w' = nodes w -> (forall m, owns c' m <-> owns c m) -> OwnI w' (set_nth i c' pcs).
Proof.
  intros w w' pcs i c c' O Hi Er En Hs. constructor.
  - intros n H. rewrite Er in H. rewrite (names_eq _ _ En).
    destruct (i_own _ _ O n H) as [L|[j [cj [Hj Ho]]]]; [left; exact L | right].
    destruct (Nat.eq_dec j i) as [E|E].
    + subst j. rewrite Hi in Hj. inversion Hj; subst. exists i, c'. split; [eapply nth_set_nth_eq; exact Hi | apply Hs; exact Ho].
    + exists j, cj. split; [rewrite nth_set_nth_neq by congruence; exact Hj | exact Ho].
  - intros j cj n Hj Ho. rewrite Er, (names_eq _ _ En).
    destruct (upd_owns _ _ _ _ _ _ _ Hi (fun m => proj1 (Hs m)) Hj Ho) as [c0 [H0 O0]]. eapply (i_ownf _ _ O); eauto.
  - intros j1 j2 c1 c2 n H1 H2 O1 O2.
    destruct (upd_owns _ _ _ _ _ _ _ Hi (fun m => proj1 (Hs m)) H1 O1) as [a [Ha Oa]].
    destruct (upd_owns _ _ _ _ _ _ _ Hi (fun m => proj1 (Hs m)) H2 O2) as [b [Hb Ob]].
    eapply (i_own1 _ _ O); eauto.
Qed.

Lemma OwnI_gain : forall w w' pcs i c c' n, OwnI w pcs -> nth_error pcs i = Some c ->
  (forall m, ~ owns c m) -> (forall m, owns c' m <-> m = n) ->
  In n (nres w') -> ~ In n (node_names w') ->
  (forall j cj, nth_error pcs j = Some cj -> ~ owns cj n) ->
  (forall m, m <> n -> (In m (nres w') <-> In m (nres w)) /\ (In m (node_names w') <-> In m (node_names w))) ->
  OwnI w' (set_nth i c' pcs).
Proof.
  intros w w' pcs i c c' n O Hi Hc Hc' Hr Hnn Hfree Hoth. constructor.
  - intros m H. destruct (string_dec m n) as [->|Hm].
    + right. exists i, c'. split; [eapply nth_set_nth_eq; exact Hi | apply Hc'; reflexivity].
    + destruct (Hoth m Hm) as [Er En]. destruct (i_own _ _ O m (proj1 Er H)) as [L|[j [cj [Hj Ho]]]]; [left; apply En; exact L | right].
      assert (j <> i) by (intro E; subst j; rewrite Hi in Hj; inversion Hj; subst; exact (Hc m Ho)).
      exists j, cj. split; [rewrite nth_set_nth_neq by congruence; exact Hj | exact Ho].
  - intros j cj m Hj Ho. destruct (nth_set_nth_cases _ _ _ _ _ _ Hi Hj) as [[-> ->]|[Hne Hold]].
    + apply Hc' in Ho. subst m. split; assumption.
    + assert (Hm : m <> n) by (intros ->; exact (Hfree _ _ Hold Ho)). destruct (Hoth m Hm) as [Er En].
      destruct (i_ownf _ _ O _ _ _ Hold Ho) as [X Y]. tauto.
  - intros j1 j2 c1 c2 m H1 H2 O1 O2.
    destruct (nth_set_nth_cases _ _ _ _ _ _ Hi H1) as [[-> ->]|[Hne1 Hold1]];
    destruct (nth_set_nth_cases _ _ _ _ _ _ Hi H2) as [[-> ->]|[Hne2 Hold2]].
    + reflexivity.
    + apply Hc' in O1. subst m. destruct (Hfree _ _ Hold2 O2).
    + apply Hc' in O2. subst m. destruct (Hfree _ _ Hold1 O1).
    + eapply (i_own1 _ _ O); eauto.
Qed.

Lemma OwnI_lose : forall w w' pcs i c c' n, OwnI w pcs -> nth_error pcs i = Some c -> owns c n -> (forall m, ~ owns c' m) ->
  (In n (nres w') -> In n (node_names w')) ->
  (forall m, m <> n -> (In m (nres w') <-> In m (nres w)) /\ (In m (node_names w') <-> In m (node_names w))) ->
  OwnI w' (set_nth i c' pcs).
Proof.
  intros w w' pcs i c c' n O Hi Hc Hc' Hn Hoth.
  assert (Old : forall j cj m, nth_error (set_nth i c' pcs) j = Some cj -> owns cj m -> j <> i /\ m <> n /\ nth_error pcs j = Some cj).
  { intros j cj m Hj Ho. destruct (nth_set_nth_cases _ _ _ _ _ _ Hi Hj) as [[-> ->]|[Hne Hold]]; [destruct (Hc' m Ho)|].
    repeat split; try assumption. intros ->. apply Hne. eapply (i_own1 _ _ O); eauto. }
  constructor.
  - intros m H. destruct (string_dec m n) as [->|Hm]; [left; exact (Hn H)|].
    destruct (Hoth m Hm) as [Er En]. destruct (i_own _ _ O m (proj1 Er H)) as [L|[j [cj [Hj Ho]]]]; [left; apply En; exact L | right].
    assert (j <> i) by (intro E; subst j; rewrite Hi in Hj; inversion Hj; subst; exact (Hm (owns_fun _ _ _ Ho Hc))).
    exists j, cj. split; [rewrite nth_set_nth_neq by congruence; exact Hj | exact Ho].
  - intros j cj m Hj Ho. destruct (Old _ _ _ Hj Ho) as (_ & Hm & Hold). destruct (Hoth m Hm) as [Er En].
    destruct (i_ownf _ _ O _ _ _ Hold Ho) as [X Y]. tauto.
  - intros j1 j2 c1 c2 m H1 H2 O1 O2. destruct (Old _ _ _ H1 O1) as (_ & _ & A). destruct (Old _ _ _ H2 O2) as (_ & _ & B).
    eapply (i_own1 _ _ O); eauto.
Qed.

Lemma holder_none : forall w k, holder w k = None -> ~ In k (map fst (held w)).
Proof.
  intros w k H Hin. unfold holder in H. apply in_map_iff in Hin. destruct Hin as [[k' v] [E Hx]]. simpl in E. subst k'.
  destruct (find (fun x => String.eqb (fst x) k) (held w)) eqn:F; [discriminate|].
  pose proof (find_none _ _ F _ Hx) as X. simpl in X. rewrite String.eqb_refl in X. discriminate.
Qed.
Lemma plock_clock : forall p id, plock p <> clock id.
Proof. intros p id H. unfold plock, clock in H. cbn in H. discriminate. Qed.

Lemma LockI_same : forall w w' pcs i c c', LockI w pcs -> nth_error pcs i = Some c ->
  held w' = held w -> (forall m, holds c' m <-> holds c m) -> LockI w' (set_nth i c' pcs).
Proof.
  intros w w' pcs i c c' L Hi Eh Hs. constructor.
  - rewrite Eh. apply (i_hnd _ _ L).
  - intros k j. rewrite Eh. rewrite (upd_holds_iff pcs i c c' j k Hi Hs). apply (i_held _ _ L).
Qed.

Lemma exec_held : forall w i c w' r, exec w i c = Some (w', r) ->
  held w' = match c with
            | CLock k => (k, i) :: held w
            | CUnlock k => filter (fun x => negb (String.eqb (fst x) k && Nat.eqb (snd x) i)) (held w)
            | _ => held w
            end.
Proof.
  intros w i c w' r H.
  destruct c; cbn in H; try destruct (mem _ _); try destruct (holder _ _); inversion H; reflexivity.
Qed.

Lemma exec_lock_free : forall w i k s, exec w i (CLock k) = Some s -> holder w k = None.
Proof. intros w i k s H. cbn in H. destruct (holder w k); [discriminate | reflexivity]. Qed.

Lemma holds_next : forall c r m,
  holds (next c r) m <->
  match call_of c with
  | Some (CLock k) => holds c m \/ m = k
  | Some (CUnlock k) => holds c m /\ m <> k
  | _ => holds c m
  end.
Proof.
  (* by cases on the control state and on what [next] looks at in the reply *)
  intros c [ok strs] m. pose proof plock_clock as PC.
  destruct c; cbn; try tauto;
    try (destruct ok; cbn; try tauto);
    try (destruct (is_nil strs); cbn; try tauto);
    try (destruct lk; cbn; try tauto);
    try (destruct (String.eqb _ _); cbn; try tauto);
    try (destruct b; cbn; try tauto).
  all: intuition (subst; congruence).
Qed.

Lemma LockI_lock : forall w w' pcs i c c' k, LockI w pcs -> nth_error pcs i = Some c -> holder w k = None ->
  held w' = (k, i) :: held w -> (forall m, holds c' m <-> holds c m \/ m = k) -> LockI w' (set_nth i c' pcs).
Proof.
  intros w w' pcs i c c' k L Hi Hfree Eh Hk. constructor; rewrite Eh.
  - cbn. constructor; [apply holder_none; exact Hfree | apply (i_hnd _ _ L)].
  - intros k' j. cbn [In]. rewrite (i_held _ _ L). destruct (Nat.eq_dec j i) as [->|E].
    + rewrite (nth_set_nth_eq pcs i c' c Hi), Hi. split.
      * intros [X|[cj [Hj Hh]]]; exists c'; (split; [reflexivity|]); apply Hk.
        -- inversion X. right. reflexivity.
        -- inversion Hj; subst cj. left. exact Hh.
      * intros [cj [Hj Hh]]. inversion Hj; subst cj. apply Hk in Hh. destruct Hh as [Hh| ->].
        -- right. exists c. split; [reflexivity | exact Hh].
        -- left. reflexivity.
    + rewrite nth_set_nth_neq by congruence. split; [intros [X|X]; [inversion X; congruence | exact X] | intros X; right; exact X].
Qed.

Lemma LockI_unlock : forall w w' pcs i c c' k, LockI w pcs -> nth_error pcs i = Some c ->
  held w' = filter (fun x => negb (String.eqb (fst x) k && Nat.eqb (snd x) i)) (held w) ->
  (forall m, holds c' m <-> holds c m /\ m <> k) -> LockI w' (set_nth i c' pcs).
Proof.
  intros w w' pcs i c c' k L Hi Eh Hk. constructor; rewrite Eh.
  - apply NoDup_map_filter. apply (i_hnd _ _ L).
  - intros k' j. rewrite filter_In, (i_held _ _ L). cbn [fst snd]. destruct (Nat.eq_dec j i) as [->|E].
    + rewrite (nth_set_nth_eq pcs i c' c Hi), Hi, Nat.eqb_refl, andb_true_r, negb_true_iff, String.eqb_neq. split.
      * intros [[cj [Hj Hh]] Hne]. inversion Hj; subst cj. exists c'. split; [reflexivity | apply Hk; split; assumption].
      * intros [cj [Hj Hh]]. inversion Hj; subst cj. apply Hk in Hh. split; [exists c; split; [reflexivity|]|]; tauto.
    + rewrite nth_set_nth_neq by congruence. apply Nat.eqb_neq in E. rewrite E, andb_false_r. tauto.
Qed.

Lemma LockI_astep : forall w pcs i c w' c' e, LockI w pcs -> nth_error pcs i = Some c ->
  astep w i c = Some (w', c', e) -> LockI w' (set_nth i c' pcs).
Proof.
  intros w pcs i c w' c' e L Hi H. unfold astep in H.
  destruct (call_of c) as [call|] eqn:Ec; [|discriminate].
  destruct (exec w i call) as [[w1 r]|] eqn:Ee; [|discriminate]. inversion H; subst w1 c' e; clear H.
  pose proof (exec_held _ _ _ _ _ Ee) as Eh. pose proof (holds_next c r) as Hn. rewrite Ec in Hn.
  destruct call; try exact (LockI_same _ _ _ _ _ _ L Hi Eh Hn).
  - exact (LockI_lock _ _ _ _ _ _ _ L Hi (exec_lock_free _ _ _ _ Ee) Eh Hn).
  - exact (LockI_unlock _ _ _ _ _ _ _ L Hi Eh Hn).
Qed.

(* [TraceI] and [TraceR]: every successful call [a x] is preceded by a call [b x] of the same thread *)
Lemma preceded_ext : forall (a b : string -> rcall) tr e,
  (forall j t x, ev_at tr j (t, a x, true) -> exists il okl, il < j /\ ev_at tr il (t, b x, okl)) ->
  (forall t x, e = (t, a x, true) -> exists il okl, il < List.length tr /\ ev_at tr il (t, b x, okl)) ->
  forall j t x, ev_at (tr ++ [e]) j (t, a x, true) -> exists il okl, il < j /\ ev_at (tr ++ [e]) il (t, b x, okl).
Proof.
  intros a b tr e T Hn j t x H. apply ev_at_app_inv in H. destruct H as [H|[-> <-]].
  - destruct (T _ _ _ H) as [il [okl [L E]]]. exists il, okl. split; [exact L | apply ev_at_ext; exact E].
  - destruct (Hn t x eq_refl) as [il [okl [L E]]]. exists il, okl. split; [exact L | apply ev_at_ext; exact E].
Qed.

(* a successful DeletePod / RemoveNode is the step of a control state whose assertion names the list before it *)
Lemma TraceI_astep : forall w tr i c w' c' e, TraceI tr -> assert w tr i c -> astep w i c = Some (w', c', e) ->
  TraceI (tr ++ [e]).
Proof.
  intros w tr i c w' c' e T A H. refine (preceded_ext CDeletePod CListPodNodes tr e T _). intros t p ->. unfold astep in H.
  destruct (call_of c) as [call|] eqn:Ec; [|discriminate]. destruct (exec w i call) as [[w1 r]|]; [|discriminate].
  inversion H; subst. destruct c; try discriminate Ec. inversion Ec; subst. destruct A as (il & okl & Hl & _).
  exists il, okl. split; [eapply ev_at_lt; exact Hl | exact Hl].
Qed.
Lemma TraceR_astep : forall w tr i c w' c' e, TraceR tr -> assert w tr i c -> astep w i c = Some (w', c', e) ->
  TraceR (tr ++ [e]).
Proof.
  intros w tr i c w' c' e T A H. refine (preceded_ext CRemoveNode CListNodeWls tr e T _). intros t n ->. unfold astep in H.
  destruct (call_of c) as [call|] eqn:Ec; [|discriminate]. destruct (exec w i call) as [[w1 r]|]; [|discriminate].
  inversion H; subst. destruct c; try discriminate Ec. inversion Ec; subst. destruct A as (_ & il & okl & Hl & _).
  exists il, okl. split; [eapply ev_at_lt; exact Hl | exact Hl].
Qed.

Lemma PcI_upd : forall w w' pcs tr tr' i c c', PcI w pcs tr -> nth_error pcs i = Some c ->
  (forall j cj, j <> i -> nth_error pcs j = Some cj -> assert w tr j cj -> assert w' tr' j cj) ->
  assert w' tr' i c' -> PcI w' (set_nth i c' pcs) tr'.
Proof.
  intros w w' pcs tr tr' i c c' P Hi Ho Hc j cj Hj.
  destruct (nth_set_nth_cases _ _ _ _ _ _ Hi Hj) as [[-> ->]|[Hne Hold]]; [exact Hc | apply Ho; auto].
Qed.

(* an assertion of thread j survives a step x: its fact about the world still
   holds, or x is the event that excuses it *)
Lemma Qa_step : forall w w' tr j p x, Qa w tr j p ->
  (nonode w p -> nonode w' p \/
     exists t1 n ig, t1 <> j /\ x = (t1, CCreateNode n p, true) /\ ev_at tr ig (t1, CGetPod p, true)) ->
  Qa w' (tr ++ [x]) j p.
Proof.
  intros w w' tr j p x (il & okl & Hl & H) S. exists il, okl. split; [apply ev_at_ext; exact Hl|].
  destruct H as [H|(ic & t1 & n & ig & H1 & H2 & H3 & H4 & H5)].
  - destruct (S H) as [H'|(t1 & n & ig & Hne & -> & Hg)]; [left; exact H' | right].
    exists (List.length tr), t1, n, ig. pose proof (ev_at_lt _ _ _ Hl). pose proof (ev_at_lt _ _ _ Hg).
    repeat split; try assumption; [apply ev_at_last | apply ev_at_ext; exact Hg].
  - right. exists ic, t1, n, ig. repeat split; try apply ev_at_ext; assumption.
Qed.
Lemma P2_step : forall w w' tr j p x, P2 w tr j p ->
  (In p (pods w) -> In p (pods w') \/ exists t2, t2 <> j /\ x = (t2, CDeletePod p, true)) ->
  P2 w' (tr ++ [x]) j p.
Proof.
  intros w w' tr j p x (ig & Hg & H) S. exists ig. split; [apply ev_at_ext; exact Hg|].
  destruct H as [H|(id & t2 & H1 & H2 & H3)].
  - destruct (S H) as [H'|(t2 & Hne & ->)]; [left; exact H' | right].
    exists (List.length tr), t2. split; [exact Hne|]. split; [eapply ev_at_lt; exact Hg | apply ev_at_last].
  - right. exists id, t2. repeat split; try apply ev_at_ext; assumption.
Qed.
Lemma NW_step : forall w w' tr j n x, NW w tr j n ->
  (nowl w n -> nowl w' n \/
     exists t1 id ig, t1 <> j /\ x = (t1, CAddWl id n, true) /\ ev_at tr ig (t1, CGetNode n, true)) ->
  NW w' (tr ++ [x]) j n.
Proof.
  intros w w' tr j n x (il & okl & Hl & H) S. exists il, okl. split; [apply ev_at_ext; exact Hl|].
  destruct H as [H|(ia & t1 & id & ig & H1 & H2 & H3 & H4 & H5)].
  - destruct (S H) as [H'|(t1 & id & ig & Hne & -> & Hg)]; [left; exact H' | right].
    exists (List.length tr), t1, id, ig. pose proof (ev_at_lt _ _ _ Hl). pose proof (ev_at_lt _ _ _ Hg).
    repeat split; try assumption; [apply ev_at_last | apply ev_at_ext; exact Hg].
  - right. exists ia, t1, id, ig. repeat split; try apply ev_at_ext; assumption.
Qed.
Lemma P3_step : forall w w' tr j n x, P3 w tr j n ->
  (In n (node_names w) -> In n (node_names w') \/ exists t2, t2 <> j /\ x = (t2, CRemoveNode n, true)) ->
  P3 w' (tr ++ [x]) j n.
Proof.
  intros w w' tr j n x (ig & Hg & H) S. exists ig. split; [apply ev_at_ext; exact Hg|].
  destruct H as [H|(ir & t2 & H1 & H2 & H3)].
  - destruct (S H) as [H'|(t2 & Hne & ->)]; [left; exact H' | right].
    exists (List.length tr), t2. split; [exact Hne|]. split; [eapply ev_at_lt; exact Hg | apply ev_at_last].
  - right. exists ir, t2. repeat split; try apply ev_at_ext; assumption.
Qed.

Lemma assert_step : forall w w' tr x j c,
  (forall p, nonode w p -> nonode w' p \/
     exists t1 n ig, t1 <> j /\ x = (t1, CCreateNode n p, true) /\ ev_at tr ig (t1, CGetPod p, true)) ->
  (forall p, In p (pods w) -> In p (pods w') \/ exists t2, t2 <> j /\ x = (t2, CDeletePod p, true)) ->
  (forall n, nowl w n -> nowl w' n \/
     exists t1 id ig, t1 <> j /\ x = (t1, CAddWl id n, true) /\ ev_at tr ig (t1, CGetNode n, true)) ->
  (forall n, In n (node_names w) -> In n (node_names w') \/ exists t2, t2 <> j /\ x = (t2, CRemoveNode n, true)) ->
  (forall n p, holds c (plock p) -> node_pod w n = Some p -> node_pod w' n = Some p) ->
  assert w tr j c -> assert w' (tr ++ [x]) j c.
Proof.
  intros w w' tr x j c SQ S2 SN S3 Snp H. destruct c; cbn [assert] in *; try exact I.
  - exact (Qa_step _ _ _ _ _ _ H (SQ _)).
  - exact (P2_step _ _ _ _ _ _ H (S2 _)).
  - exact (Snp _ _ eq_refl H).
  - split; [exact (Snp _ _ eq_refl (proj1 H)) | exact (NW_step _ _ _ _ _ _ (proj2 H) (SN _))].
  - split; [exact (Snp _ _ eq_refl (proj1 H)) | exact (NW_step _ _ _ _ _ _ (proj2 H) (SN _))].
  - exact (P3_step _ _ _ _ _ _ H (S3 _)).
Qed.

Lemma assert_ext : forall w w' tr x j c, (forall q, In q (pods w) -> In q (pods w')) -> nodes w' = nodes w ->
  (forall y, In y (wls w') -> In y (wls w)) ->
  assert w tr j c -> assert w' (tr ++ [x]) j c.
Proof.
  intros w w' tr x j c Ep En Ew. apply assert_step.
  - intros p H. left. unfold nonode. rewrite En. exact H.
  - intros p H. left. exact (Ep p H).
  - intros n H. left. intros id X. exact (H id (Ew _ X)).
  - intros n H. left. rewrite (names_eq _ _ En). exact H.
  - intros n p _ H. unfold node_pod in *. rewrite En. exact H.
Qed.

Lemma mutex : forall w pcs i j ci cj k, LockI w pcs -> nth_error pcs i = Some ci -> nth_error pcs j = Some cj ->
  holds ci k -> holds cj k -> i = j.
Proof.
  intros w pcs i j ci cj k L Hi Hj Hci Hcj.
  assert (A : In (k, i) (held w)) by (apply (i_held _ _ L); exists ci; split; assumption).
  assert (B : In (k, j) (held w)) by (apply (i_held _ _ L); exists cj; split; assumption).
  exact (NoDup_fst_inj _ _ _ _ (i_hnd _ _ L) A B).
Qed.

Lemma inv_frame : forall w w' pcs tr i c c' e, Inv w pcs tr -> nth_error pcs i = Some c ->
  (forall q, In q (pods w) -> In q (pods w')) -> nodes w' = nodes w -> nres w' = nres w ->
  (forall y, In y (wls w') -> In y (wls w)) ->
  (forall m, owns c' m <-> owns c m) -> assert w' (tr ++ [e]) i c' ->
  WInv w' (set_nth i c' pcs) (tr ++ [e]).
Proof.
  intros w w' pcs tr i c c' e [Rf Ow Lk Tr Tr2 Pc] Hi Ep En Er Ew Hso Hc. split; [|split].
  - destruct Rf as [A B C D]. constructor; rewrite ?(names_eq _ _ En), ?En, ?Er; auto.
    + intros n p H. apply Ep. eapply A. exact H.
    + intros id n H. eapply C. apply Ew. exact H.
  - eapply OwnI_same; eauto.
  - eapply PcI_upd; eauto. intros j cj _ _ H. apply (assert_ext w w'); assumption.
Qed.

Lemma inv_padd : forall w pcs tr i n p, Inv w pcs tr -> nth_error pcs i = Some (AN_padd n p) -> ~ In n (nres w) ->
  WInv (set_nres w (n :: nres w)) (set_nth i (AN_getpod n p) pcs) (tr ++ [(i, PAddNode n, true)]).
Proof.
  intros w pcs tr i n p [Rf Ow Lk Tr Tr2 Pc] Hi Hn.
  assert (Nn : ~ In n (node_names w)).
  { intro X. apply in_node_names in X. destruct X as [q X]. apply Hn. eapply (i_res _ Rf); exact X. }
  split; [|split].
  - destruct Rf as [A B C D]. constructor; cbn; auto. intros m q H. right. eapply B; exact H.
  - apply (OwnI_gain w _ pcs i (AN_padd n p) _ n Ow Hi); cbn [nres set_nres owns]; auto.
    + intros m. split; congruence.
    + left. reflexivity.
    + intros j cj Hj Ho. apply Hn. exact (proj1 (i_ownf _ _ Ow _ _ _ Hj Ho)).
    + intros m Hm. split; [|reflexivity]. split; [intros [E|H]; [congruence | exact H] | intro H; right; exact H].
  - eapply PcI_upd; eauto; [|exact I]. intros j cj _ _ H. apply (assert_ext w); auto.
Qed.

Lemma inv_prm : forall w pcs tr i c c' n, Inv w pcs tr -> nth_error pcs i = Some c -> owns c n ->
  (forall m, ~ owns c' m) -> (forall w' tr', assert w' tr' i c') ->
  WInv (set_nres w (rm n (nres w))) (set_nth i c' pcs) (tr ++ [(i, PRemoveNode n, true)]).
Proof.
  intros w pcs tr i c c' n [Rf Ow Lk Tr Tr2 Pc] Hi Hown Hno Hc.
  destruct (i_ownf _ _ Ow _ _ _ Hi Hown) as [Nr Nn].
  split; [|split].
  - destruct Rf as [A B C D]. constructor; cbn; auto. intros m q H. apply in_rm. split; [eapply B; exact H|].
    intro E. subst m. apply Nn. apply in_node_names. exists q. exact H.
  - apply (OwnI_lose w _ pcs i c c' n Ow Hi Hown Hno); cbn [nres set_nres].
    + intros H. apply in_rm in H. destruct H as [_ H]. congruence.
    + intros m Hm. split; [|reflexivity]. rewrite in_rm. tauto.
  - eapply PcI_upd; eauto. intros j cj _ _ H. apply (assert_ext w); auto.
Qed.

Lemma node_pod_in_names : forall w n p, node_pod w n = Some p -> In n (node_names w).
Proof. intros w n p H. apply in_node_names. exists p. apply node_pod_spec. exact H. Qed.

Lemma find_filter_other : forall (l : list (string * string)) n m, m <> n ->
  find (fun x => String.eqb (fst x) m) (filter (fun x => negb (String.eqb (fst x) n)) l)
  = find (fun x => String.eqb (fst x) m) l.
Proof.
  induction l as [|[a b] t IH]; intros n m Hne; simpl; [reflexivity|].
  destruct (String.eqb a n) eqn:E; simpl.
  - apply String.eqb_eq in E. subst a. replace (String.eqb n m) with false by (symmetry; apply String.eqb_neq; congruence).
    apply IH. exact Hne.
  - destruct (String.eqb a m); [reflexivity | apply IH; exact Hne].
Qed.

Lemma names_filter_other : forall (l : list (string * string)) n m,
  In m (map fst (filter (fun x => negb (String.eqb (fst x) n)) l)) <-> In m (map fst l) /\ m <> n.
Proof.
  intros l n m. rewrite !in_map_iff. split.
  - intros [[a b] [E H]]. cbn in E. subst a. apply filter_In in H. destruct H as [H F]. cbn in F.
    split; [exists (m, b); split; [reflexivity | exact H]|]. intro X. subst m. rewrite String.eqb_refl in F. discriminate.
  - intros [[[a b] [E H]] Hne]. cbn in E. subst a. exists (m, b). split; [reflexivity|]. apply filter_In. split; [exact H|].
    cbn. replace (String.eqb m n) with false by (symmetry; apply String.eqb_neq; exact Hne). reflexivity.
Qed.

Lemma inv_delpod : forall w pcs tr i p lk c', Inv w pcs tr -> nth_error pcs i = Some (RP_del p lk) ->
  (forall m, ~ owns c' m) -> (forall w' tr', assert w' tr' i c') ->
  let e := (i, CDeletePod p, true) in
  Ovl (tr ++ [e]) \/ Ovl2 (tr ++ [e]) \/ WInv (set_pods w (rm p (pods w))) (set_nth i c' pcs) (tr ++ [e]).
Proof.
  intros w pcs tr i p lk c' [Rf Ow Lk Tr Tr2 Pc] Hi Hno Hc e.
  pose proof (Pc _ _ Hi) as Q. cbn [assert] in Q. destruct Q as (il & okl & Hl & [Hnn|Hw]).
  - right; right. split; [|split].
    + destruct Rf as [A B C D]. constructor; cbn; auto. intros n q H. apply in_rm. split; [eapply A; exact H|].
      intro E. subst q. exact (Hnn n H).
    + eapply OwnI_same; eauto. intros m. split; [intro X; exfalso; exact (Hno m X) | intro X; cbn in X; contradiction].
    + eapply PcI_upd; eauto. intros j cj Hne Hj. apply assert_step; auto.
      intros q H. destruct (string_dec q p) as [->|Hq].
      * right. exists i. split; [congruence | reflexivity].
      * left. cbn. apply in_rm. split; assumption.
  - left. destruct Hw as (ic & t1 & n & ig & H1 & H2 & H3 & H4 & H5).
    exists ig, ic, (List.length tr), il, t1, i, p, n, okl.
    pose proof (ev_at_lt _ _ _ H3). pose proof (ev_at_lt _ _ _ Hl).
    repeat split; try (apply ev_at_ext; assumption); try lia; try assumption. apply ev_at_last.
Qed.

Lemma inv_create : forall w pcs tr i n p, Inv w pcs tr -> nth_error pcs i = Some (AN_create n p) ->
  let e := (i, CCreateNode n p, true) in
  Ovl (tr ++ [e]) \/ Ovl2 (tr ++ [e]) \/ WInv (set_nodes w ((n, p) :: nodes w)) (set_nth i (Done true) pcs) (tr ++ [e]).
Proof.
  intros w pcs tr i n p [Rf Ow Lk Tr Tr2 Pc] Hi e.
  destruct (i_ownf _ _ Ow _ _ _ Hi eq_refl) as [Nr Nn].
  pose proof (Pc _ _ Hi) as Q. cbn [assert] in Q. destruct Q as (ig & Hg & [Hp|Hw]).
  - right; right. split; [|split].
    + destruct Rf as [A B C D]. constructor; cbn [pods nodes nres wls set_nodes].
      * intros m q [E|H]; [inversion E; subst; exact Hp | eapply A; exact H].
      * intros m q [E|H]; [inversion E; subst; exact Nr | eapply B; exact H].
      * intros id m H. unfold node_names. cbn. right. exact (C id m H).
      * unfold node_names. cbn. constructor; assumption.
    + apply (OwnI_lose w _ pcs i (AN_create n p) (Done true) n Ow Hi eq_refl); [intros m X; exact X | |].
      * intros _. left. reflexivity.
      * intros m Hm. split; [reflexivity|]. unfold node_names. cbn. split; [intros [E|H]; [congruence | exact H] | intro H; right; exact H].
    + eapply PcI_upd; eauto; [|exact I]. intros j cj Hne Hj. apply assert_step; auto.
      * intros q H. destruct (string_dec q p) as [->|Hq].
        -- right. exists i, n, ig. repeat split; [congruence | exact Hg].
        -- left. intros m [X|X]; [inversion X; congruence | exact (H m X)].
      * intros m H. left. right. exact H.
      * intros m q _ H. assert (n <> m) by (intro X; subst m; apply Nn; eapply node_pod_in_names; exact H).
        unfold node_pod in *. cbn. replace (String.eqb n m) with false by (symmetry; apply String.eqb_neq; assumption). exact H.
  - left. destruct Hw as (id & t2 & H1 & H2 & H3). destruct (Tr _ _ _ H3) as (il & okl & L & Hl).
    exists ig, (List.length tr), id, il, i, t2, p, n, okl.
    pose proof (ev_at_lt _ _ _ H3). pose proof (ev_at_lt _ _ _ Hg).
    repeat split; try (apply ev_at_ext; assumption); try lia; try congruence. apply ev_at_last.
Qed.

Lemma inv_rmnode : forall w pcs tr i n p, Inv w pcs tr -> nth_error pcs i = Some (RN_rm n p) ->
  let e := (i, CRemoveNode n, true) in
  Ovl (tr ++ [e]) \/ Ovl2 (tr ++ [e]) \/
  WInv (set_nodes w (filter (fun x => negb (String.eqb (fst x) n)) (nodes w))) (set_nth i (RN_delst n p) pcs)
      (tr ++ [e]).
Proof.
  intros w pcs tr i n p [Rf Ow Lk Tr Tr2 Pc] Hi e.
  pose proof (Pc _ _ Hi) as Q. cbn [assert] in Q. destruct Q as [Hnp (il & okl & Hl & [Hnw|Hev])].
  2:{ right; left. destruct Hev as (ia & t1 & id & ig & H1 & H2 & H3 & H4 & H5).
      exists ia, (List.length tr), il, ig, t1, i, n, id, okl.
      pose proof (ev_at_lt _ _ _ H3). pose proof (ev_at_lt _ _ _ Hl).
      repeat split; try (apply ev_at_ext; assumption); try lia; try assumption. apply ev_at_last. }
  right; right.
  pose proof (node_pod_spec _ _ _ Hnp) as Hin.
  pose proof (names_filter_other (nodes w) n
              : forall m, In m (node_names (set_nodes w _)) <-> In m (node_names w) /\ m <> n) as Names.
  split; [|split].
  - destruct Rf as [A B C D]. constructor; cbn [pods nodes nres wls set_nodes].
    + intros m q H. apply filter_In in H. eapply A. exact (proj1 H).
    + intros m q H. apply filter_In in H. eapply B. exact (proj1 H).
    + intros id m H. apply Names. split; [exact (C id m H)|]. intro X. subst m. exact (Hnw id H).
    + unfold node_names. cbn. apply NoDup_map_filter. exact D.
  - apply (OwnI_gain w _ pcs i (RN_rm n p) (RN_delst n p) n Ow Hi); cbn [nres set_nodes owns].
    + intros m X. exact X.
    + intros m. split; congruence.
    + eapply (i_res _ Rf); exact Hin.
    + intro X. apply Names in X. tauto.
    + intros j cj Hj Ho. destruct (i_ownf _ _ Ow _ _ _ Hj Ho) as [_ Y]. apply Y. eapply node_pod_in_names; exact Hnp.
    + intros m Hm. split; [reflexivity|]. rewrite Names. tauto.
  - eapply PcI_upd; eauto; [|exact I]. intros j cj Hne Hj. apply assert_step; auto.
    + intros q H. left. intros m X. cbn in X. apply filter_In in X. exact (H m (proj1 X)).
    + intros m H. destruct (string_dec m n) as [->|Hm].
      * right. exists i. split; [congruence | reflexivity].
      * left. apply Names. split; assumption.
    + (* another thread that holds the lock of a node's pod: not the pod of n, whose lock i holds *)
      intros m q Hh H. assert (m <> n).
      { intros ->. rewrite Hnp in H. inversion H; subst q. apply Hne. exact (mutex w pcs j i _ _ _ Lk Hj Hi Hh eq_refl). }
      unfold node_pod in *. cbn. rewrite find_filter_other by assumption. exact H.
Qed.

Lemma inv_addwl : forall w pcs tr i n id, Inv w pcs tr -> nth_error pcs i = Some (CR_addwl n id) ->
  let e := (i, CAddWl id n, true) in
  Ovl (tr ++ [e]) \/ Ovl2 (tr ++ [e]) \/
  WInv (set_wls w ((id, n) :: filter (fun x => negb (String.eqb (fst x) id)) (wls w))) (set_nth i (Done true) pcs) (tr ++ [e]).
Proof.
  intros w pcs tr i n id [Rf Ow Lk Tr Tr2 Pc] Hi e.
  pose proof (Pc _ _ Hi) as Q. cbn [assert] in Q. destruct Q as (ig & Hg & [Hin|Hw]).
  - right; right. split; [|split].
    + destruct Rf as [A B C D]. constructor; cbn [pods nodes nres wls set_wls]; auto.
      intros x m [E|H]; [inversion E; subst; exact Hin | apply filter_In in H; eapply C; exact (proj1 H)].
    + eapply OwnI_same; eauto. intros m. cbn. tauto.
    + eapply PcI_upd; eauto; [|exact I]. intros j cj Hne Hj. apply assert_step; auto.
      intros m H. destruct (string_dec m n) as [->|Hm].
      * right. exists i, id, ig. repeat split; [congruence | exact Hg].
      * left. intros x [Y|Y]; [inversion Y; subst; congruence | apply filter_In in Y; exact (H x (proj1 Y))].
  - right; left. destruct Hw as (ir & t2 & H1 & H2 & H3). destruct (Tr2 _ _ _ H3) as (il & okl & L & Hl).
    exists (List.length tr), ir, il, ig, i, t2, n, id, okl.
    pose proof (ev_at_lt _ _ _ H3). pose proof (ev_at_lt _ _ _ Hg).
    repeat split; try (apply ev_at_ext; assumption); try lia; try congruence. apply ev_at_last.
Qed.

(* the control states whose step can change nodes / resource records / ownership, or remove a pod or add a workload *)
Definition writer (c : pc) : bool :=
  match c with
  | RP_del _ _ | AN_padd _ _ | AN_create _ _ | AN_rollback _ | RN_rm _ _ | RN_prm _ _ | CR_addwl _ _ => true
  | _ => false
  end.

Lemma reader_exec : forall w i c call w' r, writer c = false -> call_of c = Some call -> exec w i call = Some (w', r) ->
  (forall q, In q (pods w) -> In q (pods w')) /\ nodes w' = nodes w /\ nres w' = nres w /\
  (forall y, In y (wls w') -> In y (wls w)).
Proof.
  (* by cases on the reader and the outcome of its call; only RemoveWl changes anything but pods and locks *)
  intros w i c call w' r Hw Ec Ee.
  destruct c; try discriminate Hw; inversion Ec; subst call; cbn in Ee;
    try destruct (mem _ _); try destruct (holder _ _); inversion Ee; subst w' r;
    (split; [|split; [|split]]); try reflexivity; try (intros ? ?; cbn; auto; fail).
  all: intros y Hy; exact (proj1 (proj1 (filter_In _ _ _) Hy)).
Qed.

Lemma owns_next : forall c r m, writer c = false -> owns (next c r) m <-> owns c m.
Proof.
  intros c [ok strs] m Hw.
  destruct c; try discriminate Hw; cbn [next r_ok r_strs]; try reflexivity;
    try (destruct ok; cbn [negb andb]; try reflexivity); try (destruct (is_nil strs); try reflexivity);
    try (destruct lk; try reflexivity); try (destruct (String.eqb _ _); try reflexivity); try (destruct b; try reflexivity).
Qed.

Lemma inv_astep : forall w pcs tr i c w' c' e, Inv w pcs tr -> nth_error pcs i = Some c ->
  astep w i c = Some (w', c', e) -> Ovl (tr ++ [e]) \/ Ovl2 (tr ++ [e]) \/ Inv w' (set_nth i c' pcs) (tr ++ [e]).
Proof.
  intros w pcs tr i c w' c' e V Hi H. pose proof (v_pc _ _ _ V _ _ Hi) as Q.
  enough (W : Ovl (tr ++ [e]) \/ Ovl2 (tr ++ [e]) \/ WInv w' (set_nth i c' pcs) (tr ++ [e])).
  { destruct W as [W|[W|(Rf & Ow & Pc)]]; [left; exact W | right; left; exact W | right; right].
    constructor; try assumption.
    - exact (LockI_astep _ _ _ _ _ _ _ (v_lock _ _ _ V) Hi H).
    - exact (TraceI_astep _ _ _ _ _ _ _ (v_tr _ _ _ V) Q H).
    - exact (TraceR_astep _ _ _ _ _ _ _ (v_tr2 _ _ _ V) Q H). }
  unfold astep in H. destruct (call_of c) as [call|] eqn:Ec; [|discriminate].
  destruct (exec w i call) as [[w1 r]|] eqn:Ee; [|discriminate]. inversion H; subst w1 c' e; clear H.
  destruct (writer c) eqn:Wc.
  - destruct c; try discriminate Wc; inversion Ec; subst call; clear Ec; cbn [exec] in Ee.
    + (* RemovePod: delete *)
      destruct (mem p (pods w)); inversion Ee; subst w' r; cbn [next r_ok yes no].
      * apply (inv_delpod w pcs tr i p lk); auto; destruct lk; cbn; tauto.
      * right; right. apply (inv_frame w w pcs tr i (RP_del p lk)); auto; destruct lk; cbn; tauto.
    + (* AddNode: plugin add *)
      destruct (mem n (nres w)) eqn:E; inversion Ee; subst w' r; cbn [next r_ok yes no negb]; right; right.
      * apply (inv_frame w w pcs tr i (AN_padd n p)); auto; cbn; tauto.
      * apply inv_padd; auto. apply mem_false. exact E.
    + (* AddNode: create; the owner's record has no node yet *)
      destruct (i_ownf _ _ (v_own _ _ _ V) _ _ _ Hi eq_refl) as [_ Nn].
      apply mem_false in Nn. rewrite Nn in Ee. inversion Ee; subst w' r. exact (inv_create w pcs tr i n p V Hi).
    + (* AddNode: rollback; the owner's record exists *)
      destruct (i_ownf _ _ (v_own _ _ _ V) _ _ _ Hi eq_refl) as [Nr _].
      apply mem_In in Nr. rewrite Nr in Ee. inversion Ee; subst w' r. right; right.
      apply (inv_prm w pcs tr i (AN_rollback n)); auto; cbn; tauto.
    + (* RemoveNode: store removal *)
      inversion Ee; subst w' r. exact (inv_rmnode w pcs tr i n p V Hi).
    + (* RemoveNode: plugin removal *)
      destruct (i_ownf _ _ (v_own _ _ _ V) _ _ _ Hi eq_refl) as [Nr _].
      apply mem_In in Nr. rewrite Nr in Ee. inversion Ee; subst w' r. right; right.
      apply (inv_prm w pcs tr i (RN_prm n p)); auto; cbn; tauto.
    + (* create: record the workload *)
      inversion Ee; subst w' r. exact (inv_addwl w pcs tr i n id V Hi).
  - (* the world is framed; what remains is the assertion of the next control state *)
    destruct (reader_exec _ _ _ _ _ _ Wc Ec Ee) as (Ep & En & Er & Ew).
    right; right. apply (inv_frame w w' pcs tr i c); auto; [intros m; apply owns_next; exact Wc|].
    destruct c; try discriminate Wc;
      try (destruct r as [[] strs]; cbn; try destruct (is_nil strs); try destruct lk; try destruct b; exact I);
      inversion Ec; subst call; clear Ec; cbn [exec] in Ee.
    + (* RemovePod: second list, empty: no node in the pod now *)
      inversion Ee; subst w' r. cbn [next r_ok r_strs andb].
      destruct (map fst (filter (fun x => String.eqb (snd x) p) (nodes w))) eqn:El; cbn; [|destruct lk; exact I].
      exists (List.length tr), true. split; [apply ev_at_last|]. left. exact (list_snd_nil _ _ El).
    + (* AddNode: GetPod found the pod *)
      destruct (mem p (pods w)) eqn:E; inversion Ee; subst w' r; cbn; [|exact I].
      exists (List.length tr). split; [apply ev_at_last | left; apply mem_In; exact E].
    + (* RemoveNode: the node is still in the locked pod *)
      inversion Ee; subst w' r. destruct (node_pod w n) as [q|] eqn:E; cbn; [|exact I].
      destruct (String.eqb q p) eqn:E2; cbn; [|exact I]. apply String.eqb_eq in E2. subst q. exact E.
    + (* RemoveNode: no workload on the node now *)
      destruct (map fst (filter (fun x => String.eqb (snd x) n) (wls w))) eqn:El; [|destruct (mem n (node_names w))];
        inversion Ee; subst w' r; cbn; try exact I.
      split; [exact Q|]. exists (List.length tr), true. split; [apply ev_at_last|]. left. exact (list_snd_nil _ _ El).
    + (* RemoveNode: status set (result ignored) *)
      inversion Ee; subst w' r. split; [exact (proj1 Q) | exact (NW_step _ _ _ _ _ _ (proj2 Q) (fun X => or_introl X))].
    + (* create: second GetNode found the node *)
      inversion Ee; subst w' r. destruct (node_pod w n) eqn:E; cbn; [|exact I].
      exists (List.length tr). split; [apply ev_at_last | left; eapply node_pod_in_names; exact E].
Qed.

Definition J (w : rw) (pcs : list pc) (tr : list ev) : Prop := Ovl tr \/ Ovl2 tr \/ Inv w pcs tr.

Lemma J_astep : forall w pcs tr i c w' c' e, J w pcs tr -> nth_error pcs i = Some c ->
  astep w i c = Some (w', c', e) -> J w' (set_nth i c' pcs) (tr ++ [e]).
Proof.
  intros w pcs tr i c w' c' e [Hw|[Hw|Hv]] Hi Ha;
    [left; apply Ovl_ext; exact Hw | right; left; apply Ovl2_ext; exact Hw | exact (inv_astep _ _ _ _ _ _ _ _ Hv Hi Ha)].
Qed.

Lemma pc0_owns : forall o n, ~ owns (pc0 o) n.
Proof. destruct o; cbn; tauto. Qed.
Lemma pc0_holds : forall o k, ~ holds (pc0 o) k.
Proof. destruct o; cbn; tauto. Qed.
Lemma nth_map_pc0 : forall ops i c, nth_error (map pc0 ops) i = Some c -> exists o, c = pc0 o.
Proof.
  intros ops i c H. rewrite nth_error_map in H. destruct (nth_error ops i) as [o|]; [|discriminate].
  inversion H. exists o. reflexivity.
Qed.

Lemma LockI_init : forall w ops, held w = [] -> LockI w (map pc0 ops).
Proof.
  intros w ops Hh. constructor; rewrite Hh.
  - constructor.
  - intros k i. split; [intros []|]. intros [c [Hi Ho]]. destruct (nth_map_pc0 _ _ _ Hi) as [o ->].
    exact (pc0_holds o k Ho).
Qed.

Lemma inv_init : forall w ops, ref_ok w = true -> NoDup (node_names w) -> held w = [] -> Inv w (map pc0 ops) [].
Proof.
  intros w ops Hr Hnd Hh. apply ref_ok_RefP in Hr. destruct Hr as [A B C D]. constructor.
  - constructor; assumption.
  - constructor.
    + intros n H. left. apply C. exact H.
    + intros i c n Hi Ho. exfalso. destruct (nth_map_pc0 _ _ _ Hi) as [o ->]. exact (pc0_owns o n Ho).
    + intros i j ci cj n Hi _ Ho. exfalso. destruct (nth_map_pc0 _ _ _ Hi) as [o ->]. exact (pc0_owns o n Ho).
  - apply LockI_init. exact Hh.
  - intros id t p H. unfold ev_at in H. destruct id; discriminate.
  - intros ir t n H. unfold ev_at in H. destruct ir; discriminate.
  - intros i c Hi. destruct (nth_map_pc0 _ _ _ Hi) as [o ->]. destruct o; exact I.
Qed.

Lemma threads_R : forall ops, Forall2 R (mk_threads (map (fun o => (rop_of o, None)) ops)) (map pc0 ops).
Proof.
  induction ops as [|o t IH]; simpl; constructor; [|exact IH].
  split; [apply prog_at_pc0 | reflexivity].
Qed.

Lemma run_sched_inv : forall P : rw -> list pc -> list ev -> Prop,
  (forall w pcs tr i c w' c' e, P w pcs tr -> nth_error pcs i = Some c ->
     astep w i c = Some (w', c', e) -> P w' (set_nth i c' pcs) (tr ++ [e])%list) ->
  forall sched w ts acc pcs w' ts' out, Forall2 R ts pcs -> P w pcs (rev acc) ->
  run_sched w ts sched acc = (w', ts', out) -> exists pcs', Forall2 R ts' pcs' /\ P w' pcs' out.
Proof.
  intros P Step. induction sched as [|i rest IH]; intros w ts acc pcs w' ts' out F Hp H; cbn [run_sched] in H.
  - inversion H; subst. exists pcs. split; assumption.
  - destruct (nth_error ts i) as [t|] eqn:Et; [|eapply IH; eauto].
    destruct (Forall2_nth _ _ _ _ _ F Et) as [c [Hc Rc]].
    pose proof (step_refines w i t c Rc) as S.
    destruct (step_thread w i t) as [[[w1 t1] e]|]; [|eapply IH; eauto].
    destruct S as [c1 [Ha R1]].
    eapply (IH w1 (set_nth i t1 ts) (e :: acc) (set_nth i c1 pcs)); [apply Forall2_set_nth; assumption | | exact H].
    exact (Step _ _ _ _ _ _ _ _ Hp Hc Ha).
Qed.

Lemma reach_J : forall w ops sched w' ts' tr,
  ref_ok w = true -> NoDup (node_names w) -> held w = [] ->
  run_sched w (mk_threads (map (fun o => (rop_of o, None)) ops)) sched [] = (w', ts', tr) ->
  exists pcs', Forall2 R ts' pcs' /\ J w' pcs' tr.
Proof.
  intros w ops sched w' ts' tr Hr Hnd Hh.
  exact (run_sched_inv J J_astep sched w _ [] (map pc0 ops) w' ts' tr (threads_R ops)
           (or_intror (or_intror (inv_init w ops Hr Hnd Hh)))).
Qed.

Lemma prog_at_ret : forall c b, prog_at c = Ret b -> c = Done b.
Proof. destruct c; intros b0 H; try discriminate H. inversion H. reflexivity. Qed.

Lemma finished_done : forall ts pcs, Forall2 R ts pcs -> forallb finished ts = true ->
  forall i c, nth_error pcs i = Some c -> exists b, c = Done b.
Proof.
  intros ts pcs F. induction F as [|t c0 ts pcs [Hp _] F IH]; intros Hf i c Hi; [destruct i; discriminate|].
  cbn [forallb] in Hf. apply andb_true_iff in Hf. destruct Hf as [Hf1 Hf2]. destruct i.
  - inversion Hi; subst. unfold finished in Hf1. destruct (t_prog t) eqn:E; [|discriminate].
    exists ok. apply prog_at_ret. congruence.
  - eapply IH; eauto.
Qed.

Lemma inv_quiescent : forall w pcs tr, Inv w pcs tr -> (forall i c, nth_error pcs i = Some c -> exists b, c = Done b) ->
  ref_ok w = true.
Proof.
  intros w pcs tr [[A B C D] Ow _ _ _] Hd. apply ref_ok_RefP. constructor; try assumption.
  intros n H. destruct (i_own _ _ Ow n H) as [L|[i [c [Hi Ho]]]]; [exact L|].
  destruct (Hd _ _ Hi) as [b ->]. contradiction.
Qed.

Theorem general_quiescent : forall w ops sched w' ts' tr,
  ref_ok w = true -> NoDup (node_names w) -> held w = [] ->
  run_sched w (mk_threads (map (fun o => (rop_of o, None)) ops)) sched [] = (w', ts', tr) ->
  forallb finished ts' = true ->
  ref_ok w' = true \/ window_addnode_removepod tr = true \/ window_create_removenode tr = true.
Proof.
  intros w ops sched w' ts' tr Hr Hnd Hh Hrun Hfin.
  destruct (reach_J _ _ _ _ _ _ Hr Hnd Hh Hrun) as [pcs' [F [Hw|[Hw|Hv]]]].
  - right. left. apply Ovl_window. exact Hw.
  - right. right. apply Ovl2_window. exact Hw.
  - left. eapply inv_quiescent; [exact Hv|]. eapply finished_done; eauto.
Qed.

Theorem general_always : forall w ops sched w' ts' tr,
  ref_ok w = true -> NoDup (node_names w) -> held w = [] ->
  run_sched w (mk_threads (map (fun o => (rop_of o, None)) ops)) sched [] = (w', ts', tr) ->
  window_addnode_removepod tr = true \/ window_create_removenode tr = true \/
  ((forall n p, In (n, p) (nodes w') -> In p (pods w')) /\
   (forall n p, In (n, p) (nodes w') -> In n (nres w')) /\
   (forall id n, In (id, n) (wls w') -> In n (node_names w'))).
Proof.
  intros w ops sched w' ts' tr Hr Hnd Hh Hrun.
  destruct (reach_J _ _ _ _ _ _ Hr Hnd Hh Hrun) as [pcs' [F [Hw|[Hw|Hv]]]].
  - left. apply Ovl_window. exact Hw.
  - right. left. apply Ovl2_window. exact Hw.
  - right. right. destruct Hv as [[A B C D] _ _ _ _ _]. repeat split; assumption.
Qed.

Lemma exec_total : forall w i c, (forall k, c <> CLock k) -> exec w i c <> None.
Proof. intros w i c H. destruct c; cbn; try discriminate. exfalso. exact (H k eq_refl). Qed.
Lemma clock_holder_free : forall c id, holds c (clock id) -> exists call, call_of c = Some call /\ forall k', call <> CLock k'.
Proof.
  destruct c; cbn; intros id0 H; try contradiction; try (destruct lk; [|contradiction]);
    try (exfalso; discriminate H);
    eexists; (split; [reflexivity | intros k'; discriminate]).
Qed.
Lemma holder_asks_clock : forall c k k2, holds c k -> call_of c = Some (CLock k2) -> exists id, k2 = clock id.
Proof.
  destruct c; cbn; intros k k2 H E; try contradiction; try (destruct lk; [|contradiction]); try discriminate E.
  inversion E. eexists. reflexivity.
Qed.
Lemma in_enabled : forall w ts i t s, nth_error ts i = Some t -> step_thread w i t = Some s ->
  In (i, s) (enabled_steps w ts).
Proof.
  intros w ts i t s E S. unfold enabled_steps. apply in_flat_map. exists i. split.
  - apply in_seq. split; [lia|]. simpl. apply nth_error_Some. rewrite E. discriminate.
  - rewrite E, S. left. reflexivity.
Qed.
Lemma astep_enabled : forall w ts pcs i c, Forall2 R ts pcs -> nth_error pcs i = Some c -> astep w i c <> None ->
  enabled_steps w ts <> [].
Proof.
  intros w ts pcs i c F Hi Ha. destruct (Forall2_nth_r _ _ _ _ _ F Hi) as [t [Ht Rt]].
  pose proof (step_refines w i t c Rt) as S. destruct (step_thread w i t) as [s|] eqn:E; [|contradiction].
  intro En. pose proof (in_enabled _ _ _ _ _ Ht E) as X. rewrite En in X. exact X.
Qed.

Lemma waiting_on : forall w i c, astep w i c = None -> (exists b, c = Done b) \/
  exists k h, call_of c = Some (CLock k) /\ In (k, h) (held w).
Proof.
  intros w i c Ea. unfold astep in Ea. destruct (call_of c) as [call|] eqn:Ec.
  - right. destruct (exec w i call) as [[w1 r]|] eqn:Ee; [discriminate|].
    assert (L : exists k, call = CLock k).
    { destruct call; cbn in Ee; try discriminate. exists k. reflexivity. }
    destruct L as [k ->]. cbn in Ee. destruct (holder w k) as [j|] eqn:Hh; [|discriminate].
    unfold holder in Hh. destruct (find (fun x => String.eqb (fst x) k) (held w)) as [[k' j']|] eqn:Hfind; [|discriminate].
    apply find_some in Hfind. destruct Hfind as [Hin Hk]. cbn in Hk. apply String.eqb_eq in Hk. subst k'.
    exists k, j'. split; [reflexivity | exact Hin].
  - left. destruct c; cbn in Ec; try discriminate. eexists. reflexivity.
Qed.

Lemma free_call_steps : forall w j c call, call_of c = Some call -> (forall k', call <> CLock k') -> astep w j c <> None.
Proof.
  intros w j c call Hc Hn. unfold astep. rewrite Hc. pose proof (exec_total w j call Hn) as T.
  destruct (exec w j call) as [[w2 r2]|]; [discriminate | contradiction].
Qed.

(* an operation waits for a pod lock holding nothing, and for a workload lock
   holding one pod lock; holders of workload locks never wait *)
Lemma LockI_progress : forall w ts pcs, Forall2 R ts pcs -> LockI w pcs ->
  forallb finished ts = true \/ enabled_steps w ts <> [].
Proof.
  intros w ts pcs F L. destruct (forallb finished ts) eqn:Ef; [left; reflexivity | right].
  assert (X : exists i t, nth_error ts i = Some t /\ finished t = false).
  { clear F L. induction ts as [|t ts IH]; [discriminate|]. cbn [forallb] in Ef. destruct (finished t) eqn:E.
    - destruct (IH Ef) as [i [t' [H1 H2]]]. exists (S i), t'. split; assumption.
    - exists 0, t. split; [reflexivity | exact E]. }
  destruct X as [i [t [Ht Hf]]]. destruct (Forall2_nth _ _ _ _ _ F Ht) as [c [Hc [Hp _]]].
  destruct (astep w i c) as [s|] eqn:Ea; [eapply astep_enabled; eauto; congruence|].
  destruct (waiting_on _ _ _ Ea) as [[b0 ->]|(k & j & Hcall & Hin)].
  { exfalso. unfold finished in Hf. rewrite Hp in Hf. cbn in Hf. discriminate. }
  (* the thread waits for k; its holder j moves, or waits for a workload lock whose holder moves *)
  apply (i_held _ _ L) in Hin. destruct Hin as [cj [Hj Hh]].
  destruct (astep w j cj) as [s|] eqn:Eb; [eapply (astep_enabled w ts pcs j cj); eauto; congruence|].
  destruct (waiting_on _ _ _ Eb) as [[b0 ->]|(k2 & h & Hcall2 & Hin2)]; [cbn in Hh; contradiction|].
  destruct (holder_asks_clock _ _ _ Hh Hcall2) as [id ->].
  apply (i_held _ _ L) in Hin2. destruct Hin2 as [ch [Hhn Hhh]].
  destruct (clock_holder_free _ _ Hhh) as [cl [Hcl Hnl]].
  eapply (astep_enabled w ts pcs h ch); eauto. eapply free_call_steps; eauto.
Qed.

Theorem general_progress : forall w ops sched w' ts' tr, held w = [] ->
  run_sched w (mk_threads (map (fun o => (rop_of o, None)) ops)) sched [] = (w', ts', tr) ->
  forallb finished ts' = true \/ enabled_steps w' ts' <> [].
Proof.
  intros w ops sched w' ts' tr Hh Hrun.
  destruct (run_sched_inv (fun w pcs _ => LockI w pcs) (fun w pcs _ => LockI_astep w pcs) sched w _ [] _ w' ts' tr
              (threads_R ops) (LockI_init w ops Hh) Hrun) as [pcs' [F L]].
  exact (LockI_progress _ _ _ F L).
Qed.

Theorem general_no_deadlock : forall w ops sched w' ts' tr,
  ref_ok w = true -> NoDup (node_names w) -> held w = [] ->
  run_sched w (mk_threads (map (fun o => (rop_of o, None)) ops)) sched [] = (w', ts', tr) ->
  window_addnode_removepod tr = true \/ window_create_removenode tr = true \/
  forallb finished ts' = true \/ enabled_steps w' ts' <> [].
Proof. intros w ops sched w' ts' tr _ _ Hh Hrun. right. right. exact (general_progress _ _ _ _ _ _ Hh Hrun). Qed.

Definition pnop_of (a : rop) : pnop :=
  match a with OAddPod p => PAddPod p | ORemovePod p => PRemovePod p | OAddNode n p => PAddNode_ n p | ORemoveNode n => PRemoveNode_ n
  | OCreate n id => PCreate n id | ORemoveWl id => PRemoveWl id end.
Lemma rop_of_pnop_of : forall a, rop_of (pnop_of a) = a.
Proof. destruct a; reflexivity. Qed.

Theorem general_rops : forall w (ops : list rop) sched w' ts' tr,
  ref_ok w = true -> NoDup (node_names w) -> held w = [] ->
  run_sched w (mk_threads (map (fun a => (a, None)) ops)) sched [] = (w', ts', tr) ->
  (forallb finished ts' = true \/ enabled_steps w' ts' <> []) /\
  (forallb finished ts' = true ->
   ref_ok w' = true \/ window_addnode_removepod tr = true \/ window_create_removenode tr = true).
Proof.
  intros w ops sched w' ts' tr Hr Hnd Hh Hrun.
  replace (map (fun a => (a, None)) ops) with (map (fun o => (rop_of o, @None nat)) (map pnop_of ops)) in Hrun.
  - split; [exact (general_progress _ _ _ _ _ _ Hh Hrun) | exact (general_quiescent _ _ _ _ _ _ Hr Hnd Hh Hrun)].
  - rewrite map_map. apply map_ext. intros a. rewrite rop_of_pnop_of. reflexivity.
Qed.
