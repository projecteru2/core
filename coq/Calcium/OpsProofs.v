(* Calcium/OpsProofs.v — specifications of the transaction blocks of the orchestration
   scripts, for EVERY world and EVERY position k of the single injected fault
   (crunk p w (Some k): the k-th call from here fails before executing; None: no fault).
   Each spec says: the block reports success and the world changed by exactly the
   intended effect, or it reports failure and the world is what it was.
   The head of the file holds what all the files about scripts share: arithmetic of amounts,
   updates of the record lists, and [ends], the form in which specs are stated and composed. *)
From Coq Require Import List Bool Arith ZArith Lia Permutation.
From Verif Require Import Base.Effects Calcium.World Calcium.Ops Calcium.EffectsProofs Base.ListFacts.
Import ListNotations.
Local Open Scope Z_scope.

(* equations between amounts: componentwise linear arithmetic over Z *)
Ltac res_lia := intros; unfold radd, rsub, rzero; cbn [fst snd]; f_equal; lia.

Lemma radd_0_r : forall r, radd r rzero = r.
Proof. intros [a b]. res_lia. Qed.
Lemma rsub_0_r : forall r, rsub r rzero = r.
Proof. intros [a b]. res_lia. Qed.
Lemma radd_rsub : forall u r, radd (rsub u r) r = u.
Proof. intros [a b] [c d]. res_lia. Qed.
Lemma rsub_radd : forall u r, rsub (radd u r) r = u.
Proof. intros [a b] [c d]. res_lia. Qed.
Lemma rsub_radd_l : forall a b, rsub (radd a b) a = b.
Proof. intros [a1 a2] [b1 b2]. res_lia. Qed.
Lemma radd_assoc : forall a b c, radd a (radd b c) = radd (radd a b) c.
Proof. intros [a1 a2] [b1 b2] [c1 c2]. res_lia. Qed.
Lemma radd_swap : forall a b c, radd a (radd b c) = radd b (radd a c).
Proof. intros [a1 a2] [b1 b2] [c1 c2]. res_lia. Qed.
Lemma radd_rsub_assoc : forall a b c, radd a (rsub b c) = rsub (radd a b) c.
Proof. intros [a1 a2] [b1 b2] [c1 c2]. res_lia. Qed.
Lemma radd_replace : forall a b c, radd a c = radd (radd b c) (rsub a b).
Proof. intros [a1 a2] [b1 b2] [c1 c2]. res_lia. Qed.

Lemma map_fix : forall A (f : A -> A) l, (forall x, In x l -> f x = x) -> map f l = l.
Proof. intros A f l H. rewrite <- (map_id l) at 2. apply map_ext_in. exact H. Qed.

Lemma find_app_new : forall A (f : A -> bool) l x, find f l = None -> f x = true -> find f (l ++ [x]) = Some x.
Proof.
  induction l as [|y t IH]; intros x H Hx; simpl in *; [rewrite Hx; reflexivity|].
  destruct (f y); [discriminate|auto].
Qed.
Lemma find_app_none : forall A (f : A -> bool) l l2,
  find f l = None -> (forall y, In y l2 -> f y = false) -> find f (l ++ l2) = None.
Proof.
  induction l as [|y t IH]; intros l2 H H2; simpl in *.
  - destruct (find f l2) eqn:E; [|reflexivity]. apply find_some in E. destruct E as [Hin E]. rewrite (H2 _ Hin) in E. discriminate.
  - destruct (f y); [discriminate|auto].
Qed.
Lemma filter_app_new : forall A (f : A -> bool) l x,
  find f l = None -> f x = true -> filter (fun y => negb (f y)) (l ++ [x]) = l.
Proof.
  intros A f l x H Hx. rewrite filter_app. simpl. rewrite Hx. simpl. rewrite app_nil_r.
  apply filter_all. intros z Hz. rewrite (find_none _ _ H z Hz). reflexivity.
Qed.

Lemma upd_plug_undo : forall n f g l, (forall x, p_node (g x) = p_node x) -> (forall x, f (g x) = x) ->
  upd_plug n f (upd_plug n g l) = l.
Proof.
  intros n f g l Hn Hfg. unfold upd_plug. rewrite map_map. apply map_fix. intros x _.
  destruct (Nat.eqb (p_node x) n) eqn:E; [rewrite Hn|]; rewrite E; auto.
Qed.
Lemma upd_plug_add_sub : forall n r l, upd_plug n (add_use r) (upd_plug n (sub_use r) l) = l.
Proof. intros. apply upd_plug_undo; [reflexivity|]. intros [m c u]. unfold add_use, sub_use; simpl. rewrite radd_rsub. reflexivity. Qed.
Lemma upd_plug_sub_add : forall n r l, upd_plug n (sub_use r) (upd_plug n (add_use r) l) = l.
Proof. intros. apply upd_plug_undo; [reflexivity|]. intros [m c u]. unfold add_use, sub_use; simpl. rewrite rsub_radd. reflexivity. Qed.

Lemma find_plug_upd : forall n f l m,
  (forall x, p_node (f x) = p_node x) ->
  find (fun x => Nat.eqb (p_node x) m) (upd_plug n f l) =
  option_map (fun x => if Nat.eqb (p_node x) n then f x else x) (find (fun x => Nat.eqb (p_node x) m) l).
Proof.
  intros n f l m Hf. induction l as [|x t IH]; simpl; [reflexivity|].
  destruct (Nat.eqb (p_node x) n) eqn:E.
  - rewrite Hf. destruct (Nat.eqb (p_node x) m); simpl; [rewrite E; reflexivity|apply IH].
  - destruct (Nat.eqb (p_node x) m); simpl; [rewrite E; reflexivity|apply IH].
Qed.

Definition ids (l : list wl) := map w_id l.

Lemma wid_eqb_eq : forall a b, wid_eqb a b = true <-> a = b.
Proof.
  intros [a1 a2 a3] [b1 b2 b3]. unfold wid_eqb; simpl.
  rewrite !andb_true_iff, !Nat.eqb_eq. split; [intros [[? ?] ?]; subst; reflexivity| intros E; inversion E; auto].
Qed.
Lemma wid_eqb_refl : forall a, wid_eqb a a = true.
Proof. intros; apply wid_eqb_eq; reflexivity. Qed.

Lemma find_wl_in : forall l id x, find (fun y => wid_eqb (w_id y) id) l = Some x -> In x l /\ w_id x = id.
Proof.
  intros l id x H. apply find_some in H. destruct H as [H1 H2]. split; auto. apply wid_eqb_eq; auto.
Qed.

Lemma nodup_id_unique : forall l y x, NoDup (ids l) -> In y l -> In x l -> w_id y = w_id x -> y = x.
Proof.
  induction l as [|z t IH]; intros y x Hnd Hy Hx E; [destruct Hy|].
  inversion Hnd as [|? ? Hn Hnd']; subst.
  destruct Hy as [->|Hy]; destruct Hx as [->|Hx]; auto; exfalso; apply Hn; unfold ids;
    [rewrite E|rewrite <- E]; apply in_map; assumption.
Qed.

Lemma del_wl_notin : forall t id, ~ In id (ids t) -> del_wl id t = t.
Proof.
  intros t id H. apply filter_all. intros z Hz.
  destruct (wid_eqb (w_id z) id) eqn:E; auto. apply wid_eqb_eq in E. exfalso. apply H. rewrite <- E. apply in_map; auto.
Qed.

Lemma del_add_perm : forall l x, NoDup (ids l) -> find (fun y => wid_eqb (w_id y) (w_id x)) l = Some x ->
  Permutation (del_wl (w_id x) l ++ [x]) l.
Proof.
  induction l as [|y t IH]; intros x Hnd Hf; simpl in *; [discriminate|].
  inversion Hnd as [|? ? Hn Hnd']; subst.
  destruct (wid_eqb (w_id y) (w_id x)) eqn:E; simpl.
  - inversion Hf; subst y. rewrite del_wl_notin by exact Hn.
    rewrite Permutation_app_comm. reflexivity.
  - apply perm_skip. apply IH; auto.
Qed.

Lemma find_del_none : forall l id, find (fun y => wid_eqb (w_id y) id) (del_wl id l) = None.
Proof.
  induction l as [|y t IH]; intros id; simpl; [reflexivity|].
  destruct (wid_eqb (w_id y) id) eqn:E; simpl; [apply IH|rewrite E; apply IH].
Qed.

Lemma find_wl_upd : forall x' l id,
  find (fun y => wid_eqb (w_id y) id) (upd_wl x' l) =
  option_map (fun y => if wid_eqb (w_id y) (w_id x') then x' else y) (find (fun y => wid_eqb (w_id y) id) l).
Proof.
  intros x' l id. induction l as [|y t IH]; simpl; [reflexivity|].
  destruct (wid_eqb (w_id y) (w_id x')) eqn:E.
  - pose proof E as E'. apply wid_eqb_eq in E'.
    replace (wid_eqb (w_id x') id) with (wid_eqb (w_id y) id) by (rewrite E'; reflexivity).
    destruct (wid_eqb (w_id y) id); simpl; [rewrite E; reflexivity|apply IH].
  - destruct (wid_eqb (w_id y) id); simpl; [rewrite E; reflexivity|apply IH].
Qed.

Lemma upd_wl_back : forall l x x', NoDup (ids l) -> find (fun y => wid_eqb (w_id y) (w_id x)) l = Some x -> w_id x' = w_id x ->
  upd_wl x (upd_wl x' l) = l.
Proof.
  intros l x x' Hnd Hf Hid. unfold upd_wl. rewrite map_map. apply map_fix. intros y Hy. rewrite Hid.
  destruct (wid_eqb (w_id y) (w_id x)) eqn:E; [|rewrite E; reflexivity].
  rewrite Hid, wid_eqb_refl. apply wid_eqb_eq in E. apply find_wl_in in Hf.
  symmetry. apply (nodup_id_unique l); tauto.
Qed.

(* stepping through a script:
   [norm] reduces the monadic plumbing; [look] reads the fields of an updated world.
   [kcase]/[ncase] split the budget at a call of a script unfolded down to [runk]. *)
Ltac norm := repeat (progress cbn [bind err_of fst snd rsum is_ok rok fail_reply runk is_faultable]).
Ltac kcase k := destruct k as [[|k]|]; norm.
Ltac ncase k := destruct k as [|k]; norm.
Ltac look := unfold find_wl, find_plug, find_cont, find_node; cbn [w_id w_node w_pod w_res wls plugs conts nodes pods markers walq wal_seq out strict_remove script
                  set_plugs set_wls set_conts set_nodes set_markers set_wal set_out set_pods].

Lemma crunk_ret : forall A (a : A) w k, crunk (Ret a) w k = (w, k, a).
Proof. reflexivity. Qed.

Lemma crunk_bind : forall A B (p : cprog A) (f : A -> cprog B) w k,
  crunk (bind p f) w k = let '(w', k', a) := crunk p w k in crunk (f a) w' k'.
Proof. intros. unfold crunk. apply runk_bind. Qed.

(* once the fault has fired (or there is none) the budget stays empty *)
Lemma crunk_none_k : forall A (p : cprog A) w w' k' a, crunk p w None = (w', k', a) -> k' = None.
Proof.
  unfold crunk. induction p as [a|c q IH]; intros w w' k' b; cbn [runk].
  - intros E. inversion E. reflexivity.
  - destruct (exec w c) as [w1 r]. destruct (is_faultable c); apply IH.
Qed.

(* [ends p w k Q]: the run of p from world w with fault budget k ends with a world, a budget and
   an answer that satisfy Q.  Specs are stated and composed in this form; [ends_ex] gives the
   explicit one. *)
Definition ends {A} (p : cprog A) (w : world) (k : option nat) (Q : world -> option nat -> A -> Prop) : Prop :=
  let '(w', k', a) := crunk p w k in Q w' k' a.

Lemma ends_ex : forall A (p : cprog A) w k Q,
  ends p w k Q <-> exists w' k' a, crunk p w k = (w', k', a) /\ Q w' k' a.
Proof.
  intros. unfold ends. destruct (crunk p w k) as [[w' k'] a]. split.
  - intros H. exists w', k', a. auto.
  - intros [w1 [k1 [a1 [E H]]]]. inversion E; subst. exact H.
Qed.

Lemma ends_ret : forall A (a : A) w k (Q : world -> option nat -> A -> Prop), Q w k a -> ends (Ret a) w k Q.
Proof. intros A a w k Q H. exact H. Qed.

Lemma ends_bind : forall A B (p : cprog A) (f : A -> cprog B) w k Q,
  ends p w k (fun w1 k1 a => ends (f a) w1 k1 Q) -> ends (bind p f) w k Q.
Proof. intros A B p f w k Q. unfold ends. rewrite crunk_bind. destruct (crunk p w k) as [[w1 k1] a]. auto. Qed.

Lemma ends_mono : forall A (p : cprog A) w k (Q Q' : world -> option nat -> A -> Prop),
  ends p w k Q -> (forall w' k' a, Q w' k' a -> Q' w' k' a) -> ends p w k Q'.
Proof. intros A p w k Q Q'. unfold ends. destruct (crunk p w k) as [[w1 k1] a]. auto. Qed.

(* a fault position: either the fault fires here, and the rest runs with the budget spent; or the
   call executes, and the rest is to be proved for every budget *)
Lemma ends_call : forall A c (q : reply -> cprog A) w k Q, is_faultable c = true ->
  ends (q (RErr EInjected)) w None Q ->
  (forall k', let (w', r) := exec w c in ends (q r) w' k' Q) ->
  ends (Do c q) w k Q.
Proof.
  intros A c q w k Q Hc Hfault Hrun. unfold ends, crunk in *. cbn [runk]. rewrite Hc.
  destruct k as [[|j]|]; [exact Hfault|specialize (Hrun (Some j))|specialize (Hrun None)];
    destruct (exec w c) as [w' r]; exact Hrun.
Qed.

Lemma ends_run : forall A c (q : reply -> cprog A) w Q,
  (let (w', r) := exec w c in ends (q r) w' None Q) -> ends (Do c q) w None Q.
Proof.
  intros A c q w Q H. unfold ends, crunk in *. cbn [runk].
  destruct (is_faultable c); destruct (exec w c); exact H.
Qed.

Lemma ends_ignored : forall A c (p : cprog A) w k Q, is_faultable c = true -> fst (exec w c) = w ->
  (forall k', ends p w k' Q) -> ends (Do c (fun _ => p)) w k Q.
Proof.
  intros A c p w k Q Hc Hw Hp. apply ends_call; [exact Hc|apply Hp|]. intros k'.
  destruct (exec w c) as [w' r]. cbn [fst] in Hw. subst w'. apply Hp.
Qed.

Lemma ends_send : forall A m (q : reply -> cprog A) w k Q,
  ends (q ROk) (set_out w (m :: out w)) k Q -> ends (Do (Send m) q) w k Q.
Proof. intros A m q w k Q H. exact H. Qed.

Lemma ends_none : forall A (p : cprog A) w (Q : world -> option nat -> A -> Prop),
  ends p w None (fun w' _ a => Q w' None a) -> ends p w None Q.
Proof.
  intros A p w Q. unfold ends. destruct (crunk p w None) as [[w' k'] a] eqn:E.
  apply crunk_none_k in E. subst. auto.
Qed.

Lemma ends_budget : forall A (p : cprog A) w k Q,
  ends p w k Q -> ends p w k (fun w' k' a => Q w' k' a /\ (k = None -> k' = None)).
Proof.
  intros A p w k Q. unfold ends. destruct (crunk p w k) as [[w' k'] a] eqn:E. intros H. split; [exact H|].
  intros ->. apply crunk_none_k in E. exact E.
Qed.

(* on a script unfolded to Do/Ret form: [step k] splits at the next call (first goal: the fault fires;
   second: it executes, under a budget again called k); [exe] computes what the executed call does *)
Ltac step k := apply ends_call; [reflexivity|norm|clear k; intros k].
Ltac exe := cbn [exec]; look; norm.

Definition oth (w : world) (l : list wl) (p : list plug) (c : list cont) : world :=
  mkWorld (pods w) (nodes w) l (markers w) p c (walq w) (wal_seq w) (out w) (strict_remove w) (script w).

Lemma oth_same : forall w, w = oth w (wls w) (plugs w) (conts w).
Proof. destruct w; reflexivity. Qed.

Lemma del_cont_none : forall l id, find (fun y => wid_eqb (c_id y) id) l = None -> del_cont id l = l.
Proof.
  intros l id H. apply filter_all. intros z Hz. rewrite (find_none _ _ H z Hz). reflexivity.
Qed.

Lemma eremove_ok : forall w id force, (force = true \/ strict_remove w = false) ->
  exec w (ERemove id force) = (set_conts w (del_cont id (conts w)), ROk).
Proof.
  intros w id force H. cbn [exec]. unfold find_cont.
  destruct (find (fun x => wid_eqb (c_id x) id) (conts w)) eqn:E.
  - destruct H as [->| ->]; [rewrite andb_false_r|]; reflexivity.
  - rewrite del_cont_none by exact E. destruct w; reflexivity.
Qed.

Lemma remove_txn_spec : forall n x force w k p,
  NoDup (ids (wls w)) ->
  find_wl w (w_id x) = Some x -> find_plug w n = Some p -> (force = true \/ strict_remove w = false) ->
  ends (remove_txn n x force) w k (fun w' _ r =>
    (r = None -> w' = oth w (del_wl (w_id x) (wls w)) (upd_plug n (sub_use (w_res x)) (plugs w)) (del_cont (w_id x) (conts w))) /\
    (r <> None -> exists l, w' = oth w l (plugs w) (conts w) /\ Permutation l (wls w))).
Proof.
  intros n x force w k p Hnd Hx Hp Hforce.
  unfold find_wl in Hx. unfold find_plug in Hp.
  unfold remove_txn, do_remove_workload, txn, doc, call1. norm.
  step k.
  - split; [discriminate|]. intros _. exists (wls w). split; [apply oth_same|reflexivity].
  - exe. rewrite Hp. norm. rewrite radd_0_r. step k.
    + (* SRemoveWorkload fails: usage is given back *)
      apply ends_run. exe. rewrite find_plug_upd by reflexivity. rewrite Hp. cbn [option_map]. norm. rewrite radd_0_r.
      split; [discriminate|]. intros _. exists (wls w). split; [|reflexivity].
      look. rewrite upd_plug_add_sub. destruct w; reflexivity.
    + exe. step k.
      * (* ERemove fails: record re-added, usage given back *)
        apply ends_run. exe. rewrite find_del_none. norm. apply ends_run. exe.
        rewrite find_plug_upd by reflexivity. rewrite Hp. cbn [option_map]. norm. rewrite radd_0_r.
        split; [discriminate|]. intros _. eexists. split.
        -- look. rewrite upd_plug_add_sub. destruct w; reflexivity.
        -- apply del_add_perm; auto.
      * rewrite eremove_ok by (look; exact Hforce). norm.
        split; [|congruence]. intros _. look. reflexivity.
Qed.

Lemma dissociate_txn_spec : forall n x w k p,
  find_wl w (w_id x) = Some x -> find_plug w n = Some p ->
  ends (dissociate_txn n x) w k (fun w' _ r =>
    (r = None -> w' = oth w (del_wl (w_id x) (wls w)) (upd_plug n (sub_use (w_res x)) (plugs w)) (conts w)) /\
    (r <> None -> w' = w)).
Proof.
  intros n x w k p Hx Hp.
  unfold find_wl in Hx. unfold find_plug in Hp.
  unfold dissociate_txn, txn, doc, call1. norm.
  step k.
  - split; [discriminate|reflexivity].
  - exe. rewrite Hp. norm. rewrite radd_0_r. step k.
    + apply ends_run. exe. rewrite find_plug_upd by reflexivity. rewrite Hp. cbn [option_map]. norm. rewrite radd_0_r.
      split; [discriminate|]. intros _. look. rewrite upd_plug_add_sub. destruct w; reflexivity.
    + exe. split; [|congruence]. intros _. look. reflexivity.
Qed.

Lemma do_realloc_spec : forall x req w k p c,
  NoDup (ids (wls w)) ->
  find_wl w (w_id x) = Some x -> find_plug w (w_node x) = Some p -> find_cont w (w_id x) = Some c ->
  ends (do_realloc x x req) w k (fun w' _ r =>
    (r = None -> w' = oth w (upd_wl (mkWl (w_id x) (w_node x) (w_pod x) (radd (w_res x) req)) (wls w))
                          (upd_plug (w_node x) (add_use req) (plugs w)) (conts w)) /\
    (r <> None -> w' = w)).
Proof.
  intros x req w k p c Hnd Hx Hp Hc.
  unfold find_wl in Hx. unfold find_plug in Hp. unfold find_cont in Hc.
  unfold do_realloc, txn_s, ign, doc, call1. norm.
  step k.
  - split; [discriminate|reflexivity].
  - exe. rewrite Hp.
    (* a request the node cannot take is refused before anything changes *)
    destruct ((fst (radd (w_res x) req) <? 0) || (snd (radd (w_res x) req) <? 0)); norm;
      [split; [discriminate|reflexivity]|].
    destruct (fits (sub_use (w_res x) p) 1 (radd (w_res x) req)); norm;
      [|split; [discriminate|reflexivity]].
    step k.
    + (* UpdateWorkload fails: the delta is given back *)
      apply ends_run. exe. rewrite find_plug_upd by reflexivity. rewrite Hp. cbn [option_map]. norm.
      split; [discriminate|]. intros _. look. rewrite upd_plug_sub_add. destruct w; reflexivity.
    + exe. rewrite Hx. norm. step k.
      * (* engine update fails: delta back, record restored *)
        apply ends_run. exe. rewrite find_plug_upd by reflexivity. rewrite Hp. cbn [option_map]. norm.
        apply ends_run. exe. rewrite find_wl_upd. rewrite Hx. cbn [option_map]. norm.
        split; [discriminate|]. intros _.
        look. rewrite upd_plug_sub_add. rewrite upd_wl_back by auto. destruct w; reflexivity.
      * exe. rewrite Hc. norm. split; [|congruence]. intros _. look. reflexivity.
Qed.
