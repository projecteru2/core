(* Proofs for C13: in every reachable state of a deployment (= after every
   prefix of an accepted call sequence, for every interleaving of the instance
   goroutines, every placement of injected failures, both backends) each node's
   status count lies between the recorded workloads and prior + planned; after
   the deployment returned the count is the recorded number (plus what other
   deployments' markers contributed) and no marker of the deployment remains.

   One deployment is the case of DeployMulti.v in which every slot carries the
   same ident: [step] accepts a call only if [mstep] accepts it on the lifted
   state, and both execute it alike ([step_sim]).  What step adds, the order of
   the phases, matters in one place only: AddWorkload finds the marker of its
   node because the condition step created all of them ([covered]). *)
From Coq Require Import List Bool String ZArith Lia.
From Verif Require Import Calcium.DeployStatus Calcium.DeployMulti Calcium.DeployMultiProofs.
Import ListNotations.
Local Open Scope Z_scope.

Lemma plan_count_None : forall (pl : list (string * Z)) n, ~ In n (map fst pl) -> plan_count pl n = None.
Proof.
  induction pl as [|[m j] t IH]; simpl; intros n H; [reflexivity|].
  destruct (String.eqb_spec m n); [tauto | apply IH; tauto].
Qed.
Lemma plan_count_remove_other : forall (pl : list (string * Z)) n m, m <> n ->
  plan_count (remove_plan n pl) m = plan_count pl m.
Proof.
  induction pl as [|[x j] t IH]; simpl; intros n m Hne; [reflexivity|].
  destruct (String.eqb_spec x n) as [->|_]; simpl.
  - destruct (String.eqb_spec n m); [congruence | reflexivity].
  - destruct (String.eqb x m); [reflexivity | apply IH; exact Hne].
Qed.

Section Sim.
  Variable b : backend.
  Variable ident : string.
  Variable plan : list (string * Z).
  Variable d0 : list dkey.

  Definition slot_of (n : string) : slot := (n, ident).
  Definition lift_plan (pl : list (string * Z)) : list (slot * Z) := map (fun p => (slot_of (fst p), snd p)) pl.
  Definition lift_insts (insts : list (dkey * istate)) : list minst := map (fun p => mkMi (fst p) ident (snd p)) insts.
  Definition lift_call (c : call) : mcall :=
    match c with
    | CCreateProc n k inj => MCreateProc ident n k inj
    | CAdd n id inj => MAdd ident n id inj
    | CRemove n id inj => MRemove n id inj
    | CDelProc n inj => MDelProc ident n inj
    end.
  (* [mstep] keeps no phase; its to-do list is given separately, see [todo_ok] *)
  Definition lift_acc (todo : list (slot * Z)) (a : acc) : macc :=
    mkMacc todo (lift_insts (a_insts a)) (map slot_of (a_clean a)) (map slot_of (a_live a)).

  Lemma slot_eqb : forall m n, pair_eqb (slot_of m) (slot_of n) = String.eqb m n.
  Proof. intros. unfold pair_eqb. simpl. rewrite String.eqb_refl. apply andb_true_r. Qed.

  Lemma splan_count_lift : forall pl n, splan_count (lift_plan pl) (slot_of n) = plan_count pl n.
  Proof. induction pl as [|[m j] t IH]; intros n; simpl; [|rewrite slot_eqb, IH]; reflexivity. Qed.
  Lemma splanned_lift : forall pl n, splanned (lift_plan pl) (slot_of n) = planned pl n.
  Proof. intros. unfold splanned, planned. rewrite splan_count_lift. reflexivity. Qed.
  Lemma remove_splan_lift : forall pl n, remove_splan (slot_of n) (lift_plan pl) = lift_plan (remove_plan n pl).
  Proof.
    induction pl as [|[m j] t IH]; intros n; simpl; [reflexivity|].
    rewrite slot_eqb. destruct (String.eqb m n); simpl; [|rewrite IH]; reflexivity.
  Qed.
  Lemma remove_slot_lift : forall l n, remove_slot (slot_of n) (map slot_of l) = map slot_of (remove_str n l).
  Proof.
    induction l as [|m t IH]; intros n; simpl; [reflexivity|].
    rewrite slot_eqb. destruct (String.eqb m n); simpl; [|rewrite IH]; reflexivity.
  Qed.
  Lemma mem_slot_lift : forall l n, mem_slot (slot_of n) (map slot_of l) = mem_str n l.
  Proof. induction l as [|m t IH]; intros n; simpl; [|rewrite slot_eqb, IH]; reflexivity. Qed.
  Lemma minsts_on_lift : forall insts n, minsts_on (lift_insts insts) (slot_of n) = insts_on insts n.
  Proof.
    intros. unfold minsts_on, insts_on. do 2 f_equal. induction insts as [|[[m id] s] t IH]; simpl; [reflexivity|].
    change (mi_slot (mkMi (m, id) ident s)) with (slot_of m). rewrite slot_eqb.
    destruct (String.eqb m n); simpl; rewrite IH; reflexivity.
  Qed.
  Lemma minst_state_lift : forall insts k,
    minst_state k (lift_insts insts) = option_map (fun s => (ident, s)) (inst_state k insts).
  Proof.
    induction insts as [|[k' s] t IH]; intros k; simpl; [reflexivity|].
    destruct (pair_eqb k k'); [reflexivity | apply IH].
  Qed.
  Lemma set_minst_lift : forall insts k s, set_minst k s (lift_insts insts) = lift_insts (set_inst k s insts).
  Proof.
    induction insts as [|[k' s'] t IH]; intros k s; simpl; [reflexivity|].
    destruct (pair_eqb k k'); simpl; [|rewrite IH]; reflexivity.
  Qed.
  Lemma mid_used_lift : forall id insts, mid_used id (lift_insts insts) d0 = id_used id insts d0.
  Proof.
    intros. unfold mid_used, id_used. f_equal.
    induction insts as [|p t IH]; simpl; [|rewrite IH]; reflexivity.
  Qed.
  Lemma planned_on_lift : forall pl n, NoDup (map fst pl) -> planned_on (lift_plan pl) n = planned pl n.
  Proof.
    induction pl as [|[m k] t IH]; intros n ND; [reflexivity|]. inversion ND; subst.
    simpl. rewrite IH by assumption. unfold planned. simpl.
    destruct (String.eqb_spec m n) as [->|_]; [rewrite plan_count_None by assumption|]; lia.
  Qed.
  Lemma keys_lift : forall pl, map fst (lift_plan pl) = map slot_of (map fst pl).
  Proof. intros. unfold lift_plan. rewrite !map_map. reflexivity. Qed.

  (* once the condition step is over, a marker exists for every planned node *)
  Definition covered (a : acc) : Prop :=
    match a_phase a with
    | PCond => forall n, plan_count plan n <> None -> In n (a_live a) \/ plan_count (a_todo a) n <> None
    | PDeploy => forall n, plan_count plan n <> None -> In n (a_live a)
    | PClean => True
    end.

  (* the to-do lists agree until the clean-up begins; from then on step ignores its own *)
  Definition todo_ok (a : acc) (todo : list (slot * Z)) : Prop :=
    a_phase a <> PClean -> todo = lift_plan (a_todo a).

  Lemma step_sim : forall a st c a' st' todo, covered a -> todo_ok a todo ->
    step b ident plan d0 (a, st) c = Some (a', st') ->
    covered a' /\ exists todo',
      mstep b (lift_plan plan) d0 (lift_acc todo a, st) (lift_call c) = Some (lift_acc todo' a', st') /\ todo_ok a' todo'.
  Proof.
    intros a st c a' st' todo Cov Htodo H. unfold covered, todo_ok in *.
    destruct c as [n k inj | n id inj | n id inj | n inj]; cbn [step] in H;
      cbn [lift_call mstep lift_acc m_todo m_insts m_clean m_live].
    - (* CreateProcessing *)
      destruct (a_phase a) eqn:Ph; try discriminate. rewrite Htodo by discriminate. fold (slot_of n).
      rewrite splan_count_lift, remove_splan_lift.
      destruct (plan_count (a_todo a) n) as [k'|] eqn:Et; [|discriminate]. destruct (Z.eqb k k'); [|discriminate].
      destruct (if inj then (st, false) else create_processing st n ident k) as [st1 [|]]; inversion H; subst a' st'; simpl.
      + change [slot_of n] with (map slot_of [n]). rewrite <- map_app.
        split; [|eexists; split; reflexivity].
        intros m Hm. destruct (string_dec m n) as [->|Hne]; [left; apply in_or_app; right; left; reflexivity|].
        rewrite plan_count_remove_other by exact Hne.
        destruct (Cov m Hm) as [Hl|Hl]; [left; apply in_or_app; left; exact Hl | right; exact Hl].
      + split; [exact Logic.I|]. eexists. split; [reflexivity | intros []; reflexivity].
    - (* AddWorkload *)
      fold (slot_of n). rewrite mem_slot_lift, mid_used_lift, minsts_on_lift, splanned_lift. unfold planned.
      destruct (plan_count plan n) as [kn|] eqn:Ep; [|rewrite !andb_false_r in H; discriminate].
      match type of H with (if ?c then _ else _) = _ => destruct c eqn:G end; [|discriminate].
      apply andb_true_iff in G. destruct G as [G G3]. apply andb_true_iff in G. destruct G as [G1 G2].
      (* the condition step is over and went well: all markers are there *)
      assert (Hlive : a_phase a <> PClean /\ forall m, plan_count plan m <> None -> In m (a_live a)).
      { destruct (a_phase a); [destruct (a_todo a) eqn:Et | |]; try discriminate; (split; [discriminate|]); [|exact Cov].
        intros m Hm. destruct (Cov m Hm) as [Hl|Hl]; [exact Hl | contradiction]. }
      destruct Hlive as [Hph Hlive].
      replace (mem_str n (a_live a)) with true
        by (symmetry; apply existsb_exists; exists n; split; [apply Hlive; congruence | apply String.eqb_refl]).
      rewrite G2, G3. simpl.
      destruct (if inj then (st, false) else add_workload b st n id ident) as [st1 ok]; inversion H; subst a' st'; simpl.
      split; [exact Hlive|]. eexists. split; [reflexivity | intros _; exact (Htodo Hph)].
    - (* RemoveWorkload *)
      rewrite minst_state_lift, !set_minst_lift.
      destruct (a_phase a) eqn:Ph; try discriminate.
      assert (T : PDeploy <> PClean -> todo = lift_plan (a_todo a)) by (intros _; apply Htodo; discriminate).
      destruct (inst_state (n, id) (a_insts a)) as [[| | |]|]; try discriminate; simpl.
      + destruct inj; inversion H; subst a' st'; simpl; rewrite ?Ph; (split; [exact Cov|]); eexists; (split; [reflexivity|]);
          simpl; rewrite ?Ph; exact T.
      + inversion H; subst a' st'; simpl. split; [exact Cov|]. eexists. split; [reflexivity | exact T].
    - (* DeleteProcessing *)
      fold (slot_of n). rewrite mem_slot_lift, !remove_slot_lift.
      destruct (mem_str n (a_clean a)); [|discriminate].
      destruct inj; inversion H; subst a' st'; simpl;
        (split; [exact Logic.I|]); eexists; (split; [reflexivity | intros []; reflexivity]).
  Qed.

  Lemma run_sim : forall cs a st a' st' todo, covered a -> todo_ok a todo ->
    run b ident plan d0 (a, st) cs = Some (a', st') ->
    exists todo', mrun b (lift_plan plan) d0 (lift_acc todo a, st) (map lift_call cs) = Some (lift_acc todo' a', st').
  Proof.
    induction cs as [|c t IH]; intros a st a' st' todo Cov T H; cbn [run map mrun] in *.
    - inversion H; subst. exists todo. reflexivity.
    - destruct (step b ident plan d0 (a, st) c) as [[a1 st1]|] eqn:E; [|discriminate].
      destruct (step_sim _ _ _ _ _ _ Cov T E) as [Cov1 [todo1 [E1 T1]]]. rewrite E1. exact (IH _ _ _ _ _ Cov1 T1 H).
  Qed.

  Lemma run_lift : forall cs a st st0, run b ident plan d0 (start_acc plan, st0) cs = Some (a, st) ->
    exists todo, mrun b (lift_plan plan) d0 (mstart (lift_plan plan), st0) (map lift_call cs) = Some (lift_acc todo a, st).
  Proof.
    intros cs a st st0 R.
    replace (mstart (lift_plan plan)) with (lift_acc (lift_plan plan) (start_acc plan))
      by (unfold mstart, lift_acc; simpl; rewrite keys_lift; reflexivity).
    eapply run_sim; [intros n H; right; exact H | intros _; reflexivity | exact R].
  Qed.
End Sim.

Definition wf_plan (plan : list (string * Z)) : Prop :=
  NoDup (map fst plan) /\ forall n k, In (n, k) plan -> 0 <= k.

Lemma plan_wf_lift : forall ident plan st0, wf_plan plan -> has_marker_of st0 ident = false ->
  plan_wf (lift_plan ident plan) st0.
Proof.
  intros ident plan st0 [ND Hnn] Hf. repeat split.
  - rewrite keys_lift. clear Hnn. induction (map fst plan) as [|n t IH]; simpl; [constructor|]. inversion ND; subst.
    constructor; [|apply IH; assumption]. intro X. apply in_map_iff in X. destruct X as [m [E Hm]].
    inversion E; subst. contradiction.
  - intros s k H. apply in_map_iff in H. destruct H as [[n k'] [E H]]. inversion E; subst. exact (Hnn _ _ H).
  - intros p Hp. apply splan_count_None. rewrite keys_lift. intro X. apply in_map_iff in X. destruct X as [n [E _]].
    rewrite <- not_true_iff_false in Hf. apply Hf. apply existsb_exists. exists p. split; [exact Hp|].
    simpl. apply String.eqb_eq. apply (f_equal snd) in E. symmetry. exact E.
Qed.

Theorem C13_bounds_thm : forall b ident plan st0 cs a st,
  wf_plan plan -> has_marker_of st0 ident = false ->
  run b ident plan (deployed st0) (start_acc plan, st0) cs = Some (a, st) ->
  forall n, 0 <= marker_sum (markers st0) n ->
  recorded st n <= status st n <= status st0 n + planned plan n.
Proof.
  intros b ident plan st0 cs a st W Hf Hrun n Hn. destruct (run_lift _ _ _ _ _ _ _ _ Hrun) as [todo R].
  rewrite <- (planned_on_lift ident) by apply W.
  eapply multi_bounds; [apply plan_wf_lift; eassumption | unfold status; lia | exact R].
Qed.

Theorem C13_final_thm : forall b ident plan st0 cs a st,
  wf_plan plan -> has_marker_of st0 ident = false ->
  run b ident plan (deployed st0) (start_acc plan, st0) cs = Some (a, st) ->
  returned a = true ->
  has_marker_of st ident = false /\
  forall n, status st n = recorded st n + (status st0 n - recorded st0 n).
Proof.
  intros b ident plan st0 cs a st W Hf Hrun Hr. destruct (run_lift _ _ _ _ _ _ _ _ Hrun) as [todo R].
  assert (Em : markers st = markers st0).
  { eapply returned_markers; [exact (minv_reach _ _ _ _ _ _ (plan_wf_lift _ _ _ W Hf) R)|].
    unfold returned in Hr. unfold mreturned. simpl. destruct (a_clean a); [reflexivity | discriminate]. }
  unfold has_marker_of, status. rewrite Em. split; [exact Hf | intros n; lia].
Qed.

(* prefixes of accepted sequences are accepted: the bounds hold in every intermediate state *)
Lemma run_app : forall b ident plan d0 cs1 cs2 s,
  run b ident plan d0 s (cs1 ++ cs2)
  = match run b ident plan d0 s cs1 with Some s' => run b ident plan d0 s' cs2 | None => None end.
Proof.
  induction cs1 as [|c t IH]; intros cs2 s; simpl; [reflexivity|].
  destruct (step b ident plan d0 s c); [apply IH | reflexivity].
Qed.

Theorem C13_every_prefix : forall b ident plan st0 cs1 cs2 a st,
  wf_plan plan -> has_marker_of st0 ident = false ->
  run b ident plan (deployed st0) (start_acc plan, st0) (cs1 ++ cs2) = Some (a, st) ->
  exists a1 st1, run b ident plan (deployed st0) (start_acc plan, st0) cs1 = Some (a1, st1) /\
  forall n, 0 <= marker_sum (markers st0) n ->
  recorded st1 n <= status st1 n <= status st0 n + planned plan n.
Proof.
  intros b ident plan st0 cs1 cs2 a st W Hf Hrun. rewrite run_app in Hrun.
  destruct (run b ident plan (deployed st0) (start_acc plan, st0) cs1) as [[a1 st1]|] eqn:E; [|discriminate].
  exists a1, st1. split; [reflexivity|]. intros n Hn. eapply C13_bounds_thm; eauto.
Qed.

(* non-vacuity *)
Local Open Scope string_scope.
Definition ex_plan : list (string * Z) := [("n1", 2%Z); ("n2", 1%Z)].
Definition ex_init : dstate := mkD [("n1", "old")] [].
Definition ex_calls : list call :=
  [CCreateProc "n1" 2 false; CCreateProc "n2" 1 false;
   CAdd "n1" "a" false; CAdd "n2" "b" true; CAdd "n1" "c" false; CRemove "n1" "a" false;
   CRemove "n2" "b" false; CDelProc "n2" false; CDelProc "n1" false].

Example ex_accepted :
  wf_plan ex_plan /\ has_marker_of ex_init "id" = false /\
  exists a st, run Etcd "id" ex_plan (deployed ex_init) (start_acc ex_plan, ex_init) ex_calls = Some (a, st)
    /\ returned a = true /\ status st "n1" = 2%Z /\ recorded st "n1" = 2%Z /\ status st "n2" = 0%Z.
Proof.
  split; [split; [repeat constructor; simpl; intuition congruence|]|].
  - intros n k [H|[H|[]]]; inversion H; lia.
  - split; [reflexivity|]. eexists. eexists. split; [vm_compute; reflexivity|]. repeat split.
Qed.

(* GetDeployStatus reads the deploy keys and the markers in two separate store
   reads (store/*/deploy.go).  A reader racing with the LAST AddWorkload of a
   node may combine the deploy keys from before with the markers from after:
   it then sees one instance fewer than is recorded. *)
Definition torn_status (before after : dstate) (n : string) : Z :=
  recorded before n + marker_sum (markers after) n.
Example torn_read_undercounts :
  let s1 := mkD [] [(("n1", "id"), 1%Z)] in
  let s2 := fst (add_workload Etcd s1 "n1" "a" "id") in
  (torn_status s1 s2 "n1" < recorded s2 "n1")%Z.
Proof. vm_compute. reflexivity. Qed.
