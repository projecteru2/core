(* Proofs for C13 with ANY NUMBER of concurrent deployments of one entrypoint:
   after every prefix of every accepted call sequence (every interleaving of the
   deployments and of their instance goroutines, every placement of injected
   failures, both backends), for every node
       recorded <= status <= prior + sum of what all deployments planned there,
   and once every marker deletion succeeded no marker of any deployment remains
   and status = recorded (+ what markers outside the plan contributed before).

   The store is a function of the acceptor's state ([mstore]): the deployed keys
   are those of the live instances, and every live slot s carries the marker
   splanned s - (successful AddWorkloads on s).  Each store call is an equation
   on [mstore]; the acceptor's own book-keeping splits into what concerns the
   instances ([insts_ok]) and what concerns the stages of the slots ([slots_ok]). *)
From Coq Require Import List Bool String ZArith Lia Permutation.
From Verif Require Import Calcium.DeployStatus Calcium.DeployMulti Base.ListFacts.
Import ListNotations.
Local Open Scope Z_scope.

Lemma pair_eqb_spec : forall a b, pair_eqb a b = true <-> a = b.
Proof.
  intros [a1 a2] [b1 b2]. unfold pair_eqb. simpl. rewrite andb_true_iff, !String.eqb_eq.
  split; [intros [H1 H2]; subst; reflexivity | intros H; inversion H; auto].
Qed.
Lemma pair_eqP : forall a b, reflect (a = b) (pair_eqb a b).
Proof. intros. apply iff_reflect. symmetry. apply pair_eqb_spec. Qed.
Lemma pair_eqb_refl : forall a, pair_eqb a a = true.
Proof. intros. apply pair_eqb_spec. reflexivity. Qed.
Lemma pair_eqb_neq : forall a b, a <> b -> pair_eqb a b = false.
Proof. intros a b H. destruct (pair_eqP a b); [contradiction | reflexivity]. Qed.

Lemma NoDup_app_shrink : forall {A} (l1 l2 k1 k2 : list A), NoDup (l1 ++ l2) ->
  NoDup k1 -> NoDup k2 -> incl k1 l1 -> incl k2 l2 -> NoDup (k1 ++ k2).
Proof.
  intros A l1 l2 k1 k2 H N1 N2 I1 I2. apply NoDup_app_iff in H. destruct H as [_ [_ Hd]].
  apply NoDup_app_iff. repeat split; [exact N1 | exact N2|].
  intros x H1 H2. exact (Hd x (I1 x H1) (I2 x H2)).
Qed.

Definition cnt {A} (f : A -> bool) (l : list A) : Z := Z.of_nat (List.length (filter f l)).

Lemma cnt_cons : forall {A} (f : A -> bool) x l, cnt f (x :: l) = (if f x then 1 else 0) + cnt f l.
Proof.
  intros. unfold cnt. cbn [filter]. destruct (f x); [cbn [List.length]; rewrite Nat2Z.inj_succ|]; lia.
Qed.
Lemma cnt_nonneg : forall {A} (f : A -> bool) l, 0 <= cnt f l.
Proof. intros. unfold cnt. lia. Qed.
Lemma cnt_le : forall {A} (f g : A -> bool) l, (forall x, f x = true -> g x = true) -> cnt f l <= cnt g l.
Proof.
  intros A f g l H. induction l as [|x t IH]; [unfold cnt; cbn; lia|].
  rewrite !cnt_cons. destruct (f x) eqn:E; [rewrite (H x E); lia | destruct (g x); lia].
Qed.

Lemma add_key_new : forall k l, ~ In k l -> add_key k l = k :: l.
Proof.
  intros k l H. unfold add_key, has_key. destruct (existsb (pair_eqb k) l) eqn:E; [|reflexivity].
  apply existsb_exists in E. destruct E as [x [Hx E]]. apply pair_eqb_spec in E. subst. contradiction.
Qed.
Lemma del_key_app : forall k l1 l2, del_key k (l1 ++ l2) = del_key k l1 ++ del_key k l2.
Proof. intros. unfold del_key. apply filter_app. Qed.
Lemma del_key_not_in : forall k l, ~ In k l -> del_key k l = l.
Proof.
  intros k l H. apply filter_all. intros x Hx. destruct (pair_eqP k x); [subst; contradiction | reflexivity].
Qed.
Lemma recorded_app : forall l1 l2 ms n,
  recorded (mkD (l1 ++ l2) ms) n = recorded (mkD l1 ms) n + recorded (mkD l2 ms) n.
Proof. intros. unfold recorded. cbn [deployed]. rewrite filter_app, app_length, Nat2Z.inj_add. reflexivity. Qed.

Lemma get_marker_skip : forall k l1 l2, get_marker k l1 = None -> get_marker k (l1 ++ l2) = get_marker k l2.
Proof.
  induction l1 as [|[k' v] t IH]; simpl; intros l2 H; [reflexivity|].
  destruct (pair_eqb k k'); [discriminate | apply IH; exact H].
Qed.
Lemma set_marker_skip : forall k v l1 l2, get_marker k l1 = None -> set_marker k v (l1 ++ l2) = l1 ++ set_marker k v l2.
Proof.
  induction l1 as [|[k' w] t IH]; simpl; intros l2 H; [reflexivity|].
  destruct (pair_eqb k k'); [discriminate | rewrite IH by exact H; reflexivity].
Qed.
Lemma del_marker_skip : forall k l1 l2, get_marker k l1 = None -> del_marker k (l1 ++ l2) = l1 ++ del_marker k l2.
Proof.
  unfold del_marker. induction l1 as [|[k' w] t IH]; simpl; intros l2 H; [reflexivity|].
  destruct (pair_eqb k k'); [discriminate | simpl; rewrite IH by exact H; reflexivity].
Qed.
Lemma get_marker_In : forall k v l, get_marker k l = Some v -> In (k, v) l.
Proof.
  induction l as [|[k' w] t IH]; simpl; intros H; [discriminate|].
  destruct (pair_eqP k k'); [left; congruence | right; apply IH; exact H].
Qed.
Lemma marker_sum_app : forall l1 l2 n, marker_sum (l1 ++ l2) n = marker_sum l1 n + marker_sum l2 n.
Proof. induction l1 as [|[[n' i] v] t IH]; intros; simpl; [reflexivity | rewrite IH; lia]. Qed.

Definition mown (f : slot -> Z) (lv : list slot) : list (mkey * Z) := map (fun s => (s, f s)) lv.

Lemma mem_slot_In : forall s l, mem_slot s l = true <-> In s l.
Proof.
  intros. unfold mem_slot. rewrite existsb_exists. split.
  - intros [y [Hy E]]. apply pair_eqb_spec in E. subst. exact Hy.
  - intros H. exists s. split; [exact H | apply pair_eqb_refl].
Qed.
Lemma mem_slot_false : forall s l, ~ In s l -> mem_slot s l = false.
Proof. intros s l H. destruct (mem_slot s l) eqn:E; [apply mem_slot_In in E; contradiction | reflexivity]. Qed.

Lemma mown_app : forall f l1 l2, mown f (l1 ++ l2) = mown f l1 ++ mown f l2.
Proof. intros. apply map_app. Qed.
Lemma mown_ext : forall f g lv, (forall s, In s lv -> f s = g s) -> mown f lv = mown g lv.
Proof. intros f g lv H. apply map_ext_in. intros s Hs. rewrite (H s Hs). reflexivity. Qed.

Lemma get_marker_mown : forall f lv s, get_marker s (mown f lv) = if mem_slot s lv then Some (f s) else None.
Proof.
  induction lv as [|m t IH]; intros s; simpl; [reflexivity|].
  destruct (pair_eqP s m); simpl; [subst; reflexivity | apply IH].
Qed.
Lemma set_marker_mown : forall f lv s v, NoDup lv -> In s lv ->
  set_marker s v (mown f lv) = mown (fun m => if pair_eqb s m then v else f m) lv.
Proof.
  induction lv as [|m t IH]; intros s v ND Hin; [destruct Hin|]. inversion ND; subst. simpl.
  destruct (pair_eqP s m) as [->|Hne].
  - f_equal. apply mown_ext.
    intros a Ha. rewrite pair_eqb_neq; [reflexivity | intro X; subst; contradiction].
  - destruct Hin as [Hin|Hin]; [congruence|]. rewrite IH by assumption. reflexivity.
Qed.
Lemma set_marker_absent_mown : forall f lv s v, ~ In s lv -> set_marker s v (mown f lv) = mown f lv ++ [(s, v)].
Proof.
  induction lv as [|m t IH]; intros s v H; simpl; [reflexivity|].
  rewrite pair_eqb_neq by (intro X; apply H; left; congruence).
  rewrite IH by (intro X; apply H; right; exact X). reflexivity.
Qed.
Lemma del_marker_mown : forall f lv s,
  del_marker s (mown f lv) = mown f (filter (fun m => negb (pair_eqb s m)) lv).
Proof.
  unfold del_marker. induction lv as [|m t IH]; intros s; simpl; [reflexivity|].
  destruct (pair_eqb s m); simpl; rewrite IH; reflexivity.
Qed.

Lemma remove_slot_incl : forall s l, incl (remove_slot s l) l.
Proof.
  induction l as [|m t IH]; simpl; intros x H; [exact H|].
  destruct (pair_eqb m s); [right; exact H|]. destruct H as [H|H]; [left; exact H | right; apply IH; exact H].
Qed.
Lemma remove_slot_other : forall s l x, x <> s -> In x l -> In x (remove_slot s l).
Proof.
  induction l as [|m t IH]; intros x Hne H; simpl; [exact H|].
  destruct (pair_eqP m s) as [->|_].
  - destruct H as [H|H]; [congruence | exact H].
  - destruct H as [H|H]; [left; exact H | right; apply IH; assumption].
Qed.
Lemma remove_slot_filter : forall s l, NoDup l -> remove_slot s l = filter (fun m => negb (pair_eqb s m)) l.
Proof.
  induction l as [|m t IH]; intros H; simpl; [reflexivity|]. inversion H; subst.
  destruct (pair_eqP m s) as [->|Hne].
  - rewrite pair_eqb_refl. simpl. symmetry. apply filter_all.
    intros x Hx. rewrite pair_eqb_neq; [reflexivity | intro X; subst; contradiction].
  - rewrite pair_eqb_neq by congruence. simpl. rewrite IH by assumption. reflexivity.
Qed.
Lemma remove_slot_NoDup : forall s l, NoDup l -> NoDup (remove_slot s l).
Proof. intros s l H. rewrite remove_slot_filter by exact H. apply NoDup_filter. exact H. Qed.
Lemma remove_slot_neq : forall s l x, NoDup l -> In x (remove_slot s l) -> x <> s.
Proof.
  intros s l x ND H E. subst x. rewrite remove_slot_filter in H by exact ND.
  apply filter_In in H. rewrite pair_eqb_refl in H. destruct H. discriminate.
Qed.
Lemma remove_slot_mono : forall s l l', NoDup l -> incl l l' -> incl (remove_slot s l) (remove_slot s l').
Proof.
  intros s l l' ND H x Hx. apply remove_slot_other; [eapply remove_slot_neq; eassumption|].
  apply H. eapply remove_slot_incl. exact Hx.
Qed.
Lemma remove_slot_perm : forall s l, In s l -> Permutation l (s :: remove_slot s l).
Proof.
  induction l as [|m t IH]; simpl; intros H; [destruct H|].
  destruct (pair_eqP m s) as [->|Hne]; [apply Permutation_refl|].
  destruct H as [H|H]; [congruence|]. eapply perm_trans; [apply perm_skip, IH, H | apply perm_swap].
Qed.

Lemma keys_remove_splan : forall s (pl : list (slot * Z)), map fst (remove_splan s pl) = remove_slot s (map fst pl).
Proof.
  induction pl as [|[m j] t IH]; simpl; [reflexivity|]. destruct (pair_eqb m s); simpl; [|rewrite IH]; reflexivity.
Qed.
Lemma remove_splan_incl : forall s (pl : list (slot * Z)), incl (remove_splan s pl) pl.
Proof.
  induction pl as [|[m j] t IH]; simpl; intros x H; [exact H|].
  destruct (pair_eqb m s); [right; exact H|]. destruct H as [H|H]; [left; exact H | right; apply IH; exact H].
Qed.

Lemma splan_count_In : forall (pl : list (slot * Z)) s k, splan_count pl s = Some k -> In (s, k) pl.
Proof.
  induction pl as [|[m j] t IH]; simpl; intros s k H; [discriminate|].
  destruct (pair_eqP m s); [left; congruence | right; apply IH; exact H].
Qed.
Lemma splan_count_None : forall (pl : list (slot * Z)) s, splan_count pl s = None <-> ~ In s (map fst pl).
Proof.
  induction pl as [|[m j] t IH]; simpl; intros s; [tauto|].
  destruct (pair_eqP m s) as [->|Hne]; [split; [discriminate | tauto] | rewrite IH; tauto].
Qed.
Lemma splan_count_NoDup : forall (pl : list (slot * Z)) s k, NoDup (map fst pl) -> In (s, k) pl -> splan_count pl s = Some k.
Proof.
  induction pl as [|[m j] t IH]; simpl; intros s k ND H; [destruct H|]. inversion ND; subst.
  destruct H as [H|H]; [inversion H; subst; rewrite pair_eqb_refl; reflexivity|].
  rewrite pair_eqb_neq; [apply IH; assumption|]. intro X. subst m. apply (in_map fst) in H. contradiction.
Qed.

Definition mlive (i : minst) : bool := match mi_state i with IAdded => true | _ => false end.
Definition mwas_added (i : minst) : bool := match mi_state i with IAdded | IRemoved => true | _ => false end.
Definition mlive_keys (insts : list minst) : list dkey := map mi_key (filter mlive insts).
Definition on_slot (s : slot) (i : minst) : bool := pair_eqb (mi_slot i) s.
Definition madds (insts : list minst) (s : slot) : Z := cnt (fun i => mwas_added i && on_slot s i) insts.
Definition mlive_slot (insts : list minst) (s : slot) : Z := cnt (fun i => mlive i && on_slot s i) insts.
Definition mlive_on (insts : list minst) (n : string) : Z := cnt (fun i => mlive i && String.eqb (fst (mi_key i)) n) insts.
Definition mid (i : minst) : string := snd (mi_key i).

Lemma minsts_on_cnt : forall insts s, minsts_on insts s = cnt (on_slot s) insts.
Proof. reflexivity. Qed.

Lemma recorded_mlive_keys : forall insts ms n, recorded (mkD (mlive_keys insts) ms) n = mlive_on insts n.
Proof.
  intros. unfold recorded, mlive_on, mlive_keys, cnt. simpl. f_equal.
  induction insts as [|p t IH]; simpl; [reflexivity|].
  destruct (mlive p) eqn:L; simpl; [destruct (String.eqb (fst (mi_key p)) n); simpl; rewrite IH; reflexivity | exact IH].
Qed.
Lemma mlive_keys_ids : forall insts k, In k (mlive_keys insts) -> In (snd k) (map mid insts).
Proof.
  intros insts k H. apply in_map_iff in H. destruct H as [p [E Hp]].
  apply filter_In in Hp. apply in_map_iff. exists p. split; [unfold mid; rewrite E; reflexivity | tauto].
Qed.
Lemma mid_used_false : forall id insts d0, mid_used id insts d0 = false ->
  ~ In id (map mid insts) /\ forall n, ~ In (n, id) d0.
Proof.
  intros id insts d0 H. apply orb_false_iff in H. destruct H as [H1 H2]. split.
  - intro Hin. apply in_map_iff in Hin. destruct Hin as [p [E Hp]].
    rewrite <- not_true_iff_false in H1. apply H1. apply existsb_exists. exists p. split; [exact Hp | apply String.eqb_eq; exact E].
  - intros n Hin. rewrite <- not_true_iff_false in H2. apply H2. apply existsb_exists.
    exists (n, id). split; [exact Hin | apply String.eqb_refl].
Qed.
Lemma madds_cons : forall p insts s,
  madds (p :: insts) s = (if mwas_added p && on_slot s p then 1 else 0) + madds insts s.
Proof. intros. unfold madds. rewrite cnt_cons. reflexivity. Qed.
Lemma madds_le_on : forall insts s, 0 <= madds insts s <= minsts_on insts s.
Proof.
  intros. split; [apply cnt_nonneg|]. rewrite minsts_on_cnt. apply cnt_le.
  intros x H. apply andb_true_iff in H. tauto.
Qed.
Lemma mlive_slot_bounds : forall insts s, 0 <= mlive_slot insts s <= madds insts s.
Proof.
  intros. split; [apply cnt_nonneg|]. apply cnt_le. intros x H. apply andb_true_iff in H. destruct H as [H1 H2].
  rewrite H2. unfold mlive, mwas_added in *. destruct (mi_state x); try discriminate; reflexivity.
Qed.
Lemma minsts_on_pos : forall insts i, In i insts -> 1 <= minsts_on insts (mi_slot i).
Proof.
  intros insts i. rewrite minsts_on_cnt. induction insts as [|p t IH]; [intros []|]. intros [H|H]; rewrite cnt_cons.
  - subst p. unfold on_slot at 1. rewrite pair_eqb_refl. pose proof (cnt_nonneg (on_slot (mi_slot i)) t). lia.
  - specialize (IH H). destruct (on_slot (mi_slot i) p); lia.
Qed.

Lemma map_set_minst : forall {B} (g : minst -> B) k s insts,
  (forall i s', g (mkMi (mi_key i) (mi_ident i) s') = g i) -> map g (set_minst k s insts) = map g insts.
Proof.
  intros B g k s insts Hg. induction insts as [|i t IH]; simpl; [reflexivity|].
  destruct (pair_eqb k (mi_key i)); simpl; [rewrite Hg | rewrite IH]; reflexivity.
Qed.
Lemma minst_state_In : forall k id s insts, minst_state k insts = Some (id, s) -> In (mkMi k id s) insts.
Proof.
  induction insts as [|[k' id' s'] t IH]; simpl; intros H; [discriminate|].
  destruct (pair_eqP k k'); [left; congruence | right; apply IH; exact H].
Qed.
Lemma cnt_set_minst : forall (f : minst -> bool) k id s s0 insts,
  minst_state k insts = Some (id, s0) -> f (mkMi k id s) = f (mkMi k id s0) ->
  cnt f (set_minst k s insts) = cnt f insts.
Proof.
  intros f k id s s0 insts. induction insts as [|[k' id' s'] t IH]; simpl; intros H Hf; [discriminate|].
  destruct (pair_eqP k k') as [<-|_]; rewrite !cnt_cons.
  - inversion H; subst. rewrite Hf. reflexivity.
  - rewrite IH by assumption. reflexivity.
Qed.
Lemma madds_set_minst : forall insts k id0 s0 s1 s, minst_state k insts = Some (id0, s0) ->
  mwas_added (mkMi k id0 s1) = mwas_added (mkMi k id0 s0) -> madds (set_minst k s1 insts) s = madds insts s.
Proof. intros insts k id0 s0 s1 s Es Hw. apply (cnt_set_minst _ _ _ _ _ _ Es). cbv beta. rewrite Hw. reflexivity. Qed.
Lemma minsts_on_set_minst : forall insts k id0 s0 s1 s, minst_state k insts = Some (id0, s0) ->
  minsts_on (set_minst k s1 insts) s = minsts_on insts s.
Proof. intros insts k id0 s0 s1 s Es. apply (cnt_set_minst (on_slot s) _ _ _ _ _ Es). reflexivity. Qed.
Lemma filter_set_minst : forall (f : minst -> bool) k id s s0 insts, minst_state k insts = Some (id, s0) ->
  f (mkMi k id s) = false -> f (mkMi k id s0) = false -> filter f (set_minst k s insts) = filter f insts.
Proof.
  intros f k id s s0 insts. induction insts as [|[k' id' s'] t IH]; simpl; intros H F1 F0; [discriminate|].
  destruct (pair_eqP k k') as [<-|_]; simpl.
  - inversion H; subst. rewrite F1, F0. reflexivity.
  - rewrite IH by assumption. reflexivity.
Qed.
Lemma mlive_keys_set_gone : forall k s insts,
  NoDup (map mid insts) -> (forall id, mlive (mkMi k id s) = false) ->
  mlive_keys (set_minst k s insts) = del_key k (mlive_keys insts).
Proof.
  intros k s insts. unfold del_key. induction insts as [|[k' id' s'] t IH]; simpl; intros ND L; [reflexivity|].
  inversion ND as [|? ? Hn Hd]; subst.
  destruct (pair_eqP k k') as [<-|Hne].
  - assert (T : del_key k (mlive_keys t) = mlive_keys t).
    { apply del_key_not_in. intro Hx. apply Hn. apply (mlive_keys_ids t k Hx). }
    unfold mlive_keys, del_key in *. simpl. rewrite (L id').
    destruct (mlive (mkMi k id' s')); simpl; rewrite ?pair_eqb_refl; simpl; rewrite T; reflexivity.
  - unfold mlive_keys in *. simpl. destruct (mlive (mkMi k' id' s')) eqn:L'; simpl.
    + rewrite pair_eqb_neq by exact Hne. simpl. f_equal. apply IH; assumption.
    + apply IH; assumption.
Qed.

Fixpoint sum_on (l : list slot) (g : slot -> Z) (n : string) : Z :=
  match l with
  | [] => 0
  | s :: t => (if String.eqb (fst s) n then g s else 0) + sum_on t g n
  end.
Lemma sum_on_ext : forall l f g n, (forall s, In s l -> f s = g s) -> sum_on l f n = sum_on l g n.
Proof.
  induction l as [|x t IH]; intros f g n H; simpl; [reflexivity|].
  rewrite (H x (or_introl eq_refl)). rewrite (IH f g n); [reflexivity|]. intros s Hs. apply H. right. exact Hs.
Qed.
Lemma sum_on_le : forall l f g n, (forall s, In s l -> f s <= g s) -> sum_on l f n <= sum_on l g n.
Proof.
  induction l as [|x t IH]; intros f g n H; simpl; [lia|].
  pose proof (H x (or_introl eq_refl)). assert (sum_on t f n <= sum_on t g n) by (apply IH; intros s Hs; apply H; right; exact Hs).
  destruct (String.eqb (fst x) n); lia.
Qed.
Lemma sum_on_zero : forall l n, sum_on l (fun _ => 0) n = 0.
Proof. induction l as [|x t IH]; intros n; simpl; [reflexivity|]. rewrite IH. destruct (String.eqb (fst x) n); reflexivity. Qed.
Lemma sum_on_add : forall l f g n, sum_on l (fun s => f s + g s) n = sum_on l f n + sum_on l g n.
Proof.
  induction l as [|x t IH]; intros f g n; simpl; [reflexivity|]. rewrite IH. destruct (String.eqb (fst x) n); lia.
Qed.
Lemma sum_on_indicator : forall l s0 v n, NoDup l ->
  sum_on l (fun s => if pair_eqb s0 s then v else 0) n = if mem_slot s0 l && String.eqb (fst s0) n then v else 0.
Proof.
  induction l as [|x t IH]; intros s0 v n ND; [reflexivity|]. inversion ND; subst. simpl. rewrite IH by assumption.
  destruct (pair_eqP s0 x) as [->|_]; simpl.
  - rewrite mem_slot_false by assumption. simpl. lia.
  - destruct (String.eqb (fst x) n); lia.
Qed.
Lemma marker_sum_mown : forall f lv n, marker_sum (mown f lv) n = sum_on lv f n.
Proof.
  induction lv as [|[n' i] t IH]; intros n; simpl; [reflexivity|]. rewrite IH. reflexivity.
Qed.
Lemma sum_on_sub : forall lv pl f n, NoDup lv -> NoDup pl -> incl lv pl ->
  sum_on lv f n = sum_on pl (fun s => if mem_slot s lv then f s else 0) n.
Proof.
  induction lv as [|x t IH]; intros pl f n NDl NDp Hsub.
  - simpl. rewrite sum_on_zero. reflexivity.
  - inversion NDl; subst. simpl. apply incl_cons_inv in Hsub. destruct Hsub as [Hx Ht].
    rewrite (IH pl f n) by assumption.
    replace (if String.eqb (fst x) n then f x else 0)
      with (sum_on pl (fun s => if pair_eqb x s then f x else 0) n)
      by (rewrite sum_on_indicator by assumption; apply mem_slot_In in Hx; rewrite Hx; reflexivity).
    rewrite <- sum_on_add. apply sum_on_ext. intros s _. simpl.
    destruct (pair_eqP s x) as [->|Hne].
    + rewrite pair_eqb_refl, mem_slot_false by assumption. simpl. lia.
    + rewrite !pair_eqb_neq by congruence. reflexivity.
Qed.
Lemma planned_on_sum : forall plan n, NoDup (map fst plan) -> planned_on plan n = sum_on (map fst plan) (splanned plan) n.
Proof.
  induction plan as [|[[n' i] k] t IH]; intros n ND; simpl; [reflexivity|]. inversion ND; subst.
  unfold splanned at 1. simpl. rewrite pair_eqb_refl. rewrite IH by assumption. f_equal.
  apply sum_on_ext. intros s Hs. unfold splanned. simpl.
  rewrite pair_eqb_neq; [reflexivity | intro X; subst; contradiction].
Qed.
Lemma mlive_on_sum : forall pl insts n, NoDup pl -> (forall p, In p insts -> In (mi_slot p) pl) ->
  mlive_on insts n = sum_on pl (mlive_slot insts) n.
Proof.
  intros pl insts n ND. induction insts as [|p t IH]; intros H.
  - unfold mlive_on, mlive_slot, cnt. simpl. rewrite sum_on_zero. reflexivity.
  - unfold mlive_on. rewrite cnt_cons. fold (mlive_on t n). rewrite IH by (intros q Hq; apply H; right; exact Hq).
    rewrite (sum_on_ext pl (mlive_slot (p :: t))
               (fun s => (if pair_eqb (mi_slot p) s then (if mlive p then 1 else 0) else 0) + mlive_slot t s)).
    + rewrite sum_on_add, sum_on_indicator by exact ND.
      replace (mem_slot (mi_slot p) pl) with true by (symmetry; apply mem_slot_In, H; left; reflexivity).
      unfold mi_slot. simpl. destruct (mlive p); destruct (String.eqb (fst (mi_key p)) n); simpl; lia.
    + intros s _. unfold mlive_slot. rewrite cnt_cons. unfold on_slot at 1.
      destruct (mlive p); destruct (pair_eqb (mi_slot p) s); simpl; lia.
Qed.

Section MInv.
  Variable b : backend.
  Variable plan : list (slot * Z).
  Variable st0 : dstate.
  Hypothesis plan_nd : NoDup (map fst plan).
  Hypothesis plan_nonneg : forall s k, In (s, k) plan -> 0 <= k.
  (* no marker that exists beforehand belongs to a slot of the plan *)
  Hypothesis fresh0 : forall p, In p (markers st0) -> splan_count plan (fst p) = None.

  Lemma fresh_marker : forall s, In s (map fst plan) -> get_marker s (markers st0) = None.
  Proof.
    intros s H. destruct (get_marker s (markers st0)) eqn:E; [|reflexivity].
    apply get_marker_In, fresh0, splan_count_None in E. contradiction.
  Qed.
  Lemma splanned_nonneg : forall s, 0 <= splanned plan s.
  Proof.
    intros s. unfold splanned. destruct (splan_count plan s) eqn:E; [|lia].
    apply splan_count_In in E. exact (plan_nonneg _ _ E).
  Qed.

  (* the store after the calls the acceptor went through *)
  Definition mstore (insts : list minst) (lv : list slot) : dstate :=
    mkD (mlive_keys insts ++ deployed st0)
        (markers st0 ++ mown (fun s => splanned plan s - madds insts s) lv).

  Lemma create_mstore : forall insts lv n ident (inj : bool), In (n, ident) (map fst plan) -> ~ In (n, ident) lv ->
    madds insts (n, ident) = 0 ->
    (if inj then (mstore insts lv, false) else create_processing (mstore insts lv) n ident (splanned plan (n, ident)))
    = (mstore insts (if negb inj then lv ++ [(n, ident)] else lv), negb inj).
  Proof.
    intros insts lv n ident inj Hp Hl Z0. destruct inj; [reflexivity|]. unfold create_processing, mstore. cbn [markers deployed negb].
    rewrite get_marker_skip, get_marker_mown, mem_slot_false by auto using fresh_marker.
    rewrite set_marker_skip, set_marker_absent_mown, mown_app by auto using fresh_marker.
    simpl. rewrite Z0, Z.sub_0_r. reflexivity.
  Qed.

  (* an injected failure writes nothing; otherwise the marker exists, so both backends decrement it *)
  Lemma add_mstore : forall insts lv n id ident (inj : bool), In (n, ident) (map fst plan) -> In (n, ident) lv -> NoDup lv ->
    ~ In id (map mid insts) -> ~ In (n, id) (deployed st0) ->
    (if inj then (mstore insts lv, false) else add_workload b (mstore insts lv) n id ident)
    = (mstore (mkMi (n, id) ident (if negb inj then IAdded else IAddFailed) :: insts) lv, negb inj).
  Proof.
    intros insts lv n id ident inj Hp Hl ND Hid Hd0. destruct inj; [reflexivity|].
    assert (E : add_workload b (mstore insts lv) n id ident
              = (mkD (add_key (n, id) (deployed (mstore insts lv)))
                     (set_marker (n, ident) (splanned plan (n, ident) - madds insts (n, ident) - 1)
                                 (markers (mstore insts lv))), true)).
    { unfold add_workload. cbn [mstore markers]. rewrite get_marker_skip, get_marker_mown by auto using fresh_marker.
      rewrite (proj2 (mem_slot_In _ _) Hl). destruct b; reflexivity. }
    rewrite E. unfold mstore. cbn [deployed markers negb]. f_equal. f_equal.
    - rewrite add_key_new; [reflexivity|]. intro H. apply in_app_or in H. destruct H as [H|H]; [|contradiction].
      apply mlive_keys_ids in H. contradiction.
    - rewrite set_marker_skip, set_marker_mown by auto using fresh_marker. f_equal. apply mown_ext. intros m _.
      rewrite madds_cons. unfold on_slot, mi_slot, mwas_added. simpl.
      destruct (pair_eqP (n, ident) m) as [<-|_]; lia.
  Qed.

  Record insts_ok (insts : list minst) : Prop := {
    io_ids : NoDup (map mid insts);
    io_fresh : forall k, In k (map mi_key insts) -> ~ In k (deployed st0);
    io_cap : forall s, minsts_on insts s <= splanned plan s }.

  (* an instance leaves the deployed keys; whether its AddWorkload had succeeded does not change *)
  Lemma set_minst_mstore : forall insts lv n id id0 s0 s1, insts_ok insts ->
    minst_state (n, id) insts = Some (id0, s0) ->
    (forall i, mlive (mkMi (n, id) i s1) = false) -> mwas_added (mkMi (n, id) id0 s1) = mwas_added (mkMi (n, id) id0 s0) ->
    remove_workload (mstore insts lv) n id = mstore (set_minst (n, id) s1 insts) lv.
  Proof.
    intros insts lv n id id0 s0 s1 [ND Hf _] Es L Hw. unfold remove_workload, mstore. cbn [deployed markers]. f_equal.
    - rewrite del_key_app, mlive_keys_set_gone by assumption. rewrite (del_key_not_in _ (deployed st0)); [reflexivity|].
      apply Hf. exact (in_map mi_key _ _ (minst_state_In _ _ _ _ Es)).
    - f_equal. apply mown_ext. intros m _. rewrite (madds_set_minst _ _ _ _ _ _ Es Hw). reflexivity.
  Qed.

  (* an instance without a record changes its state: the store does not notice *)
  Lemma dead_minst_mstore : forall insts lv k id0 s0 s1, minst_state k insts = Some (id0, s0) ->
    mlive (mkMi k id0 s1) = false -> mlive (mkMi k id0 s0) = false ->
    mwas_added (mkMi k id0 s1) = mwas_added (mkMi k id0 s0) ->
    mstore (set_minst k s1 insts) lv = mstore insts lv.
  Proof.
    intros insts lv k id0 s0 s1 Es L1 L0 Hw. unfold mstore, mlive_keys. rewrite (filter_set_minst _ _ _ _ _ _ Es L1 L0).
    f_equal. f_equal. apply mown_ext. intros m _. rewrite (madds_set_minst _ _ _ _ _ _ Es Hw). reflexivity.
  Qed.

  Lemma delete_mstore : forall insts lv n ident, In (n, ident) (map fst plan) -> NoDup lv ->
    delete_processing (mstore insts lv) n ident = mstore insts (remove_slot (n, ident) lv).
  Proof.
    intros. unfold delete_processing, mstore. cbn [deployed markers].
    rewrite del_marker_skip, del_marker_mown, <- remove_slot_filter by auto using fresh_marker. reflexivity.
  Qed.

  Lemma recorded_mstore : forall insts lv n, recorded (mstore insts lv) n = mlive_on insts n + recorded st0 n.
  Proof. intros. unfold mstore. rewrite recorded_app, recorded_mlive_keys. reflexivity. Qed.
  Lemma marker_sum_mstore : forall insts lv n,
    marker_sum (markers (mstore insts lv)) n
    = marker_sum (markers st0) n + sum_on lv (fun s => splanned plan s - madds insts s) n.
  Proof. intros. cbn [mstore markers]. rewrite marker_sum_app, marker_sum_mown. reflexivity. Qed.

  Lemma insts_add : forall insts n id ident x, insts_ok insts ->
    ~ In id (map mid insts) -> ~ In (n, id) (deployed st0) ->
    minsts_on insts (n, ident) < splanned plan (n, ident) -> insts_ok (mkMi (n, id) ident x :: insts).
  Proof.
    intros insts n id ident x [Hi Hf Hc] Hid Hd0 Hlt. constructor; simpl.
    - constructor; assumption.
    - intros k [<-|Hk]; [exact Hd0 | apply Hf; exact Hk].
    - intros s. pose proof (Hc s) as C. rewrite minsts_on_cnt in *. rewrite cnt_cons.
      unfold on_slot at 1, mi_slot. simpl. destruct (pair_eqP (n, ident) s) as [<-|_]; lia.
  Qed.
  Lemma insts_set : forall insts k id0 s0 s1, insts_ok insts -> minst_state k insts = Some (id0, s0) ->
    insts_ok (set_minst k s1 insts).
  Proof.
    intros insts k id0 s0 s1 [Hi Hf Hc] Es. constructor.
    - rewrite map_set_minst by reflexivity. exact Hi.
    - rewrite map_set_minst by reflexivity. exact Hf.
    - intros s. rewrite (minsts_on_set_minst _ _ _ _ _ _ Es). apply Hc.
  Qed.
  (* an instance on a slot outside the plan would exceed the slot's planned count, 0 *)
  Lemma insts_in_plan : forall insts i, insts_ok insts -> In i insts -> In (mi_slot i) (map fst plan).
  Proof.
    intros insts i Ho Hi. pose proof (minsts_on_pos _ _ Hi). pose proof (io_cap _ Ho (mi_slot i)) as C.
    unfold splanned in C. destruct (splan_count plan (mi_slot i)) eqn:E; [|lia].
    apply splan_count_In in E. exact (in_map fst _ _ E).
  Qed.

  (* the stages of a slot: to-do, then marker live, then marker deleted; clean = not deleted yet *)
  Record slots_ok (todo : list (slot * Z)) (clean live : list slot) : Prop := {
    so_nd : NoDup (live ++ map fst todo);
    so_todo_plan : incl todo plan;
    so_todo_clean : incl (map fst todo) clean;
    so_live_clean : incl live clean;
    so_clean_plan : incl clean (map fst plan) }.

  (* after CreateProcessing the slot is no longer to do; it is live iff the call succeeded *)
  Lemma slots_create : forall todo clean live s (ok : bool), slots_ok todo clean live -> In s (map fst todo) ->
    slots_ok (remove_splan s todo) clean (if ok then live ++ [s] else live).
  Proof.
    intros todo clean live s ok [ND Hp Htc Hlc Hcp] Hs. destruct (proj1 (NoDup_app_iff _ _) ND) as [Nl [Nt _]].
    constructor; try assumption; rewrite ?keys_remove_splan.
    - destruct ok.
      + rewrite <- app_assoc. eapply Permutation_NoDup; [|exact ND]. apply Permutation_app_head, remove_slot_perm, Hs.
      + apply (NoDup_app_shrink _ _ _ _ ND); auto using remove_slot_NoDup, remove_slot_incl, incl_refl.
    - eapply incl_tran; [apply remove_splan_incl | exact Hp].
    - eapply incl_tran; [apply remove_slot_incl | exact Htc].
    - destruct ok; [|exact Hlc]. apply incl_app; [exact Hlc|]. intros x [<-|[]]. exact (Htc _ Hs).
  Qed.
  Lemma slots_delete : forall todo clean live s, slots_ok todo clean live ->
    slots_ok (remove_splan s todo) (remove_slot s clean) (remove_slot s live).
  Proof.
    intros todo clean live s [ND Hp Htc Hlc Hcp]. destruct (proj1 (NoDup_app_iff _ _) ND) as [Nl [Nt _]].
    constructor; rewrite ?keys_remove_splan.
    - apply (NoDup_app_shrink _ _ _ _ ND); auto using remove_slot_NoDup, remove_slot_incl.
    - eapply incl_tran; [apply remove_splan_incl | exact Hp].
    - apply remove_slot_mono; assumption.
    - apply remove_slot_mono; assumption.
    - eapply incl_tran; [apply remove_slot_incl | exact Hcp].
  Qed.

  Record MInv (a : macc) (st : dstate) : Prop := {
    mv_store : st = mstore (m_insts a) (m_live a);
    mv_insts : insts_ok (m_insts a);
    mv_slots : slots_ok (m_todo a) (m_clean a) (m_live a);
    mv_todo_noinst : forall s, In s (map fst (m_todo a)) -> minsts_on (m_insts a) s = 0 }.

  Lemma minv_start : MInv (mstart plan) st0.
  Proof.
    constructor; simpl.
    - unfold mstore. simpl. rewrite app_nil_r. destruct st0; reflexivity.
    - constructor; simpl; [constructor | intros k [] | intros s; apply splanned_nonneg].
    - constructor; simpl; [exact plan_nd | apply incl_refl | apply incl_refl | intros s [] | apply incl_refl].
    - reflexivity.
  Qed.

  Lemma minv_step : forall a st c a' st', MInv a st ->
    mstep b plan (deployed st0) (a, st) c = Some (a', st') ->
    MInv a' st' /\ forall s, madds (m_insts a) s <= madds (m_insts a') s.
  Proof.
    intros a st c a' st' I H. pose proof I as [E Hi Hs Hn]. subst st.
    destruct (proj1 (NoDup_app_iff _ _) (so_nd _ _ _ Hs)) as [NDl [NDt Hdisj]].
    assert (Hlp : incl (m_live a) (map fst plan)).
    { eapply incl_tran; [apply (so_live_clean _ _ _ Hs) | apply (so_clean_plan _ _ _ Hs)]. }
    assert (Hn' : forall s0 s, In s (map fst (remove_splan s0 (m_todo a))) -> minsts_on (m_insts a) s = 0).
    { intros s0 s X. apply Hn. rewrite keys_remove_splan in X. exact (remove_slot_incl _ _ _ X). }
    destruct c as [ident n k inj | ident n id inj | n id inj | ident n inj]; cbn [mstep] in H.
    - (* CreateProcessing *)
      destruct (splan_count (m_todo a) (n, ident)) as [k'|] eqn:Et; [|discriminate].
      destruct (Z.eqb_spec k k') as [<-|]; [|discriminate].
      apply splan_count_In in Et.
      assert (Hk : splanned plan (n, ident) = k).
      { unfold splanned. rewrite (splan_count_NoDup _ _ k plan_nd); [reflexivity|]. exact (so_todo_plan _ _ _ Hs _ Et). }
      apply (in_map fst) in Et. simpl in Et.
      rewrite <- Hk, create_mstore in H.
      + inversion H; subst a' st'. split; [|intros s; apply Z.le_refl].
        constructor; simpl; [reflexivity | exact Hi | apply slots_create; assumption | apply Hn'].
      + exact (so_clean_plan _ _ _ Hs _ (so_todo_clean _ _ _ Hs _ Et)).
      + intro X. exact (Hdisj _ X Et).
      + pose proof (madds_le_on (m_insts a) (n, ident)). rewrite (Hn _ Et) in *. lia.
    - (* AddWorkload *)
      destruct (mem_slot _ _ && negb _ && _) eqn:Cond; [|discriminate].
      apply andb_true_iff in Cond. destruct Cond as [Cond Hcap]. apply andb_true_iff in Cond. destruct Cond as [Hl Hid].
      apply mem_slot_In in Hl. apply negb_true_iff, mid_used_false in Hid. destruct Hid as [Hid Hd0]. apply Z.ltb_lt in Hcap.
      rewrite (add_mstore _ _ _ _ _ inj (Hlp _ Hl) Hl NDl Hid (Hd0 n)) in H. inversion H; subst a' st'. split.
      + constructor; simpl; [reflexivity | apply insts_add; auto | exact Hs|].
        intros s X. rewrite minsts_on_cnt, cnt_cons. unfold on_slot at 1, mi_slot. simpl.
        rewrite pair_eqb_neq by (intros <-; exact (Hdisj _ Hl X)). exact (Hn s X).
      + intros s. simpl. rewrite madds_cons. destruct (_ && _); lia.
    - (* RemoveWorkload *)
      destruct (minst_state (n, id) (m_insts a)) as [[ident0 s0]|] eqn:Es; [|discriminate].
      assert (Common : forall s1, mwas_added (mkMi (n, id) ident0 s1) = mwas_added (mkMi (n, id) ident0 s0) ->
                MInv (mkMacc (m_todo a) (set_minst (n, id) s1 (m_insts a)) (m_clean a) (m_live a))
                     (mstore (set_minst (n, id) s1 (m_insts a)) (m_live a))
                /\ forall s, madds (m_insts a) s <= madds (set_minst (n, id) s1 (m_insts a)) s).
      { intros s1 Hw. split; [|intros s; rewrite (madds_set_minst _ _ _ _ _ _ Es Hw); apply Z.le_refl].
        constructor; simpl; [reflexivity | eapply insts_set; eassumption | exact Hs|].
        intros s X. rewrite (minsts_on_set_minst _ _ _ _ _ _ Es). exact (Hn s X). }
      destruct s0; try discriminate.
      + (* recorded instance; an injected failure leaves the record *)
        destruct inj; inversion H; subst a' st'; [split; [exact I | intros s; apply Z.le_refl]|].
        rewrite (set_minst_mstore _ (m_live a) _ _ _ _ IRemoved Hi Es (fun _ => eq_refl) eq_refl). apply Common. reflexivity.
      + (* instance whose AddWorkload failed: there is no record, removing it or not gives the same store *)
        destruct inj; inversion H; subst a' st'.
        * rewrite <- (dead_minst_mstore _ (m_live a) _ _ _ IFailedGone Es eq_refl eq_refl eq_refl). apply Common. reflexivity.
        * rewrite (set_minst_mstore _ (m_live a) _ _ _ _ IFailedGone Hi Es (fun _ => eq_refl) eq_refl). apply Common. reflexivity.
    - (* DeleteProcessing; after it the slot is finished *)
      destruct (mem_slot (n, ident) (m_clean a)) eqn:Ec; [|discriminate]. apply mem_slot_In in Ec.
      destruct inj; inversion H; subst a' st'; (split; [|intros s; apply Z.le_refl]); [exact I|].
      constructor; simpl; [|exact Hi | apply slots_delete; exact Hs | apply Hn'].
      apply delete_mstore; [exact (so_clean_plan _ _ _ Hs _ Ec) | exact NDl].
  Qed.

  Theorem minv_run : forall cs a st a' st', MInv a st ->
    mrun b plan (deployed st0) (a, st) cs = Some (a', st') ->
    MInv a' st' /\ forall s, madds (m_insts a) s <= madds (m_insts a') s.
  Proof.
    induction cs as [|c t IH]; intros a st a' st' I H; cbn [mrun] in H.
    - inversion H; subst. split; [exact I | intros s; apply Z.le_refl].
    - destruct (mstep b plan (deployed st0) (a, st) c) as [[a1 st1]|] eqn:E; [|discriminate].
      destruct (minv_step _ _ _ _ _ I E) as [I1 M1]. destruct (IH _ _ _ _ I1 H) as [I' M']. split; [exact I'|].
      intros s. exact (Z.le_trans _ _ _ (M1 s) (M' s)).
  Qed.

  (* Deployed keys read in state st1, markers read in the later state st2.  Per slot s of the
     plan: the live instances at the first read are at most the successful adds then, hence
     at the second read, and the marker (if it still exists) holds splanned s minus those. *)
  Theorem mtorn_of_inv : forall a1 st1 a2 st2 n, MInv a1 st1 -> MInv a2 st2 ->
    (forall s, madds (m_insts a1) s <= madds (m_insts a2) s) ->
    recorded st0 n <= status st0 n ->
    recorded st1 n <= recorded st1 n + marker_sum (markers st2) n <= status st0 n + planned_on plan n.
  Proof.
    intros a1 st1 a2 st2 n I1 I2 Hm H0.
    rewrite (mv_store _ _ I1), (mv_store _ _ I2), recorded_mstore, marker_sum_mstore.
    set (f := fun s => splanned plan s - madds (m_insts a2) s). set (pl := map fst plan). unfold status in *.
    pose proof (mv_slots _ _ I2) as S2.
    destruct (proj1 (NoDup_app_iff _ _) (so_nd _ _ _ S2)) as [LND _].
    assert (Lsub : incl (m_live a2) pl) by (eapply incl_tran; [apply (so_live_clean _ _ _ S2) | apply (so_clean_plan _ _ _ S2)]).
    assert (Fnn : forall s, 0 <= f s).
    { intros s. unfold f. pose proof (madds_le_on (m_insts a2) s). pose proof (io_cap _ (mv_insts _ _ I2) s). lia. }
    assert (S0 : 0 <= sum_on (m_live a2) f n).
    { rewrite <- (sum_on_zero (m_live a2) n). apply sum_on_le. intros s _. apply Fnn. }
    split; [lia|].
    rewrite (mlive_on_sum pl (m_insts a1) n plan_nd (fun i => insts_in_plan _ i (mv_insts _ _ I1))).
    rewrite (sum_on_sub (m_live a2) pl f n LND plan_nd Lsub), (planned_on_sum plan n plan_nd). fold pl.
    assert (sum_on pl (mlive_slot (m_insts a1)) n + sum_on pl (fun s => if mem_slot s (m_live a2) then f s else 0) n
            <= sum_on pl (splanned plan) n); [|lia].
    rewrite <- sum_on_add. apply sum_on_le. intros s _.
    pose proof (mlive_slot_bounds (m_insts a1) s). pose proof (madds_le_on (m_insts a1) s).
    pose proof (io_cap _ (mv_insts _ _ I1) s). pose proof (Hm s).
    destruct (mem_slot s (m_live a2)); unfold f; lia.
  Qed.

  Theorem mbounds_of_inv : forall a st n, MInv a st -> recorded st0 n <= status st0 n ->
    recorded st n <= status st n <= status st0 n + planned_on plan n.
  Proof. intros a st n I H0. apply (mtorn_of_inv a st a st n I I); [intros; lia | exact H0]. Qed.

  Lemma returned_markers : forall a st, MInv a st -> mreturned a = true -> markers st = markers st0.
  Proof.
    intros a st I Hr. unfold mreturned in Hr. destruct (m_clean a) eqn:Ec; [|discriminate].
    pose proof (so_live_clean _ _ _ (mv_slots _ _ I)) as L. rewrite Ec in L. apply incl_l_nil in L.
    rewrite (mv_store _ _ I), L. apply app_nil_r.
  Qed.

  Theorem mfinal_of_inv : forall a st n, MInv a st -> mreturned a = true ->
    marker_of_plan_left plan st = false /\
    status st n = recorded st n + (status st0 n - recorded st0 n).
  Proof.
    intros a st n I Hr. unfold status, marker_of_plan_left. rewrite (returned_markers _ _ I Hr). split; [|lia].
    apply not_true_iff_false. intro E. apply existsb_exists in E. destruct E as [[s k] [Hp E]]. simpl in E.
    rewrite fresh_marker in E; [discriminate | exact (in_map fst _ _ Hp)].
  Qed.
End MInv.

Definition plan_wf (plan : list (slot * Z)) (st0 : dstate) : Prop :=
  NoDup (map fst plan) /\ (forall s k, In (s, k) plan -> 0 <= k)
  /\ (forall p, In p (markers st0) -> splan_count plan (fst p) = None).

Lemma minv_reach : forall b plan st0 cs a st, plan_wf plan st0 ->
  mrun b plan (deployed st0) (mstart plan, st0) cs = Some (a, st) -> MInv plan st0 a st.
Proof.
  intros b plan st0 cs a st [W1 [W2 W3]] R.
  exact (proj1 (minv_run b plan st0 W1 W3 _ _ _ _ _ (minv_start plan st0 W1 W2 W3) R)).
Qed.

Theorem multi_bounds : forall b plan st0 cs a st n,
  plan_wf plan st0 -> recorded st0 n <= status st0 n ->
  mrun b plan (deployed st0) (mstart plan, st0) cs = Some (a, st) ->
  recorded st n <= status st n <= status st0 n + planned_on plan n.
Proof. intros b plan st0 cs a st n W H0 R. eapply mbounds_of_inv; [apply W | eapply minv_reach; eassumption | exact H0]. Qed.

(* every prefix of an accepted sequence is accepted, so [multi_bounds] speaks of every step *)
Lemma mrun_app : forall b plan d0 cs1 cs2 s r, mrun b plan d0 s (cs1 ++ cs2) = Some r ->
  exists m, mrun b plan d0 s cs1 = Some m /\ mrun b plan d0 m cs2 = Some r.
Proof.
  induction cs1 as [|c t IH]; intros cs2 s r H; simpl in *.
  - exists s. split; [reflexivity | exact H].
  - destruct (mstep b plan d0 s c) as [s'|]; [|discriminate]. apply IH. exact H.
Qed.

Theorem multi_final : forall b plan st0 cs a st n,
  plan_wf plan st0 ->
  mrun b plan (deployed st0) (mstart plan, st0) cs = Some (a, st) -> mreturned a = true ->
  marker_of_plan_left plan st = false /\ status st n = recorded st n + (status st0 n - recorded st0 n).
Proof. intros b plan st0 cs a st n W R Hr. eapply mfinal_of_inv; [apply W | eapply minv_reach; eassumption | exact Hr]. Qed.

(* the bounds are reached: two deployments of one entrypoint, each planning one
   instance on node n; after both created their markers status = prior + 2 with
   nothing recorded, after both instances were added status = recorded = 2 *)
Example multi_bounds_reached :
  let plan := [(("n"%string, "a/e/1"%string), 1); (("n"%string, "a/e/2"%string), 1)] in
  let st0 := mkD [] [] in
  (exists a st, mrun Etcd plan [] (mstart plan, st0)
       [MCreateProc "a/e/1" "n" 1 false; MCreateProc "a/e/2" "n" 1 false] = Some (a, st)
     /\ status st "n" = 2 /\ recorded st "n" = 0) /\
  (exists a st, mrun Etcd plan [] (mstart plan, st0)
       [MCreateProc "a/e/1" "n" 1 false; MCreateProc "a/e/2" "n" 1 false;
        MAdd "a/e/1" "n" "w1" false; MAdd "a/e/2" "n" "w2" false] = Some (a, st)
     /\ status st "n" = 2 /\ recorded st "n" = 2).
Proof.
  (* [lazy] makes the witnesses normal forms, so that the counts are read off small terms *)
  split; eexists; eexists; (split; [lazy; reflexivity | split; reflexivity]).
Qed.

(* the code reads the deployed keys first (state st1) and the markers second
   (state st2, any number of store calls of any deployments later) *)
Definition torn_status (st1 st2 : dstate) (n : string) : Z := recorded st1 n + marker_sum (markers st2) n.

Theorem multi_torn_read : forall b plan st0 cs1 cs2 a1 st1 a2 st2 n,
  plan_wf plan st0 -> recorded st0 n <= status st0 n ->
  mrun b plan (deployed st0) (mstart plan, st0) cs1 = Some (a1, st1) ->
  mrun b plan (deployed st0) (a1, st1) cs2 = Some (a2, st2) ->
  recorded st1 n <= torn_status st1 st2 n <= status st0 n + planned_on plan n
  /\ torn_status st1 st2 n = status st2 n - (recorded st2 n - recorded st1 n).
Proof.
  intros b plan st0 cs1 cs2 a1 st1 a2 st2 n W H0 R1 R2.
  pose proof (minv_reach _ _ _ _ _ _ W R1) as I1. destruct W as [W1 [W2 W3]].
  destruct (minv_run b plan st0 W1 W3 _ _ _ _ _ I1 R2) as [I2 Hm].
  split; [|unfold torn_status, status; lia].
  exact (mtorn_of_inv plan st0 W1 a1 st1 a2 st2 n I1 I2 Hm H0).
Qed.

(* the other order (markers first, deployed keys second) breaks the upper bound:
   one deployment planning one instance, the reader straddling its AddWorkload
   sees the old marker and the new record: 2 > 0 + 1 *)
Example swapped_reads_overcount :
  let plan := [(("n"%string, "a/e/1"%string), 1)] in
  let st0 := mkD [] [] in
  exists a1 st1 a2 st2,
    mrun Redis plan [] (mstart plan, st0) [MCreateProc "a/e/1" "n" 1 false] = Some (a1, st1)
    /\ mrun Redis plan [] (a1, st1) [MAdd "a/e/1" "n" "w1" false] = Some (a2, st2)
    /\ marker_sum (markers st1) "n" + recorded st2 "n" = 2
    /\ status st0 "n" + planned_on plan "n" = 1
    (* while the code's order undercounts against the later state and stays within the bounds *)
    /\ torn_status st1 st2 "n" = 0 /\ recorded st2 "n" = 1.
Proof. do 4 eexists. repeat split; reflexivity. Qed.
