(* Calcium/CreateProofs.v — the parts of doCreateWorkloads for EVERY world, feasible plan and fault
   position: the programs of the deferred clean-up (they touch markers and the WAL only), the
   allocation loop and the condition step around it, the rollback loop.  CreateProofs2.v assembles them. *)
From Coq Require Import List Bool Arith ZArith Lia.
From Verif Require Import Base.Effects Calcium.World Calcium.Ops Calcium.OpsProofs Calcium.OpsProofs2 Calcium.DeployProofs.
Import ListNotations.
Local Open Scope Z_scope.

Definition core_neutral {A} (p : cprog A) : Prop :=
  forall w k, exists w' k' a, crunk p w k = (w', k', a) /\ core3 w' w (wls w) (conts w).

(* The deferred clean-up of create is made of such programs. *)
Definition quiet {A} (p : cprog A) : Prop :=
  forall w k, ends p w k (fun w' _ _ => core3 w' w (wls w) (conts w) /\ out w' = out w).

Lemma quiet_ret : forall A (a : A), quiet (Ret a).
Proof. intros A a w k. split; [apply core3_refl|reflexivity]. Qed.
Lemma quiet_bind : forall A B (p : cprog A) (f : A -> cprog B), quiet p -> (forall a, quiet (f a)) -> quiet (bind p f).
Proof.
  intros A B p f Hp Hf w k. apply ends_bind. eapply ends_mono; [apply Hp|]. intros w1 k1 a [Hc1 Ho1].
  eapply ends_mono; [apply Hf|]. intros w2 k2 b [Hc2 Ho2]. split; [eapply core3_trans; eauto|congruence].
Qed.
Lemma quiet_for_all : forall X (l : list X) (body : X -> cprog unit), (forall x, quiet (body x)) -> quiet (for_all l body).
Proof.
  induction l as [|x t IH]; intros body Hb; cbn [for_all]; [apply quiet_ret|apply quiet_bind; auto].
Qed.
Lemma quiet_call : forall c, is_faultable c = true ->
  (forall w, core3 (fst (exec w c)) w (wls w) (conts w) /\ out (fst (exec w c)) = out w) -> quiet (ign (doc c)).
Proof.
  intros c Hf Hc w k. unfold ign, doc, call1. norm. apply ends_call; [exact Hf|apply quiet_ret|]. intros k'.
  specialize (Hc w). destruct (exec w c) as [w' r]. exact Hc.
Qed.
Lemma quiet_delproc : forall n i, quiet (ign (doc (SDeleteProcessing n i))).
Proof. intros n i. apply quiet_call; [reflexivity|]. intros w. cbn [exec fst]. split; [repeat split|reflexivity]. Qed.
Lemma quiet_commit : forall t e, quiet (ign (doc (WCommit t e))).
Proof. intros t e. apply quiet_call; [reflexivity|]. intros w. cbn [exec fst]. split; [repeat split|reflexivity]. Qed.
Lemma quiet_commit_processing : forall opi l, quiet (commit_processing opi l).
Proof.
  induction l as [|[n [t|]] rest IH]; cbn [commit_processing].
  - apply quiet_ret.
  - apply quiet_bind; [apply quiet_commit|intros; exact IH].
  - apply quiet_ret.
Qed.

Fixpoint scale (k : nat) (r : res) : res := match k with O => rzero | S j => radd r (scale j r) end.
Lemma rsum_repeat : forall r k, rsum (repeat r k) = scale k r.
Proof. induction k; simpl; congruence. Qed.

Definition alloc_eff (r : res) (done : list (name * nat)) (P : list plug) : list plug :=
  fold_left (fun P g => upd_plug (fst g) (add_use (scale (snd g) r)) P) done P.

Definition feasible (w : world) (r : res) (plan : list (name * nat)) : Prop :=
  forall n cnt, In (n, cnt) plan -> exists p, find_plug w n = Some p /\ fits p (Z.of_nat cnt) r = true.

Lemma find_plug_upd_other : forall n f l m, (forall x, p_node (f x) = p_node x) -> n <> m ->
  find (fun x => Nat.eqb (p_node x) m) (upd_plug n f l) = find (fun x => Nat.eqb (p_node x) m) l.
Proof.
  intros n f l m Hf Hne. rewrite find_plug_upd by exact Hf.
  destruct (find (fun x => Nat.eqb (p_node x) m) l) as [x|] eqn:E; [|reflexivity]. simpl.
  apply find_some in E. destruct E as [_ E]. apply Nat.eqb_eq in E.
  assert (Nat.eqb (p_node x) n = false) as -> by (apply Nat.eqb_neq; congruence). reflexivity.
Qed.

Record alloc_post (r : res) (plan : list (name * nat)) (s s' : cstate_create) (w w' : world) (k' : option nat) (e : oerr) (done : list (name * nat)) : Prop := {
  ap_alloc : cs_alloc s' = cs_alloc s ++ done;
  ap_prefix : exists rest, plan = done ++ rest;
  ap_ok : e = None -> done = plan;
  ap_k : e <> None -> k' = None;
  ap_plan : cs_plan s' = cs_plan s;
  ap_tok : cs_rtoken s' = cs_rtoken s;
  ap_pods : pods w' = pods w; ap_nodes : nodes w' = nodes w; ap_wls : wls w' = wls w; ap_conts : conts w' = conts w;
  ap_strict : strict_remove w' = strict_remove w; ap_script : script w' = script w;
  ap_plugs : plugs w' = alloc_eff r done (plugs w);
  ap_out : out w' = out w;
}.

Lemma alloc_loop_spec : forall opi r plan s w k,
  NoDup (map fst plan) -> feasible w r plan ->
  ends (alloc_loop opi r plan s) w k (fun w' k' se => exists done, alloc_post r plan s (fst se) w w' k' (snd se) done).
Proof.
  intros opi r plan. induction plan as [|[n cnt] rest IH]; intros s w k Hnd Hfe.
  - apply ends_ret. cbn [fst snd]. exists [].
    constructor; auto; try (rewrite app_nil_r; reflexivity); try congruence. exists []. reflexivity.
  - cbn [map fst] in Hnd. inversion Hnd as [|? ? Hni Hnd']; subst.
    destruct (Hfe n cnt (or_introl eq_refl)) as [p [Hp Hfit]]. unfold find_plug in Hp.
    (* the nodes still to come are untouched by this allocation *)
    assert (Hrest : forall w3, plugs w3 = upd_plug n (add_use (scale cnt r)) (plugs w) -> feasible w3 r rest).
    { intros w3 Hpl n' cnt' Hin. assert (Hne : n <> n').
      { intro; subst. apply Hni. apply in_map_iff. exists (n', cnt'). auto. }
      destruct (Hfe n' cnt' (or_intror Hin)) as [p' [Hp' Hfit']]. exists p'. split; [|exact Hfit'].
      unfold find_plug in *. rewrite Hpl. rewrite find_plug_upd_other; auto. }
    (* allocated on this node, then stopped by the fault *)
    assert (Hstop : forall s' w', cs_alloc s' = cs_alloc s ++ [(n, cnt)] -> cs_plan s' = cs_plan s -> cs_rtoken s' = cs_rtoken s ->
              (pods w' = pods w /\ nodes w' = nodes w /\ wls w' = wls w /\ conts w' = conts w /\
               strict_remove w' = strict_remove w /\ script w' = script w /\ out w' = out w) ->
              plugs w' = upd_plug n (add_use (scale cnt r)) (plugs w) ->
              exists done, alloc_post r ((n, cnt) :: rest) s s' w w' None (Some EInjected) done).
    { intros s' w' Ha Hpl Ht [? [? [? [? [? [? ?]]]]]] Hplugs. exists [(n, cnt)].
      constructor; auto; try congruence. exists rest. reflexivity. }
    cbn [alloc_loop]. unfold doc, call1. norm. step k.
    + apply ends_ret. cbn [fst snd]. exists [].
      constructor; auto; try (rewrite app_nil_r; reflexivity); try congruence. exists ((n, cnt) :: rest). reflexivity.
    + cbn [exec]. unfold find_plug. rewrite Hp, Hfit. norm. rewrite rsum_repeat. step k.
      * (* the processing WAL entry cannot be written *)
        apply Hstop; try reflexivity. repeat split.
      * exe. step k.
        -- apply Hstop; try reflexivity. repeat split.
        -- exe. eapply ends_mono; [apply IH; [exact Hnd'|apply Hrest; reflexivity]|].
           intros w' k' [s' e] [done Hpost]. exists ((n, cnt) :: done). destruct Hpost. cbn [fst snd] in *.
           constructor; auto.
           ++ rewrite ap_alloc0. cbn [cs_alloc]. rewrite <- app_assoc. reflexivity.
           ++ destruct ap_prefix0 as [rr ->]. exists rr. reflexivity.
           ++ intros E. rewrite (ap_ok0 E). reflexivity.
Qed.

Definition rollback_eff (r : res) (rb : list (name * list nat)) (P : list plug) : list plug :=
  fold_left (fun P g => upd_plug (fst g) (sub_use (scale (length (snd g)) r)) P) rb P.

(* nothing but the usage recorded by the plugin changes (markers and the WAL aside) *)
Definition plugs_only (w w' : world) (P : list plug) : Prop :=
  pods w' = pods w /\ nodes w' = nodes w /\ wls w' = wls w /\ conts w' = conts w /\
  strict_remove w' = strict_remove w /\ script w' = script w /\ out w' = out w /\ plugs w' = P.

Lemma rollback_spec : forall r rb w,
  (forall g, In g rb -> find_node w (fst g) <> None /\ find_plug w (fst g) <> None) ->
  ends (rollback_prog r rb) w None (fun w' _ _ => plugs_only w w' (rollback_eff r rb (plugs w))).
Proof.
  intros r rb. induction rb as [|g rest IH]; intros w H; [repeat split|].
  destruct (H g (or_introl eq_refl)) as [Hnode Hplug].
  destruct (find_node w (fst g)) as [x|] eqn:Hx; [|congruence].
  destruct (find_plug w (fst g)) as [p|] eqn:Hp; [|congruence].
  unfold rollback_prog. cbn [for_all]. apply ends_bind. unfold ign at 1. apply ends_bind.
  destruct (with_node_pod_locked_none (fst g) (fun _ => doc (PRollbackAlloc (fst g) (repeat r (length (snd g))))) w x Hx) as [w1 [e [H1 H2]]].
  unfold ends at 1. rewrite H1.
  (* the body: the plugin gives the resources back *)
  unfold doc, call1, crunk in H2. cbn [bind runk exec] in H2. rewrite Hp in H2.
  cbn [err_of] in H2. inversion H2; subst w1 e. clear H1 H2.
  cbn beta. apply ends_ret. cbn beta. eapply ends_mono; [apply IH|].
  - intros g' Hg'. destruct (H g' (or_intror Hg')) as [Hn' Hp']. split; [exact Hn'|].
    unfold find_plug in *. cbn [plugs set_plugs]. rewrite find_plug_upd by reflexivity.
    destruct (find (fun x0 => Nat.eqb (p_node x0) (fst g')) (plugs w)); [discriminate|congruence].
  - intros w' _ _ [? [? [? [? [? [? [? Hpl]]]]]]].
    cbn [pods nodes wls conts strict_remove script out plugs set_plugs] in *.
    repeat split; auto. rewrite Hpl. unfold rollback_eff. cbn [fold_left]. rewrite rsum_repeat. reflexivity.
Qed.

Lemma feasible_plugs : forall w w' r plan, plugs w' = plugs w -> feasible w r plan -> feasible w' r plan.
Proof. intros w w' r plan H Hf n cnt Hin. destruct (Hf n cnt Hin) as [p [Hp Hfit]]. exists p. unfold find_plug in *. rewrite H. auto. Qed.

Record cond_post (r : res) (plan : option (list (name * nat))) (s1 : cstate_create) (w w1 : world) (k1 : option nat) (e : oerr) : Prop := {
  cp_pods : pods w1 = pods w; cp_nodes : nodes w1 = nodes w; cp_wls : wls w1 = wls w; cp_conts : conts w1 = conts w;
  cp_strict : strict_remove w1 = strict_remove w; cp_script : script w1 = script w;
  cp_plugs : plugs w1 = alloc_eff r (cs_alloc s1) (plugs w);
  cp_out : out w1 = out w;
  cp_prefix : match plan with Some dm => exists rest, dm = cs_alloc s1 ++ rest | None => cs_alloc s1 = [] end;
  cp_ok : e = None -> exists dm, plan = Some dm /\ cs_alloc s1 = dm /\ cs_plan s1 = dm;
  cp_fail : e <> None -> cs_alloc s1 = [] \/ k1 = None;
}.

Lemma cond_body_spec : forall opi r plan ns w k,
  match plan with Some dm => NoDup (map fst dm) /\ feasible w r dm | None => True end ->
  ends (cond_body opi r plan (mkCS None [] [] []) ns) w k (fun w1 k1 se => cond_post r plan (fst se) w w1 k1 (snd se)).
Proof.
  intros opi r plan ns w k Hplan.
  assert (Hpre0 : match plan with Some dm => exists rest, dm = [] ++ rest | None => @nil (name * nat) = [] end).
  { destruct plan as [dm|]; [exists dm; reflexivity|reflexivity]. }
  destruct ns as [|n0 nrest]; [constructor; auto; discriminate|].
  unfold cond_body. set (names := map n_name (n0 :: nrest)). unfold doc, call1. norm.
  (* up to the allocation loop nothing but the WAL changes *)
  step k; [constructor; auto; discriminate|]. exe.
  step k; [constructor; auto; discriminate|]. exe.
  step k; [constructor; auto; discriminate|]. exe.
  destruct plan as [dm|]; [|constructor; auto; discriminate].
  destruct Hplan as [Hnd Hfe].
  eapply ends_mono; [apply alloc_loop_spec; [exact Hnd|apply (feasible_plugs w); [reflexivity|exact Hfe]]|].
  intros w1 k1 [s1 e] [done Hp]. destruct Hp.
  cbn [fst snd cs_alloc cs_plan cs_rtoken app pods nodes wls conts strict_remove script plugs out set_wal] in *.
  constructor; auto.
  - rewrite ap_alloc0. exact ap_plugs0.
  - rewrite ap_alloc0. exact ap_prefix0.
  - intros E. exists dm. rewrite ap_alloc0, (ap_ok0 E). auto.
Qed.
