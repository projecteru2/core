(* Calcium/LambdaAll.v — the whole run-and-wait operation without a fault, EVERY world: every created workload is
   removed again (no record, no container), the records are exactly those of before, usage = sum still holds. *)
From Coq Require Import List Bool Arith ZArith Lia.
From Verif Require Import Base.Effects Calcium.World Calcium.Ops Calcium.Run Calcium.OpsProofs Calcium.OpsProofs2 Calcium.DeployProofs2 Calcium.CreateProofs2 Calcium.HistoryProofs Calcium.LambdaProofs Calcium.LambdaHistory Base.ListFacts.
Import ListNotations.
Local Open Scope Z_scope.

(* WAL tokens only grow: an exec-level invariant *)
Definition wal_ok (w : world) : Prop := forall t e, In (t, e) (walq w) -> (t < wal_seq w)%nat.

Lemma exec_keeps_wal_ok : forall w c, wal_ok w -> wal_ok (fst (exec w c)).
Proof.
  intros w c H. destruct c; simpl; try exact H; exec_cases; try exact H.
  - intros t e Hin. simpl in *. apply in_app_or in Hin. destruct Hin as [Hin|[Hin|[]]].
    + apply H in Hin. lia.
    + inversion Hin; subst. lia.
  - intros t e Hin. simpl in *. apply filter_In in Hin. destruct Hin as [Hin _]. apply H in Hin. exact Hin.
Qed.

Lemma wal_ok_fresh : forall w, wal_ok w -> forall e, ~ In (wal_seq w, e) (walq w).
Proof. intros w H e Hin. apply H in Hin. lia. Qed.

Lemma find_app_skip : forall (A : list wl) x B id, ~ In id (ids A) -> w_id x = id ->
  find (fun y => wid_eqb (w_id y) id) (A ++ x :: B) = Some x.
Proof.
  induction A as [|a t IH]; intros x B id Hn Hx; simpl.
  - rewrite Hx, wid_eqb_refl. reflexivity.
  - destruct (wid_eqb (w_id a) id) eqn:E.
    + exfalso. apply Hn. left. apply wid_eqb_eq in E. exact E.
    + apply IH; [intro; apply Hn; right; assumption|exact Hx].
Qed.

(* [x] in the middle of records with distinct ids: looking its id up finds it, deleting it leaves the rest *)
Lemma wls_middle : forall A x B, NoDup (ids (A ++ x :: B)) ->
  find (fun y => wid_eqb (w_id y) (w_id x)) (A ++ x :: B) = Some x /\ del_wl (w_id x) (A ++ x :: B) = A ++ B.
Proof.
  intros A x B Hnd. rewrite ids_app in Hnd. simpl in Hnd. apply NoDup_remove_2 in Hnd.
  assert (HA : ~ In (w_id x) (ids A)) by (intro; apply Hnd, in_or_app; left; assumption).
  assert (HB : ~ In (w_id x) (ids B)) by (intro; apply Hnd, in_or_app; right; assumption).
  split; [apply find_app_skip; [exact HA|reflexivity]|].
  unfold del_wl. rewrite filter_app. simpl. rewrite wid_eqb_refl. simpl.
  f_equal; apply filter_all; intros z Hz; apply negb_true_iff; apply wid_eqb_neq; intro E;
    [apply HA|apply HB]; rewrite <- E; unfold ids; apply in_map; exact Hz.
Qed.

Lemma created_of_filter : forall ms, created_of (filter is_create_msg ms) = created_of ms.
Proof.
  induction ms as [|m t IH]; [reflexivity|].
  destruct m; cbn [filter is_create_msg]; unfold created_of in *; cbn [flat_map]; rewrite ?IH; reflexivity.
Qed.

(* a loop run with the fault budget spent: [J rest w] holds with [rest] still to do *)
Lemma for_all_none : forall X (J : list X -> world -> Prop) (body : X -> cprog unit),
  (forall x t w, J (x :: t) w -> J t (after (body x) w None)) ->
  forall xs w, J xs w -> J [] (after (for_all xs body) w None).
Proof.
  intros X J body Hstep. induction xs as [|x t IH]; intros w HJ; [exact HJ|].
  cbn [for_all]. destruct (crunk (body x) w None) as [[w1 k1] []] eqn:E. rewrite (after_bind_eq _ _ E).
  pose proof (crunk_none_k _ _ _ _ _ _ E) as ->. apply IH.
  specialize (Hstep x t w HJ). unfold after in Hstep. rewrite E in Hstep. exact Hstep.
Qed.

(* between two closures of run-and-wait started in [w]: the workloads of the messages still to handle are the only
   ones recorded beside those of [w]; an id in [gone] has no container unless its closure is still to come *)
Record loop_inv (w : world) (pod : name) (gone : wid -> Prop) (rest : list msg) (W : world) : Prop := {
  li_wls : wls W = wls w ++ map (wl_of pod) (created_of rest);
  li_nodes : nodes W = nodes w;
  li_plugs : forall n p, find_plug w n = Some p -> exists p', find_plug W n = Some p';
  li_wal : wal_ok W;
  li_ids : NoDup (ids (wls W));
  li_known : forall p, In p (created_of rest) ->
    (exists nd, find_node w (wi_node (fst p)) = Some nd) /\ (exists q, find_plug w (wi_node (fst p)) = Some q);
  li_gone : forall j, gone j -> find_cont W j = None \/ In j (map fst (created_of rest));
}.

Lemma closure_step : forall stdin lines w pod gone m rest W,
  loop_inv w pod gone (m :: rest) W -> loop_inv w pod gone rest (after (lambda_one stdin lines m) W None).
Proof.
  intros stdin lines w pod gone m rest W [Hw Hn Hpl Hwal Hids Hnp Hgone].
  assert (Hsend : created_of (m :: rest) = created_of rest -> forall m0, loop_inv w pod gone rest (after (send m0) W None)).
  { intros Hc m0. rewrite after_send. rewrite Hc in *. constructor; assumption. }
  destruct m as [| |id r0| | | | | | | |]; try (apply Hsend; reflexivity).
  (* a created workload: its closure removes it *)
  cbn [created_of flat_map] in Hw, Hnp, Hgone. change (flat_map _ rest) with (created_of rest) in Hw, Hnp, Hgone.
  cbn [map app fst] in Hw, Hgone. set (x := wl_of pod (id, r0)) in *.
  assert (Hmid := Hids). rewrite Hw in Hmid. apply wls_middle in Hmid. destruct Hmid as [Hfind Hdel].
  assert (Hfx : find_wl W id = Some x) by (unfold find_wl; rewrite Hw; exact Hfind).
  destruct (Hnp (id, r0)) as [[nd Hnd] [q Hq]]; [left; reflexivity|]. cbn [fst] in Hnd, Hq.
  assert (Hnd' : find_node W (w_node x) = Some nd) by (unfold find_node; rewrite Hn; exact Hnd).
  destruct (Hpl _ _ Hq) as [q' Hq'].
  destruct (lambda_one_spec stdin lines id r0 W None x nd q' Hfx Hnd' Hq' (wal_ok_fresh W Hwal))
    as [W1 [k1 [kc [Hrun [Hkc [_ Hpost]]]]]].
  destruct (Hpost (Hkc eq_refl)) as [[Hrw Hrp Hnorec Hnocont Hrn Hframe] _ _].
  assert (HW1 : after (lambda_one stdin lines (MCreateOk id r0)) W None = W1) by (unfold after; unfold cst, oerr in *; rewrite Hrun; reflexivity).
  subst W1. constructor.
  - rewrite Hrw, Hw. exact Hdel.
  - rewrite Hrn. exact Hn.
  - intros n p Hp. unfold find_plug. rewrite Hrp. apply find_plug_upd_some; [reflexivity|]. exact (Hpl n p Hp).
  - apply (crunk_exec_inv wal_ok exec_keeps_wal_ok). exact Hwal.
  - apply (crunk_exec_inv (fun w => NoDup (ids (wls w))) exec_keeps_ids). exact Hids.
  - intros p Hp. apply Hnp. right. exact Hp.
  - intros j Hj. destruct (Hgone j Hj) as [Hc|[<-|Hin]]; [left; apply Hframe; exact Hc|left; exact Hnocont|right; exact Hin].
Qed.

(* C30, the whole operation, EVERY world, no fault: every workload the run-and-wait created is gone when the stream
   closes (no record, no container), the records are exactly those of before, and the invariant (usage = sum of the
   recorded workloads) holds: nothing of the run is left on any node *)
Theorem lambda_all_removed : forall opi pod r plan stdin lines w,
  create_hyp w opi r plan -> Inv w -> wal_ok w ->
  let w' := after (lambda opi pod r plan stdin lines) w None in
  wls w' = wls w /\ Inv w' /\
  exists ms, snd (crunk (create opi pod r plan) w None) = ms /\
    forall p, In p (created_of ms) -> find_wl w' (fst p) = None /\ find_cont w' (fst p) = None.
Proof.
  intros opi pod r plan stdin lines w Hhyp HI Hwal. cbn zeta.
  pose proof (lambda_keeps_Inv opi pod r plan stdin lines w None Hhyp HI) as HInv. unfold lambda in *.
  destruct (create_spec opi pod r plan w None Hhyp) as [W0 [k0 [ms [Hc P]]]].
  rewrite (after_bind_eq _ _ Hc) in HInv |- *. rewrite Hc. cbn [snd].
  pose proof (crunk_none_k _ _ _ _ _ _ Hc) as ->.
  assert (HW0 : W0 = after (create opi pod r plan) w None) by (unfold after; rewrite Hc; reflexivity).
  assert (HJ : loop_inv w pod (fun j => In j (map fst (created_of ms))) (filter is_create_msg ms) W0).
  { constructor; rewrite ?created_of_filter.
    - exact (cr_wls _ _ _ _ _ _ _ P).
    - exact (cr_nodes _ _ _ _ _ _ _ P).
    - intros n p Hp. unfold find_plug in *. rewrite (cr_plugs _ _ _ _ _ _ _ P), find_plug_map by reflexivity.
      rewrite Hp. eexists; reflexivity.
    - rewrite HW0. apply (crunk_exec_inv wal_ok exec_keeps_wal_ok). exact Hwal.
    - rewrite HW0. apply (crunk_exec_inv (fun w => NoDup (ids (wls w))) exec_keeps_ids). apply (wf_ids w (inv_wf w HI)).
    - intros p. apply (created_node_known _ _ _ _ _ _ _ p Hhyp P).
    - intros j Hj. right. exact Hj. }
  (* the close message is sent from a world that has the records of the start *)
  apply (for_all_none _ (loop_inv w pod _) _ (closure_step stdin lines w pod _)) in HJ.
  destruct HJ as [Hfin1 _ _ _ _ _ Hfin2]. cbn in Hfin1. rewrite app_nil_r in Hfin1.
  rewrite after_bind, after_send in HInv |- *.
  split; [exact Hfin1|]. split; [exact HInv|]. eexists. split; [reflexivity|]. intros p Hp. split.
  - destruct (cr_created _ _ _ _ _ _ _ P p Hp) as [Hop _]. destruct Hhyp as [Hfresh _].
    destruct (Hfresh (wi_node (fst p)) (wi_idx (fst p))) as [Hf _].
    unfold find_wl in *. cbn [wls set_out]. rewrite Hfin1.
    destruct (fst p) as [o n i]. simpl in *. subst o. exact Hf.
  - destruct (Hfin2 (fst p)) as [Hf|[]]; [apply in_map; exact Hp|exact Hf].
Qed.
