(* Proofs about the effect machinery of Base/Effects.v:
   - [runk_bind]: the index-addressed interpreter is compositional;
   - [run_is_runk]: every run with a single fail-before fault addressed as
     (method, target, ordinal) is a run of [runk] for some call index k, so a
     theorem proved "for every k" holds for every fault address the harness can inject;
   - [txn_matches_C17]: the [txn] combinator has exactly the semantics of the model of
     utils.Txn validated by C17 (Utils/Txn.v): same steps, same order, same rollback flag,
     same result, for every outcome vector. *)
From Coq Require Import List Bool.
From Verif Require Import Base.Effects Utils.Txn Calcium.World.
Import ListNotations.

Section Generic.
  Variable call reply world key : Type.
  Variable key_eqb : key -> key -> bool.
  Variable key_of : call -> key.
  Variable exec : world -> call -> world * reply.
  Variable fail_reply : call -> reply.
  Variable faultable : call -> bool.
  (* a call that cannot be hit by a fault has a key no fault address matches *)
  Hypothesis unfaultable_key : forall c k, faultable c = false -> key_eqb (key_of c) k = false.

  Notation prog := (prog call reply).
  Notation runk := (runk call reply world exec fail_reply faultable).
  Notation run := (run call reply world key key_eqb key_of exec fail_reply).

  Lemma runk_bind : forall A B (p : prog A) (f : A -> prog B) w k,
    runk (bind p f) w k =
    let '(w', k', a) := runk p w k in runk (f a) w' k'.
  Proof.
    induction p as [a|c q IH]; intros f w k; simpl.
    - reflexivity.
    - destruct (faultable c).
      + destruct k as [[|j]|].
        * apply IH.
        * destruct (exec w c) as [w' r]. apply IH.
        * destruct (exec w c) as [w' r]. apply IH.
      + destruct (exec w c) as [w' r]. apply IH.
  Qed.

  Lemma decide_cases : forall (s : ist call world key) c d seen hit,
    decide call world key key_eqb key_of s c = (d, seen, hit) ->
    (d = Proceed /\ (i_hit s = true -> hit = true)) \/
    (exists f, i_fault s = Some f /\ key_eqb (key_of c) (f_key f) = true /\ d = f_what f /\ i_hit s = false /\ hit = true).
  Proof.
    intros s c d seen hit. unfold decide.
    destruct (i_fault s) as [f|].
    - destruct (key_eqb (key_of c) (f_key f)) eqn:Ek.
      + destruct (i_hit s) eqn:Hh.
        * intros E; inversion E; subst. left; auto.
        * destruct (Nat.eqb (i_seen s) (f_ord f)).
          -- intros E; inversion E; subst. right. exists f. repeat split; auto.
          -- intros E; inversion E; subst. left. split; auto; try discriminate.
      + intros E; inversion E; subst. left; auto.
    - intros E; inversion E; subst. left; auto.
  Qed.

  Lemma run_is_runk : forall A (p : prog A) (s : ist call world key),
    (forall f, i_fault s = Some f -> f_what f = FailBefore) ->
    exists k,
      (i_hit s = true -> k = None) /\
      exists s' a k', run p s = (s', Some a) /\ runk p (i_world s) k = (i_world s', k', a).
  Proof.
    induction p as [a|c q IH]; intros s Hf.
    - exists None. split; [reflexivity|]. exists s, a, None. simpl. auto.
    - cbn [Effects.run].
      destruct (decide call world key key_eqb key_of s c) as [[d seen] hit] eqn:Hd.
      destruct (decide_cases _ _ _ _ _ Hd) as [[-> Hh]|[f [Hfs [Hkey [Hw [Hh Hh']]]]]].
      + (* the call executes; it takes one step of the index iff it is a fault position *)
        destruct (exec (i_world s) c) as [w' r] eqn:He.
        destruct (IH r (mkIst w' (i_fault s) seen hit ((c, false) :: i_trace s)) Hf) as [k1 [Hk1 [s' [a [k' [Hr Hk]]]]]].
        cbn [i_world i_hit] in Hk1, Hk.
        exists (if faultable c then match k1 with None => None | Some j => Some (S j) end else k1). split.
        * intros Ht. rewrite (Hk1 (Hh Ht)). destruct (faultable c); reflexivity.
        * exists s', a, k'. split; [exact Hr|]. cbn [Effects.runk].
          destruct (faultable c); [destruct k1|]; rewrite He; exact Hk.
      + (* the fault fires: its key matches, so this is a fault position, and it is index 0 *)
        assert (Hfc : faultable c = true).
        { destruct (faultable c) eqn:E; [reflexivity|]. rewrite (unfaultable_key c (f_key f) E) in Hkey. discriminate. }
        rewrite (Hf f Hfs) in Hw. subst d.
        destruct (IH (fail_reply c) (mkIst (i_world s) (i_fault s) seen hit ((c, true) :: i_trace s)) Hf) as [k1 [Hk1 [s' [a [k' [Hr Hk]]]]]].
        cbn [i_world i_hit] in Hk1, Hk. rewrite (Hk1 Hh') in Hk.
        exists (Some 0). split.
        * rewrite Hh. discriminate.
        * exists s', a, k'. split; [exact Hr|]. cbn [Effects.runk]. rewrite Hfc. exact Hk.
  Qed.
End Generic.

(* in the calcium instance the only unfaultable call is the channel send, whose key no address matches *)
Lemma unfaultable_has_no_key : forall (c : World.call) (k : World.key), World.is_faultable c = false -> World.key_eqb (World.key_of c) k = false.
Proof. intros c k H. destruct c; try discriminate. reflexivity. Qed.

(* Steps are abstracted to their scripted outcome exactly as in Utils/Txn.v: a step is a
   single call that records (who, rollback flag) and returns the scripted outcome. *)
Section TxnLink.
  Definition tcall := (step * bool)%type.
  Definition tworld := list tcall.                       (* steps executed, oldest first *)
  Definition texec (w : tworld) (c : tcall) : tworld * unit := (w ++ [c], tt).
  Definition tstep (who : step) (flag : bool) (o : outcome) : prog tcall unit (option unit) :=
    Do (who, flag) (fun _ => Ret (if failed o then Some tt else None)).

  Definition txn_of (cnd thn rb : outcome) : prog tcall unit (option unit) :=
    Effects.txn (tstep SCond false cnd)
        (match thn with Absent => None | _ => Some (tstep SThen false thn) end)
        (match rb with Absent => None | _ => Some (fun by_cond => tstep SRollback by_cond rb) end).

  Definition tresult (r : option unit) (cnd : outcome) : result :=
    match r with None => RNil | Some _ => if failed cnd then RCondErr else RThenErr end.

  Theorem txn_matches_C17 : forall cnd thn rb cp ca,
    cnd <> Absent ->
    let '(w, _, r) := runk tcall unit tworld texec (fun _ => tt) (fun _ => true) (txn_of cnd thn rb) [] None in
    w = map (fun e => (who e, flag e)) (fst (Txn.txn cnd thn rb cp ca)) /\
    tresult r cnd = snd (Txn.txn cnd thn rb cp ca).
  Proof.
    intros cnd thn rb cp ca Hc.
    destruct cnd; [congruence| |]; destruct thn, rb, cp, ca; cbv; split; reflexivity.
  Qed.

  Definition pcr_of (prep com rb : outcome) : prog tcall unit (option unit) :=
    Effects.pcr (tstep SCond false prep) (tstep SThen false com) (tstep SRollback false rb).

  Theorem pcr_matches_C17 : forall prep com rb cp ca,
    prep <> Absent -> com <> Absent -> rb <> Absent ->
    let '(w, _, r) := runk tcall unit tworld texec (fun _ => tt) (fun _ => true) (pcr_of prep com rb) [] None in
    w = map (fun e => (who e, flag e)) (fst (Txn.pcr prep com rb cp ca)) /\
    tresult r prep = snd (Txn.pcr prep com rb cp ca).
  Proof.
    intros prep com rb cp ca H1 H2 H3.
    destruct prep; [congruence| |]; (destruct com; [congruence| |]); (destruct rb; [congruence| |]);
      destruct cp, ca; cbv; split; reflexivity.
  Qed.
End TxnLink.
