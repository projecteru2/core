(* Proofs for C14: for EVERY crash configuration allowed by program order
   (every crash point under every interleaving of the instance goroutines, any
   plan), recovery leaves usage = sum of recorded workloads on every node and
   every instance fully created or absent (except the unlogged container), and
   no in-progress marker.  (Model of create.go as of 6b580a2: the markers are deleted
   before the WAL entries are committed; the opposite order leaked the marker: old_order_marker_leak.) *)
From Coq Require Import List Bool ZArith Lia.
From Verif Require Import Calcium.Recover.
Import ListNotations.
Local Open Scope Z_scope.

Definition in_flight (s : stage) : bool := stage_ge s 3 && negb (stage_ge s 6).

Lemma count_cons : forall f s l, count f (s :: l) = (if f s then 1 else 0) + count f l.
Proof. intros. unfold count. cbn [filter]. destruct (f s); [cbn [List.length]; rewrite Nat2Z.inj_succ|]; lia. Qed.

Lemma count_split : forall l,
  count (fun s => stage_ge s 3) l = count in_flight l + count is_S6 l.
Proof.
  induction l as [|s t IH]; [reflexivity|]. rewrite !count_cons, IH.
  destruct s; unfold in_flight, is_S6, stage_ge, stage_eqb; cbn [Nat.leb negb andb]; lia.
Qed.

Lemma dec_sum : forall l,
  fold_right Z.add 0 (map snd (map recover_inst (map inst_state l))) = count in_flight l.
Proof.
  induction l as [|s t IH]; [reflexivity|]. rewrite count_cons. cbn [map fold_right]. rewrite IH.
  destruct s; unfold in_flight, recover_inst, inst_state, stage_ge; cbn [Nat.leb negb andb i_wal i_recorded snd]; lia.
Qed.

Lemma len_filter_map : forall (g : stage -> istate) (P : istate -> bool) (Q : stage -> bool),
  (forall s, P (g s) = Q s) ->
  forall l, Z.of_nat (List.length (filter P (map g l))) = count Q l.
Proof.
  intros g P Q H l. unfold count. induction l as [|s t IH]; [reflexivity|].
  cbn [map filter]. rewrite H. destruct (Q s); [cbn [List.length]; rewrite !Nat2Z.inj_succ; lia | exact IH].
Qed.

Lemma recorded_after : forall l,
  Z.of_nat (List.length (filter i_recorded (map fst (map recover_inst (map inst_state l))))) = count is_S6 l.
Proof.
  intros l. rewrite !map_map. apply len_filter_map. intros s. destruct s; reflexivity.
Qed.

Lemma recorded_before : forall l,
  Z.of_nat (List.length (filter i_recorded (map inst_state l))) = count (fun s => stage_ge s 3) l.
Proof. intros l. apply len_filter_map. intros s. destruct s; reflexivity. Qed.

Lemma stage_eqb_eq : forall a b, stage_eqb a b = true -> a = b.
Proof. intros a b H. destruct a, b; (reflexivity || discriminate H). Qed.

Lemma count_const : forall f s0 l, forallb (fun s => stage_eqb s s0) l = true ->
  count f l = if f s0 then Z.of_nat (List.length l) else 0.
Proof.
  intros f s0 l. induction l as [|s t IH]; intros H; [destruct (f s0); reflexivity|].
  cbn in H. apply andb_true_iff in H. destruct H as [H1 H2]. apply stage_eqb_eq in H1. subst s.
  rewrite count_cons, IH by exact H2. cbn [List.length]. rewrite Nat2Z.inj_succ. destruct (f s0); lia.
Qed.

Lemma insts_recover_ok : forall l,
  all2 inst_ok (map inst_state l) (map fst (map recover_inst (map inst_state l))) = true.
Proof. induction l as [|s t IH]; [reflexivity|]. cbn [map all2]. rewrite IH. destruct s; reflexivity. Qed.

Definition G3 g := forallb marker_deleted (per_node g).
Definition G4 g := forallb proc_committed (per_node g).

(* the invariant of program order read as implications: each call is guarded by
   what the flag it sets implies *)
Lemma valid_node_iff : forall g nc, valid_node g nc = true <->
  (alloc_done nc = true -> alloc_logged g = true) /\
  (proc_logged nc = true -> alloc_done nc = true) /\
  (marker_made nc = true -> proc_logged nc = true) /\
  (all_stage is_S0 nc = false -> cond_complete g = true) /\
  (proc_committed nc = true -> all_done g = true /\ cond_complete g = true /\ G3 g = true) /\
  (marker_deleted nc = true -> all_done g = true /\ cond_complete g = true).
Proof.
  intros. unfold valid_node. fold (cond_complete g) (all_done g) (G3 g).
  rewrite !andb_true_iff, !implb_true_iff, !andb_true_iff, negb_true_iff. tauto.
Qed.

Lemma valid_iff : forall g, valid g = true <->
  (forall nc, In nc (per_node g) -> valid_node g nc = true) /\
  (alloc_committed g = true -> alloc_logged g = true /\ G4 g = true).
Proof. intros. unfold valid. rewrite andb_true_iff, forallb_forall, implb_true_iff, andb_true_iff. reflexivity. Qed.

Lemma at_node : forall (P : nconf -> bool) g nc,
  In nc (per_node g) -> forallb P (per_node g) = true -> P nc = true.
Proof. intros P g nc Hin H. rewrite forallb_forall in H. exact (H nc Hin). Qed.

(* the leak window is unreachable *)
Lemma valid_no_leak_window : forall g nc, valid g = true -> In nc (per_node g) -> leak_window nc = false.
Proof.
  intros g nc V Hin. apply valid_iff in V. pose proof (proj1 V nc Hin) as VN.
  apply valid_node_iff in VN. destruct VN as (_ & _ & _ & _ & Hcom & _).
  unfold leak_window. destruct (proc_committed nc); [|apply andb_false_r].
  destruct (Hcom eq_refl) as (_ & _ & E3). rewrite (at_node marker_deleted g nc Hin E3).
  destruct (marker_made nc); reflexivity.
Qed.

Theorem recover_node_ok : forall g nc u0 r0,
  valid g = true -> In nc (per_node g) -> u0 = r0 ->
  let ns := crash_node u0 r0 nc in
  let ns' := recover_node (wal_alloc_open g) ns in
  usage_ok ns' = true /\ insts_ok ns ns' = true /\ marker_ok ns' = true.
Proof.
  intros g nc u0 r0 V Hin E. subst u0. pose proof (valid_no_leak_window g nc V Hin) as Leak.
  apply valid_iff in V. destruct V as [V Vc].
  pose proof (V nc Hin) as VN. apply valid_node_iff in VN. destruct VN as (Had & Hpl & Hmm & Hinst & Hcom & _).
  pose proof (at_node marker_made g nc Hin : cond_complete g = true -> _) as Made.
  cbn zeta. split; [|split].
  - unfold usage_ok, recover_node, recorded_sum, crash_node. cbn [usage others insts].
    rewrite dec_sum, recorded_after. apply Z.eqb_eq.
    destruct (wal_alloc_open g) eqn:Eo.
    + rewrite recorded_before, count_split. lia.
    + unfold wal_alloc_open in Eo. apply andb_false_iff in Eo. destruct Eo as [Eo|Eo].
      * (* nothing was logged yet: nothing happened on this node *)
        assert (Ead : alloc_done nc = false)
          by (destruct (alloc_done nc); [rewrite Had in Eo by reflexivity; discriminate | reflexivity]).
        assert (A0 : all_stage is_S0 nc = true).
        { destruct (all_stage is_S0 nc) eqn:E0; [reflexivity|].
          rewrite (Hpl (Hmm (Made (Hinst eq_refl)))) in Ead. discriminate. }
        rewrite Ead. unfold all_stage in A0.
        rewrite (count_const in_flight S0 _ A0), (count_const is_S6 S0 _ A0). cbn. lia.
      * (* everything was committed: every instance is fully created *)
        apply negb_false_iff in Eo. destruct (Vc Eo) as [_ E4].
        destruct (Hcom (at_node proc_committed g nc Hin E4)) as (Hall & Hcc & _).
        rewrite (Hpl (Hmm (Made Hcc))).
        pose proof (at_node (all_stage is_S6) g nc Hin Hall) as A6. unfold all_stage in A6.
        rewrite (count_const is_S6 S6 _ A6), (count_const in_flight S6 _ A6). cbn. lia.
  - unfold insts_ok, recover_node, crash_node. cbn [insts]. apply insts_recover_ok.
  - (* a marker still there has its create-processing entry open, the leak window being unreachable *)
    unfold marker_ok, recover_node, crash_node. cbn [marker wal_proc]. unfold leak_window in Leak.
    destruct (marker_made nc && negb (marker_deleted nc)) eqn:Em; [|destruct (proc_logged nc && negb (proc_committed nc)); reflexivity].
    apply andb_true_iff in Em. rewrite (Hmm (proj1 Em)). cbn in Leak. rewrite Leak. reflexivity.
Qed.

Theorem recovery_ok : forall g (before : list (Z * Z)),
  valid g = true -> List.length before = List.length (per_node g) ->
  (forall p, In p before -> fst p = snd p) ->
  forall p nc, In (p, nc) (combine before (per_node g)) ->
  let ns := crash_node (fst p) (snd p) nc in
  let ns' := recover_node (wal_alloc_open g) ns in
  usage_ok ns' = true /\ insts_ok ns ns' = true /\ marker_ok ns' = true.
Proof.
  intros g before V Hlen Hinv p nc Hin. apply recover_node_ok; [exact V | | ].
  - eapply in_combine_r. exact Hin.
  - apply Hinv. eapply in_combine_l. exact Hin.
Qed.

(* the opposite order (create-processing entries committed BEFORE the markers
   were deleted): a crash in between left the marker *)
Example old_order_marker_leak :
  marker_ok (recover_node true (crash_node 0 0 (mkNc true true true [S6] true false))) = false.
Proof. reflexivity. Qed.

(* a complete run, cut right before the WAL commits: the markers are already gone *)
Definition late_calls : list gcall :=
  [GLogAlloc; GAlloc 0; GLogProc 0; GCreateProc 0;
   GInst 0 0; GInst 0 0; GInst 0 0; GInst 0 0; GInst 0 0; GInst 0 0;
   GDeleteProc 0].
Example late_crash : exists g nc,
  grun (gc_start [1%nat]) late_calls = Some g /\ valid g = true /\ per_node g = [nc] /\
  marker_ok (recover_node (wal_alloc_open g) (crash_node 0 0 nc)) = true.
Proof. eexists. eexists. split; [vm_compute; reflexivity|]. repeat split. Qed.

(* non-vacuity: a crash in the middle of the second instance *)
Example mid_crash :
  exists g, grun (gc_start [2%nat]) [GLogAlloc; GAlloc 0; GLogProc 0; GCreateProc 0;
                                     GInst 0 0; GInst 0 0; GInst 0 0; GInst 0 0; GInst 0 0; GInst 0 0;
                                     GInst 0 1; GInst 0 1; GInst 0 1] = Some g
  /\ valid g = true
  /\ map (recover_node (wal_alloc_open g)) (map (crash_node 5 5) (per_node g))
     = [mkNs 6 5 None false [mkIs true (Some true) false; mkIs false None false]].
Proof. eexists. split; [vm_compute; reflexivity|]. split; reflexivity. Qed.

Lemma forallb_upd_mono : forall {A} (P : A -> bool) f l n x,
  nth_error l n = Some x -> (P x = true -> P (f x) = true) ->
  forallb P l = true -> forallb P (upd n f l) = true.
Proof.
  intros A P f l. induction l as [|y t IH]; intros [|j] x Hn Hp H; try discriminate;
    cbn in *; apply andb_true_iff in H; destruct H as [H1 H2]; apply andb_true_iff.
  - injection Hn as ->. auto.
  - split; [exact H1 | eapply IH; eauto].
Qed.

Lemma in_upd : forall {A} (f : A -> A) l n y, In y (upd n f l) ->
  In y l \/ exists x, nth_error l n = Some x /\ y = f x.
Proof.
  intros A f l. induction l as [|z t IH]; intros n y H; [destruct n; destruct H|].
  destruct n as [|j]; cbn in H.
  - destruct H as [H|H]; [right; exists z; split; [reflexivity | symmetry; exact H] | left; right; exact H].
  - destruct H as [H|H]; [left; left; exact H|]. destruct (IH _ _ H) as [H'|[x [Hx Hy]]].
    + left. right. exact H'.
    + right. exists x. split; assumption.
Qed.

Lemma valid_node_mono : forall g g' x,
  (alloc_logged g = true -> alloc_logged g' = true) -> (cond_complete g = true -> cond_complete g' = true) ->
  (all_done g = true -> all_done g' = true) -> (G3 g = true -> G3 g' = true) ->
  valid_node g x = true -> valid_node g' x = true.
Proof.
  intros g g' x Ha H1 H2 H3 V. apply valid_node_iff in V. destruct V as (A1 & A2 & A3 & A4 & A5 & A6).
  apply valid_node_iff. split; [auto|]. split; [exact A2|]. split; [exact A3|]. split; [auto|]. split; intros E.
  - destruct (A5 E) as (? & ? & ?). auto.
  - destruct (A6 E). auto.
Qed.

Lemma valid_global : forall g al ac, valid g = true ->
  (alloc_logged g = true -> al = true) -> (ac = true -> al = true /\ G4 g = true) ->
  valid (mkGc al ac (per_node g)) = true.
Proof.
  intros g al ac V Ha Hc. apply valid_iff in V. destruct V as [V _]. apply valid_iff. split; [|exact Hc].
  intros y Hy. apply (valid_node_mono g); auto.
Qed.

(* one node's configuration changes by f: the step keeps validity if the four
   per-node facts only grow at that node and the changed node is valid *)
Lemma valid_set : forall g n f nc,
  nth_error (per_node g) n = Some nc -> valid g = true ->
  let g' := mkGc (alloc_logged g) (alloc_committed g) (upd n f (per_node g)) in
  (marker_made nc = true -> marker_made (f nc) = true) ->
  (all_stage is_S6 nc = true -> all_stage is_S6 (f nc) = true) ->
  (marker_deleted nc = true -> marker_deleted (f nc) = true) ->
  (proc_committed nc = true -> proc_committed (f nc) = true) ->
  ((cond_complete g = true -> cond_complete g' = true) -> (all_done g = true -> all_done g' = true) ->
   (G3 g = true -> G3 g' = true) -> valid_node g' nc = true -> valid_node g' (f nc) = true) ->
  valid g' = true.
Proof.
  intros g n f nc Hn V g' M1 M2 M3 M4 Hf.
  pose proof (forallb_upd_mono marker_made f _ n nc Hn M1 : cond_complete g = true -> cond_complete g' = true) as H1.
  pose proof (forallb_upd_mono (all_stage is_S6) f _ n nc Hn M2 : all_done g = true -> all_done g' = true) as H2.
  pose proof (forallb_upd_mono marker_deleted f _ n nc Hn M3 : G3 g = true -> G3 g' = true) as H3.
  pose proof (forallb_upd_mono proc_committed f _ n nc Hn M4 : G4 g = true -> G4 g' = true) as H4.
  apply valid_iff in V. destruct V as [V Vc].
  assert (Vm : forall x, In x (per_node g) -> valid_node g' x = true)
    by (intros x Hx; apply (valid_node_mono g); auto).
  apply valid_iff. split.
  - intros y Hy. apply in_upd in Hy. destruct Hy as [Hy|[x [Hx ->]]]; [exact (Vm y Hy)|].
    rewrite Hn in Hx. injection Hx as <-. apply Hf; auto. apply Vm. eapply nth_error_In. exact Hn.
  - intros Ec. destruct (Vc Ec) as [Ea E4]. auto.
Qed.

Lemma forallb_repeat_S0 : forall k, forallb is_S0 (repeat S0 k) = true.
Proof. induction k; [reflexivity | exact IHk]. Qed.

Lemma valid_start : forall plan, valid (gc_start plan) = true.
Proof.
  intros plan. unfold valid, gc_start. cbn [alloc_committed implb per_node]. rewrite andb_true_r.
  apply forallb_forall. intros nc Hnc. apply in_map_iff in Hnc. destruct Hnc as [k [E _]]. subst nc.
  unfold valid_node, nc_start, all_stage. cbn [alloc_done proc_logged marker_made stages proc_committed marker_deleted implb].
  rewrite forallb_repeat_S0. reflexivity.
Qed.

(* [S : (if b then Some _ else None) = Some _]: the guard b holds; C gets its conjuncts *)
Ltac step_guard S C :=
  match type of S with (if ?b then _ else _) = _ =>
    destruct b eqn:C; [rewrite ?andb_true_iff in C | discriminate S]
  end.

(* after [valid_set], on [valid_node g' nc = true -> valid_node g' (f nc) = true]: the implications
   of the changed node are those of the old one but for the flag just set, whose goal is left *)
Ltac node_flags :=
  let V := fresh "V" in
  intros V; apply valid_node_iff in V; apply valid_node_iff; revert V;
  cbn [alloc_done proc_logged marker_made stages proc_committed marker_deleted all_stage alloc_logged];
  intros (?A1 & ?A2 & ?A3 & ?A4 & ?A5 & ?A6); (split; [|split; [|split; [|split; [|split]]]]); try assumption; intros _; try reflexivity.

Theorem valid_step : forall g c g', gstep g c = Some g' -> valid g = true -> valid g' = true.
Proof.
  intros g c g' S V. destruct c; unfold gstep in S; cbv zeta in S;
    try (destruct (nth_error (per_node g) n) as [nc|] eqn:Hn; [|discriminate]).
  2-4: step_guard S C; injection S as <-; (eapply valid_set; try exact Hn; try exact V; cbn; auto);
    intros _ _ _; node_flags; apply C.
  - destruct (alloc_logged g) eqn:Ea; [discriminate|]. injection S as <-.
    apply valid_global; [exact V | auto|]. intros Ec. apply valid_iff in V. destruct (proj2 V Ec). congruence.
  - destruct (nth_error (stages nc) i) as [s|] eqn:Hs; [|discriminate].
    destruct (next_stage s) as [s'|] eqn:Hns; [|discriminate].
    step_guard S C. injection S as <-. eapply valid_set; try exact Hn; try exact V; cbn; auto.
    + (* the node was not complete: s has a successor *)
      intros A6. exfalso. unfold all_stage in A6. rewrite forallb_forall in A6.
      specialize (A6 s (nth_error_In _ _ Hs)). destruct s; cbn in *; congruence.
    + intros M1 _ _. node_flags. apply M1, C.
  - step_guard S C. fold (G3 g) in C. injection S as <-. eapply valid_set; try exact Hn; try exact V; cbn; auto.
    intros M1 M2 M3. node_flags. repeat split; [apply M2 | apply M1 | apply M3]; apply C.
  - step_guard S C. fold (G4 g) in C. injection S as <-. apply valid_global; [exact V | auto | intros _; split; apply C].
  - step_guard S C. injection S as <-. eapply valid_set; try exact Hn; try exact V; cbn; auto.
    intros M1 M2 _. node_flags. split; [apply M2 | apply M1]; apply C.
Qed.

Theorem reachable_valid : forall plan cs g, grun (gc_start plan) cs = Some g -> valid g = true.
Proof.
  intros plan cs. assert (H : forall g0, valid g0 = true -> forall g, grun g0 cs = Some g -> valid g = true).
  { induction cs as [|c t IH]; intros g0 V0 g R; cbn in R; [inversion R; subst; exact V0|].
    destruct (gstep g0 c) as [g1|] eqn:S; [|discriminate]. eapply IH; [|exact R]. eapply valid_step; eauto. }
  intros g R. eapply H; [apply valid_start | exact R].
Qed.
