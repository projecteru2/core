(* SetNode (after 2cbaadc), the whole operation, every world with distinct plugin records, every fault
   position: a reported failure leaves the world exactly as it was.  RemoveNode: remove_node_partial
   below. *)
From Coq Require Import List Bool Arith ZArith.
From Verif Require Import Base.Effects Calcium.World Calcium.Ops Calcium.OpsProofs Calcium.OpsProofs2.
Import ListNotations.
Local Open Scope Z_scope.

Definition pnames (l : list plug) := map p_node l.

Lemma nodup_pname_unique : forall l y p, NoDup (pnames l) -> In y l -> In p l -> p_node y = p_node p -> y = p.
Proof.
  induction l as [|z t IH]; intros y p Hnd Hy Hp E; [destruct Hy|].
  inversion Hnd as [|? ? Hni Hnd']; subst.
  destruct Hy as [->|Hy]; destruct Hp as [->|Hp]; auto; exfalso; apply Hni; unfold pnames;
    [rewrite E|rewrite <- E]; apply in_map; assumption.
Qed.

Lemma upd_plug_cap_back : forall l n p (f : plug -> plug),
  NoDup (pnames l) -> find (fun x => Nat.eqb (p_node x) n) l = Some p ->
  (forall x, p_node (f x) = p_node x) -> (forall x, p_use (f x) = p_use x) ->
  upd_plug n (fun q => mkPlug (p_node q) (p_cap p) (p_use q)) (upd_plug n f l) = l.
Proof.
  intros l n p f Hnd Hf Hn Hu. unfold upd_plug. rewrite map_map. apply map_fix. intros y Hy.
  destruct (Nat.eqb (p_node y) n) eqn:E; [|rewrite E; reflexivity].
  rewrite Hn, E, Hu.
  (* y is the record found for n *)
  assert (y = p).
  { apply find_some in Hf. destruct Hf as [Hin Hpn]. apply Nat.eqb_eq in E, Hpn.
    apply (nodup_pname_unique l); auto. congruence. }
  subst y. destruct p; reflexivity.
Qed.

Definition othnp (w : world) (ns : list node) (p : list plug) : world :=
  mkWorld (pods w) ns (wls w) (markers w) p (conts w) (walq w) (wal_seq w) (out w) (strict_remove w) (script w).

Definition new_cap (mem : option (Z * bool)) (q : plug) : plug :=
  match mem with
  | None => q
  | Some (m, delta) => mkPlug (p_node q) (fst (p_cap q), if delta then snd (p_cap q) + m else m) (p_use q)
  end.

Theorem set_node_atomic : forall n bypass mem label w k,
  NoDup (pnames (plugs w)) ->
  exists w' k' r, crunk (set_node n bypass mem label) w k = (w', k', r) /\
  (r <> None -> w' = w) /\
  (r = None -> exists x, find_node w n = Some x /\
     w' = othnp w (upd_node (mkNode (n_name x) (n_pod x) (match bypass with Some b => b | None => n_bypass x end) (n_avail x)
                                    (match label with Some l => l | None => n_label x end)) (nodes w))
                  (upd_plug n (new_cap mem) (plugs w))).
Proof.
  intros n bypass mem label w k Hnd. apply ends_ex. unfold set_node.
  assert (Hfail : forall (e : err) (P : Prop), (Some e <> None -> w = w) /\ (Some e = None -> P))
    by (split; [reflexivity|discriminate]).
  apply with_node_pod_locked_ends; [intros; apply Hfail|]. clear k. intros x k Hx _.
  unfold txn_s, ign, doc, call1. norm.
  step k; [apply Hfail|]. exe.
  destruct (find (fun q => Nat.eqb (p_node q) n) (plugs w)) as [p|] eqn:Hp; norm; [|apply Hfail].
  destruct mem as [[m delta]|]; norm.
  - step k; [apply Hfail|]. exe. rewrite Hp. norm. step k.
    + (* UpdateNodes fails: the capacity is written back *)
      apply ends_run. exe. rewrite find_plug_upd by reflexivity. rewrite Hp. cbn [option_map]. norm.
      split; [|discriminate]. intros _. look.
      rewrite (upd_plug_cap_back (plugs w) n p) by auto. destruct w; reflexivity.
    + (* the node is read once more; the outcome of that read is ignored *)
      exe. step k; [|exe; rewrite find_plug_upd by reflexivity; rewrite Hp; cbn [option_map]; norm];
        (split; [congruence|]; intros _; exists x; split; [exact Hx|]; look; reflexivity).
  - assert (Hid : upd_plug n (new_cap None) (plugs w) = plugs w)
      by (apply map_fix; intros q _; destruct (Nat.eqb (p_node q) n); reflexivity).
    step k; [apply Hfail|]. exe. step k; [|exe; rewrite Hp; norm];
      (split; [congruence|]; intros _; exists x; split; [exact Hx|]; look; rewrite Hid; reflexivity).
Qed.

Definition remove_node_body (n : name) (x : node) : cprog oerr :=
  r0 <- call1 (SGetNode n) ;;
  match r0 with
  | RNode y => if Nat.eqb (n_pod y) (n_pod x) then remove_node_inner n else Ret (Some ENatural)
  | RErr e => Ret (Some e)
  | _ => Ret (Some ENatural)
  end.

Lemma remove_node_is_body : forall n, remove_node n = with_node_pod_locked n (remove_node_body n).
Proof. reflexivity. Qed.

(* marking an available node as up, or a removed node as down, changes no record *)
Lemma status_up_id : forall n w, (forall y, In y (nodes w) -> n_name y = n -> n_avail y = true) ->
  fst (exec w (SSetNodeStatus n 90)) = w.
Proof.
  intros n w H. cbn [exec Z.eqb fst]. rewrite map_fix; [destruct w; reflexivity|]. intros y Hy.
  destruct (Nat.eqb (n_name y) n) eqn:E; [|reflexivity]. apply Nat.eqb_eq in E.
  pose proof (H y Hy E) as Ha. destruct y; simpl in *. subst. reflexivity.
Qed.
Lemma status_down_del : forall n w ns, nodes w = del_node n ns -> fst (exec w (SSetNodeStatus n (-1))) = w.
Proof.
  intros n w ns H. cbn [exec Z.eqb fst]. rewrite map_fix; [destruct w; reflexivity|]. intros y Hy.
  rewrite H in Hy. apply filter_In in Hy. destruct Hy as [_ Hy]. apply negb_true_iff in Hy. rewrite Hy. reflexivity.
Qed.

Lemma remove_node_inner_spec : forall n w k,
  (forall y, In y (nodes w) -> n_name y = n -> n_avail y = true) ->
  ends (remove_node_inner n) w k (fun w' _ r =>
    (r <> None -> w' = w \/ w' = othnp w (del_node n (nodes w)) (plugs w)) /\
    (r = None -> w' = othnp w (del_node n (nodes w)) (del_plug n (plugs w)))).
Proof.
  intros n w k Hav.
  assert (Hfail : forall (e : err) (P Q : Prop), (Some e <> None -> w = w \/ P) /\ (Some e = None -> Q))
    by (split; [left; reflexivity|discriminate]).
  unfold remove_node_inner, txn, ign, doc, call1. norm.
  step k; [apply Hfail|]. cbn [exec]. destruct (wls_on w n); norm; [|apply Hfail].
  apply ends_ignored; [reflexivity|apply status_up_id, Hav|]. clear k. intros k.
  step k; [apply Hfail|]. exe.
  apply ends_ignored; [reflexivity|apply (status_down_del n _ (nodes w)); reflexivity|]. clear k. intros k.
  (* the store record is gone; what is left is the plugin's removal, which has no compensation *)
  step k; [split; [intros _; right; reflexivity|discriminate]|]. exe.
  destruct (find (fun q => Nat.eqb (p_node q) n) (plugs w)); norm.
  - split; [congruence|reflexivity].
  - split; [intros _; right; reflexivity|discriminate].
Qed.

(* RemoveNode, the strongest true statement: a reported failure leaves the world as it was, EXCEPT when the
   plugin's removal is the failing step: then the node record is gone and the plugin record is still there *)
Theorem remove_node_partial : forall n w k,
  (forall y, In y (nodes w) -> n_name y = n -> n_avail y = true) ->
  exists w' k' r, crunk (remove_node n) w k = (w', k', r) /\
  (r <> None -> w' = w \/ w' = othnp w (del_node n (nodes w)) (plugs w)) /\
  (r = None -> w' = othnp w (del_node n (nodes w)) (del_plug n (plugs w))).
Proof.
  intros n w k Hav. apply ends_ex. unfold remove_node.
  apply with_node_pod_locked_ends; [split; [left; reflexivity|discriminate]|]. clear k. intros x k Hx _.
  unfold call1. norm. step k; [split; [left; reflexivity|discriminate]|]. cbn [exec]. rewrite Hx, Nat.eqb_refl.
  apply remove_node_inner_spec, Hav.
Qed.
