(* Two operations interleaved at call granularity, under the semantics [exec] of the model: the definitions and
   theorems of InterleaveGen.v at [ex := exec], written out ([run2] is [run2x exec], run2_x; [safe] is [safex exec],
   safe_x; schedule and fault positions are explained there). *)
From Coq Require Import List.
From Verif Require Import Base.Effects Calcium.World Calcium.InterleaveGen.
Import ListNotations.

Definition step1 (c : call) (w : world) (k : option nat) : world * reply * option nat :=
  if is_faultable c then
    match k with
    | Some O => (w, fail_reply c, None)
    | Some (S j) => let (w', r) := exec w c in (w', r, Some j)
    | None => let (w', r) := exec w c in (w', r, None)
    end
  else let (w', r) := exec w c in (w', r, k).

Lemma crunk_step : forall A c (q : reply -> cprog A) w k,
  crunk (Do c q) w k = let '(w', r, k') := step1 c w k in crunk (q r) w' k'.
Proof. exact (crunk_stepx exec). Qed.

Fixpoint run2 {A B} (sched : list bool) (p1 : cprog A) (k1 : option nat) (p2 : cprog B) (k2 : option nat) (w : world)
  : world * A * B :=
  match sched with
  | [] => let '(w1, _, a) := crunk p1 w k1 in let '(w2, _, b) := crunk p2 w1 k2 in (w2, a, b)
  | true :: s =>
    match p1 with
    | Ret _ => run2 s p1 k1 p2 k2 w
    | Do c q => let '(w', r, k1') := step1 c w k1 in run2 s (q r) k1' p2 k2 w'
    end
  | false :: s =>
    match p2 with
    | Ret _ => run2 s p1 k1 p2 k2 w
    | Do c q => let '(w', r, k2') := step1 c w k2 in run2 s p1 k1 (q r) k2' w'
    end
  end.

Inductive safe {A} (P : call -> Prop) (I : world -> Prop) : cprog A -> Prop :=
| safe_ret : forall a, safe P I (Ret a)
| safe_do : forall c q, P c ->
    (forall w, I w -> safe P I (q (snd (exec w c)))) ->
    (is_faultable c = true -> safe P I (q (fail_reply c))) ->
    safe P I (Do c q).

Lemma run2_x : forall A B sched (p1 : cprog A) (p2 : cprog B) k1 k2 w,
  run2 sched p1 k1 p2 k2 w = run2x exec sched p1 k1 p2 k2 w.
Proof.
  intros A B sched. induction sched as [|b s IH]; intros p1 p2 k1 k2 w; [reflexivity|].
  destruct b; cbn [run2 run2x].
  - destruct p1 as [a|c q]; [apply IH|]. change (step1x exec c w) with (step1 c w). destruct (step1 c w k1) as [[w' r] k']. apply IH.
  - destruct p2 as [a|c q]; [apply IH|]. change (step1x exec c w) with (step1 c w). destruct (step1 c w k2) as [[w' r] k']. apply IH.
Qed.

Lemma safe_x : forall A (P : call -> Prop) (I : world -> Prop) (p : cprog A), safe P I p -> safex exec P I p.
Proof. intros A P I p H. induction H; constructor; auto. Qed.

Lemma run2_hide : forall A B sched (p1 : cprog A) (p2 : cprog B) k1 k2 w,
  run2x exec_h sched p1 k1 p2 k2 (hide w) = (let '(wf, a, b) := run2 sched p1 k1 p2 k2 w in (hide wf, a, b)).
Proof. intros. rewrite run2_x. apply run2x_hide. Qed.

Theorem interleave_is_sequential : forall (P1 P2 : call -> Prop) (I : world -> Prop),
  (forall c w, P1 c -> I w -> I (fst (exec w c))) ->
  (forall c w, P2 c -> I w -> I (fst (exec w c))) ->
  (forall c1 c2 w, P1 c1 -> P2 c2 -> I w -> commute exec c1 c2 w) ->
  forall A B sched (p1 : cprog A) (p2 : cprog B) k1 k2 w, I w -> safe P1 I p1 -> safe P2 I p2 ->
  run2 sched p1 k1 p2 k2 w = run2 [] p1 k1 p2 k2 w.
Proof.
  intros P1 P2 I St1 St2 Ind A B sched p1 p2 k1 k2 w HI H1 H2. rewrite !run2_x.
  apply (interleave_is_sequentialx exec P1 P2 I St1 St2 Ind); [exact HI|apply safe_x; exact H1|apply safe_x; exact H2].
Qed.

Theorem sequential_orders_agree : forall (P1 P2 : call -> Prop) (I : world -> Prop),
  (forall c w, P1 c -> I w -> I (fst (exec w c))) ->
  (forall c w, P2 c -> I w -> I (fst (exec w c))) ->
  (forall c1 c2 w, P1 c1 -> P2 c2 -> I w -> commute exec c1 c2 w) ->
  forall A B (p2 : cprog B), safe P2 I p2 -> forall (p1 : cprog A) k1 k2 w, I w -> safe P1 I p1 ->
  run2 [] p1 k1 p2 k2 w = (let '(w', b, a) := run2 [] p2 k2 p1 k1 w in (w', a, b)).
Proof.
  intros P1 P2 I St1 St2 Ind A B p2 H2 p1 k1 k2 w HI H1.
  exact (sequential_orders_agreex exec P1 P2 I St1 St2 Ind A B p2 (safe_x _ _ _ _ H2) p1 k1 k2 w HI (safe_x _ _ _ _ H1)).
Qed.
