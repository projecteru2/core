(* C22: AddPod, RemovePod, AddNode and RemoveNode, each run in isolation, preserve
   Ref, for ALL worlds and names (no bound); with one injected failure at any
   store / plugin step, AddNode and RemoveNode preserve Ref except for the two
   named excuses. *)
From Coq Require Import List Bool String Lia.
From Verif Require Import Calcium.Refs.
Import ListNotations.
Local Open Scope string_scope.

Record RefP (w : rw) : Prop := {
  rp_pod : forall n p, In (n, p) (nodes w) -> In p (pods w);
  rp_res : forall n p, In (n, p) (nodes w) -> In n (nres w);
  rp_node : forall n, In n (nres w) -> In n (node_names w);
  rp_wl : forall id n, In (id, n) (wls w) -> In n (node_names w)
}.

Lemma mem_In : forall x l, mem x l = true <-> In x l.
Proof.
  intros. unfold mem. rewrite existsb_exists. split.
  - intros [y [Hy E]]. apply String.eqb_eq in E. subst. exact Hy.
  - intros H. exists x. split; [exact H | apply String.eqb_refl].
Qed.
Lemma mem_false : forall x l, mem x l = false <-> ~ In x l.
Proof.
  intros. rewrite <- mem_In. destruct (mem x l); [split; [discriminate | intro H; destruct (H eq_refl)] | split; [discriminate | reflexivity]].
Qed.

Lemma ref_ok_RefP : forall w, ref_ok w = true <-> RefP w.
Proof.
  intros w. unfold ref_ok. rewrite !andb_true_iff, !forallb_forall. split.
  - intros [[[H1 H2] H3] H4]. constructor.
    + intros n p H. apply mem_In. exact (H1 (n, p) H).
    + intros n p H. apply mem_In. exact (H2 (n, p) H).
    + intros n H. apply mem_In. exact (H3 n H).
    + intros id n H. apply mem_In. exact (H4 (id, n) H).
  - intros [H1 H2 H3 H4]. repeat split.
    + intros [n p] H. apply mem_In. eapply H1. exact H.
    + intros [n p] H. apply mem_In. eapply H2. exact H.
    + intros n H. apply mem_In. apply H3. exact H.
    + intros [id n] H. apply mem_In. eapply H4. exact H.
Qed.

Lemma in_rm : forall x y l, In y (rm x l) <-> In y l /\ y <> x.
Proof.
  intros. unfold rm. rewrite filter_In. split; intros [H1 H2]; split; auto.
  - intro E. subst. rewrite String.eqb_refl in H2. discriminate.
  - destruct (String.eqb x y) eqn:E; [apply String.eqb_eq in E; subst; congruence | reflexivity].
Qed.

Lemma in_node_names : forall w n, In n (node_names w) <-> exists p, In (n, p) (nodes w).
Proof.
  intros. unfold node_names. rewrite in_map_iff. split.
  - intros [[n' p] [E H]]. cbn in E. subst. exists p. exact H.
  - intros [p H]. exists (n, p). split; [reflexivity | exact H].
Qed.

Lemma node_pod_spec : forall w n p, node_pod w n = Some p -> In (n, p) (nodes w).
Proof.
  intros w n p H. unfold node_pod in H. destruct (find _ (nodes w)) as [[n' p']|] eqn:E; [|discriminate].
  inversion H; subst. apply find_some in E. destruct E as [Hin E]. cbn in E. apply String.eqb_eq in E. subst. exact Hin.
Qed.
Lemma node_pod_none : forall w n, node_pod w n = None -> ~ In n (node_names w).
Proof.
  intros w n H Hin. unfold node_pod in H. destruct (find _ (nodes w)) eqn:E; [discriminate|].
  apply in_node_names in Hin. destruct Hin as [p Hp].
  pose proof (find_none _ _ E _ Hp) as X. cbn in X. rewrite String.eqb_refl in X. discriminate.
Qed.

Fixpoint run1 (fuel : nat) (w : rw) (t : thread) : rw * thread :=
  match fuel with
  | O => (w, t)
  | S f => match step_thread w 0 t with
           | Some (w', t', _) => run1 f w' t'
           | None => (w, t)
           end
  end.

Lemma run1_sched : forall fuel w t tr,
  let '(w', t') := run1 fuel w t in
  exists tr', run_sched w [t] (repeat 0 fuel) tr = (w', [t'], tr').
Proof.
  induction fuel as [|f IH]; intros w t tr; cbn.
  - eexists. reflexivity.
  - destruct (step_thread w 0 t) as [[[w1 t1] e]|] eqn:S.
    + specialize (IH w1 t1 (e :: tr)). destruct (run1 f w1 t1) as [w' t']. exact IH.
    + clear IH. revert tr. induction f as [|f IHf]; intros tr; cbn; [eexists; reflexivity|]. rewrite S. apply IHf.
Qed.

Lemma rm_head : forall n l, ~ In n l -> rm n (n :: l) = l.
Proof.
  intros n l H. unfold rm. cbn. rewrite String.eqb_refl. cbn.
  induction l as [|y t IH]; [reflexivity|]. cbn.
  destruct (String.eqb n y) eqn:E.
  - apply String.eqb_eq in E. subst. exfalso. apply H. left. reflexivity.
  - cbn. f_equal. apply IH. intro Hx. apply H. right. exact Hx.
Qed.

Lemma mem_head : forall n l, mem n (n :: l) = true.
Proof. intros. unfold mem. cbn. rewrite String.eqb_refl. reflexivity. Qed.

(* runs [run1] on a script symbolically: computes up to the next membership test the script makes on the world and
   splits on its outcome, until the thread has finished *)
Ltac crunch := repeat (cbn -[mem rm node_names node_pod wl_node]; rewrite ?mem_head;
  try match goal with |- context [if mem ?a ?b then _ else _] => let E := fresh "E" in destruct (mem a b) eqn:E end).

Lemma refp_eta : forall w l, RefP w -> l = nres w -> RefP (mkRw (pods w) (nodes w) l (wls w) (held w)).
Proof. intros w l [H1 H2 H3 H4] E. subst. constructor; assumption. Qed.

Lemma refp_undo_nres : forall w n, RefP w -> mem n (nres w) = false ->
  RefP (set_nres (set_nres w (n :: nres w)) (rm n (n :: nres w))).
Proof.
  intros w n R E. apply mem_false in E. unfold set_nres. cbn [pods nodes nres wls held].
  apply refp_eta; [exact R | apply rm_head; exact E].
Qed.

Lemma refp_add_node : forall w n p, RefP w -> mem n (nres w) = false -> mem p (pods w) = true ->
  RefP (set_nodes (set_nres w (n :: nres w)) ((n, p) :: nodes w)).
Proof.
  intros w n p [H1 H2 H3 H4] En Ep. apply mem_In in Ep. constructor; unfold node_names in *; cbn [pods nodes nres wls set_nodes set_nres map fst] in *.
  - intros n' p' [H|H]; [inversion H; subst; exact Ep | eapply H1; exact H].
  - intros n' p' [H|H]; [inversion H; subst; left; reflexivity | right; eapply H2; exact H].
  - intros n' [H|H]; [left; exact H | right; apply H3; exact H].
  - intros id n' H. right. eapply H4. exact H.
Qed.

Lemma refp_add_pod : forall w p, RefP w -> RefP (set_pods w (p :: pods w)).
Proof.
  intros w p [H1 H2 H3 H4]. constructor; unfold node_names in *; cbn [pods nodes nres wls set_pods] in *; auto.
  intros n p' H. right. eapply H1. exact H.
Qed.

Lemma refp_del_pod : forall w p, RefP w -> (forall n, ~ In (n, p) (nodes w)) -> RefP (set_pods w (rm p (pods w))).
Proof.
  intros w p [H1 H2 H3 H4] Hn. constructor; unfold node_names in *; cbn [pods nodes nres wls set_pods] in *; auto.
  intros n p' H. apply in_rm. split; [eapply H1; exact H|]. intro E. subst. exact (Hn n H).
Qed.

Lemma refp_held : forall w h, RefP w -> RefP (set_held w h).
Proof. intros w h [H1 H2 H3 H4]. constructor; assumption. Qed.

Lemma refp_remove_node : forall w n, RefP w -> (forall id, ~ In (id, n) (wls w)) ->
  RefP (set_nres (set_nodes w (filter (fun x => negb (String.eqb (fst x) n)) (nodes w))) (rm n (nres w))).
Proof.
  intros w n [H1 H2 H3 H4] Hw. constructor; unfold node_names in *; cbn [pods nodes nres wls set_nodes set_nres] in *.
  - intros n' p' H. apply filter_In in H. destruct H as [H _]. eapply H1. exact H.
  - intros n' p' H. apply filter_In in H. destruct H as [H E]. cbn in E. apply in_rm. split; [eapply H2; exact H|].
    intro X. subst. rewrite String.eqb_refl in E. discriminate.
  - intros n' H. apply in_rm in H. destruct H as [H Hne]. apply H3 in H. apply in_map_iff in H. destruct H as [[a b] [E H]].
    cbn in E. subst a. apply in_map_iff. exists (n', b). split; [reflexivity|]. apply filter_In. split; [exact H|]. cbn.
    destruct (String.eqb n' n) eqn:X; [apply String.eqb_eq in X; congruence | reflexivity].
  - intros id n' H. pose proof (H4 id n' H) as X. apply in_map_iff in X. destruct X as [[a b] [E X]]. cbn in E. subst a.
    apply in_map_iff. exists (n', b). split; [reflexivity|]. apply filter_In. split; [exact X|]. cbn.
    destruct (String.eqb n' n) eqn:Y; [apply String.eqb_eq in Y; subst; exfalso; exact (Hw id H) | reflexivity].
Qed.

Lemma list_snd_nil : forall (l : list (string * string)) b, map fst (filter (fun x => String.eqb (snd x) b) l) = [] ->
  forall a, ~ In (a, b) l.
Proof.
  intros l b H a Hin. assert (X : In a (map fst (filter (fun x => String.eqb (snd x) b) l))).
  { apply in_map_iff. exists (a, b). split; [reflexivity|]. apply filter_In. split; [exact Hin | cbn; apply String.eqb_refl]. }
  rewrite H in X. destruct X.
Qed.

Theorem add_pod_ref : forall w p, RefP w ->
  let '(w', t') := run1 4 w (mkTh (add_pod p) 0 None) in finished t' = true /\ RefP w'.
Proof. intros w p R. crunch; (split; [reflexivity|]); [exact R | apply refp_add_pod; exact R]. Qed.

Theorem add_node_ref : forall w n p fl, RefP w ->
  let '(w', t') := run1 8 w (mkTh (add_node n p) 0 fl) in
  finished t' = true /\
  (RefP w' \/ (* the injected failure hit the compensating plugin removal *)
              exists j, fl = Some j /\ (j = 2 \/ j = 3)%nat).
Proof.
  intros w n p fl R.
  destruct fl as [[|[|[|[|j]]]]|]; crunch; (split; [reflexivity|]);
    try (left; first [exact R | apply refp_undo_nres; assumption | apply refp_add_node; assumption]);
    try (right; eexists; split; [reflexivity | lia]).
Qed.

Lemma eqb_refl_and : forall k, String.eqb k k && Nat.eqb 0 0 = true.
Proof. intros. rewrite String.eqb_refl. reflexivity. Qed.

Lemma node_pod_set_held : forall w h n, node_pod (set_held w h) n = node_pod w n.
Proof. reflexivity. Qed.

(* the same for the scripts that take locks: they also test the pod of a node, a listing, and whether two names
   are equal *)
Ltac crunch2 := repeat (cbn -[mem rm node_names node_pod wl_node plock clock]; rewrite ?mem_head, ?String.eqb_refl, ?node_pod_set_held;
  try match goal with
      | |- context [if mem ?a ?b then _ else _] => let E := fresh "E" in destruct (mem a b) eqn:E
      | |- context [match node_pod ?w ?n with _ => _ end] => let E := fresh "E" in destruct (node_pod w n) eqn:E
      | |- context [map fst (filter ?f ?l)] => let E := fresh "E" in destruct (map fst (filter f l)) eqn:E
      | |- context [if negb (String.eqb ?a ?b) then _ else _] => let E := fresh "Q" in destruct (String.eqb a b) eqn:E
      end).

Theorem remove_pod_ref : forall w p, RefP w -> held w = [] ->
  let '(w', t') := run1 8 w (mkTh (remove_pod p) 0 None) in finished t' = true /\ RefP w'.
Proof.
  intros [ps ns rs ws hs] p R Hh. cbn in Hh. subst hs. crunch2;
    (split; [reflexivity|]); repeat apply refp_held;
    first [ exact R
          | apply refp_del_pod; [repeat apply refp_held; exact R | cbn; eapply list_snd_nil; eassumption]
          | exfalso; congruence ].
Qed.

Theorem remove_node_ref : forall w n fl, RefP w -> held w = [] ->
  let '(w', t') := run1 14 w (mkTh (remove_node n) 0 fl) in
  finished t' = true /\
  (RefP w' \/ (* the plugin removal was hit by the failure after the store record was removed *) fl = Some 6%nat).
Proof.
  intros [ps ns rs ws hs] n fl R Hh. cbn in Hh. subst hs.
  destruct fl as [[|[|[|[|[|[|[|j]]]]]]]|]; crunch2; (split; [reflexivity|]);
    try (left; repeat apply refp_held; exact R);
    try (right; reflexivity);
    try (left; repeat apply refp_held;
         apply (refp_remove_node (set_held (mkRw ps ns rs ws []) [(plock s, 0)]) n);
         [apply refp_held; exact R | cbn; eapply list_snd_nil; eassumption]).
  (* the node exists but has no resource record: impossible in a Ref world *)
  all: exfalso;
       match goal with H : node_pod _ _ = Some _ |- _ =>
         apply node_pod_spec in H; pose proof (rp_res _ R _ _ H) as X; cbn in X; apply mem_In in X; congruence
       end.
Qed.
