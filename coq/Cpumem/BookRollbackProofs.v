(* Cpumem/BookRollbackProofs.v — a rollback is never refused: from a valid
   record, once SetNodeResourceUsage(workloads, Incr) has been accepted, the
   Decr of the same workloads is accepted too (and symmetrically), provided the
   usage already has an entry for every core / NUMA node the workloads name
   (AddNode's Validate creates an entry for every capacity core and NUMA node). *)
From Coq Require Import String List ZArith Bool Lia.
From Verif Require Import Base.GoFloat Cpumem.Types Cpumem.Node Cpumem.BookProofs.
Import ListNotations.
Local Open Scope Z_scope.

Lemma smap_eq_of_lookup (a b : smap Z) :
  keys a = keys b -> NoDup (keys a) -> (forall k, lookup 0 a k = lookup 0 b k) -> a = b.
Proof.
  revert b. unfold keys. induction a as [|[k v] t IH]; intros [|[k' v'] t'] K ND L; simpl in *; try discriminate; [reflexivity|].
  injection K as -> K. inversion ND as [|? ? NI ND']; subst.
  assert (v = v').
  { specialize (L k'). unfold lookup in L. simpl in L. rewrite String.eqb_refl in L. exact L. }
  subst v'. f_equal. apply IH; [exact K|exact ND'|].
  intro k. specialize (L k). unfold lookup in *. simpl in L.
  destruct (String.eqb k k') eqn:E; [|exact L].
  apply String.eqb_eq in E. subst k.
  rewrite (lookup_opt_notin t), (lookup_opt_notin t') by (unfold keys; rewrite <- ?K; exact NI). reflexivity.
Qed.

Definition names_known (u : node_resource) (ws : list wres) : Prop :=
  forall w, In w ws ->
    (forall k, In k (keys (wr_cpumap w)) -> In k (keys (nr_cpumap u))) /\
    (forall k, In k (keys (wr_numamem w)) -> In k (keys (nr_numamem u))).

(* Incr then Decr (or Decr then Incr) gives back the very same map: the key
   list never changes and the lookups cancel *)
Lemma moved_back (pn : node_resource -> smap Z) (pw : wres -> smap Z) incr u ws :
  (forall incr r w, pn (nr_step incr r w) = cpumap_step incr (pn r) (pw w)) ->
  NoDup (keys (pn u)) -> (forall w k, In w ws -> In k (keys (pw w)) -> In k (keys (pn u))) ->
  pn (moved (negb incr) (moved incr u ws) ws) = pn u.
Proof.
  intros F ND NK. pose proof (moved_keys_same pn pw F incr ws u NK) as K1.
  assert (K2 : keys (pn (moved (negb incr) (moved incr u ws) ws)) = keys (pn u)).
  { rewrite (moved_keys_same pn pw F); [exact K1|]. intros w k. rewrite K1. apply NK. }
  apply smap_eq_of_lookup; [exact K2|rewrite K2; exact ND|].
  intro k. rewrite !(moved_lookup pn pw F). destruct incr; simpl; lia.
Qed.

(* RollbackAlloc / RollbackRealloc (incr = true) and the re-adding rollback of
   a release (incr = false) are never refused *)
Theorem back_never_refused incr (info info1 : node_info) (ws : list wres) :
  inv_valid (mkState info []) -> names_known (ni_usage info) ws ->
  set_node_resource_usage info None ws true incr = inr info1 ->
  exists info2, set_node_resource_usage info1 None ws true (negb incr) = inr info2 /\
                nr_cpumap (ni_usage info2) = nr_cpumap (ni_usage info) /\
                nr_numamem (ni_usage info2) = nr_numamem (ni_usage info) /\
                nr_mem (ni_usage info2) = nr_mem (ni_usage info).
Proof.
  intros (V & NC & NN) NK V1. simpl in V, NC, NN. rewrite usage_moved in V1.
  apply validate_inr in V1. subst info1. rewrite usage_moved. cbn [ni_cap ni_usage].
  pose proof (moved_back nr_cpumap wr_cpumap incr _ ws cpumap_field NC (fun w k I => proj1 (NK w I) k)) as M1.
  pose proof (moved_back nr_numamem wr_numamem incr _ ws numamem_field NN (fun w k I => proj2 (NK w I) k)) as M2.
  eexists. split.
  - apply (validate_usage_congr (ni_cap info) (ni_usage info)); [symmetry; exact M1|symmetry; exact M2|].
    destruct info; exact V.
  - cbn [ni_usage]. split; [exact M1|split; [exact M2|]]. rewrite !moved_mem. destruct incr; simpl; lia.
Qed.
