(* Cpumem/BookFixProofs.v — C15: FixNodeResource leaves the usage equal to the
   sum of the recorded workloads, after which the check reports no differences. *)
From Coq Require Import String List ZArith Bool Lia Reals.
From Flocq Require Import Core IEEE754.BinarySingleNaN IEEE754.Binary IEEE754.Bits.
From Verif Require Import Base.GoFloat Cpumem.Types Cpumem.Node Cpumem.BookProofs
  Cpumem.BookRemapProofs Cpumem.BookCpuProofs Cpumem.BookGridProofs.
Import ListNotations.
Local Open Scope Z_scope.

(* WorkloadResource.Add over the workloads is the same fold as an Incr of the
   workloads; for NUMAMemory because adding a Go map to the empty map copies it *)
Lemma sum_as_moved ws : forall w0 u,
  wr_cpu_req w0 = nr_cpu u -> wr_cpumap w0 = nr_cpumap u -> wr_mem_req w0 = nr_mem u ->
  let a := fold_left wr_add ws w0 in let m := moved true u ws in
  wr_cpu_req a = nr_cpu m /\ wr_cpumap a = nr_cpumap m /\ wr_mem_req a = nr_mem m.
Proof. induction ws as [|w t IH]; intros w0 u E1 E2 E3; simpl; [auto|]. apply IH; simpl; congruence. Qed.

Lemma sum_as_moved_numa ws : Forall wf_wres ws -> forall w0 u,
  wr_numamem w0 = nr_numamem u -> wr_numamem (fold_left wr_add ws w0) = nr_numamem (moved true u ws).
Proof.
  induction 1 as [|w t [_ Hw] _ IH]; intros w0 u E; simpl; [exact E|]. apply IH. simpl. rewrite E.
  destruct (nr_numamem u); [symmetry; apply cpumap_add_nil, Hw|reflexivity].
Qed.

Definition act_usage (ws : list wres) : node_resource :=
  let act := sum_workloads ws in
  mkNR (wr_cpu_req act) (wr_cpumap act) (wr_mem_req act) (wr_numamem act) [].

Lemma act_usage_moved ws : Forall wf_wres ws ->
  let m := moved true nr_empty ws in
  nr_cpumap (act_usage ws) = nr_cpumap m /\ nr_numamem (act_usage ws) = nr_numamem m /\
  nr_mem (act_usage ws) = nr_mem m.
Proof.
  intro WF. destruct (sum_as_moved ws wr_zero nr_empty eq_refl eq_refl eq_refl) as (_ & E2 & E3).
  exact (conj E2 (conj (sum_as_moved_numa ws WF wr_zero nr_empty eq_refl) E3)).
Qed.

Lemma act_exact ws : Forall wf_wres ws -> usage_exact_int (act_usage ws) ws.
Proof.
  intro WF. destruct (act_usage_moved ws WF) as (E1 & E2 & E3). unfold usage_exact_int. rewrite E1, E2, E3.
  split; [|split].
  - intro k. rewrite (moved_lookup _ _ cpumap_field), (zs_msum_lookup wr_cpumap); [reflexivity|].
    eapply Forall_impl; [|exact WF]. intros w H. apply H.
  - intro k. rewrite (moved_lookup _ _ numamem_field), (zs_msum_lookup wr_numamem); [reflexivity|].
    eapply Forall_impl; [|exact WF]. intros w H. apply H.
  - rewrite moved_mem. reflexivity.
Qed.

Definition fits (cap : node_resource) (ws : list wres) : Prop :=
  (exists i, validate (mkNI cap (act_usage ws)) = inr i) /\
  (forall w k, In w ws -> In k (keys (wr_numamem w)) -> In k (keys (nr_numamem cap))).

(* drift is arbitrary in the values, but (as Validate enforces on every write)
   the usage only mentions cores and NUMA nodes of the capacity *)
Definition usage_keys_in_cap (info : node_info) : Prop :=
  (forall c, In c (keys (nr_cpumap (ni_usage info))) -> In c (keys (nr_cpumap (ni_cap info)))) /\
  (forall n, In n (keys (nr_numamem (ni_usage info))) -> In n (keys (nr_numamem (ni_cap info)))).

(* the recomputed cpu total is a fixed point of utils.Round (true on the
   decimal grid, see cpu_stable_on_grid below) *)
Definition cpu_stable (ws : list wres) : Prop :=
  feq (wr_cpu_req (sum_workloads ws)) (f_round9 (wr_cpu_req (sum_workloads ws))) = true.

Lemma no_line_iff {V} (p : string * V -> bool) (m : smap V) :
  match map fst (filter p m) with [] => true | _ => false end = true <-> forall k v, In (k, v) m -> p (k, v) = false.
Proof.
  induction m as [|[k0 v0] t IH]; simpl; [tauto|]. destruct (p (k0, v0)) eqn:E; simpl.
  - split; [discriminate|]. intro H. rewrite (H k0 v0) in E by auto. discriminate.
  - rewrite IH. split; [intros H k v [[= <- <-]|I]; auto|auto].
Qed.

Lemma no_diffs_spec info ws : no_diffs (get_diffs info ws) = true <->
  feq (nr_cpu (act_usage ws)) (f_round9 (nr_cpu (ni_usage info))) = true /\
  (forall c, In c (keys (nr_cpumap (ni_cap info))) ->
     lookup 0 (nr_cpumap (act_usage ws)) c = lookup 0 (nr_cpumap (ni_usage info)) c) /\
  (forall n, In n (keys (nr_numamem (ni_cap info))) ->
     lookup 0 (nr_numamem (act_usage ws)) n = lookup 0 (nr_numamem (ni_usage info)) n) /\
  nr_mem (ni_usage info) = nr_mem (act_usage ws).
Proof.
  assert (K : forall (a b cap : smap Z),
    (forall k v, In (k, v) cap -> negb (lookup 0 a (fst (k, v)) =? lookup 0 b (fst (k, v))) = false) <->
    (forall c, In c (keys cap) -> lookup 0 a c = lookup 0 b c)).
  { intros a b cap. split.
    - intros H c I. destruct (in_keys_entry _ _ I) as [v Iv]. apply Z.eqb_eq, negb_false_iff, (H c v Iv).
    - intros H k v I. apply negb_false_iff, Z.eqb_eq, H. unfold keys. apply (in_map fst _ _ I). }
  unfold no_diffs, get_diffs. cbn [d_cpu d_cores d_numa d_mem].
  rewrite !andb_true_iff, !no_line_iff, !K, !negb_true_iff, !negb_false_iff, Z.eqb_eq. tauto.
Qed.

Lemma lookup_agree (a b : smap Z) (ks : list string) :
  (forall k, In k ks -> lookup 0 a k = lookup 0 b k) ->
  (forall k, In k (keys a) -> In k ks) -> (forall k, In k (keys b) -> In k ks) ->
  forall k, lookup 0 a k = lookup 0 b k.
Proof.
  intros H Ka Kb k. destruct (in_dec string_dec k ks) as [I|NI]; [apply H, I|].
  rewrite !lookup_notin; auto.
Qed.

Theorem fix_spec info ws :
  Forall wf_wres ws -> usage_keys_in_cap info -> fits (ni_cap info) ws -> cpu_stable ws ->
  let '(info', resp, d, failed) := fix_node_resource info ws in
  failed = false /\ ni_cap info' = ni_cap info /\ resp = ni_usage info' /\
  usage_exact_int (ni_usage info') ws /\
  feq (wr_cpu_req (sum_workloads ws)) (f_round9 (nr_cpu (ni_usage info'))) = true /\
  no_diffs (get_diffs info' ws) = true.
Proof.
  intros WF [KC KN] [[i V] FN] CS. pose proof (act_exact ws WF) as (AC & AN & AM).
  unfold fix_node_resource. fold (act_usage ws). destruct (no_diffs (get_diffs info ws)) eqn:ND.
  - (* nothing to repair: the compared components were already equal, and neither
       side has an entry outside the capacity *)
    pose proof (proj1 (no_diffs_spec info ws) ND) as (Dc & Dk & Dn & Dm).
    repeat split; [| |congruence|exact Dc|exact ND].
    + intro k. rewrite <- AC. symmetry. revert k. apply (lookup_agree _ _ _ Dk); [|exact KC].
      exact (validate_usage_keys _ _ V).
    + intro k. rewrite <- AN. symmetry. revert k. apply (lookup_agree _ _ _ Dn); [|exact KN].
      intros n H. destruct (act_usage_moved ws WF) as (_ & E & _). rewrite E in H.
      apply (moved_keys_in _ _ numamem_field) in H. destruct H as [[]|(w & I & H)]. exact (FN w n I H).
  - (* repaired: usage := recomputed sum, stored after Validate *)
    rewrite V. apply validate_inr in V. subst i.
    repeat split; [exact AC|exact AN|exact AM|exact CS|]. apply no_diffs_spec. cbn [ni_usage ni_cap].
    split; [exact CS|auto].
Qed.

Lemma feq_of_cpu_is u v k : cpu_is u k -> cpu_is v k -> feq u v = true.
Proof.
  intros [Fu Eu] [Fv Ev]. unfold feq, f_finite in *.
  rewrite (Bcompare_correct 53 1024 u v Fu Fv), Eu, Ev, Rcompare_Eq; reflexivity.
Qed.

Theorem cpu_stable_on_grid ws : Forall on_grid ws -> (ktotal ws <= BND)%Z -> cpu_stable ws.
Proof.
  intros Hg HB. unfold cpu_stable, sum_workloads. cbn [wr_cpu_req].
  destruct (sum_as_moved ws wr_zero nr_empty eq_refl eq_refl eq_refl) as (-> & _).
  pose proof (ktotal_nonneg ws Hg) as H0.
  assert (C : cpu_is (nr_cpu (moved true nr_empty ws)) (0 + signed true (ktotal ws))).
  { apply (moved_cpu grid_closed_holds); [exact Hg|exact cpu_is_f_zero|unfold BND; lia|simpl; lia]. }
  assert (C1 : cpu_is (f_round9 (nr_cpu (moved true nr_empty ws))) (ktotal ws)) by (apply round9_idem; [exact C|lia]).
  apply (feq_of_cpu_is _ _ (ktotal ws)); [exact C1|]. apply round9_idem; [exact C1|lia].
Qed.

(* C15 as stated: repair, then the check is clean and the usage is the sum *)
Theorem fix_then_clean info ws :
  Forall wf_wres ws -> Forall on_grid ws -> (ktotal ws <= BND)%Z ->
  usage_keys_in_cap info -> fits (ni_cap info) ws ->
  let '(info', resp, d, failed) := fix_node_resource info ws in
  failed = false /\ ni_cap info' = ni_cap info /\
  usage_exact_int (ni_usage info') ws /\
  feq (wr_cpu_req (sum_workloads ws)) (f_round9 (nr_cpu (ni_usage info'))) = true /\
  no_diffs (get_diffs info' ws) = true.
Proof.
  intros WF OG HB KI FT.
  pose proof (fix_spec info ws WF KI FT (cpu_stable_on_grid ws OG HB)) as H.
  destruct (fix_node_resource info ws) as [[[info' resp] d] failed].
  destruct H as (H1 & H2 & _ & H4 & H5 & H6). auto.
Qed.
