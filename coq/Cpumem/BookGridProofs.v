(* Cpumem/BookGridProofs.v — utils.Round keeps CPU sums on the 1e-9 decimal grid:
     Round(G a + G b) = G (a + b)   and   Round(G a - G b) = G (a - b)
   as real values, for |a|, |b|, |a +- b| <= 2^49 (G k = the double nearest to
   k * 1e-9).  Proof: Flocq's correctness theorems for + - * / and nearbyint,
   the 1+eps error bound of rounding to nearest, and linear arithmetic. *)
From Coq Require Import ZArith Reals Lia Lra Bool.
From Flocq Require Import Core Relative IEEE754.BinarySingleNaN IEEE754.Binary IEEE754.Bits.
From Verif Require Import Base.GoInt Base.GoFloat Base.GoFloatLemmas Cpumem.Types Cpumem.BookCpuProofs.
Local Open Scope R_scope.

Notation fexp := (FLT_exp (-1074) 53).
Notation rnd := (round radix2 fexp ZnearestE).
Notation b2r := (B2R 53 1024).

Definition eps : R := / 9007199254740992.            (* 2^-53 *)
Definition eta : R := / 1267650600228229401496703205376. (* 2^-100, a generous bound for 2^-1075 *)

Lemma eps_eq : eps = / 2 * bpow radix2 (-53 + 1).
Proof. unfold eps. change (-53 + 1)%Z with (-52)%Z. simpl. lra. Qed.

Lemma eta_ge : / 2 * bpow radix2 (-1074) <= eta.
Proof.
  unfold eta.
  apply Rle_trans with (bpow radix2 (-100)).
  - assert (bpow radix2 (-1074) <= bpow radix2 (-100)) by (apply bpow_le; lia).
    assert (0 < bpow radix2 (-1074)) by apply bpow_gt_0. lra.
  - simpl. lra.
Qed.

Lemma rnd_err x : Rabs (rnd x - x) <= eps * Rabs x + eta.
Proof.
  destruct (error_N_FLT radix2 (-1074) 53 ltac:(lia) (fun x => negb (Z.even x)) x) as (e & t & He & Ht & _ & E).
  rewrite E. replace (x * (1 + e) + t - x) with (x * e + t) by ring.
  eapply Rle_trans; [apply Rabs_triang|]. rewrite Rabs_mult.
  assert (He' : Rabs e <= eps) by (rewrite eps_eq; exact He).
  pose proof eta_ge. pose proof (Rabs_pos x).
  assert (Rabs x * Rabs e <= Rabs x * eps) by (apply Rmult_le_compat_l; assumption).
  lra.
Qed.

Lemma rnd_bound x n : Rabs x <= bpow radix2 n -> (-1074 < n)%Z -> Rabs (rnd x) <= bpow radix2 n.
Proof.
  intros H Hn. apply abs_round_le_generic; [apply FLT_exp_valid; reflexivity|apply valid_rnd_N| |exact H].
  apply generic_format_bpow. unfold FLT_exp. lia.
Qed.

Lemma sum_small a b : Rabs a <= bpow radix2 60 -> Rabs b <= bpow radix2 60 -> Rabs (a + b) <= bpow radix2 100.
Proof.
  intros Ha Hb. eapply Rle_trans; [apply Rabs_triang|].
  replace (bpow radix2 100) with (bpow radix2 60 * bpow radix2 40) by (rewrite <- bpow_plus; reflexivity).
  assert (2 <= bpow radix2 40) by (change 2 with (bpow radix2 1); apply bpow_le; lia).
  assert (0 < bpow radix2 60) by apply bpow_gt_0. nra.
Qed.

Lemma abs_IZR_bpow k n m : (Z.abs k <= 2 ^ n)%Z -> (0 <= n <= m)%Z -> Rabs (IZR k) <= bpow radix2 m.
Proof.
  intros Hk Hn. apply Rle_trans with (bpow radix2 n); [|apply bpow_le; lia].
  rewrite <- abs_IZR, <- IZR_Zpower by lia. apply IZR_le. exact Hk.
Qed.

Lemma f_of_Z_correct k : (Z.abs k < 2 ^ 53)%Z -> b2r (f_of_Z k) = IZR k /\ f_finite (f_of_Z k) = true.
Proof.
  intro Hk. destruct (f_of_Z_real k) as [F E]; [lia|]. split; assumption.
Qed.

Definition e9 : R := 1000000000.
Lemma f_1e9_correct : b2r f_1e9 = e9 /\ f_finite f_1e9 = true.
Proof. unfold f_1e9, e9. apply (f_of_Z_correct 1000000000). simpl. lia. Qed.

Lemma fdiv_e9_correct x : f_finite x = true -> Rabs (b2r x) <= bpow radix2 90 ->
  b2r (fdiv x f_1e9) = rnd (b2r x / e9) /\ f_finite (fdiv x f_1e9) = true.
Proof.
  intros Fx Hx. destruct f_1e9_correct as [E9 F9].
  destruct (fdiv_real x f_1e9 100 Fx) as (F & E & _); [rewrite E9; unfold e9; lra|lia| |rewrite <- E9; split; assumption].
  apply Rle_trans with (Rabs (b2r x)); [|eapply Rle_trans; [exact Hx|apply bpow_le; lia]].
  unfold Rdiv. rewrite E9, Rabs_mult, (Rabs_pos_eq (/ e9)) by (unfold e9; lra).
  pose proof (Rabs_pos (b2r x)). unfold e9. nra.
Qed.

Lemma fmul_e9_correct x : f_finite x = true -> Rabs (b2r x) <= bpow radix2 60 ->
  b2r (fmul x f_1e9) = rnd (b2r x * e9) /\ f_finite (fmul x f_1e9) = true.
Proof.
  intros Fx Hx. destruct f_1e9_correct as [E9 F9].
  destruct (fmul_real x f_1e9 100 Fx F9) as (F & E & _); [lia| |rewrite <- E9; split; assumption].
  rewrite E9, Rabs_mult.
  assert (Rabs e9 <= bpow radix2 30) by (unfold e9; rewrite Rabs_pos_eq by lra; simpl; lra).
  replace (bpow radix2 100) with (bpow radix2 60 * bpow radix2 40) by (rewrite <- bpow_plus; reflexivity).
  apply Rmult_le_compat; try apply Rabs_pos; [exact Hx|].
  apply Rle_trans with (bpow radix2 30); [assumption|apply bpow_le; lia].
Qed.

Lemma fadd_correct x y : f_finite x = true -> f_finite y = true ->
  Rabs (b2r x) <= bpow radix2 60 -> Rabs (b2r y) <= bpow radix2 60 ->
  b2r (fadd x y) = rnd (b2r x + b2r y) /\ f_finite (fadd x y) = true.
Proof.
  intros Fx Fy Hx Hy.
  destruct (op_real _ _ _ _ _ 100 ltac:(lia) (sum_small _ _ Hx Hy)
              (Bplus_correct 53 1024 eq_refl eq_refl binop_nan_pl64 mode_NE x y Fx Fy)) as (F & E & _).
  split; assumption.
Qed.

Lemma fsub_correct x y : f_finite x = true -> f_finite y = true ->
  Rabs (b2r x) <= bpow radix2 60 -> Rabs (b2r y) <= bpow radix2 60 ->
  b2r (fsub x y) = rnd (b2r x - b2r y) /\ f_finite (fsub x y) = true.
Proof.
  intros Fx Fy Hx Hy.
  destruct (fsub_real x y 100 Fx Fy) as (F & E & _); [lia| |split; assumption].
  apply (sum_small _ (- _)); [|rewrite Rabs_Ropp]; assumption.
Qed.

Lemma f_round_correct x : f_finite x = true ->
  b2r (f_round x) = IZR (ZnearestA (b2r x)) /\ f_finite (f_round x) = true.
Proof.
  intro Fx. unfold f_round, f_finite in *.
  destruct (Bnearbyint_correct 53 1024 (eq_refl _) (fun _ => nan_pl64) mode_NA x) as (H1 & H2 & _).
  rewrite H1, H2. simpl round_mode. rewrite round_FIX0. split; [reflexivity|exact Fx].
Qed.

Lemma abs_le_add x y : Rabs x <= Rabs y + Rabs (x - y).
Proof. replace x with (y + (x - y)) at 1 by ring. apply Rabs_triang. Qed.

Lemma core (A B ga gb S P : R) (N : Z) :
  Rabs (ga - A) <= eps * Rabs A + eta ->
  Rabs (gb - B) <= eps * Rabs B + eta ->
  Rabs (S - (ga + gb)) <= eps * Rabs (ga + gb) + eta ->
  Rabs (P - S * e9) <= eps * Rabs (S * e9) + eta ->
  (Rabs A + Rabs B) * e9 <= 1125899906842624 ->
  IZR N = (A + B) * e9 ->
  Rabs (P - IZR N) < / 2.
Proof.
  intros H1 H2 H3 H4 HM HN. rewrite HN.
  pose proof (abs_le_add ga A) as G1. pose proof (abs_le_add gb B) as G2.
  pose proof (Rabs_triang ga gb) as T.
  pose proof (R_dist_plus ga A gb B) as D. pose proof (abs_le_add S (ga + gb)) as GS.
  pose proof (R_dist_tri S (A + B) (ga + gb)) as DS. unfold R_dist in D, DS.
  assert (SE : Rabs (S * e9) = Rabs S * e9).
  { rewrite Rabs_mult. f_equal. apply Rabs_pos_eq. unfold e9. lra. }
  assert (DP : Rabs (P - (A + B) * e9) <= Rabs (P - S * e9) + Rabs (S - (A + B)) * e9).
  { replace (P - (A + B) * e9) with ((P - S * e9) + (S - (A + B)) * e9) by ring.
    eapply Rle_trans; [apply Rabs_triang|]. rewrite (Rabs_mult (S - (A + B)) e9).
    rewrite (Rabs_pos_eq e9) by (unfold e9; lra). lra. }
  rewrite SE in H4.
  unfold eps, eta, e9 in *. lra.
Qed.

Lemma G_correct k : (Z.abs k <= 2 ^ 50)%Z ->
  b2r (G k) = rnd (IZR k / e9) /\ f_finite (G k) = true.
Proof.
  intro Hk. destruct (f_of_Z_correct k) as [E F]; [lia|]. unfold G.
  destruct (fdiv_e9_correct (f_of_Z k) F) as [E' F']; [rewrite E; apply (abs_IZR_bpow k 50); [exact Hk|lia]|].
  rewrite E in E'. split; assumption.
Qed.

(* math.Round(s * 1e9) is exactly N *)
Lemma scaled_nearest (s : f64) (ga gb A B : R) (N : Z) :
  f_finite s = true -> b2r s = rnd (ga + gb) ->
  Rabs (ga - A) <= eps * Rabs A + eta ->
  Rabs (gb - B) <= eps * Rabs B + eta ->
  Rabs ga <= bpow radix2 58 -> Rabs gb <= bpow radix2 58 ->
  (Rabs A + Rabs B) * e9 <= 1125899906842624 ->
  IZR N = (A + B) * e9 ->
  b2r (f_round (fmul s f_1e9)) = IZR N /\ f_finite (f_round (fmul s f_1e9)) = true.
Proof.
  intros Fs Es H1 H2 Ba Bb HM HN.
  assert (Bs : Rabs (b2r s) <= bpow radix2 60).
  { rewrite Es. apply rnd_bound; [|lia]. eapply Rle_trans; [apply Rabs_triang|].
    replace (bpow radix2 60) with (bpow radix2 58 * 4) by (change 4 with (bpow radix2 2); rewrite <- bpow_plus; reflexivity).
    assert (0 < bpow radix2 58) by apply bpow_gt_0. lra. }
  destruct (fmul_e9_correct s Fs Bs) as [Ep Fp].
  destruct (f_round_correct _ Fp) as [Eq Fq]. split; [|exact Fq].
  rewrite Eq. f_equal. apply Znearest_imp. rewrite Ep.
  apply (core A B ga gb (b2r s) _ N H1 H2); [rewrite Es; apply rnd_err|apply rnd_err|exact HM|exact HN].
Qed.

(* ... and dividing it by 1e9 again gives the grid point *)
Lemma round9_of_nearest (s : f64) (N : Z) :
  b2r (f_round (fmul s f_1e9)) = IZR N /\ f_finite (f_round (fmul s f_1e9)) = true ->
  (Z.abs N <= 2 ^ 50)%Z -> cpu_is (f_round9 s) N.
Proof.
  intros [Eq Fq] BN. unfold f_round9.
  destruct (fdiv_e9_correct _ Fq) as [Er Fr]; [rewrite Eq; apply (abs_IZR_bpow N 50); [exact BN|lia]|].
  destruct (G_correct N BN) as [EG _]. split; [exact Fr|]. rewrite Er, Eq, EG. reflexivity.
Qed.

Lemma finish (s : f64) (ga gb A B : R) (N : Z) :
  f_finite s = true -> b2r s = rnd (ga + gb) ->
  Rabs (ga - A) <= eps * Rabs A + eta ->
  Rabs (gb - B) <= eps * Rabs B + eta ->
  Rabs ga <= bpow radix2 58 -> Rabs gb <= bpow radix2 58 ->
  (Rabs A + Rabs B) * e9 <= 1125899906842624 ->
  IZR N = (A + B) * e9 -> (Z.abs N <= 2 ^ 50)%Z ->
  cpu_is (f_round9 s) N.
Proof.
  intros Fs Es H1 H2 Ba Bb HM HN BN.
  apply round9_of_nearest; [|exact BN]. exact (scaled_nearest s ga gb A B N Fs Es H1 H2 Ba Bb HM HN).
Qed.

Lemma grid_value k : (Z.abs k <= 562949953421312)%Z ->
  let A := IZR k / e9 in
  Rabs (rnd A - A) <= eps * Rabs A + eta /\ Rabs (rnd A) <= bpow radix2 58 /\ Rabs A * e9 = IZR (Z.abs k).
Proof.
  intros Hk A. split; [apply rnd_err|].
  assert (EA : Rabs A * e9 = IZR (Z.abs k)).
  { unfold A, Rdiv. rewrite Rabs_mult, abs_IZR. rewrite (Rabs_pos_eq (/ e9)) by (unfold e9; lra).
    unfold e9. field. }
  split; [|exact EA].
  apply rnd_bound; [|lia].
  apply Rle_trans with (IZR (Z.abs k)); [rewrite <- EA; pose proof (Rabs_pos A); unfold e9; nra|].
  rewrite abs_IZR. apply (abs_IZR_bpow k 58); lia.
Qed.

Lemma cpu_is_value u k : cpu_is u k -> (Z.abs k <= BND)%Z ->
  f_finite u = true /\ b2r u = rnd (IZR k / e9) /\ Rabs (b2r u) <= bpow radix2 60.
Proof.
  intros [F E] Hk. unfold BND in Hk. destruct (G_correct k) as [Gk _]; [lia|].
  destruct (grid_value k Hk) as (_ & B & _). rewrite E, Gk. split; [exact F|split; [reflexivity|]].
  eapply Rle_trans; [exact B|apply bpow_le; lia].
Qed.

Lemma round9_sum (s : f64) a b :
  f_finite s = true -> b2r s = rnd (rnd (IZR a / e9) + rnd (IZR b / e9)) ->
  (Z.abs a <= BND)%Z -> (Z.abs b <= BND)%Z -> (Z.abs (a + b) <= BND)%Z -> cpu_is (f_round9 s) (a + b).
Proof.
  intros Fs Es Ha Hb Hab. unfold BND in *.
  destruct (grid_value a Ha) as (A1 & A2 & A3). destruct (grid_value b Hb) as (B1 & B2 & B3).
  apply (finish _ _ _ (IZR a / e9) (IZR b / e9) (a + b) Fs Es A1 B1 A2 B2).
  - rewrite Rmult_plus_distr_r, A3, B3, <- plus_IZR. apply IZR_le. lia.
  - rewrite plus_IZR. unfold e9. field.
  - lia.
Qed.

Theorem grid_add_holds : grid_add_closed.
Proof.
  intros u c a b Cu Cc Ha Hb Hab.
  destruct (cpu_is_value u a Cu Ha) as (Fu & Eu & Bu). destruct (cpu_is_value c b Cc Hb) as (Fc & Ec & Bc).
  destruct (fadd_correct u c Fu Fc Bu Bc) as [Es Fs].
  apply round9_sum; try assumption. rewrite Es, Eu, Ec. reflexivity.
Qed.

(* rounding to nearest even is odd, so G a - G b is G a + G (-b) *)
Theorem grid_sub_holds : grid_sub_closed.
Proof.
  intros u c a b Cu Cc Ha Hb Hab.
  destruct (cpu_is_value u a Cu Ha) as (Fu & Eu & Bu). destruct (cpu_is_value c b Cc Hb) as (Fc & Ec & Bc).
  destruct (fsub_correct u c Fu Fc Bu Bc) as [Es Fs].
  apply (round9_sum _ a (- b)); [exact Fs| |exact Ha|lia|exact Hab].
  rewrite Es, Eu, Ec, opp_IZR. unfold Rminus, Rdiv. rewrite Ropp_mult_distr_l_reverse, round_NE_opp. reflexivity.
Qed.

Theorem grid_closed_holds : grid_closed.
Proof. split; [exact grid_add_holds|exact grid_sub_holds]. Qed.

From Coq Require Import List String.
From Verif Require Import Cpumem.Node Cpumem.BookProofs.
Import ListNotations.

Lemma cpu_is_zero u : f_finite u = true -> b2r u = 0 -> cpu_is u 0.
Proof.
  intros F E. split; [exact F|]. destruct (G_correct 0) as [EG _]; [simpl; lia|].
  rewrite E, EG. unfold Rdiv. rewrite Rmult_0_l. symmetry. apply round_0. apply valid_rnd_N.
Qed.

Theorem cpu_all_histories (info : node_info) (h : list op) :
  inv_valid (mkState info []) ->
  f_finite (nr_cpu (ni_usage info)) = true -> b2r (nr_cpu (ni_usage info)) = 0 ->
  Forall op_grid h -> bounded_run (mkState info []) h ->
  inv_cpu (run (mkState info []) h).
Proof.
  intros IV F E OG BR. apply (history_inv_cpu grid_closed_holds h _ OG BR IV).
  split; [|split]; simpl.
  - apply cpu_is_zero; assumption.
  - constructor.
  - unfold ktotal, zs, BND. simpl. lia.
Qed.

Theorem cpu_step (s : state) (o : op) : op_grid o -> inv_valid s -> inv_cpu s ->
  (ktotal (st_live (sr_state (step s o))) <= BND)%Z -> inv_cpu (sr_state (step s o)).
Proof. exact (step_inv_cpu grid_closed_holds s o). Qed.

Theorem cpu_rollback info ws info1 info2 K :
  cpu_is (nr_cpu (ni_usage info)) K -> (0 <= K)%Z -> (K + ktotal ws <= BND)%Z -> Forall on_grid ws ->
  set_node_resource_usage info None ws true true = inr info1 ->
  set_node_resource_usage info1 None ws true false = inr info2 ->
  cpu_is (nr_cpu (ni_usage info2)) K.
Proof. exact (incr_then_decr_cpu grid_closed_holds info ws info1 info2 K). Qed.

(* the hypotheses are satisfiable: a workload asking for 0.5 cpu is on the grid *)
Example on_grid_example :
  on_grid (mkWR (G 500000000) (G 500000000) 100 100 [] [] EmptyString).
Proof.
  unfold on_grid, kf. simpl wr_cpu_req.
  assert (E : nano (G 500000000) = 500000000%Z) by (vm_compute; reflexivity).
  rewrite E. split; [|unfold BND; lia]. split; [vm_compute; reflexivity|reflexivity].
Qed.

Lemma grid_nearest x k : cpu_is x k -> (Z.abs k <= BND)%Z ->
  b2r (f_round (fmul x f_1e9)) = IZR k /\ f_finite (f_round (fmul x f_1e9)) = true.
Proof.
  intros C Hk. destruct (cpu_is_value x k C Hk) as (Fx & Ex & _). unfold BND in Hk.
  destruct (grid_value k Hk) as (A1 & A2 & A3).
  apply (scaled_nearest x (rnd (IZR k / e9)) 0 (IZR k / e9) 0 k Fx).
  - rewrite Ex, Rplus_0_r. symmetry. apply round_generic; [apply valid_rnd_N|].
    apply generic_format_round; [apply FLT_exp_valid; reflexivity|apply valid_rnd_N].
  - exact A1.
  - rewrite Rminus_0_r, Rabs_R0. unfold eps, eta. lra.
  - exact A2.
  - rewrite Rabs_R0. apply bpow_ge_0.
  - rewrite Rabs_R0, Rplus_0_r, A3. apply IZR_le. lia.
  - unfold e9. field.
Qed.

Lemma round9_idem u k : cpu_is u k -> (Z.abs k <= BND)%Z -> cpu_is (f_round9 u) k.
Proof. intros C Hk. apply round9_of_nearest; [apply grid_nearest; assumption|unfold BND in Hk; lia]. Qed.

Lemma nano_of_cpu_is x k : cpu_is x k -> (0 <= k <= BND)%Z -> nano x = k.
Proof.
  intros C Hk. destruct (grid_nearest x k C) as [Eq Fq]; [lia|]. unfold BND in Hk.
  unfold nano, f_to_int. rewrite Fq.
  pose proof (Btrunc_correct 53 1024 (eq_refl _) (f_round (fmul x f_1e9))) as T.
  rewrite Eq, round_FIX0, Ztrunc_IZR in T. apply eq_IZR in T. rewrite T.
  replace (in_int64 k) with true; [reflexivity|].
  symmetry. unfold in_int64, min_int, max_int. apply andb_true_iff. split; apply Z.leb_le; lia.
Qed.

Lemma on_grid_of_decimal (w : wres) k : cpu_is (wr_cpu_req w) k -> (0 <= k <= BND)%Z -> on_grid w.
Proof.
  intros C Hk. unfold on_grid, kf. rewrite (nano_of_cpu_is _ k C Hk). split; assumption.
Qed.
