(* Cpumem/SchedProofsDeploy.v — lifting of the GetCPUPlans theorems to
   CalculateDeploy (doAllocByCPU): the returned workloads are a prefix of the
   plan list, so they are jointly feasible, and each records the request and the
   plan it was given. *)
From Coq Require Import String Ascii List ZArith Bool Lia Permutation.
From Verif Require Import Base.GoFloat Base.ListFacts.
From Verif Require Import Cpumem.Types Cpumem.Schedule Cpumem.Calc Cpumem.SchedCase.
From Verif Require Import Cpumem.SchedProofs Cpumem.SchedProofsMem Cpumem.SchedProofsFit
                          Cpumem.SchedProofsPieces Cpumem.SchedProofsTop Cpumem.SchedProofsOrder.
Import ListNotations.
Local Open Scope Z_scope.

Definition mk_ep (req : wreq) (tp : string * plan) : eparams :=
  mkEP (rq_cpu_lim req) (snd tp) (fst tp) (rq_mem_lim req) false.
Definition mk_wr (req : wreq) (tp : string * plan) : wres :=
  mkWR (rq_cpu_req req) (rq_cpu_lim req) (rq_mem_req req) (rq_mem_lim req) (snd tp)
       (match fst tp with EmptyString => [] | nid => [(nid, rq_mem_req req)] end) (fst tp).

(* joint feasibility of a tagged plan list in a node (C04 a, b, c) *)
Definition fits (info : node_info) (mem : Z) (plans : list (string * plan)) : Prop :=
  let avail := get_available_nofloat info in
  (forall id, used (map snd plans) id <= Z.max 0 (lookup 0 (nr_cpumap avail) id))
  /\ (forall tp, In tp plans -> fst tp <> EmptyString ->
        (forall c, In c (keys (snd tp)) -> lookup_opt (nr_numa (ni_cap info)) c = Some (fst tp))
        /\ count_tag plans (fst tp) * mem <= Z.max 0 (lookup 0 (nr_numamem avail) (fst tp)))
  /\ Z.of_nat (length plans) * mem <= nr_mem avail
  /\ (forall tp c, In tp plans -> In c (snd tp) -> 0 < snd c).

Lemma count_tag_firstn n l nid : count_tag (firstn n l) nid <= count_tag l nid.
Proof.
  rewrite <- (firstn_skipn n l) at 2. rewrite count_tag_app. pose proof (count_tag_nonneg (skipn n l) nid). lia.
Qed.

Lemma fits_nn info mem plans : fits info mem plans -> plans_nn (map snd plans).
Proof.
  intros (_ & _ & _ & P). apply Forall_map, Forall_forall. intros tp Htp.
  apply Forall_forall. intros c Hc. specialize (P tp c Htp Hc). lia.
Qed.

Lemma fits_firstn info mem plans n : 0 <= mem -> fits info mem plans -> fits info mem (firstn n plans).
Proof.
  intros Hm F. pose proof (fits_nn _ _ _ F) as Nn. destruct F as (A & B & C & P). unfold fits. cbv zeta.
  split; [|split; [|split]].
  - intros id. rewrite <- firstn_map. pose proof (used_firstn_le n (map snd plans) id Nn). specialize (A id). lia.
  - intros tp Hin Hne. apply in_firstn in Hin. destruct (B tp Hin Hne) as (B1 & B2). split; auto.
    pose proof (count_tag_firstn n plans (fst tp)).
    assert (count_tag (firstn n plans) (fst tp) * mem <= count_tag plans (fst tp) * mem) by (apply Z.mul_le_mono_nonneg_r; auto).
    lia.
  - assert (Z.of_nat (length (firstn n plans)) * mem <= Z.of_nat (length plans) * mem) by (apply Z.mul_le_mono_nonneg_r; [lia|rewrite firstn_length; lia]).
    lia.
  - intros tp c Hin Hc. apply in_firstn in Hin. eauto.
Qed.

Section Deploy.
Variable sortf : list keyed -> outcome (list keyed).
Hypothesis sortf_perm : forall l, exists l', sortf l = Ok l' /\ Permutation l' l.

Lemma plans_fits info origin base mf req order fuel plans :
  get_cpu_plans_g sortf info origin base mf req order fuel = Ok plans ->
  wf_maps info -> NoDup order -> ~ In EmptyString order -> 0 < base ->
  0 <= rq_mem_req req -> 0 <= nr_mem (get_available_nofloat info) ->
  fits info (rq_mem_req req) plans.
Proof.
  intros H Wf Nd Hne Hb Hm Hfree.
  destruct (plans_fit sortf sortf_perm _ _ _ _ _ _ _ _ H Wf Nd Hne Hb Hm Hfree) as (A & B & C & P).
  split; [exact A|]. split; [|split; [exact C|exact P]].
  intros tp Hin Hn. split; apply (B tp Hin Hn).
Qed.

Theorem plans_fit_det info origin base mf req fuel plans :
  get_cpu_plans_det_g sortf info origin base mf req fuel = Ok plans ->
  wf_maps info -> ~ In EmptyString (map snd (nr_numa (ni_cap info))) -> 0 < base ->
  0 <= rq_mem_req req -> 0 <= nr_mem (get_available_nofloat info) ->
  fits info (rq_mem_req req) plans.
Proof.
  intros H Wf Hne. apply (plans_fits _ _ _ _ _ _ _ _ H Wf (visit_order_nodup info origin)).
  apply visit_order_no_empty, Hne.
Qed.

Lemma deploy_struct info base maxshare count raw order fuel eps ws req :
  calculate_deploy_g sortf info base maxshare count raw order fuel = Ok (inr (eps, ws)) ->
  wreq_validate raw = inr req -> rq_bind req = true ->
  exists plans, get_cpu_plans_g sortf info [] base maxshare req order fuel = Ok plans
    /\ 0 <= count <= Z.of_nat (length plans)
    /\ eps = map (mk_ep req) (firstn (Z.to_nat count) plans)
    /\ ws = map (mk_wr req) (firstn (Z.to_nat count) plans).
Proof.
  unfold calculate_deploy_g. intros H Ev Eb. rewrite Ev, Eb in H. simpl in H.
  unfold do_alloc_by_cpu_g in H. apply bind_ok in H. destruct H as (plans & Ep & H).
  exists plans. split; auto.
  destruct (Z.of_nat (length plans) <? count) eqn:E1; [discriminate|]. apply Z.ltb_ge in E1.
  destruct (count <? 0) eqn:E2; [discriminate|]. apply Z.ltb_ge in E2.
  inversion H; subst. split; [lia|]. split; reflexivity.
Qed.

Theorem deploy_recorded info base maxshare count raw order fuel eps ws req k :
  calculate_deploy_g sortf info base maxshare count raw order fuel = Ok (inr (eps, ws)) ->
  wreq_validate raw = inr req -> rq_bind req = true ->
  wf_maps info -> NoDup order ->
  1 <= k < 2^50 -> 1 <= base <= 2^53 -> rq_cpu_req req = decimal_request k base ->
  length eps = length ws
  /\ forall i w e, nth_error ws i = Some w -> nth_error eps i = Some e ->
       wr_cpu_req w = decimal_request k base
       /\ total_pieces (wr_cpumap w) = k
       /\ c05_plan_ok base k (wr_cpumap w) = true
       /\ ep_cpumap e = wr_cpumap w.
Proof.
  intros H Ev Eb Wf Nd Hk Hb Er.
  destruct (deploy_struct _ _ _ _ _ _ _ _ _ _ H Ev Eb) as (plans & Ep & Hc & -> & ->).
  split; [rewrite !map_length; reflexivity|].
  intros i w e Hw He. rewrite nth_error_map in Hw, He.
  destruct (nth_error (firstn (Z.to_nat count) plans) i) as [tp|] eqn:En; [|discriminate].
  simpl in Hw, He. inversion Hw; inversion He; subst; clear Hw He.
  assert (Hin : In tp plans) by (eapply in_firstn; eapply nth_error_In; eauto).
  destruct (plans_exact sortf sortf_perm _ _ _ _ _ _ _ _ k Ep Wf Nd Hk Hb Er tp Hin) as (O5 & p0 & fr & _ & _ & _ & _ & Tp).
  simpl. auto.
Qed.

(* C04 (a) (b) (c) for the workloads CalculateDeploy returns *)
Theorem deploy_fit info base maxshare count raw order fuel eps ws req :
  calculate_deploy_g sortf info base maxshare count raw order fuel = Ok (inr (eps, ws)) ->
  wreq_validate raw = inr req -> rq_bind req = true ->
  wf_maps info -> NoDup order -> ~ In EmptyString order -> 0 < base ->
  0 <= rq_mem_req req -> 0 <= nr_mem (get_available_nofloat info) ->
  Z.of_nat (length ws) = count
  /\ fits info (rq_mem_req req) (tagged_of ws)
  /\ (forall w, In w ws -> wr_mem_req w = rq_mem_req req
        /\ wr_numamem w = match wr_numanode w with EmptyString => [] | nid => [(nid, rq_mem_req req)] end).
Proof.
  intros H Ev Eb Wf Nd Hne Hb Hm Hfree.
  destruct (deploy_struct _ _ _ _ _ _ _ _ _ _ H Ev Eb) as (plans & Ep & Hc & -> & ->).
  pose proof (plans_fits _ _ _ _ _ _ _ _ Ep Wf Nd Hne Hb Hm Hfree) as Ff.
  assert (Et : tagged_of (map (mk_wr req) (firstn (Z.to_nat count) plans)) = firstn (Z.to_nat count) plans).
  { unfold tagged_of. rewrite map_map. simpl. rewrite <- (map_id (firstn _ plans)) at 2.
    apply map_ext. intros [a b]; reflexivity. }
  split; [rewrite map_length, firstn_length; lia|]. split.
  - rewrite Et. apply fits_firstn; auto.
  - intros w Hw. apply in_map_iff in Hw. destruct Hw as (tp & <- & _). simpl. auto.
Qed.
End Deploy.
