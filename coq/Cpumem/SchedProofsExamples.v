(* Cpumem/SchedProofsExamples.v — the hypotheses of the C04/C05/C06 theorems are
   satisfiable and their conclusions are not vacuous: a concrete NUMA node on
   which the scheduler returns plans. *)
From Coq Require Import String Ascii List ZArith Bool.
From Verif Require Import Base.GoFloat Cpumem.Types Cpumem.Schedule Cpumem.Calc Cpumem.SchedCase.
From Verif Require Import Cpumem.SchedProofsPieces Cpumem.SchedProofsTop.
Import ListNotations.
Local Open Scope Z_scope.
Local Open Scope string_scope.

(* 4 cores at share 100 on two NUMA nodes, core 0 half used, memory 1000 (300 used), NUMA memory 400 + 400 *)
Definition ex_node : node_info :=
  mkNI (mkNR (f_of_Z 4) [("0", 100); ("1", 100); ("2", 100); ("3", 100)] 1000 [("a", 400); ("b", 400)]
             [("0", "a"); ("1", "a"); ("2", "b"); ("3", "b")])
       (mkNR f_zero [("0", 50)] 300 [("a", 100)] []).
(* bound request 1.29 cores = fl(129/100), 200 memory *)
Definition ex_req : wreq := mkReq true false (decimal_request 129 100) (decimal_request 129 100) 200 200.

Example ex_valid : valid_node ex_node = true.
Proof. vm_compute. reflexivity. Qed.

Example ex_wf : wf_maps ex_node.
Proof. split; simpl; repeat constructor; simpl; intuition discriminate. Qed.

Example ex_plans :
  get_cpu_plans ex_node [] 100 (-1) ex_req ["a"; "b"] (default_fuel ex_node)
  = Ok [("a", [("1", 100); ("0", 29)]); ("b", [("3", 100); ("2", 29)])].
Proof. vm_compute. reflexivity. Qed.

Example ex_ok :
  c04_plans_ok ex_node 200 [("a", [("1", 100); ("0", 29)]); ("b", [("3", 100); ("2", 29)])] = true
  /\ c05_plan_ok 100 129 [("1", 100); ("0", 29)] = true.
Proof. vm_compute. split; reflexivity. Qed.

Example ex_deploy :
  match calculate_deploy ex_node 100 (-1) 2 ex_req ["a"; "b"] (default_fuel ex_node) with
  | Ok (inr (eps, ws)) => validate_ok (commit_usage ex_node ws)
  | _ => false
  end = true.
Proof. vm_compute. reflexivity. Qed.
