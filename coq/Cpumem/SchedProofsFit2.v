(* Cpumem/SchedProofsFit2.v — C04 (a), (b, cores) and the plan shape for
   doGetCPUPlans, the NUMA loop and GetCPUPlans. *)
From Coq Require Import String Ascii List ZArith Bool Lia Permutation.
From Verif Require Import Cpumem.BookProofs Base.ListFacts.
From Verif Require Import Base.GoFloat.
From Verif Require Import Cpumem.Types Cpumem.Schedule Cpumem.SchedProofs Cpumem.SchedProofsMem Cpumem.SchedProofsFit.
Import ListNotations.
Local Open Scope Z_scope.

Definition amountp (l : list core) (id : string) : Z :=
  fold_right (fun c s => (if String.eqb (cid c) id then Z.max 0 (cpieces c) else 0) + s) 0 l.

Lemma amount_filter_le sel l id : amount (filter sel l) id <= amountp l id.
Proof.
  induction l as [|c t IH]; simpl; [lia|].
  destruct (sel c); simpl; destruct (String.eqb (cid c) id); lia.
Qed.

Lemma amountp_cores_of (m : smap Z) id : NoDup (keys m) -> amountp (cores_of m) id = Z.max 0 (lookup 0 m id).
Proof.
  unfold lookup. induction m as [|[k v] t IH]; simpl; intros H; [reflexivity|].
  inversion H as [|? ? Hn Ht]; subst. rewrite String.eqb_sym.
  destruct (String.eqb_spec id k) as [E|N]; [|rewrite IH; auto].
  subst. assert (Z0 : amountp (cores_of t) k = 0); [|rewrite Z0; lia].
  clear -Hn. induction t as [|[k' v'] t IHt]; simpl; auto.
  destruct (String.eqb_spec k' k) as [E|N]; [subst; exfalso; apply Hn; left; auto|].
  rewrite IHt; auto. intro; apply Hn; right; auto.
Qed.

Lemma ids_cores_of (m : smap Z) : ids (cores_of m) = keys m.
Proof. unfold ids, keys, cores_of. rewrite map_map. reflexivity. Qed.

Lemma host_on_content base m h : host_on base m h -> NoDup (keys m) ->
  NoDup (ids (h_full h ++ h_frag h))
  /\ (forall id, amount (h_full h ++ h_frag h) id <= Z.max 0 (lookup 0 m id))
  /\ incl (ids (h_full h ++ h_frag h)) (keys m).
Proof.
  intros (_ & sel & P) Nd. pose proof (ids_perm _ _ P) as Pi. rewrite <- ids_cores_of in *.
  split; [|split].
  - apply (Permutation_NoDup (Permutation_sym Pi)), NoDup_map_filter, Nd.
  - intros id. rewrite (amount_perm _ _ id P), <- (amountp_cores_of m id) by (rewrite <- ids_cores_of; exact Nd).
    apply amount_filter_le.
  - intros y Hy. apply (Permutation_in _ Pi), in_map_iff in Hy. destruct Hy as (c & <- & Hc).
    apply filter_In in Hc. apply in_map, Hc.
Qed.

Section GenericFit3.
Variable sortf : list keyed -> outcome (list keyed).
Hypothesis sortf_perm : forall l, exists l', sortf l = Ok l' /\ Permutation l' l.

Definition shape_of (base : Z) (cpu : f64) (IDS : list string) (p : plan) : Prop :=
  let pr := pieces_request base cpu in
  0 < pr /\ plan_shape base (Z.quot pr base) (Z.rem pr base) IDS p.

Lemma do_get_content origin avail amem base mf cpu mem fuel r : 0 < base -> NoDup (keys avail) ->
  do_get_cpu_plans_g sortf origin avail amem base mf cpu mem fuel = Ok r ->
  (forall id, used r id <= Z.max 0 (lookup 0 avail id))
  /\ Forall (shape_of base cpu (keys avail)) r.
Proof.
  intros Hb Nd H.
  destruct (do_get_eq sortf origin avail amem base mf cpu mem fuel Hb) as (h' & Hh & E). rewrite E in H. clear E.
  apply bind_ok in H. destruct H as (plans & Ep & H). injection H as <-.
  destruct (mem_cut_firstn amem mem plans) as (n & ->).
  destruct (host_on_content _ _ _ Hh Nd) as (N2 & A2 & I2). destruct Hh as ((Eb & Hf & Hg) & _).
  unfold host_cpu_plans_g in Ep. rewrite Eb in Ep.
  destruct (pieces_request base cpu <=? 0) eqn:E0.
  - inversion Ep; subst. rewrite firstn_nil. split; [intros; simpl; lia|constructor].
  - apply Z.leb_gt in E0.
    replace (base =? 0) with false in Ep by (symmetry; apply Z.eqb_neq; lia).
    destruct (host_plans_content sortf sortf_perm base h' _ fuel plans Hb E0 (conj Eb (conj Hf Hg)) N2 Ep) as (U & Sh).
    split.
    + intros id. specialize (U id). specialize (A2 id).
      assert (Nn : plans_nn plans) by (eapply Forall_impl; [|exact Sh]; intros p; exact (plan_shape_nn _ _ _ _ p Hb)).
      pose proof (used_firstn_le n plans id Nn). lia.
    + apply Forall_firstn'. eapply Forall_impl; [|exact Sh]. intros p Sp.
      split; [exact E0|exact (plan_shape_incl _ _ _ _ _ _ I2 Sp)].
Qed.
End GenericFit3.

Lemma sub_plans_cpumap (plans : list plan) nid mem : Forall (fun p => NoDup (keys p)) plans -> forall a,
  let a' := fold_left (fun a p => nr_sub_nofloat a (mkNR f_zero p mem [(nid, mem)] [])) plans a in
  (forall id, lookup 0 (nr_cpumap a') id = lookup 0 (nr_cpumap a) id - used plans id)
  /\ (NoDup (keys (nr_cpumap a)) -> NoDup (keys (nr_cpumap a'))).
Proof.
  intros H. induction H as [|p t Hp Ht IH]; intros a; cbn [fold_left].
  - split; auto. intros id. simpl. lia.
  - cbv zeta in IH. destruct (IH (nr_sub_nofloat a (mkNR f_zero p mem [(nid, mem)] []))) as (L & N).
    cbv zeta. split.
    + intros id. rewrite L. cbn [nr_sub_nofloat nr_cpumap]. rewrite lookup_cpumap_sub by auto.
      rewrite used_cons. lia.
    + intros Nd. apply N. cbn [nr_sub_nofloat nr_cpumap]. apply (cpumap_step_nodup false), Nd.
Qed.

Lemma keys_numa_cpu_map numa a nid :
  keys (numa_cpu_map numa a nid) = keys (filter (fun kv => String.eqb (snd kv) nid) numa).
Proof. unfold numa_cpu_map, keys. rewrite map_map. reflexivity. Qed.

Lemma numa_map_nodup numa a nid : NoDup (keys numa) -> NoDup (keys (numa_cpu_map numa a nid)).
Proof. rewrite keys_numa_cpu_map. apply NoDup_map_filter. Qed.

Lemma lookup_map_keyed {V} (f : string -> Z) (l : smap V) k : In k (keys l) ->
  lookup 0 (map (fun kv => (fst kv, f (fst kv))) l) k = f k.
Proof.
  unfold lookup. induction l as [|[k' v] t IH]; simpl; [tauto|].
  destruct (String.eqb_spec k k') as [->|N]; [reflexivity|]. intros [E|H]; [congruence|auto].
Qed.

Lemma numa_map_keys numa a nid k : NoDup (keys numa) ->
  In k (keys (numa_cpu_map numa a nid)) -> lookup_opt numa k = Some nid /\ lookup 0 (numa_cpu_map numa a nid) k = lookup 0 a k.
Proof.
  intros Nd Hin. rewrite keys_numa_cpu_map in Hin. split.
  - apply in_map_iff in Hin. destruct Hin as ([k' n] & <- & Hf).
    apply filter_In in Hf. destruct Hf as [Hf E]. apply String.eqb_eq in E. simpl in E. subst n.
    apply lookup_opt_entry; auto.
  - apply (lookup_map_keyed (lookup 0 a)), Hin.
Qed.

Lemma map_snd_tag {A B} (a : A) (l : list B) : map snd (map (fun p => (a, p)) l) = l.
Proof. rewrite map_map. apply map_id. Qed.

Lemma used_zero l id : (forall p, In p l -> ~ In id (keys p)) -> used l id = 0.
Proof.
  induction l as [|p t IH]; simpl; intros H; auto.
  rewrite (lookup_notin p id) by (apply H; left; auto).
  rewrite IH by (intros q Hq; apply H; right; auto). reflexivity.
Qed.

Lemma shape_keys_nodup base cpu IDS p : shape_of base cpu IDS p -> NoDup (keys p) /\ incl (keys p) IDS.
Proof. intros (_ & p0 & fr & _ & N & _ & _ & _ & I). auto. Qed.

Section GenericFit4.
Variable sortf : list keyed -> outcome (list keyed).
Hypothesis sortf_perm : forall l, exists l', sortf l = Ok l' /\ Permutation l' l.

Definition any_shape (base : Z) (cpu : f64) (p : plan) : Prop := exists IDS, shape_of base cpu IDS p.

Lemma numa_run_content numa avail0 origin base mf cpu mem fuel order avail avail' new :
  0 < base -> NoDup (keys numa) ->
  numa_run sortf numa avail0 origin base mf cpu mem fuel order avail avail' new -> NoDup order ->
  (forall tp, In tp new -> (forall k, In k (keys (snd tp)) -> lookup_opt numa k = Some (fst tp))
                           /\ any_shape base cpu (snd tp))
  /\ (forall id, 0 <= used (map snd new) id <= Z.max 0 (lookup 0 avail0 id))
  /\ (forall id, lookup 0 (nr_cpumap avail') id = lookup 0 (nr_cpumap avail) id - used (map snd new) id)
  /\ (NoDup (keys (nr_cpumap avail)) -> NoDup (keys (nr_cpumap avail'))).
Proof.
  intros Hb Nn R. induction R as [a|nid rest a plans a' new Ep R IH]; intros Nd.
  - split; [intros tp []|]. simpl. split; [intros; lia|]. split; [intros; lia|auto].
  - inversion Nd as [|? ? Hnot Nd']; subst.
    pose proof (numa_run_tags _ _ _ _ _ _ _ _ _ _ _ _ _ R) as Htags.
    destruct (do_get_content sortf sortf_perm _ _ _ _ _ _ _ _ _ Hb (numa_map_nodup numa avail0 nid Nn) Ep) as (U & Sh).
    assert (Np : Forall (fun p => NoDup (keys p)) plans)
      by (eapply Forall_impl; [|exact Sh]; intros p Sp; apply (shape_keys_nodup _ _ _ _ Sp)).
    assert (Nnp : plans_nn plans)
      by (eapply Forall_impl; [|exact Sh]; intros p Sp; exact (plan_shape_nn _ _ _ _ p Hb (proj2 Sp))).
    rewrite Forall_forall in Sh.
    assert (Kp : forall p, In p plans -> forall k, In k (keys p) -> lookup_opt numa k = Some nid).
    { intros p Hp k Hk. apply (numa_map_keys numa avail0 nid k Nn), (shape_keys_nodup _ _ _ _ (Sh p Hp)), Hk. }
    destruct (sub_plans_cpumap plans nid mem Np a) as (L1 & N1). cbv zeta in L1, N1.
    destruct (IH Nd') as (T & B & L2 & N2).
    split; [|split; [|split]].
    + intros tp Hin. apply in_app_or in Hin. destruct Hin as [Hin|Hin]; [|apply T, Hin].
      apply in_map_iff in Hin. destruct Hin as (p & <- & Hp). simpl. split; [apply Kp, Hp|].
      eexists. apply Sh; auto.
    + intros id. rewrite map_app, map_snd_tag, used_app. specialize (B id). specialize (U id).
      pose proof (used_nonneg plans id Nnp) as P0.
      destruct (in_dec string_dec id (keys (numa_cpu_map numa avail0 nid))) as [Hi|Hi].
      * (* a core of this node: the later nodes do not touch it *)
        destruct (numa_map_keys numa avail0 nid id Nn Hi) as (Hn & Hl). rewrite Hl in U.
        assert (Z0 : used (map snd new) id = 0); [|lia].
        apply used_zero. intros p Hp Hk. apply in_map_iff in Hp. destruct Hp as (tp & <- & Htp).
        destruct (T tp Htp) as (T2 & _). specialize (T2 id Hk). rewrite Hn in T2. injection T2 as T2.
        apply Hnot. rewrite T2. apply Htags, Htp.
      * rewrite (lookup_notin _ id Hi) in U. lia.
    + intros id. rewrite L2, L1, map_app, map_snd_tag, used_app. lia.
    + intros Hn0. apply N2, N1, Hn0.
Qed.

(* C04 (a), (b, cores) and the shape of every plan returned by GetCPUPlans *)
Theorem get_cpu_plans_content info origin base mf req order fuel plans :
  get_cpu_plans_g sortf info origin base mf req order fuel = Ok plans ->
  0 < base -> NoDup (keys (nr_numa (ni_cap info))) -> NoDup order ->
  NoDup (keys (nr_cpumap (get_available_nofloat info))) ->
  (forall id, used (map snd plans) id <= Z.max 0 (lookup 0 (nr_cpumap (get_available_nofloat info)) id))
  /\ (forall tp, In tp plans -> fst tp <> EmptyString ->
        forall k, In k (keys (snd tp)) -> lookup_opt (nr_numa (ni_cap info)) k = Some (fst tp))
  /\ (forall tp, In tp plans -> any_shape base (rq_cpu_req req) (snd tp)).
Proof.
  intros H Hb Nn Nd Na.
  destruct (get_cpu_plans_split _ _ _ _ _ _ _ _ _ H) as (avail' & new & cross & R & Ec & ->).
  destruct (numa_run_content _ _ _ _ _ _ _ _ _ _ _ _ Hb Nn R Nd) as (T & B & L & N).
  destruct (do_get_content sortf sortf_perm _ _ _ _ _ _ _ _ _ Hb (N Na) Ec) as (U & Sh).
  split; [|split].
  - intros id. rewrite map_app, map_snd_tag, used_app. specialize (U id). specialize (B id). rewrite L in U. lia.
  - intros tp Hin Hne k Hk. apply in_app_or in Hin. destruct Hin as [Hin|Hin]; [apply (T tp Hin), Hk|].
    apply in_map_iff in Hin. destruct Hin as (p & <- & _). simpl in Hne. congruence.
  - intros tp Hin. apply in_app_or in Hin. destruct Hin as [Hin|Hin]; [apply (T tp Hin)|].
    apply in_map_iff in Hin. destruct Hin as (p & <- & Hp). simpl.
    rewrite Forall_forall in Sh. eexists. apply Sh; auto.
Qed.
End GenericFit4.
