(* Cpumem/SchedProofsMem.v — memory clauses of C04: the plans returned by
   GetCPUPlans fit the node's free memory (c) and the plans placed on a NUMA
   node fit that node's free NUMA memory (b, memory part).  Pure counting
   arguments over the truncation in doGetCPUPlans and the bookkeeping of the
   NUMA loop; they hold for any final sort (no hypothesis on [sortf]).  The NUMA loop is
   given once as a relation ([numa_run]) over which this file and SchedProofsFit2.v induct. *)
From Coq Require Import String Ascii List ZArith Bool Lia Permutation.
From Verif Require Import Cpumem.BookProofs.
From Verif Require Import Base.GoFloat Cpumem.Types Cpumem.Schedule Cpumem.SchedCase.
Import ListNotations.
Local Open Scope Z_scope.

Lemma bind_ok {A B} (o : outcome A) (f : A -> outcome B) r :
  bind o f = Ok r -> exists a, o = Ok a /\ f a = Ok r.
Proof. destruct o; simpl; intros H; try discriminate. eauto. Qed.

Section Mem.
Variable sortf : list keyed -> outcome (list keyed).

Lemma do_get_len origin avail amem base mf cpu mem fuel r :
  do_get_cpu_plans_g sortf origin avail amem base mf cpu mem fuel = Ok r -> 0 < mem ->
  Z.of_nat (length r) * mem <= Z.max 0 amem.
Proof.
  unfold do_get_cpu_plans_g. intros H Hm.
  apply bind_ok in H. destruct H as (h & _ & H).
  apply bind_ok in H. destruct H as (h' & _ & H).
  apply bind_ok in H. destruct H as (plans & _ & H).
  replace (0 <? mem) with true in H by (symmetry; apply Z.ltb_lt; lia).
  set (cap0 := Z.quot amem mem) in *.
  set (cap := if cap0 <? 0 then 0 else cap0) in *.
  assert (Hcap : 0 <= cap /\ cap * mem <= Z.max 0 amem).
  { unfold cap. destruct (cap0 <? 0) eqn:E; [lia|]. apply Z.ltb_ge in E.
    unfold cap0 in *. pose proof (Z.quot_rem' amem mem).
    destruct (Z_lt_le_dec amem 0).
    - assert (Z.quot amem mem <= 0).
      { replace amem with (- (- amem)) by lia. rewrite Z.quot_opp_l by lia.
        pose proof (Z.quot_pos (- amem) mem ltac:(lia) ltac:(lia)). lia. }
      nia.
    - pose proof (Z.rem_bound_pos amem mem ltac:(lia) ltac:(lia)). nia. }
  destruct (cap <? Z.of_nat (length plans)) eqn:E; inversion H; subst.
  - pose proof (firstn_le_length (Z.to_nat cap) plans). nia.
  - apply Z.ltb_ge in E. nia.
Qed.
End Mem.

Lemma lookup_sub_single (m : smap Z) nid mem k :
  lookup 0 (cpumap_sub m [(nid, mem)]) k = if String.eqb k nid then lookup 0 m nid - mem else lookup 0 m k.
Proof. unfold cpumap_sub. simpl. apply lookup_upd. Qed.

Lemma count_tag_app l1 l2 nid : count_tag (l1 ++ l2) nid = count_tag l1 nid + count_tag l2 nid.
Proof. unfold count_tag. rewrite filter_app, app_length. lia. Qed.

Lemma count_tag_map_same (plans : list plan) nid :
  count_tag (map (fun p => (nid, p)) plans) nid = Z.of_nat (length plans).
Proof.
  unfold count_tag. induction plans as [|p t IH]; simpl; auto.
  rewrite String.eqb_refl. simpl length. lia.
Qed.

Lemma count_tag_none l nid : (forall tp, In tp l -> fst tp <> nid) -> count_tag l nid = 0.
Proof.
  unfold count_tag. induction l as [|tp t IH]; simpl; intros H; auto.
  destruct (String.eqb_spec (fst tp) nid) as [E|N].
  - exfalso. apply (H tp); auto.
  - apply IH. intros; apply H; auto.
Qed.

Lemma count_tag_nonneg l nid : 0 <= count_tag l nid.
Proof. unfold count_tag. lia. Qed.

Lemma sub_plans_mem (plans : list plan) nid mem : forall a,
  let a' := fold_left (fun a p => nr_sub_nofloat a (mkNR f_zero p mem [(nid, mem)] [])) plans a in
  nr_mem a' = nr_mem a - Z.of_nat (length plans) * mem
  /\ (forall k, lookup 0 (nr_numamem a') k =
               if String.eqb k nid then lookup 0 (nr_numamem a) nid - Z.of_nat (length plans) * mem
               else lookup 0 (nr_numamem a) k).
Proof.
  induction plans as [|p t IH]; intros a; cbn [fold_left length].
  - split; [simpl; lia|]. intros k. destruct (String.eqb_spec k nid) as [->|]; simpl; lia.
  - cbv zeta in IH. destruct (IH (nr_sub_nofloat a (mkNR f_zero p mem [(nid, mem)] []))) as [I1 I2].
    cbv zeta. rewrite I1. split.
    + simpl nr_mem. lia.
    + intros k. rewrite I2. cbn [nr_sub_nofloat nr_numamem]. rewrite !lookup_sub_single.
      rewrite String.eqb_refl, Nat2Z.inj_succ. destruct (String.eqb k nid); lia.
Qed.

Section NumaRun.
Variable sortf : list keyed -> outcome (list keyed).
Variables (numa : smap string) (avail0 origin : smap Z) (base mf : Z) (cpu : f64) (mem : Z) (fuel : nat).

(* [numa_run order avail avail' new]: visiting the nodes of [order] in turn, each contributes the
   plans doGetCPUPlans finds on its cores, tagged with the node, and they are taken out of the
   available resource; the accumulator of [numa_loop] is only ever appended to. *)
Inductive numa_run : list string -> node_resource -> node_resource -> list (string * plan) -> Prop :=
  | numa_run_nil a : numa_run [] a a []
  | numa_run_cons nid rest a plans a' new :
      do_get_cpu_plans_g sortf origin (numa_cpu_map numa avail0 nid)
                         (Z.min (lookup 0 (nr_numamem a) nid) (nr_mem a)) base mf cpu mem fuel = Ok plans ->
      numa_run rest (fold_left (fun a p => nr_sub_nofloat a (mkNR f_zero p mem [(nid, mem)] [])) plans a) a' new ->
      numa_run (nid :: rest) a a' (map (fun p => (nid, p)) plans ++ new).

Lemma numa_loop_run order : forall avail acc avail' acc',
  numa_loop sortf order numa avail0 origin base mf cpu mem fuel avail acc = Ok (avail', acc') ->
  exists new, acc' = acc ++ new /\ numa_run order avail avail' new.
Proof.
  induction order as [|nid rest IH]; intros avail acc avail' acc' H; simpl in H.
  - injection H as <- <-. exists []. rewrite app_nil_r. split; [reflexivity|constructor].
  - apply bind_ok in H. destruct H as (plans & Ep & H). apply IH in H. destruct H as (new & -> & R).
    exists (map (fun p => (nid, p)) plans ++ new). rewrite app_assoc. split; [reflexivity|].
    econstructor; eassumption.
Qed.

Lemma numa_run_tags order a a' new : numa_run order a a' new -> forall tp, In tp new -> In (fst tp) order.
Proof.
  induction 1 as [|nid rest a plans a' new _ _ IH]; intros tp Hin; [destruct Hin|].
  apply in_app_or in Hin. destruct Hin as [Hin|Hin]; [|right; auto].
  apply in_map_iff in Hin. destruct Hin as (p & <- & _). left; reflexivity.
Qed.
End NumaRun.

Section Mem2.
Variable sortf : list keyed -> outcome (list keyed).

Lemma get_cpu_plans_split info origin base mf req order fuel plans :
  get_cpu_plans_g sortf info origin base mf req order fuel = Ok plans ->
  exists avail' new cross,
    numa_run sortf (nr_numa (ni_cap info)) (nr_cpumap (get_available_nofloat info)) origin base mf
             (rq_cpu_req req) (rq_mem_req req) fuel order (get_available_nofloat info) avail' new
    /\ do_get_cpu_plans_g sortf origin (nr_cpumap avail') (nr_mem avail') base mf
                          (rq_cpu_req req) (rq_mem_req req) fuel = Ok cross
    /\ plans = new ++ map (fun p => (EmptyString, p)) cross.
Proof.
  unfold get_cpu_plans_g. intros H.
  apply bind_ok in H. destruct H as ([avail' acc] & El & H).
  apply bind_ok in H. destruct H as (cross & Ec & H). injection H as <-.
  apply numa_loop_run in El. destruct El as (new & -> & R). eauto 6.
Qed.

Lemma get_cpu_plans_tags info origin base mf req order fuel plans :
  get_cpu_plans_g sortf info origin base mf req order fuel = Ok plans ->
  forall tp, In tp plans -> fst tp = EmptyString \/ In (fst tp) order.
Proof.
  intros H tp Hin. destruct (get_cpu_plans_split _ _ _ _ _ _ _ _ H) as (avail' & new & cross & R & _ & ->).
  apply in_app_or in Hin. destruct Hin as [Hin|Hin]; [right; apply (numa_run_tags _ _ _ _ _ _ _ _ _ _ _ _ _ R _ Hin)|left].
  apply in_map_iff in Hin. destruct Hin as (p & <- & _). reflexivity.
Qed.

Lemma numa_run_mem numa avail0 origin base mf cpu mem fuel order avail avail' new : 0 < mem ->
  numa_run sortf numa avail0 origin base mf cpu mem fuel order avail avail' new ->
  NoDup order -> 0 <= nr_mem avail ->
  nr_mem avail' = nr_mem avail - Z.of_nat (length new) * mem
  /\ 0 <= nr_mem avail'
  /\ (forall nid, In nid order -> count_tag new nid * mem <= Z.max 0 (lookup 0 (nr_numamem avail) nid)).
Proof.
  intros Hm R. induction R as [a|nid rest a plans a' new Ep R IH]; intros Hnd Hmem.
  - simpl. split; [lia|]. split; [lia|]. intros nid [].
  - pose proof (do_get_len sortf _ _ _ _ _ _ _ _ _ Ep Hm) as Lp.
    pose proof (numa_run_tags _ _ _ _ _ _ _ _ _ _ _ _ _ R) as Htags.
    inversion Hnd as [|? ? Hnot Hnd']; subst.
    destruct (sub_plans_mem plans nid mem a) as [S1 S2]. cbv zeta in S1, S2.
    destruct (IH Hnd' ltac:(lia)) as (M1 & M2 & M3).
    split; [rewrite M1, S1, app_length, map_length; lia|]. split; [exact M2|].
    intros nid' [->|Hin].
    + rewrite count_tag_app, count_tag_map_same.
      rewrite (count_tag_none new nid') by (intros tp Hin <-; apply Hnot, Htags, Hin). lia.
    + assert (nid' <> nid) by (intro; subst; contradiction).
      rewrite count_tag_app. rewrite (count_tag_none (map _ plans) nid').
      2:{ intros tp Hi. apply in_map_iff in Hi. destruct Hi as (p & <- & _). simpl. congruence. }
      specialize (M3 nid' Hin). rewrite S2 in M3.
      destruct (String.eqb_spec nid' nid); [contradiction|]. lia.
Qed.

(* C04 (b, memory part) and (c) for GetCPUPlans *)
Theorem get_cpu_plans_memory info origin base mf req order fuel plans :
  get_cpu_plans_g sortf info origin base mf req order fuel = Ok plans ->
  0 < rq_mem_req req -> NoDup order -> ~ In EmptyString order ->
  0 <= nr_mem (get_available_nofloat info) ->
  Z.of_nat (length plans) * rq_mem_req req <= nr_mem (get_available_nofloat info)
  /\ (forall nid, In nid order ->
        count_tag plans nid * rq_mem_req req <= Z.max 0 (lookup 0 (nr_numamem (get_available_nofloat info)) nid)).
Proof.
  intros H Hm Hnd Hne Hmem.
  destruct (get_cpu_plans_split _ _ _ _ _ _ _ _ H) as (avail' & new & cross & R & Ec & ->).
  destruct (numa_run_mem _ _ _ _ _ _ _ _ _ _ _ _ Hm R Hnd Hmem) as (M1 & M2 & M3).
  pose proof (do_get_len sortf _ _ _ _ _ _ _ _ _ Ec Hm) as Lc.
  split; [rewrite app_length, map_length; lia|].
  intros nid Hin. rewrite count_tag_app, (count_tag_none (map _ cross) nid); [specialize (M3 nid Hin); lia|].
  intros tp Hi. apply in_map_iff in Hi. destruct Hi as (p & <- & _). simpl. intro; subst; contradiction.
Qed.
End Mem2.
