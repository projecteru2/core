(* Cpumem/BookFitsProofs.v — the hypothesis [fits] of C15 holds for the live set
   of every C08 history: the sum of the live workloads passes Validate against
   the capacity (because the stored usage does and has the same lookups). *)
From Coq Require Import String List ZArith Bool.
From Verif Require Import Base.GoFloat Cpumem.Types Cpumem.Node Cpumem.BookProofs
  Cpumem.BookFixProofs.
Import ListNotations.
Local Open Scope Z_scope.

Definition known_in (u : node_resource) (w : wres) : Prop :=
  forall k, In k (keys (wr_cpumap w)) -> In k (keys (nr_cpumap u)).
Definition inv_keys (s : state) : Prop := Forall (known_in (ni_usage (st_info s))) (st_live s).

Lemma commit_keys_mono s ws incr live' k :
  In k (keys (nr_cpumap (ni_usage (st_info s)))) ->
  In k (keys (nr_cpumap (ni_usage (st_info (sr_state (commit s ws incr live')))))).
Proof.
  intro H. unfold commit. rewrite usage_moved.
  destruct (validate _) as [e|i] eqn:V; simpl; [exact H|].
  apply validate_inr in V. subst i. apply (moved_keys_in _ _ cpumap_field). auto.
Qed.

(* a call creates an entry for every core its workload resources name, and the
   delta of a re-allocation names the cores of both sides *)
Lemma known_moved incr u ws d w : In d ws ->
  (forall k, In k (keys (wr_cpumap w)) -> In k (keys (wr_cpumap d))) -> known_in (moved incr u ws) w.
Proof. intros I H k Hk. apply (moved_keys_in _ _ cpumap_field). right. exists d. auto. Qed.

Lemma plan_names s o incr ws live' : plan s o = Some (incr, ws, live') ->
  carries (known_in (moved incr (ni_usage (st_info s)) ws)) o.
Proof.
  destruct o as [|ws0|idxs|i|i req new|i origin|inner]; simpl; intro Pl; try exact I.
  - injection Pl as <- <- _. apply Forall_forall. intros w Iw. apply (known_moved _ _ _ w w Iw). auto.
  - destruct (nth_error (st_live s) i) as [origin|]; [|discriminate]. injection Pl as <- <- _.
    eapply known_moved; [left; reflexivity|]. intros k Hk. apply (cpumap_step_keys_in false). auto.
  - destruct (nth_error (st_live s) i) as [cur|]; [|discriminate]. injection Pl as <- <- _.
    eapply known_moved; [left; reflexivity|]. intros k Hk. apply (cpumap_step_keys_in false). auto.
Qed.

Lemma step_keys o s : inv_valid s -> inv_keys s -> inv_keys (sr_state (step s o)).
Proof.
  intros IV IK. destruct (step_shape s o IV) as [|incr ws live' Pl _|]; unfold inv_keys in *; cbn [st_info st_live ni_usage after].
  - exact IK.
  - apply (plan_spec _ s o incr ws live' (plan_names s o incr ws live' Pl)); [|exact Pl].
    eapply Forall_impl; [|exact IK]. intros w H k Hk. apply (moved_keys_in _ _ cpumap_field). auto.
  - destruct IV as (_ & NC & NN). destruct (written_back_maps _ NC NN) as (M1 & _ & _).
    unfold known_in. rewrite M1. exact IK.
Qed.

Lemma run_keys h s : inv_valid s -> inv_keys s -> inv_keys (run s h).
Proof.
  apply (run_inv inv_keys (fun _ => True)); [intros s' o _; apply step_keys|]. apply Forall_forall. trivial.
Qed.

Lemma existsb_ext {A} (f g : A -> bool) l : (forall a, f a = g a) -> existsb f l = existsb g l.
Proof. intro H. induction l as [|x t IH]; simpl; [reflexivity|]. rewrite H, IH. reflexivity. Qed.

Lemma numa_mem_fault2_pointwise cap u u2 :
  (forall k, lookup 0 (nr_numamem u2) k = lookup 0 (nr_numamem u) k) -> numa_mem_fault2 cap u2 = numa_mem_fault2 cap u.
Proof. intro L. apply existsb_ext. intro kv. rewrite L. reflexivity. Qed.

Lemma usage_cpu_ok_pointwise cap (m m2 : smap Z) :
  NoDup (keys m) -> NoDup (keys m2) -> (forall k, In k (keys m2) -> In k (keys m)) ->
  (forall k, lookup 0 m2 k = lookup 0 m k) -> usage_cpu_ok cap m = true -> usage_cpu_ok cap m2 = true.
Proof.
  unfold usage_cpu_ok. rewrite !forallb_forall. intros N N2 SUB L OK [k v] I. cbn [fst snd].
  assert (Ik : In k (keys m)) by (apply SUB; unfold keys; apply (in_map fst _ _ I)).
  destruct (in_keys_entry _ _ Ik) as [v' Iv']. specialize (OK _ Iv'). cbn [fst snd] in OK.
  rewrite <- (entry_lookup _ _ _ N2 I), L, (entry_lookup _ _ _ N Iv'). exact OK.
Qed.

Lemma validate_pointwise cap u u2 :
  validate (mkNI cap u) = inr (mkNI cap u) ->
  NoDup (keys (nr_cpumap u)) -> NoDup (keys (nr_cpumap u2)) ->
  (forall k, In k (keys (nr_cpumap u2)) -> In k (keys (nr_cpumap u))) ->
  (forall k, lookup 0 (nr_cpumap u2) k = lookup 0 (nr_cpumap u) k) ->
  (forall k, lookup 0 (nr_numamem u2) k = lookup 0 (nr_numamem u) k) ->
  validate (mkNI cap u2) = inr (mkNI cap u2).
Proof.
  intros V NU NU2 SUB LC LN. unfold validate in *. cbn [ni_cap ni_usage] in *.
  rewrite (numa_mem_fault2_pointwise cap u u2 LN).
  destruct (nr_cpumap cap) as [|e t]; [discriminate|].
  destruct (usage_cpu_ok (e :: t) (nr_cpumap u)) eqn:OK; [|discriminate].
  rewrite (usage_cpu_ok_pointwise _ _ _ NU NU2 SUB LC OK). cbn [negb] in *.
  destruct (nr_numa cap); [reflexivity|].
  destruct (numa_cpu_fault cap); [discriminate|].
  destruct (_ || _); [discriminate|reflexivity].
Qed.

(* the only part that does not follow from the C08 invariants is that the
   scheduler names NUMA nodes of the capacity (Validate never checks it) *)
Theorem live_fits (s : state) :
  inv_valid s -> inv_int s -> inv_keys s ->
  (forall w k, In w (st_live s) -> In k (keys (wr_numamem w)) -> In k (keys (nr_numamem (ni_cap (st_info s))))) ->
  fits (ni_cap (st_info s)) (st_live s).
Proof.
  intros (V & NC & NN) [(EC & EN & EM) WF] IK NK. split; [|exact NK].
  destruct (act_exact (st_live s) WF) as (AC & AN & _). destruct (act_usage_moved _ WF) as (E & _ & _).
  eexists. apply (validate_pointwise (ni_cap (st_info s)) (ni_usage (st_info s))).
  - destruct (st_info s); exact V.
  - exact NC.
  - rewrite E. apply (moved_nodup _ _ cpumap_field). constructor.
  - intros k H. rewrite E in H. apply (moved_keys_in _ _ cpumap_field) in H. destruct H as [[]|(w & I & Hk)].
    unfold inv_keys in IK. rewrite Forall_forall in IK. exact (IK w I k Hk).
  - intro k. rewrite AC, EC. reflexivity.
  - intro k. rewrite AN, EN. reflexivity.
Qed.

Theorem live_fits_after_history (info : node_info) (h : list op) :
  inv_valid (mkState info []) -> usage_zero (ni_usage info) -> Forall op_wf h ->
  let s := run (mkState info []) h in
  (forall w k, In w (st_live s) -> In k (keys (wr_numamem w)) -> In k (keys (nr_numamem (ni_cap info)))) ->
  fits (ni_cap info) (st_live s).
Proof.
  intros IV UZ WF s NK.
  destruct (history_inv_int h (mkState info []) WF IV (inv_int_zero info UZ)) as [II IV'].
  assert (IK : inv_keys s) by (apply run_keys; [exact IV|constructor]).
  assert (CAP : ni_cap (st_info s) = ni_cap info) by (apply (run_cap h (mkState info []))).
  rewrite <- CAP. apply live_fits; try assumption. rewrite CAP. exact NK.
Qed.
