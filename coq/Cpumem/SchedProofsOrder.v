(* Cpumem/SchedProofsOrder.v — the NUMA visiting order of GetCPUPlans (/repo 3d8e6c0) is a
   duplicate-free permutation of the node's NUMA node ids, so every theorem stated for an
   arbitrary duplicate-free order applies to the code as it is; and a node holding a core of
   the origin map is visited before every node that holds none. *)
From Coq Require Import String Ascii List ZArith Bool Lia Permutation.
From Verif Require Import Cpumem.Types Cpumem.Schedule Cpumem.SchedProofs.
Import ListNotations.
Local Open Scope Z_scope.

Lemma dedup_in l x : In x (dedup l) <-> In x l.
Proof.
  induction l as [|y t IH]; simpl; [tauto|]. split.
  - intros [E|H]; auto. apply filter_In in H. right. apply IH. tauto.
  - intros [E|H]; auto. destruct (String.eqb_spec y x) as [E|N]; auto.
    right. apply filter_In. split; [apply IH; auto|]. destruct (String.eqb_spec y x); [contradiction|reflexivity].
Qed.

Lemma dedup_nodup l : NoDup (dedup l).
Proof.
  induction l as [|y t IH]; simpl; constructor.
  - intro H. apply filter_In in H. destruct H as [_ H]. rewrite String.eqb_refl in H. discriminate.
  - apply NoDup_filter. exact IH.
Qed.

Theorem visit_order_perm info origin : Permutation (numa_visit_order info origin) (numa_nodes info).
Proof. apply isort_perm. Qed.

Theorem visit_order_nodup info origin : NoDup (numa_visit_order info origin).
Proof.
  eapply Permutation_NoDup; [apply Permutation_sym, visit_order_perm|]. apply dedup_nodup.
Qed.

Theorem visit_order_no_empty info origin :
  ~ In EmptyString (map snd (nr_numa (ni_cap info))) -> ~ In EmptyString (numa_visit_order info origin).
Proof.
  intros H Hin. apply H. apply (Permutation_in _ (visit_order_perm info origin)) in Hin.
  unfold numa_nodes in Hin. apply (proj1 (dedup_in _ _)) in Hin. exact Hin.
Qed.

Lemma isort_min_first {A} (less : A -> A -> bool) (a : A) : forall l,
  In a l -> NoDup l -> (forall y, In y l -> y <> a -> less a y = true /\ less y a = false) ->
  exists t, isort less l = a :: t.
Proof.
  induction l as [|x t IH]; intros Hin Nd H; [destruct Hin|].
  inversion Nd as [|? ? Hn Nt]; subst. simpl.
  destruct Hin as [->|Hin].
  - assert (Hs : forall y, In y (isort less t) -> less y a = false).
    { intros y Hy. apply (Permutation_in _ (isort_perm less t)) in Hy.
      apply H; [right; auto|]. intro; subst; contradiction. }
    destruct (isort less t) as [|y s]; simpl; [eexists; reflexivity|].
    rewrite (Hs y (or_introl eq_refl)). eexists; reflexivity.
  - destruct (IH Hin Nt) as (t' & E).
    { intros y Hy Hne. apply H; [right; auto|auto]. }
    rewrite E. simpl.
    assert (x <> a) by (intro; subst; contradiction).
    rewrite (proj1 (H x (or_introl eq_refl) H0)). eexists; reflexivity.
Qed.

Theorem visit_order_origin_first info origin a :
  In a (numa_nodes info) ->
  origin_on (nr_numa (ni_cap info)) origin a = true ->
  (forall b, In b (numa_nodes info) -> b <> a -> origin_on (nr_numa (ni_cap info)) origin b = false) ->
  exists t, numa_visit_order info origin = a :: t.
Proof.
  intros Hin Ha Hb. unfold numa_visit_order. apply isort_min_first; auto.
  - apply dedup_nodup.
  - intros y Hy Hne. unfold numa_less. rewrite Ha, (Hb y Hy Hne). simpl. auto.
Qed.
