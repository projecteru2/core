(* Cpumem/SchedProofsCommit.v — remaining clauses of C04: memory-only
   allocation, the boolean reflection used by the correspondence check, and
   (d) the committed state is accepted by the plugin's own Validate. *)
From Coq Require Import String Ascii List ZArith Bool Lia Permutation.
From Verif Require Import Cpumem.BookProofs Base.ListFacts.
From Verif Require Import Base.GoFloat.
From Verif Require Import Cpumem.Types Cpumem.Schedule Cpumem.Calc Cpumem.SchedCase.
From Verif Require Import Cpumem.SchedProofs Cpumem.SchedProofsMem Cpumem.SchedProofsFit Cpumem.SchedProofsFit2
                          Cpumem.SchedProofsTop Cpumem.SchedProofsDeploy.
Import ListNotations.
Local Open Scope Z_scope.

Lemma repeat_n_length {A} n (x : A) : length (repeat_n n x) = n.
Proof. induction n; simpl; auto. Qed.
Lemma repeat_n_in {A} n (x y : A) : In y (repeat_n n x) -> y = x.
Proof. induction n; simpl; [tauto|]. intros [E|H]; auto. Qed.

Lemma alloc_by_memory_ws info count req eps ws :
  do_alloc_by_memory info count req = inr (eps, ws) ->
  ws = repeat_n (Z.to_nat count)
         (mkWR (rq_cpu_req req) (rq_cpu_lim req) (rq_mem_req req) (rq_mem_lim req) [] [] EmptyString).
Proof.
  unfold do_alloc_by_memory. intros H. destruct (fgt _ _); [discriminate|]. destruct (_ && _); [discriminate|].
  injection H as _ <-. reflexivity.
Qed.

Theorem alloc_by_memory_fit info count req eps ws :
  do_alloc_by_memory info count req = inr (eps, ws) -> 0 <= count -> 0 <= rq_mem_req req ->
  0 <= nr_mem (get_available_nofloat info) ->
  Z.of_nat (length ws) = count
  /\ count * rq_mem_req req <= nr_mem (get_available_nofloat info)
  /\ forall w, In w ws -> wr_mem_req w = rq_mem_req req /\ wr_cpumap w = [] /\ wr_numamem w = [].
Proof.
  unfold do_alloc_by_memory. intros H Hc Hm Hf.
  destruct (fgt _ _); [discriminate|].
  set (avail := get_available_nofloat info) in *.
  destruct ((0 <? rq_mem_req req) && (Z.quot (nr_mem avail) (rq_mem_req req) <? count)) eqn:E; [discriminate|].
  inversion H; subst; clear H. split; [rewrite repeat_n_length; lia|]. split.
  - apply andb_false_iff in E. destruct E as [E|E].
    + apply Z.ltb_ge in E. assert (rq_mem_req req = 0) by lia. nia.
    + apply Z.ltb_ge in E.
      destruct (Z.eq_dec (rq_mem_req req) 0) as [E0|N0]; [nia|].
      rewrite Z.quot_div_nonneg in E by lia.
      pose proof (Z.mul_div_le (nr_mem avail) (rq_mem_req req) ltac:(lia)). nia.
  - intros w Hw. apply repeat_n_in in Hw. subst. simpl. auto.
Qed.

Lemma pieces_on_used plans core : pieces_on plans core = used (map snd plans) core.
Proof.
  unfold pieces_on.
  assert (G : forall a, fold_left (fun s tp => s + lookup 0 (snd tp) core) plans a = a + used (map snd plans) core).
  { induction plans as [|tp t IH]; intros a; [simpl; lia|].
    simpl. rewrite IH. unfold used. symmetry. apply Z.add_assoc. }
  rewrite G. lia.
Qed.

Theorem fits_ok info mem plans :
  0 <= mem -> 0 <= nr_mem (get_available_nofloat info) ->
  fits info mem plans -> c04_plans_ok info mem plans = true.
Proof.
  intros Hm Hf (A & B & C & P). unfold c04_plans_ok. cbv zeta.
  repeat (apply andb_true_iff; split).
  - apply forallb_forall. intros tp Htp. apply forallb_forall. intros c Hc. apply Z.ltb_lt. eauto.
  - apply forallb_forall. intros core _. apply Z.leb_le. rewrite pieces_on_used. apply A.
  - apply forallb_forall. intros [nid p] Htp. specialize (B _ Htp). cbn [fst snd] in B |- *.
    destruct nid as [|a s]; [reflexivity|]. destruct B as (B1 & _); [discriminate|].
    apply forallb_forall. intros kv Hkv. rewrite (B1 (fst kv) (in_map fst _ _ Hkv)). apply String.eqb_refl.
  - apply forallb_forall. intros [nid p] Htp. specialize (B _ Htp). cbn [fst snd] in B |- *.
    destruct nid as [|a s]; [reflexivity|]. apply Z.leb_le, B. discriminate.
  - apply Z.leb_le. lia.
Qed.

Lemma mem_key_in {V} (m : smap V) k : mem_key m k = true <-> In k (keys m).
Proof.
  unfold mem_key. induction m as [|[k' v] t IH]; simpl; [split; [discriminate|tauto]|].
  destruct (String.eqb_spec k k') as [->|N]; [split; auto|].
  rewrite IH. split; [auto|intros [E|H]; [congruence|auto]].
Qed.
Lemma nodup_keys_NoDup {V} (m : smap V) : nodup_keys m = true -> NoDup (keys m).
Proof.
  induction m as [|[k v] t IH]; simpl; intros H; [constructor|].
  apply andb_true_iff in H. destruct H as [H1 H2]. constructor; auto.
  intro Hin. apply mem_key_in in Hin. rewrite Hin in H1. discriminate.
Qed.
Lemma lookup_opt_none_notin {V} (m : smap V) k : lookup_opt m k = None -> ~ In k (keys m).
Proof. intros H Hin. destruct (in_keys_lookup_opt m k Hin) as (v & E). congruence. Qed.
Lemma lookup_opt_in {V} (m : smap V) k : In k (keys m) -> exists v, lookup_opt m k = Some v.
Proof. exact (in_keys_lookup_opt m k). Qed.

Definition commit_fold (ws : list wres) (u : node_resource) : node_resource :=
  fold_left (fun u w => nr_add u (mkNR (wr_cpu_req w) (wr_cpumap w) (wr_mem_req w) (wr_numamem w) [])) ws u.

Lemma commit_fold_spec ws : Forall (fun w => NoDup (keys (wr_cpumap w)) /\ NoDup (keys (wr_numamem w))) ws ->
  forall u,
  (forall id, lookup 0 (nr_cpumap (commit_fold ws u)) id = lookup 0 (nr_cpumap u) id + used (map wr_cpumap ws) id)
  /\ (forall id, lookup 0 (nr_numamem (commit_fold ws u)) id = lookup 0 (nr_numamem u) id + used (map wr_numamem ws) id)
  /\ nr_mem (commit_fold ws u) = nr_mem u + fold_right (fun w s => wr_mem_req w + s) 0 ws
  /\ (NoDup (keys (nr_cpumap u)) -> NoDup (keys (nr_cpumap (commit_fold ws u))))
  /\ (forall k, In k (keys (nr_cpumap (commit_fold ws u))) ->
        In k (keys (nr_cpumap u)) \/ exists w, In w ws /\ In k (keys (wr_cpumap w))).
Proof.
  intros H u. change (commit_fold ws u) with (moved true u ws).
  destruct (Forall_and_inv _ _ H) as (Hc & Hn).
  assert (Z : forall (g : wres -> smap Z) k, zs (fun w => lookup 0 (g w) k) ws = used (map g ws) k).
  { intros g k. unfold zs. clear. induction ws as [|w t IH]; simpl; [|rewrite IH]; reflexivity. }
  split; [|split; [|split; [|split]]].
  - intros id. rewrite (moved_lookup nr_cpumap wr_cpumap cpumap_field), zs_msum_lookup, Z by exact Hc. reflexivity.
  - intros id. rewrite (moved_lookup nr_numamem wr_numamem numamem_field), zs_msum_lookup, Z by exact Hn. reflexivity.
  - rewrite moved_mem. f_equal. unfold signed, zs. clear. induction ws as [|w t IH]; simpl; [|rewrite IH]; reflexivity.
  - apply (moved_nodup nr_cpumap wr_cpumap cpumap_field).
  - intros k. apply (moved_keys_in nr_cpumap wr_cpumap cpumap_field).
Qed.

Lemma used_ge_member l p id : plans_nn l -> In p l -> lookup 0 p id <= used l id.
Proof.
  intros N H. induction N as [|q t Hq Ht IH]; [destruct H|].
  simpl. destruct H as [->|H].
  - pose proof (used_nonneg t id Ht). lia.
  - specialize (IH H). pose proof (lookup_nn q id Hq). lia.
Qed.

Lemma count_tag_pos_in l nid : 0 < count_tag l nid -> exists tp, In tp l /\ fst tp = nid.
Proof.
  unfold count_tag. induction l as [|tp t IH]; simpl; [lia|].
  destruct (String.eqb_spec (fst tp) nid) as [E|N]; [exists tp; auto|].
  intros H. destruct (IH H) as (x & Hx & Ex). exists x; auto.
Qed.

Lemma count_tag_cons tp l nid : count_tag (tp :: l) nid = (if String.eqb (fst tp) nid then 1 else 0) + count_tag l nid.
Proof.
  unfold count_tag. cbn [filter]. destruct (String.eqb (fst tp) nid); [cbn [length]; rewrite Nat2Z.inj_succ|]; lia.
Qed.

Lemma used_numamem ws mem nid :
  (forall w, In w ws -> wr_numamem w = match wr_numanode w with EmptyString => [] | n => [(n, mem)] end) ->
  used (map wr_numamem ws) nid = if String.eqb nid EmptyString then 0 else count_tag (tagged_of ws) nid * mem.
Proof.
  intros H. induction ws as [|w t IH]; [destruct (String.eqb nid ""); reflexivity|].
  change (tagged_of (w :: t)) with ((wr_numanode w, wr_cpumap w) :: tagged_of t).
  rewrite count_tag_cons. cbn [fst map used fold_right]. fold (used (map wr_numamem t) nid).
  rewrite IH by (intros; apply H; right; auto). rewrite (H w) by (left; auto).
  destruct (wr_numanode w) as [|a s].
  - rewrite lookup_notin by (simpl; tauto). rewrite (String.eqb_sym "" nid). destruct (String.eqb nid ""); lia.
  - rewrite lookup_single, (String.eqb_sym (String a s) nid).
    destruct (String.eqb_spec nid (String a s)) as [->|_]; [cbn [String.eqb]|destruct (String.eqb nid "")]; lia.
Qed.

Lemma valid_node_spec info : valid_node info = true ->
  (NoDup (keys (nr_cpumap (ni_cap info))) /\ NoDup (keys (nr_cpumap (ni_usage info)))
   /\ NoDup (keys (nr_numamem (ni_cap info))) /\ NoDup (keys (nr_numamem (ni_usage info)))
   /\ NoDup (keys (nr_numa (ni_cap info))))
  /\ validate_ok info = true
  /\ 0 <= nr_mem (ni_usage info) <= nr_mem (ni_cap info)
  /\ (forall kv, In kv (nr_cpumap (ni_usage info)) -> 0 <= snd kv).
Proof.
  unfold valid_node, wf_info. rewrite !andb_true_iff, !Z.leb_le, forallb_forall.
  intros [[[[[[[[[NcC NuC] NcM] NuM] NcN] V] M1] M2] Up] _].
  repeat split; auto using nodup_keys_NoDup. intros kv Hkv. apply Z.leb_le, Up, Hkv.
Qed.

Lemma valid_node_wf info : valid_node info = true ->
  wf_maps info /\ 0 <= nr_mem (get_available_nofloat info).
Proof.
  intros H. destruct (valid_node_spec info H) as ((NcC & _ & _ & _ & NcN) & _ & M & _).
  split; [split; auto|]. simpl. lia.
Qed.

Lemma validate_ok_iff n : validate_ok n = true <->
  nr_cpumap (ni_cap n) <> [] /\ usage_cpu_ok (nr_cpumap (ni_cap n)) (nr_cpumap (ni_usage n)) = true
  /\ (nr_numa (ni_cap n) = []
      \/ numa_cpu_fault (ni_cap n) = false /\ numa_mem_fault1 (ni_cap n) = false
         /\ numa_mem_fault2 (ni_cap n) (ni_usage n) = false).
Proof.
  unfold validate_ok, validate.
  destruct (nr_cpumap (ni_cap n)); [split; [discriminate|intros ([] & _); reflexivity]|].
  destruct (usage_cpu_ok _ _); cbn [negb]; [|split; [discriminate|intros (_ & [=] & _)]].
  destruct (nr_numa (ni_cap n)); [split; auto; intros _; repeat split; auto; discriminate|].
  destruct (numa_cpu_fault _), (numa_mem_fault1 _), (numa_mem_fault2 _ _); cbn [orb];
    (split; [try discriminate; intros _; repeat split; auto; discriminate
            |try reflexivity; intros (_ & _ & [[=]|(? & ? & ?)]); discriminate]).
Qed.

Lemma usage_cpu_ok_add (cap usage usage' : smap Z) (d : string -> Z) :
  NoDup (keys usage) -> NoDup (keys usage') ->
  usage_cpu_ok cap usage = true -> (forall kv, In kv usage -> 0 <= snd kv) ->
  (forall k, lookup 0 usage' k = lookup 0 usage k + d k) ->
  (forall k, 0 <= d k <= Z.max 0 (lookup 0 cap k - lookup 0 usage k)) ->
  (forall k, In k (keys usage') -> In k (keys usage) \/ 0 < d k) ->
  usage_cpu_ok cap usage' = true.
Proof.
  unfold usage_cpu_ok. rewrite !forallb_forall. intros Nu Nu' Vu Up L D K [k v] Hkv. cbn [fst snd].
  assert (Ev : v = lookup 0 usage k + d k) by (rewrite <- L; symmetry; apply entry_lookup; auto).
  assert (U0 : 0 <= lookup 0 usage k) by (apply lookup_nn, Forall_forall, Up).
  specialize (D k). unfold lookup at 1 in D.
  destruct (K k (in_map fst _ _ Hkv)) as [Hin|Hd].
  - (* an old entry: Validate accepted it, and the growth fits *)
    destruct (in_keys_entry _ _ Hin) as (x & Hx).
    specialize (Vu _ Hx). cbn [fst snd] in Vu. rewrite (entry_lookup _ _ _ Nu Hx) in *.
    destruct (lookup_opt cap k) as [total|]; [|discriminate].
    apply andb_true_iff in Vu. destruct Vu as [V1 V2]. apply negb_true_iff, Z.ltb_ge in V1, V2.
    apply andb_true_iff; split; apply negb_true_iff, Z.ltb_ge; lia.
  - (* a core the new workloads use: it has free room, so it is a core of the node *)
    destruct (lookup_opt cap k) as [total|]; [|lia].
    apply andb_true_iff; split; apply negb_true_iff, Z.ltb_ge; lia.
Qed.

Lemma numa_mem_fault2_add cap usage usage' (e : string -> Z) :
  NoDup (keys (nr_numamem cap)) -> numa_mem_fault2 cap usage = false ->
  (forall nid, lookup 0 (nr_numamem usage') nid = lookup 0 (nr_numamem usage) nid + e nid) ->
  (forall nid, 0 <= e nid <= Z.max 0 (lookup 0 (nr_numamem cap) nid - lookup 0 (nr_numamem usage) nid)) ->
  numa_mem_fault2 cap usage' = false.
Proof.
  unfold numa_mem_fault2. intros Nc F L E. apply not_true_is_false. intro Hex.
  apply existsb_exists in Hex. destruct Hex as ([nid capn] & Hin & Hbad).
  pose proof (existsb_false_in _ _ F _ Hin) as Hgood. cbn [fst snd] in Hgood, Hbad. cbv zeta in Hgood, Hbad.
  rewrite L in Hbad. specialize (E nid). rewrite (entry_lookup _ _ _ Nc Hin) in E.
  rewrite !orb_false_iff, !Z.ltb_ge in Hgood. rewrite !orb_true_iff, !Z.ltb_lt in Hbad. lia.
Qed.

Lemma tagged_cpumaps ws : map snd (tagged_of ws) = map wr_cpumap ws.
Proof. unfold tagged_of. rewrite map_map. reflexivity. Qed.

Lemma fits_cpu_room info mem ws : NoDup (keys (nr_cpumap (ni_usage info))) -> fits info mem (tagged_of ws) ->
  forall k, 0 <= used (map wr_cpumap ws) k
            <= Z.max 0 (lookup 0 (nr_cpumap (ni_cap info)) k - lookup 0 (nr_cpumap (ni_usage info)) k).
Proof.
  intros Nu F k. pose proof (fits_nn _ _ _ F) as Nn. destruct F as (A & _). specialize (A k).
  rewrite tagged_cpumaps in *. simpl in A. rewrite lookup_cpumap_sub in A by exact Nu.
  split; [apply used_nonneg, Nn|exact A].
Qed.

Lemma fits_numa_room info mem ws : 0 <= mem -> NoDup (keys (nr_numamem (ni_usage info))) ->
  fits info mem (tagged_of ws) ->
  (forall w, In w ws -> wr_numamem w = match wr_numanode w with EmptyString => [] | nid => [(nid, mem)] end) ->
  forall nid, 0 <= used (map wr_numamem ws) nid
              <= Z.max 0 (lookup 0 (nr_numamem (ni_cap info)) nid - lookup 0 (nr_numamem (ni_usage info)) nid).
Proof.
  intros Hm Nu (_ & B & _) Hw nid. rewrite (used_numamem ws mem nid Hw).
  destruct (String.eqb_spec nid "") as [->|Nn0]; [lia|].
  pose proof (count_tag_nonneg (tagged_of ws) nid) as Cn0.
  destruct (Z.eq_dec (count_tag (tagged_of ws) nid) 0) as [E0|N0]; [rewrite E0; lia|].
  destruct (count_tag_pos_in (tagged_of ws) nid ltac:(lia)) as (tp & Htp & Et).
  destruct (B tp Htp ltac:(congruence)) as (_ & B2). rewrite Et in B2.
  simpl in B2. rewrite lookup_cpumap_sub in B2 by exact Nu. split; [nia|exact B2].
Qed.

Theorem commit_valid info mem ws :
  valid_node info = true -> 0 <= mem ->
  fits info mem (tagged_of ws) ->
  (forall w, In w ws -> wr_mem_req w = mem
     /\ wr_numamem w = match wr_numanode w with EmptyString => [] | nid => [(nid, mem)] end) ->
  Forall (fun w => NoDup (keys (wr_cpumap w))) ws ->
  validate_ok (commit_usage info ws) = true
  /\ nr_mem (ni_usage (commit_usage info ws)) <= nr_mem (ni_cap info).
Proof.
  intros Hv Hm F Hw Nw.
  destruct (valid_node_spec info Hv) as ((NcC & NuC & NcM & NuM & NcN) & V & M & Up).
  apply validate_ok_iff in V. destruct V as (Vne & Vu & Vnuma).
  assert (Nws : Forall (fun w => NoDup (keys (wr_cpumap w)) /\ NoDup (keys (wr_numamem w))) ws).
  { apply Forall_and; [exact Nw|]. apply Forall_forall. intros w Hin. rewrite (proj2 (Hw w Hin)).
    destruct (wr_numanode w); [constructor|]. constructor; [simpl; tauto|constructor]. }
  destruct (commit_fold_spec ws Nws (ni_usage info)) as (LA & LB & LC & LD & LE).
  change (commit_usage info ws) with (mkNI (ni_cap info) (commit_fold ws (ni_usage info))).
  split.
  2:{ cbn [ni_usage ni_cap]. rewrite LC.
      assert (Es : fold_right (fun w s => wr_mem_req w + s) 0 ws = Z.of_nat (length ws) * mem).
      { clear -Hw. induction ws as [|w t IH]; [reflexivity|].
        cbn [fold_right length]. rewrite IH by (intros; apply Hw; right; auto).
        rewrite (proj1 (Hw w (or_introl eq_refl))), Nat2Z.inj_succ. lia. }
      rewrite Es. destruct F as (_ & _ & C & _). unfold tagged_of in C. rewrite map_length in C. simpl in C.
      clear -C M. lia. }
  apply validate_ok_iff. cbn [ni_cap ni_usage]. split; [exact Vne|]. split.
  - apply (usage_cpu_ok_add _ (nr_cpumap (ni_usage info)) _ (used (map wr_cpumap ws))); auto.
    + exact (fits_cpu_room info mem ws NuC F).
    + (* a key the commit added carries a positive entry of some workload *)
      intros k Hk. destruct (LE k Hk) as [H1|(w & Hw1 & Hk1)]; [auto|right].
      destruct (in_keys_entry _ _ Hk1) as (x & Hx).
      pose proof (fits_nn _ _ _ F) as Nn. rewrite tagged_cpumaps in Nn. destruct F as (_ & _ & _ & P).
      pose proof (P _ (k, x) (in_map (fun w => (wr_numanode w, wr_cpumap w)) _ _ Hw1) Hx) as Px.
      rewrite Forall_forall in Nw. pose proof (entry_lookup _ _ _ (Nw w Hw1) Hx) as El.
      pose proof (used_ge_member _ _ k Nn (in_map wr_cpumap _ _ Hw1)) as Ul.
      clear -Px El Ul. simpl in Px. lia.
  - destruct Vnuma as [En|(F0 & F1 & F2)]; [left; exact En|right]. split; [exact F0|]. split; [exact F1|].
    apply (numa_mem_fault2_add _ (ni_usage info) _ (used (map wr_numamem ws)) NcM F2 LB).
    apply (fits_numa_room info mem ws Hm NuM F). intros w Hin. apply (Hw w Hin).
Qed.

Lemma wreq_validate_mem raw req : wreq_validate raw = inr req -> 0 <= rq_mem_req req.
Proof.
  unfold wreq_validate. intros H.
  destruct ((rq_mem_lim raw <? 0) || (rq_mem_req raw <? 0)) eqn:E1; [discriminate|].
  apply orb_false_iff in E1. destruct E1 as [E1 E2]. apply Z.ltb_ge in E1, E2.
  destruct (flt _ _ || flt _ _); [discriminate|].
  destruct (feq _ _ && rq_bind raw); [discriminate|].
  inversion H; subst; clear H. cbn [rq_mem_req].
  destruct ((rq_mem_req raw =? 0) && (0 <? rq_mem_lim raw)); lia.
Qed.

Lemma alloc_by_memory_node info count req eps ws :
  do_alloc_by_memory info count req = inr (eps, ws) -> forall w, In w ws -> wr_numanode w = EmptyString.
Proof.
  intros H w Hw. rewrite (alloc_by_memory_ws _ _ _ _ _ H) in Hw. apply repeat_n_in in Hw. rewrite Hw. reflexivity.
Qed.

Lemma fits_memory_only info mem ws :
  (forall w, In w ws -> wr_cpumap w = [] /\ wr_numanode w = EmptyString) ->
  Z.of_nat (length ws) * mem <= nr_mem (get_available_nofloat info) ->
  fits info mem (tagged_of ws).
Proof.
  intros Et Hm.
  assert (T : forall tp, In tp (tagged_of ws) -> tp = (EmptyString, [])).
  { intros tp Htp. apply in_map_iff in Htp. destruct Htp as (w & <- & Hw).
    destruct (Et w Hw) as [-> ->]. reflexivity. }
  split; [|split; [|split]].
  - intros id. rewrite used_zero; [lia|]. intros p Hp.
    apply in_map_iff in Hp. destruct Hp as (tp & <- & Htp). rewrite (T tp Htp). simpl. tauto.
  - intros tp Htp Hne. rewrite (T tp Htp) in Hne. contradiction.
  - unfold tagged_of. rewrite map_length. exact Hm.
  - intros tp c Htp Hc. rewrite (T tp Htp) in Hc. destruct Hc.
Qed.

Section E2E.
Variable sortf : list keyed -> outcome (list keyed).
Hypothesis sortf_perm : forall l, exists l', sortf l = Ok l' /\ Permutation l' l.

Lemma deploy_maps_nodup info base maxshare count raw order fuel eps ws :
  calculate_deploy_g sortf info base maxshare count raw order fuel = Ok (inr (eps, ws)) ->
  wf_maps info -> NoDup order -> 0 < base ->
  Forall (fun w => NoDup (keys (wr_cpumap w)) /\ NoDup (keys (wr_numamem w))) ws.
Proof.
  intros H Wf Nd Hb. pose proof H as H'. unfold calculate_deploy_g in H.
  destruct (wreq_validate raw) as [[|]|req] eqn:Ev; try discriminate.
  apply Forall_forall. intros w Hw. destruct (rq_bind req) eqn:Eb; simpl in H.
  - destruct (deploy_struct sortf _ _ _ _ _ _ _ _ _ _ H' Ev Eb) as (plans & Ep & _ & _ & ->).
    destruct (get_cpu_plans_content sortf sortf_perm _ _ _ _ _ _ _ _ Ep Hb (proj2 Wf) Nd (avail_nodup info Wf)) as (_ & _ & Sh).
    apply in_map_iff in Hw. destruct Hw as (tp & <- & Htp).
    destruct (Sh tp (in_firstn _ _ _ Htp)) as (IDS & S). split; [apply (shape_keys_nodup _ _ _ _ S)|].
    unfold mk_wr. cbn [wr_numamem]. destruct (fst tp); [constructor|]. simpl. constructor; [tauto|constructor].
  - injection H as H. rewrite (alloc_by_memory_ws _ _ _ _ _ H) in Hw. apply repeat_n_in in Hw. subst w.
    simpl. split; constructor.
Qed.

(* C04 end to end: whatever CalculateDeploy returns for a valid node can be committed *)
Theorem deploy_commit_valid info base maxshare count raw order fuel eps ws :
  calculate_deploy_g sortf info base maxshare count raw order fuel = Ok (inr (eps, ws)) ->
  valid_node info = true -> NoDup order -> ~ In EmptyString order -> 0 < base -> 0 <= count ->
  validate_ok (commit_usage info ws) = true
  /\ nr_mem (ni_usage (commit_usage info ws)) <= nr_mem (ni_cap info).
Proof.
  intros H Hv Nd Hne Hb Hc.
  destruct (valid_node_wf info Hv) as (Wf & Hfree).
  destruct (Forall_and_inv _ _ (deploy_maps_nodup _ _ _ _ _ _ _ _ _ H Wf Nd Hb)) as (Nw & _).
  pose proof H as H'. unfold calculate_deploy_g in H.
  destruct (wreq_validate raw) as [[|]|req] eqn:Ev; try discriminate.
  pose proof (wreq_validate_mem raw req Ev) as Hm.
  destruct (rq_bind req) eqn:Eb; simpl in H.
  - destruct (deploy_fit sortf sortf_perm _ _ _ _ _ _ _ _ _ _ H' Ev Eb Wf Nd Hne Hb Hm Hfree) as (_ & F & Wm).
    exact (commit_valid info (rq_mem_req req) ws Hv Hm F Wm Nw).
  - injection H as H1.
    destruct (alloc_by_memory_fit info count req eps ws H1 Hc Hm Hfree) as (L & M & W).
    pose proof (alloc_by_memory_node _ _ _ _ _ H1) as Wn.
    apply (commit_valid info (rq_mem_req req) ws Hv Hm); [| |exact Nw].
    + apply fits_memory_only; [|lia]. intros w Hw. split; [apply (W w Hw)|apply (Wn w Hw)].
    + intros w Hw. destruct (W w Hw) as (W1 & _ & W3). rewrite W3, (Wn w Hw). auto.
Qed.
End E2E.

Section ModelOk.
Variable sortf : list keyed -> outcome (list keyed).
Hypothesis sortf_perm : forall l, exists l', sortf l = Ok l' /\ Permutation l' l.

Theorem plans_ok_on_model info origin base mf req order fuel plans :
  get_cpu_plans_g sortf info origin base mf req order fuel = Ok plans ->
  wf_maps info -> NoDup order -> ~ In EmptyString order -> 0 < base ->
  0 <= rq_mem_req req -> 0 <= nr_mem (get_available_nofloat info) ->
  c04_plans_ok info (rq_mem_req req) plans = true.
Proof.
  intros H Wf Nd Hne Hb Hm Hfree.
  apply fits_ok; auto. apply (plans_fits sortf sortf_perm _ _ _ _ _ _ _ _ H); auto.
Qed.
End ModelOk.
