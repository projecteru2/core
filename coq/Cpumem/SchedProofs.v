(* Cpumem/SchedProofs.v — totality of the CPU scheduler model (C06) and the
   basic invariants used by C04/C05: every loop terminates within the fuel
   1 + free pieces of the node + free pieces of the cores listed in the NUMA
   map, no slice/index/division panic is reachable, and every plan
   only carries non-negative piece counts.

   Everything is proved for an arbitrary final sort [sortf] of getFullCPUPlans
   that returns a permutation of its input (sort.Slice is unstable above 12
   elements; the theorems do not depend on how ties are broken). *)
From Coq Require Import String Ascii List ZArith Bool Lia Permutation.
From Coq Require Import ZifyBool ZifyNat.
From Verif Require Import Base.GoFloat Base.GoHeap Base.GoHeapSpec.
From Verif Require Import Cpumem.Types Cpumem.Schedule.
Import ListNotations.
Local Open Scope Z_scope.

Lemma Forall_firstn' {A} (P : A -> Prop) n l : Forall P l -> Forall P (firstn n l).
Proof. intros H. rewrite <- (firstn_skipn n l) in H. apply Forall_app in H. tauto. Qed.
Lemma Forall_skipn' {A} (P : A -> Prop) n l : Forall P l -> Forall P (skipn n l).
Proof. intros H. rewrite <- (firstn_skipn n l) in H. apply Forall_app in H. tauto. Qed.

Lemma quot_rem_pos a b : 0 <= a -> 0 < b ->
  a = b * Z.quot a b + Z.rem a b /\ 0 <= Z.rem a b < b /\ 0 <= Z.quot a b.
Proof.
  intros Ha Hb. split; [apply Z.quot_rem'|]. split; [apply Z.rem_bound_pos; lia|apply Z.quot_pos; lia].
Qed.

Definition weight (l : list core) : Z := fold_right (fun c s => Z.max 0 (cpieces c) + s) 0 l.

Lemma weight_nonneg l : 0 <= weight l.
Proof. induction l; simpl; lia. Qed.
Lemma weight_cons c l : weight (c :: l) = Z.max 0 (cpieces c) + weight l.
Proof. reflexivity. Qed.
Lemma weight_app l1 l2 : weight (l1 ++ l2) = weight l1 + weight l2.
Proof. induction l1; simpl; lia. Qed.
Lemma weight_perm l1 l2 : Permutation l1 l2 -> weight l1 = weight l2.
Proof. induction 1; simpl; lia. Qed.
Lemma mweight_nonneg m : 0 <= mweight m.
Proof. induction m; simpl; lia. Qed.

Lemma weight_firstn_skipn n l : weight (firstn n l) + weight (skipn n l) = weight l.
Proof. rewrite <- (firstn_skipn n l) at 3. rewrite weight_app. reflexivity. Qed.

Lemma insert_by_perm {A} (less : A -> A -> bool) x l : Permutation (insert_by less x l) (x :: l).
Proof.
  induction l as [|y t IH]; simpl; auto.
  destruct (less y x); auto.
  eapply perm_trans; [apply perm_skip, IH | apply perm_swap].
Qed.
Lemma isort_perm {A} (less : A -> A -> bool) l : Permutation (isort less l) l.
Proof.
  induction l as [|x t IH]; simpl; auto.
  eapply perm_trans; [apply insert_by_perm | apply perm_skip, IH].
Qed.

Definition fullp (base : Z) (c : core) : Prop := exists q, 1 <= q /\ cpieces c = q * base.
Definition posp (c : core) : Prop := 0 < cpieces c.

Lemma is_full_core_fullp base c : 0 < base -> is_full_core base c = true -> fullp base c.
Proof.
  unfold is_full_core, fullp. intros Hb H.
  exists (Z.quot (cpieces c) base).
  pose proof (Z.quot_rem' (cpieces c) base) as E.
  split; [nia|lia].
Qed.

Lemma fullp_pos base c : 0 < base -> fullp base c -> base <= cpieces c.
Proof. intros Hb (q & Hq & E). rewrite E. nia. Qed.

Lemma fullp_weight base l : 0 < base -> Forall (fullp base) l ->
  weight l = fold_right (fun c s => cpieces c + s) 0 l.
Proof.
  intros Hb H. induction H as [|c t Hc Ht IH]; simpl; auto.
  pose proof (fullp_pos _ _ Hb Hc). lia.
Qed.

Lemma fullp_len_weight base l : 0 < base -> Forall (fullp base) l -> Z.of_nat (length l) * base <= weight l.
Proof.
  intros Hb H. induction H as [|c t Hc Ht IH]; simpl length; simpl weight; [lia|].
  pose proof (fullp_pos _ _ Hb Hc). lia.
Qed.

Lemma weight_filter_le f l : weight (filter f l) <= weight l.
Proof. induction l as [|c t IH]; simpl; [lia|]. destruct (f c); simpl; lia. Qed.

Definition cores_of (m : smap Z) : list core := map (fun kv => mkCore (fst kv) (snd kv)) m.

Lemma weight_cores_of (m : smap Z) : weight (cores_of m) = mweight m.
Proof. induction m as [|kv t IH]; simpl; auto. rewrite IH. reflexivity. Qed.

Lemma filter_disjoint_perm {A} (f g : A -> bool) l : (forall x, f x = true -> g x = false) ->
  Permutation (filter f l ++ filter g l) (filter (fun x => f x || g x) l).
Proof.
  intros D. induction l as [|x t IH]; simpl; auto.
  destruct (f x) eqn:Ef; simpl.
  - rewrite (D x Ef). apply perm_skip, IH.
  - destruct (g x); [|exact IH].
    eapply perm_trans; [apply Permutation_sym, Permutation_middle|]. apply perm_skip, IH.
Qed.

Definition host_ok (base : Z) (h : host) : Prop :=
  h_base h = base /\ Forall (fullp base) (h_full h) /\ Forall posp (h_frag h).

Definition host_on (base : Z) (m : smap Z) (h : host) : Prop :=
  host_ok base h /\ exists sel, Permutation (h_full h ++ h_frag h) (filter sel (cores_of m)).

Lemma new_host_on m base mf : 0 < base -> exists h, new_host m base mf = Ok h /\ host_on base m h.
Proof.
  intros Hb. unfold new_host. cbv zeta. fold (cores_of m).
  replace (base =? 0) with false by lia. cbn [andb].
  eexists; split; [reflexivity|]. split; [split; [reflexivity|split]|]; cbn [h_full h_frag].
  - apply (Permutation_Forall (Permutation_sym (isort_perm _ _))), Forall_forall.
    intros c Hc. apply filter_In in Hc. apply is_full_core_fullp; tauto.
  - apply (Permutation_Forall (Permutation_sym (isort_perm _ _))), Forall_forall.
    intros c Hc. apply filter_In in Hc. destruct Hc as [_ Hc]. unfold posp. lia.
  - eexists. eapply perm_trans; [apply Permutation_app; apply isort_perm|].
    apply filter_disjoint_perm. intros c ->. reflexivity.
Qed.

Lemma reorder_on base m oh h : host_on base m h -> host_on base m (reorder_by_affinity oh h).
Proof.
  intros ((Hb & Hf & Hg) & sel & P). unfold reorder_by_affinity.
  split; [split; [exact Hb|split]|exists sel]; cbn [h_full h_frag].
  - exact (Permutation_Forall (Permutation_sym (isort_perm _ _)) Hf).
  - exact (Permutation_Forall (Permutation_sym (isort_perm _ _)) Hg).
  - eapply perm_trans; [apply Permutation_app; apply isort_perm|exact P].
Qed.

Lemma host_on_weight base m h : host_on base m h -> weight (h_full h) + weight (h_frag h) <= mweight m.
Proof.
  intros (_ & sel & P). rewrite <- weight_app, (weight_perm _ _ P), <- weight_cores_of. apply weight_filter_le.
Qed.

Definition plan_nn (p : plan) : Prop := Forall (fun kv => 0 <= snd kv) p.
Definition plans_nn (l : list plan) : Prop := Forall plan_nn l.

Lemma upd_nn (p : plan) k v : 0 <= v -> plan_nn p -> plan_nn (upd p k v).
Proof.
  intros Hv H. induction H as [|[k' v'] t Hx Ht IH]; simpl.
  - constructor; auto.
  - destruct (String.eqb k k'); constructor; auto.
Qed.

Lemma lookup_nn (p : plan) k : plan_nn p -> 0 <= lookup 0 p k.
Proof.
  unfold lookup. intros H. induction H as [|[k' v'] t Hx Ht IH]; simpl; [lia|].
  destruct (String.eqb k k'); auto.
Qed.

Lemma cpumap_add_nn (c c1 : plan) : plan_nn c -> plan_nn c1 -> plan_nn (cpumap_add c c1).
Proof.
  unfold cpumap_add. intros Hc H1. revert c Hc.
  induction H1 as [|kv t Hx Ht IH]; intros c Hc; simpl; auto.
  apply IH. apply upd_nn; auto. pose proof (lookup_nn c (fst kv) Hc). lia.
Qed.

Lemma Forall_repeat_plan (P : plan -> Prop) n p : P p -> Forall P (repeat_plan n p).
Proof. intros H. induction n; simpl; constructor; auto. Qed.

Lemma repeat_plan_length n p : length (repeat_plan n p) = n.
Proof. induction n; simpl; auto. Qed.

Definition frag_plans (fragment : Z) (cores : list core) : list plan :=
  flat_map (fun c => repeat_plan (Z.to_nat (Z.quot (cpieces c) fragment)) [(cid c, fragment)]) cores.

Lemma fragment_plans_eq cores fragment : 0 < fragment ->
  get_fragment_plans cores fragment = Ok (frag_plans fragment cores).
Proof.
  intros Hf. unfold get_fragment_plans. destruct cores; [reflexivity|].
  replace (fragment =? 0) with false by lia. reflexivity.
Qed.

Lemma frag_plans_nn fragment cores : 0 < fragment -> plans_nn (frag_plans fragment cores).
Proof.
  intros Hf. unfold frag_plans. induction cores as [|c t IH]; simpl; [constructor|].
  apply Forall_app; split; auto. apply Forall_repeat_plan. constructor; simpl; [lia|constructor].
Qed.

(* the capacity getCPUPlans keeps in [total] never exceeds the number of fragment plans *)
Lemma frag_plans_length fragment cores : forall a,
  fold_left (fun s c => s + Z.quot (cpieces c) fragment) cores a
  <= a + Z.of_nat (length (frag_plans fragment cores)).
Proof.
  unfold frag_plans. induction cores as [|c t IH]; intros a; simpl; [lia|].
  rewrite app_length, repeat_plan_length. specialize (IH (a + Z.quot (cpieces c) fragment)). lia.
Qed.

(* what is left of the cores a round of getFullCPUPlans has used *)
Definition temp_of (base : Z) (l : list core) : list core :=
  flat_map (fun c => let r := cpieces c - base in if 0 <? r then [mkCore (cid c) r] else []) l.

Lemma temp_cons base c t : temp_of base (c :: t) =
  (if 0 <? cpieces c - base then [mkCore (cid c) (cpieces c - base)] else []) ++ temp_of base t.
Proof. reflexivity. Qed.

Lemma temp_cores base l : 0 < base -> Forall (fullp base) l ->
  Forall (fullp base) (temp_of base l) /\ weight (temp_of base l) + Z.of_nat (length l) * base = weight l.
Proof.
  intros Hb H. induction H as [|c t (q & Hq & Eq) Ht [IH1 IH2]]; [split; [constructor|reflexivity]|].
  rewrite temp_cons, weight_app, weight_cons. cbn [length]. rewrite Nat2Z.inj_succ.
  destruct (Z.ltb_spec 0 (cpieces c - base)) as [Er|Er].
  - split; [|rewrite weight_cons; cbn [weight fold_right cpieces]; nia].
    constructor; auto. exists (q - 1). cbn [cpieces]. split; nia.
  - split; [exact IH1|]. cbn [weight fold_right]. nia.
Qed.

Lemma fold_upd_nn base ch : 0 <= base -> forall p, plan_nn p ->
  plan_nn (fold_left (fun p c => upd p (cid c) base) ch p).
Proof. intros Hb. induction ch as [|c t IH]; intros p Hp; simpl; auto. apply IH, upd_nn; auto. Qed.

Notation hpop := (GoHeap.pop dcore heap_less).
Notation hpush := (GoHeap.push dcore heap_less).

Lemma pop_n_some base : forall k h p push, (k <= length h)%nat -> exists r, pop_n k base h p push = Ok r.
Proof.
  induction k as [|k IH]; intros h p push Hk; cbn [pop_n]; [eauto|].
  destruct (pop_some _ dcore heap_less h) as (c & h' & Hpop); [intros ->; simpl in Hk; lia|].
  rewrite Hpop. apply IH. apply pop_length in Hpop. lia.
Qed.

Lemma pop_n_spec base : forall k h p push p' push' h', pop_n k base h p push = Ok (p', push', h') ->
  exists popped, length popped = k /\ Permutation h (popped ++ h')
    /\ p' = fold_left (fun p c => upd p (cid c) base) popped p
    /\ push' = push ++ temp_of base popped.
Proof.
  induction k as [|k IH]; intros h p push p' push' h' H; cbn [pop_n] in H.
  - injection H as <- <- <-. exists []. rewrite app_nil_r. auto.
  - destruct (hpop h) as [[c h1]|] eqn:Ep; [|discriminate].
    apply IH in H. destruct H as (popped & L & Pm & -> & ->).
    exists (c :: popped). split; [simpl; lia|]. split; [|split; [reflexivity|]].
    + eapply perm_trans; [apply (pop_perm _ _ _ _ _ _ Ep)|]. apply perm_skip, Pm.
    + rewrite temp_cons. destruct (0 <? cpieces c - base); [rewrite <- app_assoc|]; reflexivity.
Qed.

Lemma fold_push_perm push : forall h, Permutation (fold_left hpush push h) (push ++ h).
Proof.
  induction push as [|x t IH]; intros h; simpl; auto.
  eapply perm_trans; [apply IH|].
  eapply perm_trans; [apply Permutation_app_head, push_perm|].
  apply Permutation_sym, Permutation_middle.
Qed.

Lemma full_loop_ok base full : 0 < base -> 1 <= full -> forall fuel h acc,
  Forall (fullp base) h -> plans_nn acc -> weight h < Z.of_nat fuel ->
  exists r, full_loop fuel base full h acc = Ok r /\ plans_nn r.
Proof.
  intros Hb Hf. induction fuel as [|fuel IH]; intros h acc Hh Ha Hw.
  - pose proof (weight_nonneg h). lia.
  - simpl. destruct (Z.of_nat (length h) <? full) eqn:El.
    + eexists; split; [reflexivity|]. apply Forall_rev; auto.
    + destruct (pop_n_some base (Z.to_nat full) h [] []) as ([[p' push'] h'] & E); [lia|].
      rewrite E. cbn [bind].
      destruct (pop_n_spec _ _ _ _ _ _ _ _ E) as (popped & L & Pm & -> & ->). cbn [app].
      apply (Permutation_Forall Pm), Forall_app in Hh. destruct Hh as [Hp Hh'].
      destruct (temp_cores base popped Hb Hp) as [T1 T2].
      pose proof (fold_push_perm (temp_of base popped) h') as Pn.
      apply IH.
      * apply (Permutation_Forall (Permutation_sym Pn)), Forall_app; auto.
      * constructor; auto. apply fold_upd_nn; [lia|constructor].
      * rewrite (weight_perm _ _ Pn), weight_app.
        rewrite (weight_perm _ _ Pm), weight_app in Hw. nia.
Qed.

Lemma chunks_nn base : 0 <= base -> forall n k l,
  plans_nn (map (fun ch => fold_left (fun p c => upd p (cid c) base) ch []) (chunks n k l)).
Proof.
  intros Hb. induction n as [|n IH]; intros k l; simpl; constructor; [|apply IH].
  apply fold_upd_nn; [exact Hb|constructor].
Qed.

(* the number of whole rounds the affinity loop cuts out of [len] cores *)
Lemma quot_count len full : 1 <= full -> full <= len ->
  1 <= Z.quot len full /\ Z.quot len full * full <= len.
Proof.
  intros Hf Hl. destruct (quot_rem_pos len full) as (Eq & Rb & _); [lia|lia|].
  split; [|nia]. destruct (Z_lt_le_dec (Z.quot len full) 1); [|lia]. nia.
Qed.

Lemma aff_loop_ok base full : 0 < base -> 1 <= full -> forall fuel cores acc,
  Forall (fullp base) cores -> plans_nn acc -> weight cores < Z.of_nat fuel ->
  exists r, aff_loop fuel base full cores acc = Ok r /\ plans_nn r.
Proof.
  intros Hb Hf. induction fuel as [|fuel IH]; intros cores acc Hc Ha Hw.
  - pose proof (weight_nonneg cores). lia.
  - simpl. destruct (Z.of_nat (length cores) <? full) eqn:El.
    + eexists; split; [reflexivity|]; auto.
    + apply Z.ltb_ge in El.
      replace (full =? 0) with false by lia.
      destruct (quot_count _ _ Hf El) as [Hc1 Hc2].
      set (used := Z.to_nat (Z.quot (Z.of_nat (length cores)) full * full)).
      fold (temp_of base (firstn used cores)).
      assert (Hfs : Forall (fullp base) (firstn used cores)) by (apply Forall_firstn'; auto).
      destruct (temp_cores base (firstn used cores) Hb Hfs) as [T1 T2].
      apply IH.
      * apply Forall_app; split; auto. apply Forall_skipn'; auto.
      * apply Forall_app; split; auto. apply chunks_nn; lia.
      * rewrite weight_app. pose proof (weight_firstn_skipn used cores).
        rewrite firstn_length_le in T2 by (unfold used; lia).
        assert (1 <= Z.of_nat used) by (unfold used; nia). nia.
Qed.

Section Generic.
Variable sortf : list keyed -> outcome (list keyed).
Hypothesis sortf_perm : forall l, exists l', sortf l = Ok l' /\ Permutation l' l.

Lemma full_plans_ok base aff cores full fuel : 0 < base -> 1 <= full ->
  Forall (fullp base) cores -> weight cores < Z.of_nat fuel ->
  exists r, get_full_plans_g sortf base aff cores full fuel = Ok r /\ plans_nn r.
Proof.
  intros Hb Hf Hc Hw. unfold get_full_plans_g. destruct aff.
  - apply aff_loop_ok; auto. constructor.
  - destruct (full_loop_ok base full Hb Hf fuel (GoHeap.init dcore heap_less cores) []) as (r & E & Hr).
    + eapply Permutation_Forall; [symmetry; apply init_perm|]; auto.
    + constructor.
    + rewrite (weight_perm _ _ (init_perm _ dcore heap_less cores)); auto.
    + rewrite E. simpl.
      destruct (sortf_perm (map (fun p => (sum_of_ids cores p, p)) r)) as (l' & El & Pl).
      rewrite El. simpl. eexists; split; [reflexivity|].
      apply Forall_map, (Permutation_Forall (Permutation_sym Pl)), Forall_map. exact Hr.
Qed.

Lemma convert_loop_ok base aff full fragment maxfrag fuel2 :
  0 < base -> 1 <= full -> 0 < fragment ->
  forall fuel fulls frags total best0 best1 bestcap,
  Forall (fullp base) fulls ->
  total <= Z.of_nat (length (frag_plans fragment frags)) ->
  maxfrag <= Z.of_nat (length fulls) + Z.of_nat (length frags) - full ->
  weight fulls < Z.of_nat fuel2 -> (length fulls < fuel)%nat ->
  plans_nn best0 -> plans_nn best1 ->
  bestcap <= Z.of_nat (length best0) -> bestcap <= Z.of_nat (length best1) ->
  exists b0 b1 cap, convert_loop sortf fuel fuel2 base aff maxfrag full fragment fulls frags total best0 best1 bestcap
                    = Ok (b0, b1, cap)
    /\ plans_nn b0 /\ plans_nn b1 /\ cap <= Z.of_nat (length b0) /\ cap <= Z.of_nat (length b1).
Proof.
  intros Hb Hfu Hfr. induction fuel as [|fuel IH];
    intros fulls frags total best0 best1 bestcap Hf Ht Hm Hw Hl Hn0 Hn1 Hc0 Hc1.
  - lia.
  - simpl. destruct (Z.of_nat (length frags) <? maxfrag) eqn:Ec; simpl.
    2:{ do 3 eexists; split; [reflexivity|]; auto. }
    destruct fulls as [|nf fulls']; [simpl in Hm; lia|].
    inversion Hf as [|? ? Hnf Hf']; subst.
    assert (Hw' : weight fulls' < Z.of_nat fuel2) by (simpl in Hw; lia).
    destruct (full_plans_ok base aff fulls' full fuel2 Hb Hfu Hf' Hw') as (fplans & Ef & Hfp).
    rewrite Ef. simpl.
    assert (Hm' : maxfrag <= Z.of_nat (length fulls') + Z.of_nat (length (frags ++ [nf])) - full).
    { rewrite app_length. simpl length in *. lia. }
    assert (Hl' : (length fulls' < fuel)%nat) by (simpl in Hl; lia).
    assert (Ht' : total + Z.quot (cpieces nf) fragment <= Z.of_nat (length (frag_plans fragment (frags ++ [nf])))).
    { unfold frag_plans in *. rewrite flat_map_app. cbn [flat_map].
      rewrite !app_length, repeat_plan_length. cbn [length]. lia. }
    destruct (bestcap <? Z.min (Z.of_nat (length fplans)) (total + Z.quot (cpieces nf) fragment)) eqn:Eb.
    + rewrite (fragment_plans_eq _ _ Hfr). simpl.
      apply IH; auto; [apply frag_plans_nn, Hfr|lia|lia].
    + apply IH; auto.
Qed.

Lemma zip_plans_ok : forall n l0 l1, (n <= length l0)%nat -> (n <= length l1)%nat ->
  plans_nn l0 -> plans_nn l1 -> exists r, zip_plans n l0 l1 = Ok r /\ plans_nn r.
Proof.
  induction n as [|n IH]; intros l0 l1 H0 H1 N0 N1; simpl.
  - eexists; split; [reflexivity|constructor].
  - destruct l0 as [|p0 t0]; [simpl in H0; lia|]. destruct l1 as [|p1 t1]; [simpl in H1; lia|].
    inversion N0; inversion N1; subst.
    destruct (IH t0 t1) as (r & E & Hr); auto; try (simpl in *; lia).
    rewrite E. simpl. eexists; split; [reflexivity|]. constructor; auto.
    apply cpumap_add_nn; auto. apply cpumap_add_nn; auto. constructor.
Qed.

Lemma host_plans_pieces_ok base h pr fuel : 0 < base -> 0 < pr -> host_ok base h ->
  weight (h_full h) + weight (h_frag h) < Z.of_nat fuel ->
  exists r, host_plans_pieces_g sortf h pr fuel = Ok r /\ plans_nn r.
Proof.
  intros Hb Hp (Eb & Hf & _) Hw. unfold host_plans_pieces_g. rewrite Eb.
  destruct (quot_rem_pos pr base) as (Eq & Rb & Hq); [lia|lia|].
  pose proof (weight_nonneg (h_full h)). pose proof (weight_nonneg (h_frag h)).
  set (full := Z.quot pr base) in *. set (fragment := Z.rem pr base) in *.
  set (nfull := Z.of_nat (length (h_full h))). set (nfrag := Z.of_nat (length (h_frag h))).
  set (mfc := nfull + nfrag - full).
  set (maxfrag := if (h_maxfrag h =? -1) || (mfc <? h_maxfrag h) then mfc else h_maxfrag h).
  assert (Hmax : maxfrag <= mfc).
  { unfold maxfrag. destruct ((h_maxfrag h =? -1) || (mfc <? h_maxfrag h)) eqn:E; lia. }
  destruct (fragment =? 0) eqn:Ef0.
  - apply full_plans_ok; auto; [nia|lia].
  - destruct (full =? 0) eqn:Efu.
    + set (diff0 := maxfrag - nfrag). set (diff := if diff0 <? 0 then 0 else diff0).
      assert (Hd : 0 <= diff <= nfull).
      { unfold diff, diff0, mfc in *. destruct (maxfrag - nfrag <? 0) eqn:E; lia. }
      replace (nfull <? diff) with false by lia.
      rewrite fragment_plans_eq by lia. eexists; split; [reflexivity|apply frag_plans_nn; lia].
    + assert (Hfu1 : 1 <= full) by lia.
      destruct (full_plans_ok base (h_aff h) (h_full h) full fuel Hb Hfu1 Hf ltac:(lia)) as (b0 & E0 & N0).
      rewrite E0. cbn [bind].
      assert (Hfr : 0 < fragment) by lia.
      rewrite (fragment_plans_eq _ _ Hfr). cbn [bind].
      destruct (convert_loop_ok base (h_aff h) full fragment maxfrag fuel Hb Hfu1 Hfr
                  (S (length (h_full h))) (h_full h) (h_frag h) _ b0 _ _
                  Hf (frag_plans_length fragment (h_frag h) 0) Hmax ltac:(lia) (Nat.lt_succ_diag_r _)
                  N0 (frag_plans_nn fragment (h_frag h) Hfr) (Z.le_min_l _ _) (Z.le_min_r _ _))
        as (c0 & c1 & cap & Ec & M0 & M1 & C0 & C1).
      rewrite Ec. cbn [bind].
      apply zip_plans_ok; [clear -C0; lia|clear -C1; lia|exact M0|exact M1].
Qed.

Lemma host_cpu_plans_ok base h cpu fuel : 0 < base -> host_ok base h ->
  weight (h_full h) + weight (h_frag h) < Z.of_nat fuel ->
  exists r, host_cpu_plans_g sortf h cpu fuel = Ok r /\ plans_nn r.
Proof.
  intros Hb Hh Hw. unfold host_cpu_plans_g.
  destruct (pieces_request (h_base h) cpu <=? 0) eqn:E.
  - eexists; split; [reflexivity|constructor].
  - apply Z.leb_gt in E. pose proof Hh as (Eb & _). rewrite Eb in *.
    replace (base =? 0) with false by lia.
    apply (host_plans_pieces_ok base); auto.
Qed.

Definition mem_cut (amem mem : Z) (plans : list plan) : list plan :=
  if 0 <? mem then
    let cap := Z.quot amem mem in
    let cap := if cap <? 0 then 0 else cap in
    if cap <? Z.of_nat (length plans) then firstn (Z.to_nat cap) plans else plans
  else plans.

Lemma mem_cut_firstn amem mem plans : exists n, mem_cut amem mem plans = firstn n plans.
Proof.
  unfold mem_cut. destruct (0 <? mem); [cbv zeta; destruct (_ <? Z.of_nat _); [eauto|]|];
    exists (length plans); symmetry; apply firstn_all.
Qed.

(* doGetCPUPlans: build the host on the given cpu map (reordered when there is an origin
   map), plan on it, cut by memory *)
Lemma do_get_eq origin avail amem base mf cpu mem fuel : 0 < base ->
  exists h, host_on base avail h
    /\ do_get_cpu_plans_g sortf origin avail amem base mf cpu mem fuel
       = do plans <- host_cpu_plans_g sortf h cpu fuel; Ok (mem_cut amem mem plans).
Proof.
  intros Hb. unfold do_get_cpu_plans_g.
  destruct (new_host_on avail base mf Hb) as (h & -> & Hh). cbn [bind].
  assert (O : exists h', match origin with
                         | [] => Ok h
                         | _ => do oh <- new_host origin base mf; Ok (reorder_by_affinity oh h)
                         end = Ok h' /\ host_on base avail h').
  { destruct origin as [|o ot]; [eauto|].
    destruct (new_host_on (o :: ot) base mf Hb) as (oh & -> & _). cbn [bind]. eauto using reorder_on. }
  destruct O as (h' & -> & Hh'). cbn [bind]. exists h'. split; [exact Hh'|].
  destruct (host_cpu_plans_g sortf h' cpu fuel); cbn [bind]; try reflexivity.
  unfold mem_cut. destruct (0 <? mem); [cbv zeta; destruct (_ <? Z.of_nat _)|]; reflexivity.
Qed.

Lemma do_get_cpu_plans_ok origin avail amem base mf cpu mem fuel : 0 < base ->
  mweight avail < Z.of_nat fuel ->
  exists r, do_get_cpu_plans_g sortf origin avail amem base mf cpu mem fuel = Ok r /\ plans_nn r.
Proof.
  intros Hb Hw. destruct (do_get_eq origin avail amem base mf cpu mem fuel Hb) as (h & Hh & ->).
  pose proof (host_on_weight _ _ _ Hh).
  destruct (host_cpu_plans_ok base h cpu fuel Hb (proj1 Hh) ltac:(lia)) as (plans & -> & Np).
  cbn [bind]. eexists; split; [reflexivity|].
  destruct (mem_cut_firstn amem mem plans) as (n & ->). apply Forall_firstn', Np.
Qed.
End Generic.

Lemma mweight_upd_le (c : smap Z) k v : v <= lookup 0 c k -> mweight (upd c k v) <= mweight c.
Proof.
  unfold lookup. induction c as [|[k' w] t IH]; simpl; intros H.
  - lia.
  - destruct (String.eqb k k'); simpl in *; [lia|]. specialize (IH H). lia.
Qed.

Lemma mweight_sub_le (c p : smap Z) : plan_nn p -> mweight (cpumap_sub c p) <= mweight c.
Proof.
  unfold cpumap_sub. intros H. revert c.
  induction H as [|kv t Hx Ht IH]; intros c; simpl; [lia|].
  etransitivity; [apply IH|]. apply mweight_upd_le. lia.
Qed.

Lemma mweight_numa_map numa avail nid : mweight (numa_cpu_map numa avail nid) <= nweight numa avail.
Proof.
  unfold numa_cpu_map, nweight. induction numa as [|kv t IH]; simpl; [lia|].
  destruct (String.eqb (snd kv) nid); simpl; lia.
Qed.

Lemma nweight_nonneg numa avail : 0 <= nweight numa avail.
Proof. unfold nweight. induction numa; simpl; lia. Qed.

Lemma sub_plans_weight (plans : list plan) nid mem : plans_nn plans -> forall a,
  mweight (nr_cpumap (fold_left (fun a p => nr_sub_nofloat a (mkNR f_zero p mem [(nid, mem)] [])) plans a))
  <= mweight (nr_cpumap a).
Proof.
  intros H. induction H as [|p t Hp Ht IH]; intros a; simpl; [lia|].
  etransitivity; [apply IH|]. simpl. apply mweight_sub_le; auto.
Qed.

Section Generic2.
Variable sortf : list keyed -> outcome (list keyed).
Hypothesis sortf_perm : forall l, exists l', sortf l = Ok l' /\ Permutation l' l.

Lemma numa_loop_ok numa avail0 origin base mf cpu mem fuel : 0 < base ->
  nweight numa avail0 < Z.of_nat fuel ->
  forall order avail acc, Forall (fun tp => plan_nn (snd tp)) acc ->
  exists avail' acc', numa_loop sortf order numa avail0 origin base mf cpu mem fuel avail acc = Ok (avail', acc')
     /\ Forall (fun tp => plan_nn (snd tp)) acc'
     /\ mweight (nr_cpumap avail') <= mweight (nr_cpumap avail).
Proof.
  intros Hb Hw. induction order as [|nid rest IH]; intros avail acc Ha; simpl.
  - do 2 eexists; split; [reflexivity|]. split; auto. lia.
  - destruct (do_get_cpu_plans_ok sortf sortf_perm origin (numa_cpu_map numa avail0 nid)
                (Z.min (lookup 0 (nr_numamem avail) nid) (nr_mem avail)) base mf cpu mem fuel Hb)
      as (plans & E & Np).
    { pose proof (mweight_numa_map numa avail0 nid). lia. }
    rewrite E. cbn [bind].
    match goal with |- context [numa_loop sortf rest numa avail0 origin base mf cpu mem fuel ?a ?c] =>
      destruct (IH a c) as (avail' & acc' & E' & N' & W') end.
    { apply Forall_app; split; auto. apply Forall_map. exact Np. }
    do 2 eexists; split; [exact E'|]. split; auto.
    etransitivity; [exact W'|]. apply sub_plans_weight; auto.
Qed.

(* GetCPUPlans never panics and terminates within the default fuel *)
Theorem get_cpu_plans_total info origin base mf req order fuel :
  0 < base -> (default_fuel info <= fuel)%nat ->
  exists plans, get_cpu_plans_g sortf info origin base mf req order fuel = Ok plans
                /\ Forall (fun tp => plan_nn (snd tp)) plans.
Proof.
  intros Hb Hf. unfold get_cpu_plans_g. unfold default_fuel in Hf.
  set (avail := get_available_nofloat info) in *.
  pose proof (mweight_nonneg (nr_cpumap avail)) as M0.
  pose proof (nweight_nonneg (nr_numa (ni_cap info)) (nr_cpumap avail)) as N0.
  destruct (numa_loop_ok (nr_numa (ni_cap info)) (nr_cpumap avail) origin base mf
              (rq_cpu_req req) (rq_mem_req req) fuel Hb ltac:(lia) order avail [] ltac:(constructor))
    as (avail' & acc & E & Na & Wa).
  rewrite E. cbn [bind].
  destruct (do_get_cpu_plans_ok sortf sortf_perm origin (nr_cpumap avail') (nr_mem avail') base mf
              (rq_cpu_req req) (rq_mem_req req) fuel Hb ltac:(lia)) as (cross & Ec & Nc).
  rewrite Ec. cbn [bind]. eexists; split; [reflexivity|].
  apply Forall_app; split; auto. apply Forall_map. exact Nc.
Qed.
End Generic2.

(* the concrete instance: stable insertion sort *)
Lemma sort_exact_perm : forall l, exists l', sort_exact l = Ok l' /\ Permutation l' l.
Proof. intros l. eexists; split; [reflexivity|]. apply isort_perm. Qed.
