(* Cpumem/SchedProofsPieces.v — C05, arithmetic core: the piece count computed
   from a decimal request fl(k/b) is exactly k. *)
From Coq Require Import String Ascii List ZArith Bool Lia Reals Lra Psatz.
From Flocq Require Import Core IEEE754.BinarySingleNaN IEEE754.Binary IEEE754.Bits.
From Flocq Require Import Relative.
From Verif Require Import Base.GoInt Base.GoFloat Base.GoFloatLemmas Cpumem.Types Cpumem.Schedule.
Import ListNotations.
Local Open Scope Z_scope.

(* the request a client writes as the decimal k/b: the double nearest to k/b *)
Definition decimal_request (k b : Z) : f64 := fdiv (f_of_Z k) (f_of_Z b).

Fixpoint zrange (from : Z) (n : nat) : list Z :=
  match n with O => [] | S m => from :: zrange (from + 1) m end.

Definition pieces_sweep (b : Z) (n : nat) : bool :=
  forallb (fun k => pieces_request b (decimal_request k b) =? k) (zrange 1 n).

Lemma zrange_in from n k : from <= k < from + Z.of_nat n -> In k (zrange from n).
Proof.
  revert from. induction n as [|n IH]; intros from H; simpl; [lia|].
  destruct (Z.eq_dec from k); [left; auto|right; apply IH; lia].
Qed.

Lemma pieces_sweep_spec b n : pieces_sweep b n = true ->
  forall k, 1 <= k <= Z.of_nat n -> pieces_request b (decimal_request k b) = k.
Proof.
  unfold pieces_sweep. intros H k Hk. rewrite forallb_forall in H.
  apply Z.eqb_eq. apply H. apply zrange_in. lia.
Qed.

Lemma zrange_bound from n k : In k (zrange from n) -> from <= k < from + Z.of_nat n.
Proof.
  revert from. induction n as [|n IH]; intros from; simpl; [tauto|].
  intros [<-|H]; [lia|]. apply IH in H. lia.
Qed.

(* before the repair (int(cpu*base), truncation): 0.29 -> 28, 0.57 -> 56, 1.15 -> 114 *)
Lemma truncation_defect :
  pieces_request_trunc 100 (decimal_request 29 100) = 28
  /\ pieces_request_trunc 100 (decimal_request 57 100) = 56
  /\ pieces_request_trunc 100 (decimal_request 115 100) = 114.
Proof. vm_compute. repeat split. Qed.

(* two correctly rounded operations lose less than half a piece *)
Local Open Scope R_scope.

Lemma fexp64_FLT : fexp64 = FLT_exp (-1074) 53.
Proof. reflexivity. Qed.

Definition u53 : R := / 2 * bpow radix2 (-53 + 1).

Lemma rel_err x : bpow radix2 (-1022) <= Rabs x ->
  exists e, Rabs e <= u53 /\ round radix2 fexp64 (round_mode mode_NE) x = x * (1 + e).
Proof.
  intros H. rewrite fexp64_FLT.
  destruct (relative_error_N_FLT_ex radix2 (-1074) 53 ltac:(lia) (fun x => negb (Z.even x)) x) as (e & He & E).
  - exact H.
  - exists e. split; auto.
Qed.

Lemma u53_val : u53 = / IZR (2^53).
Proof.
  unfold u53. replace (bpow radix2 (-53 + 1)) with (/ bpow radix2 52) by (symmetry; apply (bpow_opp radix2 52)).
  rewrite <- (IZR_Zpower radix2 52) by lia. change (radix2 ^ 52)%Z with (2^52)%Z.
  replace (2^53)%Z with (2 * 2^52)%Z by reflexivity. rewrite mult_IZR.
  field. apply IZR_neq. lia.
Qed.

Lemma tiny_le x : / IZR (2^53) <= Rabs x -> bpow radix2 (-1022) <= Rabs x.
Proof.
  intros H. eapply Rle_trans; [|exact H].
  change (2^53)%Z with (radix2 ^ 53)%Z. rewrite IZR_Zpower by lia. rewrite <- bpow_opp.
  apply bpow_le. lia.
Qed.

Lemma u53_small : 0 < u53 < / 1000.
Proof.
  rewrite u53_val. split.
  - apply Rinv_0_lt_compat. apply IZR_lt. lia.
  - apply Rinv_lt_contravar; [|apply IZR_lt; lia]. apply Rmult_lt_0_compat; [lra|apply IZR_lt; lia].
Qed.

Lemma round_step x : / IZR (2^53) <= x ->
  exists e, -u53 <= e <= u53 /\ rndNE x = x * (1 + e).
Proof.
  intros Hl. assert (0 < / IZR (2^53)) by (apply Rinv_0_lt_compat, IZR_lt; lia).
  destruct (rel_err x) as (e & He & E); [apply tiny_le; rewrite Rabs_pos_eq; lra|].
  exists e. split; [apply Rabs_le_inv, He|exact E].
Qed.

Lemma decimal_pieces k b : (1 <= k < 2^50)%Z -> (1 <= b <= 2^53)%Z ->
  pieces_request b (decimal_request k b) = k.
Proof.
  intros Hk Hb.
  destruct (f_of_Z_real k ltac:(lia)) as [Fk Rk].
  destruct (f_of_Z_real b ltac:(lia)) as [Fb Rb].
  assert (HK : 1 <= IZR k < IZR (2^50)) by (split; [apply IZR_le|apply IZR_lt]; lia).
  assert (HB : 1 <= IZR b <= IZR (2^53)) by (split; apply IZR_le; lia).
  set (K := IZR k) in *. set (B := IZR b) in *.
  pose proof u53_small as Hu. pose proof u53_val as Uv.
  assert (HKB : / IZR (2^53) <= K / B <= K).
  { assert (/ IZR (2^53) <= / B <= 1) by (rewrite <- Rinv_1; split; apply Rinv_le_contravar; lra).
    unfold Rdiv. split; nra. }
  unfold pieces_request, decimal_request. cbv zeta.
  (* x = fl(k/b) = k/b (1+e1) *)
  destruct (fdiv_real (f_of_Z k) (f_of_Z b) 50 Fk) as (Dfin & Dx & _);
    [rewrite Rb; lra|lia|rewrite Rk, Rb, Rabs_pos_eq; change (bpow radix2 50) with (IZR (2^50)); lra|].
  rewrite Rk, Rb in Dx.
  destruct (round_step (K / B)) as (e1 & He1 & E1); [lra|]. rewrite E1 in Dx.
  set (x := fdiv (f_of_Z k) (f_of_Z b)) in *.
  (* y = fl(x b) = k (1+e1) (1+e2) *)
  assert (EM : K / B * (1 + e1) * B = K * (1 + e1)) by (field; lra).
  assert (H51 : IZR (2^50) * 2 <= IZR (2^51)) by (rewrite <- mult_IZR; apply IZR_le; lia).
  destruct (fmul_real x (f_of_Z b) 51 Dfin Fb) as (Mfin & My & _);
    [lia|rewrite Dx, Rb, EM, Rabs_pos_eq; change (bpow radix2 51) with (IZR (2^51)); nra|].
  rewrite Dx, Rb, EM in My.
  destruct (round_step (K * (1 + e1))) as (e2 & He2 & E2); [rewrite <- Uv; nra|]. rewrite E2 in My.
  set (y := fmul x (f_of_Z b)) in *.
  unfold f_round.
  pose proof (Bnearbyint_correct 53 1024 (eq_refl _) (fun _ => nan_pl64) mode_NA y) as (Ny & Nfin & _).
  set (z := Bnearbyint 53 1024 eq_refl (fun _ => nan_pl64) mode_NA y) in *.
  rewrite round_FIX0 in Ny.
  assert (Near : round_mode mode_NA (B2R 53 1024 y) = k).
  { simpl round_mode. apply Znearest_imp. rewrite My. fold K.
    replace (K * (1 + e1) * (1 + e2) - K) with (K * (e1 + e2 + e1 * e2)) by ring.
    rewrite Rabs_mult, (Rabs_pos_eq K) by lra.
    assert (Rabs (e1 + e2 + e1 * e2) <= 3 * u53).
    { apply Rabs_le. split; nra. }
    apply Rle_lt_trans with (IZR (2^50) * (3 * u53)).
    - apply Rmult_le_compat; try lra. apply Rabs_pos.
    - rewrite Uv. replace (2^53)%Z with (2^50 * 8)%Z by reflexivity. rewrite mult_IZR.
      assert (0 < IZR (2^50)) by (apply IZR_lt; lia).
      field_simplify; [lra|lra]. }
  rewrite Near in Ny.
  unfold f_to_int, f_finite.
  rewrite Nfin, Mfin. simpl andb.
  assert (T : Btrunc 53 1024 z = k).
  { apply eq_IZR. rewrite Btrunc_correct by reflexivity. rewrite round_FIX0, Ny. rewrite Ztrunc_IZR. reflexivity. }
  rewrite T. unfold in_int64, min_int, max_int.
  replace ((-9223372036854775808 <=? k)%Z && (k <=? 9223372036854775807)%Z)%bool with true; auto.
  symmetry. apply andb_true_iff. split; apply Z.leb_le; lia.
Qed.

Local Open Scope Z_scope.

(* the sweep over the hundredths up to four cores is an instance of the analytic bound *)
Lemma sweep_100 : pieces_sweep 100 400 = true.
Proof.
  apply forallb_forall. intros k Hk. apply zrange_bound in Hk.
  apply Z.eqb_eq, decimal_pieces; lia.
Qed.
