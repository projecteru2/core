(* Cpumem/BookRemapProofs.v — C32: CalculateRemap gives every workload without
   cpu binding exactly the cores with at least shareBase free pieces (all
   capacity cores when there is none), each at shareBase, and nothing to bound
   workloads; lifted over all histories with the bookkeeping invariant. *)
From Coq Require Import String List ZArith Bool Lia.
From Verif Require Import Base.GoFloat Cpumem.Types Cpumem.Node Cpumem.BookProofs.
Import ListNotations.
Local Open Scope Z_scope.

(* a record as the plugin stores it: Go maps, and (Validate) every core that
   occurs in the usage occurs in the capacity *)
Definition wf_info (info : node_info) : Prop :=
  NoDup (keys (nr_cpumap (ni_cap info))) /\ NoDup (keys (nr_cpumap (ni_usage info))) /\
  (forall c, In c (keys (nr_cpumap (ni_usage info))) -> In c (keys (nr_cpumap (ni_cap info)))).

Definition free_of (info : node_info) (c : string) : Z :=
  lookup 0 (nr_cpumap (ni_cap info)) c - lookup 0 (nr_cpumap (ni_usage info)) c.

Lemma avail_spec info : wf_info info ->
  let av := nr_cpumap (get_available_nofloat info) in
  keys av = keys (nr_cpumap (ni_cap info)) /\ forall c, lookup 0 av c = free_of info c.
Proof.
  intros (NC & NU & SUB). unfold get_available_nofloat, nr_sub_nofloat, free_of. simpl. split.
  - apply keys_cpumap_sub. exact SUB.
  - intro c. rewrite cpumap_sub_lookup, msum_lookup by exact NU. reflexivity.
Qed.

Definition roomy (info : node_info) (base : Z) (c : string) : Prop :=
  In c (keys (nr_cpumap (ni_cap info))) /\ base <= free_of info c.

Lemma keys_map_const {V W} (m : smap V) (f : string * V -> W) : keys (map (fun kv => (fst kv, f kv)) m) = keys m.
Proof. unfold keys. rewrite map_map. reflexivity. Qed.

(* C32, the share map *)
Theorem share_spec info base : wf_info info ->
  let s := share_cpumap info base in
  (forall c v, In (c, v) s -> v = base) /\
  ((exists c, roomy info base c) -> forall c, In c (keys s) <-> roomy info base c) /\
  ((~ exists c, roomy info base c) -> keys s = keys (nr_cpumap (ni_cap info))).
Proof.
  intros WF. destruct (avail_spec info WF) as [KA LA]. destruct WF as (NC & NU & SUB).
  set (av := nr_cpumap (get_available_nofloat info)) in *.
  assert (NA : NoDup (keys av)) by (rewrite KA; exact NC).
  set (f := filter (fun kv => base <=? snd kv) av).
  assert (R : forall c, In c (keys f) <-> roomy info base c).
  { intro c. unfold roomy, f. rewrite <- KA, <- LA. split.
    - intro I. destruct (in_keys_entry _ _ I) as [v Iv]. apply filter_In in Iv. destruct Iv as [Iv P].
      split; [exact (in_map fst _ _ Iv)|]. rewrite (entry_lookup _ _ _ NA Iv). apply Z.leb_le, P.
    - intros [I F]. destruct (in_keys_entry _ _ I) as [v Iv]. apply (in_map fst _ (c, v)), filter_In.
      split; [exact Iv|]. apply Z.leb_le. rewrite <- (entry_lookup _ _ _ NA Iv). exact F. }
  assert (B : forall (m : smap Z) c v, In (c, v) (map (fun kv => (fst kv, base)) m) -> v = base).
  { intros m c v H. apply in_map_iff in H. destruct H as [[k w] [E _]]. simpl in E. congruence. }
  unfold share_cpumap. fold av f. destruct f as [|e t]; cbn [map].
  - (* no roomy core: all capacity cores *)
    split; [apply B|]. split; [intros [c Hc]; apply R in Hc; destruct Hc|intros _; apply keys_map_const].
  - change ((fst e, base) :: map (fun kv => (fst kv, base)) t) with (map (fun kv : string * Z => (fst kv, base)) (e :: t)).
    split; [apply B|]. split.
    + intros _ c. rewrite (keys_map_const _ (fun _ => base)). apply R.
    + intro NR. exfalso. apply NR. exists (fst e). apply R. left. reflexivity.
Qed.

(* C32, who gets it: exactly the workloads without cpu binding *)
Theorem remap_spec {K} info base (ws : list (K * wres)) :
  let share := share_cpumap info base in
  forall id ep, In (id, ep) (calculate_remap info base ws) <->
    exists w, In (id, w) ws /\ wr_cpumap w = [] /\
              ep = mkEP (wr_cpu_lim w) share (wr_numanode w) (wr_mem_lim w) true.
Proof.
  intros share id ep. unfold calculate_remap. fold share. rewrite in_flat_map. split.
  - intros [[id' w] [I H]]. simpl in H. destruct (wr_cpumap w) eqn:E; simpl in H; [|tauto].
    destruct H as [H|[]]. injection H as <- <-. exists w. auto.
  - intros [w [I [E ->]]]. exists (id, w). split; [exact I|]. simpl. rewrite E. simpl. auto.
Qed.

Lemma validate_usage_keys n n' : validate n = inr n' ->
  forall c, In c (keys (nr_cpumap (ni_usage n))) -> In c (keys (nr_cpumap (ni_cap n))).
Proof.
  unfold validate. intros V c Hc.
  destruct (nr_cpumap (ni_cap n)) as [|e t]; [discriminate|].
  destruct (usage_cpu_ok (e :: t) (nr_cpumap (ni_usage n))) eqn:U; simpl in V; [|discriminate].
  unfold usage_cpu_ok in U. rewrite forallb_forall in U.
  destruct (in_keys_entry _ _ Hc) as [v I]. specialize (U _ I). cbn [fst snd] in U.
  destruct (in_dec string_dec c (keys (e :: t))) as [|NI]; [assumption|].
  rewrite (lookup_opt_notin _ _ NI) in U. discriminate.
Qed.

Lemma step_wf o s : inv_valid s -> wf_info (st_info s) -> wf_info (st_info (sr_state (step s o))).
Proof.
  intros IV (NC & NU & SUB). destruct (step_shape s o IV) as [|incr ws live' _ V|]; unfold wf_info; cbn [st_info ni_cap ni_usage after].
  - auto.
  - split; [exact NC|]. split; [apply (moved_nodup _ _ cpumap_field), NU|exact (validate_usage_keys _ _ V)].
  - destruct IV as (_ & NC' & NN). destruct (written_back_maps _ NC' NN) as (-> & _ & _). auto.
Qed.

Lemma run_wf h s : inv_valid s -> wf_info (st_info s) -> wf_info (st_info (run s h)).
Proof.
  apply (run_inv (fun s => wf_info (st_info s)) (fun _ => True)); [intros s' o _; apply step_wf|].
  apply Forall_forall. trivial.
Qed.

(* after any history: a core is shared out iff its capacity minus the pieces
   held by the live workloads leaves at least shareBase (or no core does) *)
Theorem remap_after_history info h base :
  inv_valid (mkState info []) -> wf_info info -> usage_zero (ni_usage info) -> Forall op_wf h ->
  let s := run (mkState info []) h in
  let free c := lookup 0 (nr_cpumap (ni_cap info)) c - zs (fun w => lookup 0 (wr_cpumap w) c) (st_live s) in
  let share := share_cpumap (st_info s) base in
  let roomy' c := In c (keys (nr_cpumap (ni_cap info))) /\ base <= free c in
  (forall c v, In (c, v) share -> v = base) /\
  ((exists c, roomy' c) -> forall c, In c (keys share) <-> roomy' c) /\
  ((~ exists c, roomy' c) -> keys share = keys (nr_cpumap (ni_cap info))).
Proof.
  intros IV WF UZ OW s free share roomy'.
  pose proof (run_wf h (mkState info []) IV WF) as WFs. fold s in WFs.
  pose proof (exact_int_all_histories info h IV UZ OW) as [EC _]. fold s in EC.
  assert (CAP : ni_cap (st_info s) = ni_cap info) by (apply (run_cap h (mkState info []))).
  destruct (share_spec (st_info s) base WFs) as (S1 & S2 & S3). fold share in S1, S2, S3.
  assert (RR : forall c, roomy (st_info s) base c <-> roomy' c).
  { intro c. unfold roomy, roomy', free_of, free. rewrite CAP, (EC c). tauto. }
  split; [exact S1|split].
  - intros [c Hc] c'. rewrite <- RR. apply S2. exists c. apply RR. exact Hc.
  - intro NR. rewrite <- CAP. apply S3. intros [c Hc]. apply NR. exists c. apply RR. exact Hc.
Qed.
