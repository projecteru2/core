(* Cpumem/SchedProofsTop.v — the statements of C04 and C05 assembled from the
   content lemmas: joint feasibility of GetCPUPlans (a, b, c) and the exact piece
   amount and shape of every plan. *)
From Coq Require Import String Ascii List ZArith Bool Lia Permutation.
From Verif Require Import Cpumem.BookProofs.
From Verif Require Import Base.GoFloat.
From Verif Require Import Cpumem.Types Cpumem.Schedule Cpumem.SchedCase.
From Verif Require Import Cpumem.SchedProofs Cpumem.SchedProofsMem Cpumem.SchedProofsFit Cpumem.SchedProofsFit2 Cpumem.SchedProofsPieces.
Import ListNotations.
Local Open Scope Z_scope.

Lemma total_pieces_shift (p : plan) a : fold_left (fun s kv => s + snd kv) p a = a + total_pieces p.
Proof.
  unfold total_pieces. revert a. induction p as [|kv t IH]; intros a; simpl; [lia|].
  rewrite (IH (a + snd kv)), (IH (snd kv)). lia.
Qed.
Lemma total_pieces_app (p q : plan) : total_pieces (p ++ q) = total_pieces p + total_pieces q.
Proof. unfold total_pieces at 1. rewrite fold_left_app. rewrite total_pieces_shift. reflexivity. Qed.
Lemma total_pieces_all (p : plan) v : Forall (fun kv => snd kv = v) p -> total_pieces p = Z.of_nat (length p) * v.
Proof.
  intros H. induction H as [|kv t Hx Ht IH]; [reflexivity|].
  change (kv :: t) with ([kv] ++ t). rewrite total_pieces_app, IH.
  change (total_pieces [kv]) with (0 + snd kv). rewrite Hx.
  change (length ([kv] ++ t)) with (S (length t)). rewrite Nat2Z.inj_succ. lia.
Qed.
Lemma filter_all_eq (p : plan) v : Forall (fun kv => snd kv = v) p -> filter (fun kv => snd kv =? v) p = p.
Proof.
  intros H. induction H as [|kv t Hx Ht IH]; simpl; auto. rewrite Hx, Z.eqb_refl, IH. reflexivity.
Qed.
Lemma filter_all_ne (p : plan) v w : v <> w -> Forall (fun kv => snd kv = v) p -> filter (fun kv => snd kv =? w) p = [].
Proof.
  intros N H. induction H as [|kv t Hx Ht IH]; simpl; auto. rewrite Hx.
  destruct (Z.eqb_spec v w); [contradiction|]. exact IH.
Qed.

Lemma shape_total_pieces base full fragment IDS p :
  plan_shape base full fragment IDS p -> total_pieces p = full * base + fragment.
Proof.
  intros (p0 & fr & -> & _ & L & V & Fr & _).
  rewrite total_pieces_app, (total_pieces_all p0 base V), L.
  destruct Fr as [[-> ->]|[_ (k & ->)]]; reflexivity.
Qed.

Lemma shape_c05_ok base pr IDS p : 0 < base -> 0 < pr ->
  plan_shape base (Z.quot pr base) (Z.rem pr base) IDS p -> c05_plan_ok base pr p = true.
Proof.
  intros Hb Hp Sp. pose proof (shape_total_pieces _ _ _ _ _ Sp) as Tp.
  destruct Sp as (p0 & fr & -> & _ & L & V & Fr & _).
  destruct (quot_rem_pos pr base) as (Eq & Rb & _); [lia|lia|].
  unfold c05_plan_ok. cbv zeta.
  rewrite Tp, filter_app, (filter_all_eq p0 base V), !app_length.
  replace (Z.quot pr base * base + Z.rem pr base =? pr) with true by (symmetry; apply Z.eqb_eq; lia).
  destruct Fr as [[E0 ->]|[Hf (k & ->)]].
  - rewrite E0. cbn [filter length Z.eqb andb]. rewrite Nat.add_0_r, L, Z.add_0_r, Z.eqb_refl. reflexivity.
  - destruct (Z.eqb_spec (Z.rem pr base) 0) as [E|_]; [lia|].
    rewrite filter_app, (filter_all_ne p0 base (Z.rem pr base)) by (auto; lia).
    cbn [filter snd app length]. destruct (Z.eqb_spec (Z.rem pr base) base) as [E|_]; [lia|].
    rewrite Z.eqb_refl. cbn [length]. rewrite Nat.add_0_r, Nat2Z.inj_add, L, !Z.eqb_refl. reflexivity.
Qed.

Section Top.
Variable sortf : list keyed -> outcome (list keyed).
Hypothesis sortf_perm : forall l, exists l', sortf l = Ok l' /\ Permutation l' l.

Definition wf_maps (info : node_info) : Prop :=
  NoDup (keys (nr_cpumap (ni_cap info))) /\ NoDup (keys (nr_numa (ni_cap info))).

Lemma avail_nodup info : wf_maps info -> NoDup (keys (nr_cpumap (get_available_nofloat info))).
Proof. intros (H & _). apply (cpumap_step_nodup false), H. Qed.

(* C05: every plan has pieces = request x base, as whole cores plus at most one fragment core *)
Theorem plans_exact info origin base mf req order fuel plans k :
  get_cpu_plans_g sortf info origin base mf req order fuel = Ok plans ->
  wf_maps info -> NoDup order ->
  1 <= k < 2^50 -> 1 <= base <= 2^53 -> rq_cpu_req req = decimal_request k base ->
  forall tp, In tp plans ->
    c05_plan_ok base k (snd tp) = true
    /\ exists p0 fr, snd tp = p0 ++ fr /\ Z.of_nat (length p0) = Z.quot k base
         /\ Forall (fun kv => snd kv = base) p0
         /\ ((Z.rem k base = 0 /\ fr = []) \/ (0 < Z.rem k base /\ exists c, fr = [(c, Z.rem k base)]))
         /\ total_pieces (snd tp) = k.
Proof.
  intros H Wf Nd Hk Hb Er tp Hin.
  destruct (get_cpu_plans_content sortf sortf_perm _ _ _ _ _ _ _ _ H ltac:(lia) (proj2 Wf) Nd (avail_nodup info Wf)) as (_ & _ & Sh).
  destruct (Sh tp Hin) as (IDS & _ & Sp). rewrite Er, (decimal_pieces k base Hk Hb) in Sp.
  split; [apply (shape_c05_ok base k IDS); auto; lia|].
  pose proof (shape_total_pieces _ _ _ _ _ Sp) as Tp. pose proof (Z.quot_rem' k base).
  destruct Sp as (p0 & fr & E & _ & L & V & Fr & _). exists p0, fr. repeat split; auto. lia.
Qed.

Theorem plans_total_nearest info origin base mf req order fuel plans :
  get_cpu_plans_g sortf info origin base mf req order fuel = Ok plans ->
  wf_maps info -> NoDup order -> 0 < base ->
  forall tp, In tp plans ->
    let pr := pieces_request base (rq_cpu_req req) in
    0 < pr /\ total_pieces (snd tp) = pr /\ c05_plan_ok base pr (snd tp) = true.
Proof.
  intros H Wf Nd Hb tp Hin. cbv zeta.
  destruct (get_cpu_plans_content sortf sortf_perm _ _ _ _ _ _ _ _ H Hb (proj2 Wf) Nd (avail_nodup info Wf)) as (_ & _ & Sh).
  destruct (Sh tp Hin) as (IDS & Hpr & Sp).
  pose proof (Z.quot_rem' (pieces_request base (rq_cpu_req req)) base).
  split; [exact Hpr|]. split; [rewrite (shape_total_pieces _ _ _ _ _ Sp); lia|].
  apply (shape_c05_ok base _ IDS); auto.
Qed.

(* C04 (a) (b) (c) for GetCPUPlans *)
Theorem plans_fit info origin base mf req order fuel plans :
  get_cpu_plans_g sortf info origin base mf req order fuel = Ok plans ->
  wf_maps info -> NoDup order -> ~ In EmptyString order -> 0 < base ->
  0 <= rq_mem_req req -> 0 <= nr_mem (get_available_nofloat info) ->
  let avail := get_available_nofloat info in
  (forall id, used (map snd plans) id <= Z.max 0 (lookup 0 (nr_cpumap avail) id))
  /\ (forall tp, In tp plans -> fst tp <> EmptyString ->
        In (fst tp) order
        /\ (forall c, In c (keys (snd tp)) -> lookup_opt (nr_numa (ni_cap info)) c = Some (fst tp))
        /\ count_tag plans (fst tp) * rq_mem_req req <= Z.max 0 (lookup 0 (nr_numamem avail) (fst tp)))
  /\ Z.of_nat (length plans) * rq_mem_req req <= nr_mem avail
  /\ (forall tp c, In tp plans -> In c (snd tp) -> 0 < snd c).
Proof.
  intros H Wf Nd Hne Hb Hm Hfree avail.
  destruct (get_cpu_plans_content sortf sortf_perm _ _ _ _ _ _ _ _ H Hb (proj2 Wf) Nd (avail_nodup info Wf)) as (A & Bc & Sh).
  assert (Mem : (Z.of_nat (length plans) * rq_mem_req req <= nr_mem avail)
                /\ (forall nid, In nid order -> count_tag plans nid * rq_mem_req req <= Z.max 0 (lookup 0 (nr_numamem avail) nid))).
  { destruct (Z.eq_dec (rq_mem_req req) 0) as [E0|N0].
    - rewrite E0. split; [fold avail in Hfree; lia|intros; lia].
    - apply (get_cpu_plans_memory sortf _ _ _ _ _ _ _ _ H ltac:(lia) Nd Hne Hfree). }
  destruct Mem as (Mc & Mb).
  split; [exact A|]. split; [|split; [exact Mc|]].
  - intros tp Hin Hn. destruct (get_cpu_plans_tags sortf _ _ _ _ _ _ _ _ H tp Hin) as [E|Ho]; [contradiction|].
    split; [exact Ho|]. split; [apply Bc; auto|apply Mb; auto].
  - intros tp c Hin Hc. destruct (Sh tp Hin) as (IDS & Hpr & p0 & fr & E & _ & _ & V & Fr & _).
    rewrite E in Hc. apply in_app_or in Hc. destruct Hc as [Hc|Hc].
    + rewrite Forall_forall in V. rewrite (V c Hc). lia.
    + destruct Fr as [[_ ->]|[Hf (k & ->)]]; [destruct Hc|]. destruct Hc as [<-|[]]. simpl. lia.
Qed.
End Top.
