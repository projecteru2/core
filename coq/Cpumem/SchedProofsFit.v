(* Cpumem/SchedProofsFit.v — content of the plans returned by the scheduler
   model: per-core joint feasibility (C04 a) and the shape of every plan
   (C05: [full] cores at exactly the share base plus at most one core carrying
   the fragment).  Proved for any permuting final sort. *)
From Coq Require Import String Ascii List ZArith Bool Lia Permutation.
From Verif Require Import Cpumem.BookProofs Base.ListFacts.
From Verif Require Import Base.GoFloat Base.GoHeap Base.GoHeapSpec.
From Verif Require Import Cpumem.Types Cpumem.Schedule Cpumem.SchedProofs Cpumem.SchedProofsMem.
Import ListNotations.
Local Open Scope Z_scope.

Definition ids (l : list core) : list string := map cid l.
Definition amount (l : list core) (id : string) : Z :=
  fold_right (fun c s => (if String.eqb (cid c) id then cpieces c else 0) + s) 0 l.
Definition cnt (l : list core) (id : string) : Z :=
  fold_right (fun c s => (if String.eqb (cid c) id then 1 else 0) + s) 0 l.
Definition used (ps : list plan) (id : string) : Z := fold_right (fun p s => lookup 0 p id + s) 0 ps.

Lemma amount_app l1 l2 id : amount (l1 ++ l2) id = amount l1 id + amount l2 id.
Proof. induction l1; simpl; lia. Qed.
Lemma amount_perm l1 l2 id : Permutation l1 l2 -> amount l1 id = amount l2 id.
Proof. induction 1; simpl; lia. Qed.
Lemma cnt_app l1 l2 id : cnt (l1 ++ l2) id = cnt l1 id + cnt l2 id.
Proof. induction l1; simpl; lia. Qed.
Lemma cnt_nonneg l id : 0 <= cnt l id.
Proof. induction l as [|c t IH]; simpl; [lia|]. destruct (String.eqb (cid c) id); lia. Qed.
Lemma used_cons p t id : used (p :: t) id = lookup 0 p id + used t id.
Proof. reflexivity. Qed.
Lemma used_app l1 l2 id : used (l1 ++ l2) id = used l1 id + used l2 id.
Proof. induction l1; simpl; lia. Qed.
Lemma used_perm l1 l2 id : Permutation l1 l2 -> used l1 id = used l2 id.
Proof. induction 1; simpl; lia. Qed.
Lemma used_rev l id : used (rev l) id = used l id.
Proof. apply used_perm. apply Permutation_sym, Permutation_rev. Qed.

Lemma amount_nonneg_pos l id : Forall posp l -> 0 <= amount l id.
Proof.
  intros H. induction H as [|c t Hc Ht IH]; simpl; [lia|].
  unfold posp in Hc. destruct (String.eqb (cid c) id); lia.
Qed.
Lemma fullp_posp base l : 0 < base -> Forall (fullp base) l -> Forall posp l.
Proof.
  intros Hb H. eapply Forall_impl; [|exact H]. intros c Hc.
  pose proof (fullp_pos _ _ Hb Hc). unfold posp. lia.
Qed.

Lemma cnt_notin l id : ~ In id (ids l) -> cnt l id = 0.
Proof.
  induction l as [|c t IH]; simpl; intros H; auto.
  destruct (String.eqb_spec (cid c) id) as [E|N]; [exfalso; auto|].
  rewrite IH; auto.
Qed.
Lemma amount_notin l id : ~ In id (ids l) -> amount l id = 0.
Proof.
  induction l as [|c t IH]; simpl; intros H; auto.
  destruct (String.eqb_spec (cid c) id) as [E|N]; [exfalso; auto|].
  rewrite IH; auto.
Qed.
Lemma cnt_nodup l id : NoDup (ids l) -> cnt l id = 0 \/ cnt l id = 1.
Proof.
  induction l as [|c t IH]; simpl; intros H; auto.
  inversion H as [|? ? Hn Ht]; subst.
  destruct (String.eqb_spec (cid c) id) as [E|N].
  - subst. rewrite cnt_notin; auto.
  - destruct (IH Ht); lia.
Qed.

Lemma ids_perm l1 l2 : Permutation l1 l2 -> Permutation (ids l1) (ids l2).
Proof. apply Permutation_map. Qed.
Lemma ids_cons c t : ids (c :: t) = cid c :: ids t.
Proof. reflexivity. Qed.
Lemma ids_app l1 l2 : ids (l1 ++ l2) = ids l1 ++ ids l2.
Proof. unfold ids. apply map_app. Qed.
Lemma amount_cons c t id : amount (c :: t) id = (if String.eqb (cid c) id then cpieces c else 0) + amount t id.
Proof. reflexivity. Qed.
Lemma cnt_cons c t id : cnt (c :: t) id = (if String.eqb (cid c) id then 1 else 0) + cnt t id.
Proof. reflexivity. Qed.

Lemma keys_app {V} (a b : smap V) : keys (a ++ b) = keys a ++ keys b.
Proof. unfold keys. apply map_app. Qed.
Lemma lookup_app_sum (a b : smap Z) k : (In k (keys a) -> ~ In k (keys b)) ->
  lookup 0 (a ++ b) k = lookup 0 a k + lookup 0 b k.
Proof.
  intros H. unfold lookup at 1 2. induction a as [|[k' v'] t IH]; simpl in *; [reflexivity|].
  destruct (String.eqb_spec k k') as [E|N]; [|apply IH; auto].
  rewrite lookup_notin by auto. lia.
Qed.
Lemma lookup_single k v k' : lookup 0 [(k, v)] k' = if String.eqb k' k then v else 0.
Proof. unfold lookup. simpl. destruct (String.eqb k' k); reflexivity. Qed.

Definition plan_of (ch : list core) (v : Z) : plan := map (fun c => (cid c, v)) ch.
Lemma keys_plan_of ch v : keys (plan_of ch v) = ids ch.
Proof. unfold keys, plan_of, ids. rewrite map_map. reflexivity. Qed.
Lemma lookup_plan_of ch v id : NoDup (ids ch) -> lookup 0 (plan_of ch v) id = v * cnt ch id.
Proof.
  unfold lookup. induction ch as [|c t IH]; simpl; intros H; [lia|].
  inversion H as [|? ? Hn Ht]; subst.
  rewrite String.eqb_sym.
  destruct (String.eqb_spec (cid c) id) as [E|N].
  - subst. rewrite cnt_notin by auto. lia.
  - rewrite IH by auto. lia.
Qed.
Lemma fold_upd_plan_of base ch : forall p, NoDup (keys p ++ ids ch) ->
  fold_left (fun p c => upd p (cid c) base) ch p = p ++ plan_of ch base.
Proof.
  induction ch as [|c t IH]; intros p H; simpl; [rewrite app_nil_r; auto|].
  rewrite upd_notin.
  2:{ intro Hin. apply NoDup_remove_2 in H. apply H. apply in_or_app; auto. }
  rewrite IH.
  - rewrite <- app_assoc. reflexivity.
  - rewrite keys_app. simpl. rewrite <- app_assoc. simpl.
    eapply Permutation_NoDup; [|exact H]. apply Permutation_app_head. apply Permutation_refl.
Qed.

Definition full_shape (base full : Z) (IDS : list string) (p : plan) : Prop :=
  NoDup (keys p) /\ Z.of_nat (length p) = full /\ Forall (fun kv => snd kv = base) p /\ incl (keys p) IDS.

Lemma plan_of_shape base full IDS ch :
  NoDup (ids ch) -> Z.of_nat (length ch) = full -> incl (ids ch) IDS -> full_shape base full IDS (plan_of ch base).
Proof.
  intros N L I. unfold full_shape. rewrite keys_plan_of. unfold plan_of. rewrite map_length.
  repeat split; auto. apply Forall_map, Forall_forall. reflexivity.
Qed.

(* the cores a loop of getFullCPUPlans still holds: whole cores with distinct ids among [IDS] *)
Definition cores_in (base : Z) (IDS : list string) (l : list core) : Prop :=
  Forall (fullp base) l /\ NoDup (ids l) /\ incl (ids l) IDS.

Lemma cores_in_perm base IDS l l' : Permutation l l' -> cores_in base IDS l -> cores_in base IDS l'.
Proof.
  intros P (F & N & I). pose proof (ids_perm _ _ P) as Pi. split; [|split].
  - exact (Permutation_Forall P F).
  - exact (Permutation_NoDup Pi N).
  - intros y Hy. apply I. exact (Permutation_in _ (Permutation_sym Pi) Hy).
Qed.

Lemma temp_amount base l id : 0 < base -> Forall (fullp base) l ->
  amount (temp_of base l) id = amount l id - base * cnt l id.
Proof.
  intros Hb H. induction H as [|c t Hc Ht IH]; [cbn [temp_of flat_map amount cnt fold_right]; lia|].
  rewrite temp_cons, amount_app, IH, amount_cons, cnt_cons. destruct Hc as (q & Hq & Eq).
  destruct (0 <? cpieces c - base) eqn:Er.
  - rewrite amount_cons. cbn [cid cpieces]. change (amount [] id) with 0.
    destruct (String.eqb (cid c) id); lia.
  - change (amount [] id) with 0.
    destruct (String.eqb (cid c) id); nia.
Qed.

Lemma temp_incl base l : incl (ids (temp_of base l)) (ids l).
Proof.
  induction l as [|c t IH]; [apply incl_refl|].
  rewrite temp_cons, ids_app, ids_cons. intros y Hy. apply in_app_or in Hy.
  destruct Hy as [Hy|Hy]; [|right; apply IH; exact Hy].
  destruct (0 <? cpieces c - base); simpl in Hy; [destruct Hy as [Hy|[]]; left; auto|tauto].
Qed.

Lemma temp_nodup base l X : NoDup (ids l ++ X) -> NoDup (ids (temp_of base l) ++ X).
Proof.
  induction l as [|c t IH]; intros H; auto.
  rewrite ids_cons in H. simpl in H. inversion H as [|? ? Hn Ht]; subst.
  rewrite temp_cons, ids_app, <- app_assoc.
  destruct (0 <? cpieces c - base).
  - simpl. constructor; [|apply IH; exact Ht].
    intro Hy. apply Hn. apply in_app_or in Hy. apply in_or_app.
    destruct Hy as [Hy|Hy]; auto. left. apply (temp_incl base). exact Hy.
  - simpl. apply IH. exact Ht.
Qed.

Lemma round_cores base IDS taken rest : 0 < base ->
  cores_in base IDS (taken ++ rest) -> cores_in base IDS (temp_of base taken ++ rest).
Proof.
  intros Hb (F & N & I). apply Forall_app in F. destruct F as [Ft Fr].
  unfold cores_in. rewrite ids_app in *. split; [|split].
  - apply Forall_app; split; [apply (temp_cores base taken Hb Ft)|exact Fr].
  - apply temp_nodup, N.
  - intros y Hy. apply I. apply in_app_or in Hy. apply in_or_app.
    destruct Hy as [Hy|Hy]; [left; apply (temp_incl base), Hy|right; exact Hy].
Qed.

Lemma round_amount base taken rest id : 0 < base -> Forall (fullp base) taken ->
  amount (temp_of base taken ++ rest) id = amount (taken ++ rest) id - base * cnt taken id.
Proof. intros Hb F. rewrite !amount_app, temp_amount by auto. lia. Qed.

Notation hpush := (GoHeap.push dcore heap_less).

Lemma full_loop_content base full IDS : 0 < base -> 1 <= full -> forall fuel h acc r,
  full_loop fuel base full h acc = Ok r ->
  cores_in base IDS h -> Forall (full_shape base full IDS) acc ->
  (forall id, used r id <= used acc id + amount h id)
  /\ Forall (full_shape base full IDS) r.
Proof.
  intros Hb Hf. induction fuel as [|fuel IH]; intros h acc r H Ch Sa; cbn [full_loop] in H; [discriminate|].
  destruct (Z.of_nat (length h) <? full).
  - injection H as <-. split; [|apply Forall_rev; auto].
    intros id. rewrite used_rev. pose proof (amount_nonneg_pos h id (fullp_posp base h Hb (proj1 Ch))). lia.
  - apply bind_ok in H. destruct H as ([[p' push'] h'] & E & H).
    destruct (pop_n_spec _ _ _ _ _ _ _ _ E) as (popped & L & Pm & -> & ->). cbn [app] in H.
    apply (cores_in_perm _ _ _ _ Pm) in Ch.
    pose proof (fold_push_perm (temp_of base popped) h') as Pn.
    pose proof (cores_in_perm _ _ _ _ (Permutation_sym Pn) (round_cores _ _ _ _ Hb Ch)) as Cn.
    destruct Ch as (Fh & Nh & Ih). rewrite ids_app in Nh, Ih. apply Forall_app in Fh.
    rewrite (fold_upd_plan_of base popped []) in H by exact (NoDup_app_l _ _ Nh). cbn [app] in H.
    destruct (IH _ _ _ H Cn) as (U & S).
    + constructor; auto. apply plan_of_shape; [exact (NoDup_app_l _ _ Nh)|lia|].
      intros y Hy. apply Ih, in_or_app. auto.
    + split; auto. intros id. specialize (U id).
      rewrite (amount_perm _ _ id Pn), round_amount in U by tauto.
      rewrite used_cons, lookup_plan_of in U by exact (NoDup_app_l _ _ Nh).
      rewrite (amount_perm _ _ id Pm). lia.
Qed.

Lemma firstn_plus {A} (a b : nat) (l : list A) : firstn (a + b) l = firstn a l ++ firstn b (skipn a l).
Proof.
  revert l. induction a as [|a IH]; intros l; simpl; auto.
  destruct l as [|x t]; simpl; [rewrite firstn_nil; reflexivity|]. rewrite IH. reflexivity.
Qed.

Lemma ids_firstn_skipn n l : ids l = ids (firstn n l) ++ ids (skipn n l).
Proof. unfold ids. rewrite <- map_app, firstn_skipn. reflexivity. Qed.
Lemma ids_firstn_incl n l : incl (ids (firstn n l)) (ids l).
Proof. rewrite (ids_firstn_skipn n l). apply incl_appl, incl_refl. Qed.

Lemma chunks_content base IDS k : (0 < k)%nat -> forall n l,
  NoDup (ids l) -> (n * k <= length l)%nat -> incl (ids l) IDS ->
  let plans := map (fun ch => fold_left (fun p c => upd p (cid c) base) ch []) (chunks n k l) in
  (forall id, used plans id = base * cnt (firstn (n * k) l) id)
  /\ Forall (full_shape base (Z.of_nat k) IDS) plans.
Proof.
  intros Hk. induction n as [|n IH]; intros l Nd Hl Inc; cbn [chunks map].
  - split; [intros id; simpl; lia|constructor].
  - cbv zeta in *. simpl in Hl. rewrite (ids_firstn_skipn k l) in Nd, Inc.
    apply incl_app_inv in Inc. destruct Inc as [If Isk]. pose proof (NoDup_app_l _ _ Nd) as Nf.
    destruct (IH (skipn k l) (NoDup_app_r _ _ Nd) ltac:(rewrite skipn_length; lia) Isk) as (U & Sh).
    rewrite (fold_upd_plan_of base (firstn k l) []) by exact Nf. cbn [app].
    split.
    + intros id. rewrite used_cons, U, lookup_plan_of by auto.
      replace (S n * k)%nat with (k + n * k)%nat by lia. rewrite firstn_plus, cnt_app. lia.
    + constructor; auto. apply plan_of_shape; auto. rewrite firstn_length. lia.
Qed.

Lemma aff_loop_content base full IDS : 0 < base -> 1 <= full -> forall fuel cores acc r,
  aff_loop fuel base full cores acc = Ok r ->
  cores_in base IDS cores -> Forall (full_shape base full IDS) acc ->
  (forall id, used r id <= used acc id + amount cores id)
  /\ Forall (full_shape base full IDS) r.
Proof.
  intros Hb Hf. induction fuel as [|fuel IH]; intros cores acc r H Cc Sa; cbn [aff_loop] in H; [discriminate|].
  cbv zeta in H. pose proof Cc as (Fc & Nc & Ic).
  destruct (Z.of_nat (length cores) <? full) eqn:El.
  - injection H as <-. split; auto. intros id.
    pose proof (amount_nonneg_pos cores id (fullp_posp base cores Hb Fc)). lia.
  - apply Z.ltb_ge in El.
    replace (full =? 0) with false in H by lia.
    destruct (quot_count _ _ Hf El) as [Hc1 Hc2].
    set (count := Z.quot (Z.of_nat (length cores)) full) in *.
    set (usedn := Z.to_nat (count * full)) in *.
    assert (Emul : (Z.to_nat count * Z.to_nat full)%nat = usedn) by (unfold usedn; rewrite Z2Nat.inj_mul; lia).
    fold (temp_of base (firstn usedn cores)) in H.
    destruct (chunks_content base IDS (Z.to_nat full) ltac:(lia) (Z.to_nat count) cores Nc ltac:(lia) Ic) as (U & Sh).
    cbv zeta in U, Sh. rewrite Emul in U. rewrite Z2Nat.id in Sh by lia.
    rewrite <- (firstn_skipn usedn cores) in Cc.
    destruct (IH _ _ _ H (round_cores _ _ _ _ Hb Cc)) as (U2 & S2).
    + apply Forall_app; split; auto.
    + split; auto. intros id. specialize (U2 id).
      rewrite used_app, U, round_amount, firstn_skipn in U2 by (auto; apply Forall_firstn'; auto). lia.
Qed.

Definition frag_shape (fragment : Z) (IDS : list string) (p : plan) : Prop :=
  exists k, p = [(k, fragment)] /\ In k IDS.

Lemma fragment_plans_content cores fragment r : 0 < fragment -> Forall posp cores ->
  get_fragment_plans cores fragment = Ok r ->
  (forall id, used r id <= amount cores id) /\ Forall (frag_shape fragment (ids cores)) r.
Proof.
  intros Hf Hp H. rewrite fragment_plans_eq in H by exact Hf. injection H as <-. unfold frag_plans.
  assert (R : forall n k id, used (repeat_plan n [(k, fragment)]) id = Z.of_nat n * (if String.eqb id k then fragment else 0)).
  { induction n as [|n IHn]; intros k id; [reflexivity|].
    cbn [repeat_plan]. rewrite used_cons, IHn, lookup_single, Nat2Z.inj_succ. lia. }
  induction Hp as [|c t Hc Ht IH]; [split; [intros; simpl; lia|constructor]|].
  destruct IH as (U & Sh). cbn [flat_map]. split.
  - intros id. rewrite used_app, R, amount_cons. specialize (U id).
    rewrite String.eqb_sym. unfold posp in Hc.
    destruct (quot_rem_pos (cpieces c) fragment) as (Eq & Rb & Hq); [lia|lia|].
    rewrite Z2Nat.id by lia.
    destruct (String.eqb (cid c) id); nia.
  - apply Forall_app; split.
    + apply Forall_repeat_plan. exists (cid c). split; auto. left; reflexivity.
    + eapply Forall_impl; [|exact Sh]. intros p (k & -> & Hk). exists k. split; auto. right; auto.
Qed.

Section GenericFit.
Variable sortf : list keyed -> outcome (list keyed).
Hypothesis sortf_perm : forall l, exists l', sortf l = Ok l' /\ Permutation l' l.

Lemma full_plans_content base aff cores full fuel r IDS : 0 < base -> 1 <= full ->
  get_full_plans_g sortf base aff cores full fuel = Ok r -> cores_in base IDS cores ->
  (forall id, used r id <= amount cores id) /\ Forall (full_shape base full IDS) r.
Proof.
  intros Hb Hf H Cc. unfold get_full_plans_g in H. destruct aff.
  - apply (aff_loop_content base full IDS Hb Hf _ _ _ _ H Cc). constructor.
  - apply bind_ok in H. destruct H as (res & E & H).
    apply bind_ok in H. destruct H as (sorted & Es & H). injection H as <-.
    destruct (sortf_perm (map (fun p => (sum_of_ids cores p, p)) res)) as (l' & El & Pl).
    rewrite El in Es. injection Es as ->.
    assert (Pr : Permutation (map snd sorted) res).
    { rewrite <- (map_id res), <- (map_map (fun p => (sum_of_ids cores p, p)) snd). apply Permutation_map, Pl. }
    pose proof (init_perm _ dcore heap_less cores) as Pi.
    destruct (full_loop_content base full IDS Hb Hf _ _ _ _ E (cores_in_perm _ _ _ _ (Permutation_sym Pi) Cc))
      as (U & Sh); [constructor|].
    split.
    + intros id. rewrite (used_perm _ _ id Pr). specialize (U id). simpl in U.
      rewrite (amount_perm _ _ id Pi) in U. lia.
    + exact (Permutation_Forall (Permutation_sym Pr) Sh).
Qed.
End GenericFit.

Definition plan_shape (base full fragment : Z) (IDS : list string) (p : plan) : Prop :=
  exists p0 fr, p = p0 ++ fr /\ NoDup (keys p) /\ Z.of_nat (length p0) = full
    /\ Forall (fun kv => snd kv = base) p0
    /\ ((fragment = 0 /\ fr = []) \/ (0 < fragment /\ exists k, fr = [(k, fragment)]))
    /\ incl (keys p) IDS.

Lemma used_nonneg l id : plans_nn l -> 0 <= used l id.
Proof.
  intros H. induction H as [|q t Hq Ht IH]; simpl; [lia|]. pose proof (lookup_nn q id Hq). lia.
Qed.
Lemma used_firstn_le n l id : plans_nn l -> used (firstn n l) id <= used l id.
Proof.
  intros H. rewrite <- (firstn_skipn n l) at 2. rewrite used_app.
  pose proof (used_nonneg (skipn n l) id (Forall_skipn' _ n l H)). lia.
Qed.

Lemma zip_content base full f I0 I1 : 0 < base -> 0 < f ->
  (forall x, In x I0 -> In x I1 -> False) ->
  forall n l0 l1 r, zip_plans n l0 l1 = Ok r ->
  Forall (full_shape base full I0) l0 -> Forall (frag_shape f I1) l1 ->
  (forall id, used r id = used (firstn n l0) id + used (firstn n l1) id)
  /\ Forall (plan_shape base full f (I0 ++ I1)) r.
Proof.
  intros Hb Hf Dj. induction n as [|n IH]; intros l0 l1 r H S0 S1; cbn [zip_plans] in H.
  - inversion H; subst. split; [intros; reflexivity|constructor].
  - destruct l0 as [|p0 t0]; [discriminate|]. destruct l1 as [|p1 t1]; [discriminate|].
    apply bind_ok in H. destruct H as (rest & E & H). inversion H; subst; clear H.
    inversion S0 as [|? ? Sp0 St0]; subst. inversion S1 as [|? ? Sp1 St1]; subst.
    destruct (IH _ _ _ E St0 St1) as (U & Sh).
    destruct Sp0 as (N0 & L0 & V0 & Inc0). destruct Sp1 as (k & -> & Hk).
    assert (Hkp : ~ In k (keys p0)) by (intro Hin; apply (Dj k); auto).
    rewrite (cpumap_add_nil p0 N0), (cpumap_add_app [(k, f)] p0)
      by (rewrite keys_app; apply NoDup_snoc; auto).
    split.
    + intros id. cbn [firstn]. rewrite !used_cons, U, lookup_app_sum by (intros Hi [<-|[]]; auto). lia.
    + constructor; auto. exists p0, [(k, f)]. split; [reflexivity|].
      split; [rewrite keys_app; simpl; apply NoDup_snoc; auto|].
      split; auto. split; auto. split; [right; split; auto; exists k; reflexivity|].
      rewrite keys_app. simpl. intros y Hy. apply in_app_or in Hy. apply in_or_app.
      destruct Hy as [Hy|[<-|[]]]; auto.
Qed.

Lemma plan_shape_incl base full f IDS IDS' p :
  incl IDS IDS' -> plan_shape base full f IDS p -> plan_shape base full f IDS' p.
Proof.
  intros I (p0 & fr & E & N & L & V & Fr & I0). exists p0, fr. repeat split; auto.
  intros y Hy. apply I, I0, Hy.
Qed.
Lemma full_shape_plan base full IDS p : full_shape base full IDS p -> plan_shape base full 0 IDS p.
Proof. intros (N & L & V & I). exists p, []. rewrite app_nil_r. repeat split; auto. Qed.
Lemma frag_shape_plan base f IDS p : 0 < f -> frag_shape f IDS p -> plan_shape base 0 f IDS p.
Proof.
  intros Hf (k & -> & Hk). exists [], [(k, f)]. split; [reflexivity|].
  split; [simpl; constructor; [tauto|constructor]|]. split; [reflexivity|]. split; [constructor|].
  split; [right; split; auto; exists k; reflexivity|]. intros y [<-|[]]. exact Hk.
Qed.

Lemma plan_shape_nn base full fragment IDS p : 0 < base -> plan_shape base full fragment IDS p -> plan_nn p.
Proof.
  intros Hb (p0 & fr & -> & _ & _ & V & Fr & _). apply Forall_app; split.
  - eapply Forall_impl; [|exact V]. simpl. intros kv E. lia.
  - destruct Fr as [[_ ->]|[Hf (k & ->)]]; [constructor|]. constructor; [simpl; lia|constructor].
Qed.

(* the best pairing found so far: whole-core plans on the cores F, fragment plans on the cores G,
   F and G a split of the host's cores *)
Definition best_inv (base full f : Z) (ALL : list core) (best0 best1 : list plan) : Prop :=
  exists F G, Forall (full_shape base full (ids F)) best0 /\ (forall id, used best0 id <= amount F id)
    /\ Forall (frag_shape f (ids G)) best1 /\ (forall id, used best1 id <= amount G id)
    /\ Permutation (F ++ G) ALL.

Lemma best_inv_zip base full f ALL c0 c1 n r : 0 < base -> 0 < f -> NoDup (ids ALL) ->
  best_inv base full f ALL c0 c1 -> zip_plans n c0 c1 = Ok r ->
  (forall id, used r id <= amount ALL id) /\ Forall (plan_shape base full f (ids ALL)) r.
Proof.
  intros Hb Hf Nd (F & G & SF & UF & SG & UG & PFG) H.
  pose proof (ids_perm _ _ PFG) as Pi. rewrite ids_app in Pi.
  assert (Dj : forall x, In x (ids F) -> In x (ids G) -> False).
  { intros x. apply NoDup_app_disjoint, (Permutation_NoDup (Permutation_sym Pi) Nd). }
  destruct (zip_content base full f (ids F) (ids G) Hb Hf Dj _ _ _ _ H SF SG) as (U & Sh).
  split.
  - intros id. rewrite U, <- (amount_perm _ _ id PFG), amount_app.
    assert (N0 : plans_nn c0)
      by (eapply Forall_impl; [|exact SF]; intros p Sp; exact (plan_shape_nn _ _ _ _ p Hb (full_shape_plan _ _ _ _ Sp))).
    assert (N1 : plans_nn c1)
      by (eapply Forall_impl; [|exact SG]; intros p Sp; exact (plan_shape_nn _ _ _ _ p Hb (frag_shape_plan base _ _ _ Hf Sp))).
    pose proof (used_firstn_le n c0 id N0). pose proof (used_firstn_le n c1 id N1).
    specialize (UF id). specialize (UG id). lia.
  - eapply Forall_impl; [|exact Sh]. intros p. apply plan_shape_incl.
    intros y Hy. exact (Permutation_in _ Pi Hy).
Qed.

Section GenericFit2.
Variable sortf : list keyed -> outcome (list keyed).
Hypothesis sortf_perm : forall l, exists l', sortf l = Ok l' /\ Permutation l' l.

Lemma convert_loop_content base aff full f maxfrag fuel2 ALL : 0 < base -> 1 <= full -> 0 < f ->
  NoDup (ids ALL) ->
  forall fuel fulls frags total best0 best1 bestcap b0 b1 cap,
  convert_loop sortf fuel fuel2 base aff maxfrag full f fulls frags total best0 best1 bestcap = Ok (b0, b1, cap) ->
  Forall (fullp base) fulls -> Forall posp frags -> Permutation (fulls ++ frags) ALL ->
  best_inv base full f ALL best0 best1 -> best_inv base full f ALL b0 b1.
Proof.
  intros Hb Hfu Hf Nd. induction fuel as [|fuel IH];
    intros fulls frags total best0 best1 bestcap b0 b1 cap H Hc Hp Pm Inv; cbn [convert_loop] in H; [discriminate|].
  destruct (negb (Z.of_nat (length frags) <? maxfrag)); [inversion H; subst; exact Inv|].
  destruct fulls as [|nf fulls']; [discriminate|].
  apply bind_ok in H. destruct H as (fplans & Ef & H).
  inversion Hc as [|? ? Hnf Hc']; subst.
  assert (Hp' : Forall posp (frags ++ [nf])).
  { apply Forall_app; split; auto. constructor; auto. pose proof (fullp_pos _ _ Hb Hnf). unfold posp; lia. }
  assert (Pm' : Permutation (fulls' ++ frags ++ [nf]) ALL).
  { rewrite app_assoc. eapply perm_trans; [apply Permutation_sym, Permutation_cons_append|exact Pm]. }
  destruct (bestcap <? Z.min (Z.of_nat (length fplans)) (total + Z.quot (cpieces nf) f)).
  - apply bind_ok in H. destruct H as (gplans & Eg & H).
    apply (IH _ _ _ _ _ _ _ _ _ H Hc' Hp' Pm').
    assert (NdA : NoDup (ids (fulls' ++ frags ++ [nf]))).
    { eapply Permutation_NoDup; [apply Permutation_sym; apply (ids_perm _ _ Pm')|]; auto. }
    rewrite ids_app in NdA.
    destruct (full_plans_content sortf sortf_perm base aff fulls' full fuel2 fplans (ids fulls') Hb Hfu Ef
                (conj Hc' (conj (NoDup_app_l _ _ NdA) (incl_refl _)))) as (U0 & S0).
    destruct (fragment_plans_content _ _ _ Hf Hp' Eg) as (U1 & S1).
    exists fulls', (frags ++ [nf]). repeat split; auto.
  - apply (IH _ _ _ _ _ _ _ _ _ H Hc' Hp' Pm' Inv).
Qed.

Lemma amount_firstn_le n l id : Forall posp l -> amount (firstn n l) id <= amount l id.
Proof.
  intros H. rewrite <- (firstn_skipn n l) at 2. rewrite amount_app.
  pose proof (amount_nonneg_pos (skipn n l) id (Forall_skipn' _ n l H)). lia.
Qed.

Lemma host_plans_content base h pr fuel r : 0 < base -> 0 < pr -> host_ok base h ->
  NoDup (ids (h_full h ++ h_frag h)) ->
  host_plans_pieces_g sortf h pr fuel = Ok r ->
  (forall id, used r id <= amount (h_full h ++ h_frag h) id)
  /\ Forall (plan_shape base (Z.quot pr base) (Z.rem pr base) (ids (h_full h ++ h_frag h))) r.
Proof.
  intros Hb Hp (Eb & Hf & Hg) Nd H. unfold host_plans_pieces_g in H. rewrite Eb in H.
  destruct (quot_rem_pos pr base) as (Eq & Rb & Hq); [lia|lia|].
  set (full := Z.quot pr base) in *. set (fragment := Z.rem pr base) in *.
  set (ALL := h_full h ++ h_frag h) in *.
  assert (NdF : NoDup (ids (h_full h))) by (unfold ALL in Nd; rewrite ids_app in Nd; apply NoDup_app_l in Nd; auto).
  assert (HpF : Forall posp (h_full h)) by (apply (fullp_posp base); auto).
  destruct (Z.eqb_spec fragment 0) as [Ef0|Ef0].
  - (* whole cores only *)
    rewrite Ef0.
    destruct (full_plans_content sortf sortf_perm base (h_aff h) (h_full h) full fuel r (ids ALL) Hb ltac:(nia) H) as (U & Sh).
    { split; [exact Hf|split; [exact NdF|]]. unfold ALL. rewrite ids_app. apply incl_appl, incl_refl. }
    split; [|exact (Forall_impl _ (full_shape_plan base full (ids ALL)) Sh)].
    intros id. specialize (U id). unfold ALL. rewrite amount_app.
    pose proof (amount_nonneg_pos (h_frag h) id Hg). lia.
  - assert (Hfr : 0 < fragment) by lia.
    destruct (Z.eqb_spec full 0) as [Efu|Efu].
    + (* less than a core: the fragment cores and as many whole cores as max-share allows *)
      rewrite Efu.
      match type of H with (if ?c then _ else _) = _ => destruct c; [discriminate|] end.
      apply fragment_plans_content in H; [|exact Hfr|apply Forall_app; split; auto; apply Forall_firstn'; auto].
      destruct H as (U & Sh). split.
      * intros id. eapply Z.le_trans; [apply U|]. unfold ALL. rewrite !amount_app, Z.add_comm.
        apply Z.add_le_mono_r, amount_firstn_le, HpF.
      * eapply Forall_impl; [|exact Sh]. intros p Sp.
        eapply plan_shape_incl; [|exact (frag_shape_plan base _ _ _ Hfr Sp)].
        intros y. unfold ALL. rewrite !ids_app, !in_app_iff.
        intros [Hy|Hy]; [right; exact Hy|left; exact (ids_firstn_incl _ _ _ Hy)].
    + (* whole cores and a fragment: the best pairing the conversion loop finds *)
      assert (Hfu1 : 1 <= full) by lia.
      apply bind_ok in H. destruct H as (b0 & E0 & H).
      apply bind_ok in H. destruct H as (b1 & E1 & H).
      apply bind_ok in H. destruct H as ([[c0 c1] cap] & Ec & H).
      destruct (full_plans_content sortf sortf_perm base (h_aff h) (h_full h) full fuel b0 (ids (h_full h)) Hb Hfu1 E0 (conj Hf (conj NdF (incl_refl _)))) as (U0 & S0).
      destruct (fragment_plans_content _ _ _ Hfr Hg E1) as (U1 & S1).
      apply (best_inv_zip base full fragment ALL c0 c1 (Z.to_nat cap) r Hb Hfr Nd); [|exact H].
      apply (convert_loop_content base (h_aff h) full fragment _ fuel ALL Hb Hfu1 Hfr Nd _ _ _ _ _ _ _ _ _ _ Ec Hf Hg (Permutation_refl _)).
      exists (h_full h), (h_frag h). repeat split; auto.
Qed.
End GenericFit2.
