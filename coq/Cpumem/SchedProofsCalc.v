(* Cpumem/SchedProofsCalc.v — totality of CalculateDeploy and doGetNodeDeployCapacity
   (the callers of GetCPUPlans), for any permuting final sort. *)
From Coq Require Import String Ascii List ZArith Bool Lia Permutation.
From Verif Require Import Base.GoFloat Cpumem.Types Cpumem.Schedule Cpumem.Calc Cpumem.SchedProofs.
Import ListNotations.
Local Open Scope Z_scope.

Section Generic.
Variable sortf : list keyed -> outcome (list keyed).
Hypothesis sortf_perm : forall l, exists l', sortf l = Ok l' /\ Permutation l' l.

Theorem calculate_deploy_total info base maxshare count raw order fuel :
  0 < base -> 0 <= count -> (default_fuel info <= fuel)%nat ->
  exists r, calculate_deploy_g sortf info base maxshare count raw order fuel = Ok r.
Proof.
  intros Hb Hc Hf. unfold calculate_deploy_g.
  destruct (wreq_validate raw) as [[|]|req]; eauto.
  destruct (negb (rq_bind req)); eauto.
  unfold do_alloc_by_cpu_g.
  destruct (get_cpu_plans_total sortf sortf_perm info [] base maxshare req order fuel Hb Hf) as (plans & E & _).
  rewrite E. cbn [bind].
  destruct (Z.of_nat (length plans) <? count); eauto.
  replace (count <? 0) with false by (symmetry; apply Z.ltb_ge; lia). eauto.
Qed.

Theorem node_capacity_total info base maxshare req order fuel :
  0 < base -> (default_fuel info <= fuel)%nat ->
  exists c, node_capacity_g sortf info base maxshare req order fuel = Ok c.
Proof.
  intros Hb Hf. unfold node_capacity_g.
  destruct (negb (rq_bind req)).
  - destruct (fgt _ _); eauto. destruct (rq_mem_req req =? 0); eauto.
  - destruct (get_cpu_plans_total sortf sortf_perm info [] base maxshare req order fuel Hb Hf) as (plans & E & _).
    rewrite E. cbn [bind]. eauto.
Qed.
End Generic.

Lemma get_cpu_plans_total' : forall sortf,
  (forall l, exists l', sortf l = Ok l' /\ Permutation l' l) ->
  forall info origin base maxfrag req numa_order fuel,
  0 < base -> (default_fuel info <= fuel)%nat ->
  exists plans, get_cpu_plans_g sortf info origin base maxfrag req numa_order fuel = Ok plans.
Proof.
  intros sortf Hs info origin base maxfrag req order fuel Hb Hf.
  destruct (get_cpu_plans_total sortf Hs info origin base maxfrag req order fuel Hb Hf) as (p & E & _).
  exists p; exact E.
Qed.

Lemma get_cpu_plans_total_model : forall info origin base maxfrag req numa_order,
  0 < base ->
  exists plans, get_cpu_plans info origin base maxfrag req numa_order (default_fuel info) = Ok plans.
Proof.
  intros. apply (get_cpu_plans_total' sort_exact sort_exact_perm); auto.
Qed.

(* the hypotheses are satisfiable and the conclusion is not vacuous: a 2-core node, request 1.5 *)
Example total_example :
  get_cpu_plans (mkNI (mkNR f_zero [("0", 100); ("1", 100)]%string 0 [] []) nr_empty) [] 100 (-1)
                (mkReq true false (fb 4609434218613702656) (fb 4609434218613702656) 0 0) [] 201
  = Ok [(EmptyString, [("1", 100); ("0", 50)]%string)].
Proof. vm_compute. reflexivity. Qed.

Section Realloc.
Variable sortf : list keyed -> outcome (list keyed).
Hypothesis sortf_perm : forall l, exists l', sortf l = Ok l' /\ Permutation l' l.
Theorem calculate_realloc_total info base maxshare origin raw order fuel :
  0 < base -> (default_fuel (realloc_info info origin) <= fuel)%nat ->
  exists r, calculate_realloc_g sortf info base maxshare origin raw order fuel = Ok r.
Proof.
  intros Hb Hf. unfold calculate_realloc_g. fold (realloc_info info origin).
  destruct (wreq_validate _) as [[|]|req]; eauto.
  destruct (if rq_keep raw then _ else _).
  - destruct (get_cpu_plans_total sortf sortf_perm (realloc_info info origin) (wr_cpumap origin) base maxshare req order fuel Hb Hf) as (plans & E & _).
    rewrite E. cbn [bind]. destruct plans; eauto.
  - destruct (do_alloc_by_memory _ _ _); eauto.
Qed.
End Realloc.
