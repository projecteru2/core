(* Cpumem/BookProofs.v — the plugin's bookkeeping is exact: integer components
   (per-core pieces, memory, per-NUMA-node memory).  The invariant

       usage = sum of the resources of the live workloads

   is preserved by every operation of Cpumem/Node.v for every oracle choice
   (whatever CalculateDeploy / CalculateRealloc returned), so it holds after
   every history; a rollback restores the usage.

   Every operation is at most one SetNodeResourceUsage(workloads, delta, incr)
   call: [plan] says which, [step_shape] what the state is afterwards, and
   [plan_spec] how the call and the new live set balance.  The invariants of
   this file and of its sibling files are all proved from these three. *)
From Coq Require Import String List ZArith Bool Lia.
From Verif Require Import Base.GoFloat Cpumem.Types Cpumem.Node.
Import ListNotations.
Local Open Scope Z_scope.

Lemma lookup_opt_upd {V} (m : smap V) k v k' :
  lookup_opt (upd m k v) k' = if String.eqb k' k then Some v else lookup_opt m k'.
Proof.
  induction m as [|[k0 v0] t IH]; simpl; [reflexivity|].
  destruct (String.eqb_spec k k0) as [<-|N]; simpl.
  - destruct (String.eqb k' k); reflexivity.
  - rewrite IH. destruct (String.eqb_spec k' k0) as [->|]; [|reflexivity].
    destruct (String.eqb_spec k0 k); [congruence|reflexivity].
Qed.

Lemma lookup_upd {V} (d : V) (m : smap V) k v k' :
  lookup d (upd m k v) k' = if String.eqb k' k then v else lookup d m k'.
Proof. unfold lookup. rewrite lookup_opt_upd. destruct (String.eqb k' k); reflexivity. Qed.

Lemma keys_upd_in {V} (m : smap V) k v x : In x (keys (upd m k v)) <-> x = k \/ In x (keys m).
Proof.
  unfold keys. induction m as [|[k0 v0] t IH]; simpl; [intuition congruence|].
  destruct (String.eqb_spec k k0); simpl; [subst|rewrite IH]; intuition.
Qed.

Lemma keys_upd_same {V} (m : smap V) k v : In k (keys m) -> keys (upd m k v) = keys m.
Proof.
  unfold keys. induction m as [|[k0 v0] t IH]; simpl; intro H; [tauto|].
  destruct (String.eqb_spec k k0); simpl; [reflexivity|].
  f_equal. apply IH. destruct H; [congruence|assumption].
Qed.

Lemma upd_notin {V} (m : smap V) k v : ~ In k (keys m) -> upd m k v = m ++ [(k, v)].
Proof.
  unfold keys. induction m as [|[k0 v0] t IH]; simpl; intro H; [reflexivity|].
  destruct (String.eqb_spec k k0); [subst; tauto|]. rewrite IH by tauto. reflexivity.
Qed.

Lemma nodup_upd {V} (m : smap V) k v : NoDup (keys m) -> NoDup (keys (upd m k v)).
Proof.
  unfold keys. induction m as [|[k0 v0] t IH]; simpl; intro ND.
  - constructor; [simpl; tauto|constructor].
  - inversion ND as [|? ? NI ND']; subst. destruct (String.eqb_spec k k0); simpl; constructor; auto.
    intro H. apply (keys_upd_in t k v k0) in H. destruct H; [congruence|auto].
Qed.

Lemma lookup_opt_notin {V} (m : smap V) k : ~ In k (keys m) -> lookup_opt m k = None.
Proof.
  unfold keys. induction m as [|[k0 v0] t IH]; simpl; intro H; [reflexivity|].
  destruct (String.eqb_spec k k0); [subst; tauto|]. apply IH. tauto.
Qed.

Lemma lookup_notin (m : smap Z) k : ~ In k (keys m) -> lookup 0 m k = 0.
Proof. intro H. unfold lookup. rewrite lookup_opt_notin by exact H. reflexivity. Qed.

Lemma lookup_of_opt (m : smap Z) k v : lookup_opt m k = Some v -> lookup 0 m k = v.
Proof. unfold lookup. intros ->. reflexivity. Qed.

Lemma in_keys_entry {V} (m : smap V) k : In k (keys m) -> exists v, In (k, v) m.
Proof.
  unfold keys. intro H. apply in_map_iff in H. destruct H as [[k' v] [E I]]. simpl in E. subst. eauto.
Qed.

Lemma in_keys_lookup_opt {V} (m : smap V) k : In k (keys m) -> exists v, lookup_opt m k = Some v.
Proof.
  unfold keys. induction m as [|[k0 v0] t IH]; simpl; intro H; [tauto|].
  destruct (String.eqb_spec k k0); [eexists; reflexivity|]. apply IH. destruct H; [congruence|assumption].
Qed.

Lemma lookup_opt_entry {V} (m : smap V) k v : NoDup (keys m) -> In (k, v) m -> lookup_opt m k = Some v.
Proof.
  unfold keys. induction m as [|[k0 v0] t IH]; simpl; intros ND H; [destruct H|].
  inversion ND as [|? ? NI ND']; subst. destruct H as [E|I].
  - injection E as -> ->. rewrite String.eqb_refl. reflexivity.
  - destruct (String.eqb_spec k k0) as [->|]; [|apply IH; assumption].
    exfalso. apply NI. apply (in_map fst _ _ I).
Qed.

Lemma lookup_opt_some_in {V} (m : smap V) k v : lookup_opt m k = Some v -> In (k, v) m.
Proof.
  induction m as [|[k0 v0] t IH]; simpl; [discriminate|].
  destruct (String.eqb k k0) eqn:E.
  - apply String.eqb_eq in E. intro H. injection H as <-. subst. auto.
  - auto.
Qed.

Lemma entry_lookup (m : smap Z) k v : NoDup (keys m) -> In (k, v) m -> lookup 0 m k = v.
Proof. intros ND I. apply lookup_of_opt, lookup_opt_entry; assumption. Qed.

Lemma lookup_opt_of_key (m : smap Z) k : In k (keys m) -> lookup_opt m k = Some (lookup 0 m k).
Proof. intro H. destruct (in_keys_lookup_opt _ _ H) as [v L]. unfold lookup. rewrite L. reflexivity. Qed.

(* sum of the values stored under key k (all occurrences; = lookup for a Go map) *)
Fixpoint msum (m : smap Z) (k : string) : Z :=
  match m with
  | [] => 0
  | (k', v) :: t => (if String.eqb k k' then v else 0) + msum t k
  end.

Lemma msum_notin m k : ~ In k (keys m) -> msum m k = 0.
Proof.
  unfold keys. induction m as [|[k0 v0] t IH]; simpl; intro H; [reflexivity|].
  destruct (String.eqb_spec k k0); [subst; tauto|]. rewrite IH; [lia|tauto].
Qed.

Lemma msum_lookup m k : NoDup (keys m) -> msum m k = lookup 0 m k.
Proof.
  unfold keys, lookup. induction m as [|[k0 v0] t IH]; simpl; intro ND; [reflexivity|].
  inversion ND as [|? ? NI ND']; subst. destruct (String.eqb_spec k k0) as [->|].
  - rewrite msum_notin by exact NI. lia.
  - rewrite IH by exact ND'. lia.
Qed.

(* CPUMap.Add and CPUMap.Sub (also used for NUMAMemory) are both
   for k, v := range c1 { c[k] = h(c, k, v) } ; what happens to the key list
   does not depend on h *)
Section UpdFold.
Context {V : Type} (h : smap V -> string * V -> V).
Definition upd_fold (c c1 : smap V) : smap V := fold_left (fun acc kv => upd acc (fst kv) (h acc kv)) c1 c.

Lemma upd_fold_keys_in c1 : forall c k, In k (keys (upd_fold c c1)) <-> In k (keys c) \/ In k (keys c1).
Proof.
  unfold upd_fold. induction c1 as [|[k1 v1] t IH]; intros c k; simpl; [tauto|].
  rewrite IH, keys_upd_in. intuition.
Qed.

Lemma upd_fold_nodup c1 : forall c, NoDup (keys c) -> NoDup (keys (upd_fold c c1)).
Proof.
  unfold upd_fold. induction c1 as [|kv t IH]; intros c ND; simpl; [exact ND|]. apply IH, nodup_upd, ND.
Qed.

Lemma upd_fold_keys_same c1 : forall c, (forall k, In k (keys c1) -> In k (keys c)) -> keys (upd_fold c c1) = keys c.
Proof.
  unfold upd_fold. induction c1 as [|[k1 v1] t IH]; intros c H; simpl; [reflexivity|].
  assert (K : keys (upd c k1 (h c (k1, v1))) = keys c) by (apply keys_upd_same, H; simpl; auto).
  rewrite IH; [exact K|]. intros k Hk. rewrite K. apply H. simpl. auto.
Qed.
End UpdFold.

Lemma cpumap_add_lookup c1 : forall c k, lookup 0 (cpumap_add c c1) k = lookup 0 c k + msum c1 k.
Proof.
  unfold cpumap_add. induction c1 as [|[k1 v1] t IH]; intros c k; simpl; [lia|].
  rewrite IH, lookup_upd. destruct (String.eqb_spec k k1); subst; lia.
Qed.

Lemma cpumap_sub_lookup c1 : forall c k, lookup 0 (cpumap_sub c c1) k = lookup 0 c k - msum c1 k.
Proof.
  unfold cpumap_sub. induction c1 as [|[k1 v1] t IH]; intros c k; simpl; [lia|].
  rewrite IH, lookup_upd. destruct (String.eqb_spec k k1); subst; lia.
Qed.

Lemma lookup_cpumap_sub (p : smap Z) c id : NoDup (keys p) ->
  lookup 0 (cpumap_sub c p) id = lookup 0 c id - lookup 0 p id.
Proof. intros N. rewrite cpumap_sub_lookup, msum_lookup by exact N. reflexivity. Qed.

Definition signed (incr : bool) (z : Z) : Z := if incr then z else - z.
Definition cpumap_step (incr : bool) (c c1 : smap Z) : smap Z := if incr then cpumap_add c c1 else cpumap_sub c c1.

Lemma cpumap_step_lookup incr c c1 k : lookup 0 (cpumap_step incr c c1) k = lookup 0 c k + signed incr (msum c1 k).
Proof. destruct incr; simpl; [apply cpumap_add_lookup|rewrite cpumap_sub_lookup; lia]. Qed.
Lemma cpumap_step_keys_in incr c c1 k : In k (keys (cpumap_step incr c c1)) <-> In k (keys c) \/ In k (keys c1).
Proof. destruct incr; apply upd_fold_keys_in. Qed.
Lemma cpumap_step_nodup incr c c1 : NoDup (keys c) -> NoDup (keys (cpumap_step incr c c1)).
Proof. destruct incr; apply upd_fold_nodup. Qed.
Lemma cpumap_step_keys_same incr c c1 : (forall k, In k (keys c1) -> In k (keys c)) -> keys (cpumap_step incr c c1) = keys c.
Proof. destruct incr; apply upd_fold_keys_same. Qed.

Lemma keys_cpumap_sub c1 : forall c, (forall k, In k (keys c1) -> In k (keys c)) -> keys (cpumap_sub c c1) = keys c.
Proof. intro c. apply (cpumap_step_keys_same false). Qed.

Lemma cpumap_add_app m : forall acc, NoDup (keys (acc ++ m)) -> cpumap_add acc m = acc ++ m.
Proof.
  unfold cpumap_add. induction m as [|[k v] t IH]; intros acc ND; simpl; [now rewrite app_nil_r|].
  assert (NI : ~ In k (keys acc)).
  { unfold keys in *. rewrite map_app in ND. apply NoDup_remove_2 in ND. intro H. apply ND. apply in_or_app. auto. }
  rewrite (lookup_notin acc k NI), (upd_notin acc k (0 + v) NI). simpl.
  rewrite IH; rewrite <- app_assoc; [reflexivity|exact ND].
Qed.

Lemma cpumap_add_nil m : NoDup (keys m) -> cpumap_add [] m = m.
Proof. apply (cpumap_add_app m []). Qed.

(* Go maps have unique keys *)
Definition wf_wres (w : wres) : Prop := NoDup (keys (wr_cpumap w)) /\ NoDup (keys (wr_numamem w)).

Definition zs (f : wres -> Z) (l : list wres) : Z := fold_right Z.add 0 (map f l).

Lemma zs_app f l1 l2 : zs f (l1 ++ l2) = zs f l1 + zs f l2.
Proof. unfold zs. induction l1; simpl; lia. Qed.

Lemma zs1 f (w : wres) : zs f [w] = f w.
Proof. unfold zs. simpl. lia. Qed.

Lemma zs_select_remove f (l : list wres) idxs : forall pos,
  zs f l = zs f (select_idxs l idxs pos) + zs f (remove_idxs l idxs pos).
Proof.
  unfold zs. induction l as [|x t IH]; intro pos; simpl; [reflexivity|].
  destruct (existsb (Nat.eqb pos) idxs); simpl; rewrite (IH (S pos)); lia.
Qed.

Lemma zs_replace f (l : list wres) : forall i x old, nth_error l i = Some old ->
  zs f (replace_nth l i x) = zs f l - f old + f x.
Proof.
  unfold zs. induction l as [|y t IH]; intros [|i] x old H; simpl in *; try discriminate.
  - injection H as <-. lia.
  - rewrite (IH i x old H). lia.
Qed.

Lemma zs_msum_lookup (g : wres -> smap Z) k ws :
  Forall (fun w => NoDup (keys (g w))) ws -> zs (fun w => msum (g w) k) ws = zs (fun w => lookup 0 (g w) k) ws.
Proof.
  unfold zs. induction 1 as [|w t Hw _ IH]; simpl; [reflexivity|].
  rewrite IH, msum_lookup by exact Hw. reflexivity.
Qed.

Lemma Forall_select {A} (P : A -> Prop) (l : list A) idxs : forall pos,
  Forall P l -> Forall P (select_idxs l idxs pos).
Proof.
  induction l as [|x t IH]; intros pos H; simpl; [constructor|].
  inversion H; subst. destruct (existsb _ _); [constructor|]; auto.
Qed.
Lemma Forall_remove {A} (P : A -> Prop) (l : list A) idxs : forall pos,
  Forall P l -> Forall P (remove_idxs l idxs pos).
Proof.
  induction l as [|x t IH]; intros pos H; simpl; [constructor|].
  inversion H; subst. destruct (existsb _ _); [|constructor]; auto.
Qed.
Lemma Forall_replace {A} (P : A -> Prop) (l : list A) : forall i x,
  Forall P l -> P x -> Forall P (replace_nth l i x).
Proof.
  induction l as [|y t IH]; intros [|i] x H Hx; simpl; try constructor; inversion H; subst; auto.
Qed.
Lemma Forall_nth_error {A} (P : A -> Prop) (l : list A) i x : Forall P l -> nth_error l i = Some x -> P x.
Proof. intros H E. rewrite Forall_forall in H. apply H. eapply nth_error_In; eassumption. Qed.

(* SetNodeResourceUsage(nil, ws, delta = true, incr) runs calculateNodeResource:
   every workload resource added to / subtracted from the usage *)
Definition nr_step (incr : bool) (r : node_resource) (w : wres) : node_resource :=
  if incr then nr_add r (nr_of_wres w) else nr_sub r (nr_of_wres w).
Definition moved (incr : bool) (u : node_resource) (ws : list wres) : node_resource := fold_left (nr_step incr) ws u.

Lemma usage_moved info ws incr :
  set_node_resource_usage info None ws true incr = validate (mkNI (ni_cap info) (moved incr (ni_usage info) ws)).
Proof. reflexivity. Qed.

Lemma moved_mem incr ws : forall u, nr_mem (moved incr u ws) = nr_mem u + signed incr (zs wr_mem_req ws).
Proof.
  unfold moved, zs. induction ws as [|w t IH]; intro u; simpl; [destruct incr; simpl; lia|].
  rewrite IH. destruct incr; simpl; lia.
Qed.

(* a map component of the usage with the matching component of a workload
   resource: CPUMap or NUMAMemory *)
Section MapField.
Variables (pn : node_resource -> smap Z) (pw : wres -> smap Z).
Hypothesis pn_step : forall incr r w, pn (nr_step incr r w) = cpumap_step incr (pn r) (pw w).

Lemma moved_lookup incr ws : forall u k,
  lookup 0 (pn (moved incr u ws)) k = lookup 0 (pn u) k + signed incr (zs (fun w => msum (pw w) k) ws).
Proof.
  unfold moved, zs. induction ws as [|w t IH]; intros u k; simpl; [destruct incr; simpl; lia|].
  rewrite IH, pn_step, cpumap_step_lookup. destruct incr; simpl; lia.
Qed.

Lemma moved_nodup incr ws : forall u, NoDup (keys (pn u)) -> NoDup (keys (pn (moved incr u ws))).
Proof.
  unfold moved. induction ws as [|w t IH]; intros u H; simpl; [exact H|].
  apply IH. rewrite pn_step. apply cpumap_step_nodup, H.
Qed.

Lemma moved_keys_in incr ws : forall u k,
  In k (keys (pn (moved incr u ws))) <-> In k (keys (pn u)) \/ exists w, In w ws /\ In k (keys (pw w)).
Proof.
  unfold moved. induction ws as [|w t IH]; intros u k; simpl.
  - split; [auto|intros [H|(w & [] & _)]; exact H].
  - rewrite IH, pn_step, cpumap_step_keys_in. split.
    + intros [[H|H]|(w' & I & H)]; eauto 6.
    + intros [H|(w' & [<-|I] & H)]; eauto 6.
Qed.

Lemma moved_keys_same incr ws : forall u,
  (forall w k, In w ws -> In k (keys (pw w)) -> In k (keys (pn u))) -> keys (pn (moved incr u ws)) = keys (pn u).
Proof.
  unfold moved. induction ws as [|w t IH]; intros u H; simpl; [reflexivity|].
  assert (K : keys (pn (nr_step incr u w)) = keys (pn u)).
  { rewrite pn_step. apply cpumap_step_keys_same. intro k. apply H. simpl. auto. }
  rewrite IH; [exact K|]. intros w' k I. rewrite K. apply H. simpl. auto.
Qed.
End MapField.

Lemma cpumap_field incr r w : nr_cpumap (nr_step incr r w) = cpumap_step incr (nr_cpumap r) (wr_cpumap w).
Proof. destruct incr; reflexivity. Qed.
Lemma numamem_field incr r w : nr_numamem (nr_step incr r w) = cpumap_step incr (nr_numamem r) (wr_numamem w).
Proof. destruct incr; reflexivity. Qed.

Lemma validate_inr n n' : validate n = inr n' -> n' = n.
Proof.
  unfold validate. destruct (nr_cpumap (ni_cap n)); [discriminate|].
  destruct (negb _); [discriminate|].
  destruct (nr_numa (ni_cap n)); [congruence|].
  destruct (numa_cpu_fault _); [discriminate|].
  destruct (_ || _); [discriminate|congruence].
Qed.

Lemma validate_usage_congr cap u u' :
  nr_cpumap u = nr_cpumap u' -> nr_numamem u = nr_numamem u' ->
  validate (mkNI cap u) = inr (mkNI cap u) -> validate (mkNI cap u') = inr (mkNI cap u').
Proof.
  unfold validate, numa_mem_fault2. simpl. intros <- <-.
  destruct (nr_cpumap cap); [discriminate|].
  destruct (negb _); [discriminate|].
  destruct (nr_numa cap); [reflexivity|].
  destruct (numa_cpu_fault cap); [discriminate|].
  destruct (_ || _); [discriminate|reflexivity].
Qed.

Definition usage_exact_int (u : node_resource) (live : list wres) : Prop :=
  (forall k, lookup 0 (nr_cpumap u) k = zs (fun w => lookup 0 (wr_cpumap w) k) live) /\
  (forall k, lookup 0 (nr_numamem u) k = zs (fun w => lookup 0 (wr_numamem w) k) live) /\
  nr_mem u = zs wr_mem_req live.

Definition inv_int (s : state) : Prop :=
  usage_exact_int (ni_usage (st_info s)) (st_live s) /\ Forall wf_wres (st_live s).

Fixpoint op_wf (o : op) : Prop :=
  match o with
  | OpAlloc ws => Forall wf_wres ws
  | OpRealloc _ _ new => wf_wres new
  | OpRollbackRealloc _ origin => wf_wres origin
  | OpFailedCommit inner => op_wf inner
  | _ => True
  end.

Definition inv_valid (s : state) : Prop :=
  validate (st_info s) = inr (st_info s) /\
  NoDup (keys (nr_cpumap (ni_usage (st_info s)))) /\ NoDup (keys (nr_numamem (ni_usage (st_info s)))).

(* the write-back of cobalt's rollback: usage := before (absolute write) *)
Definition written_back (u : node_resource) : node_resource := nr_add nr_empty u.

Lemma written_back_maps u :
  NoDup (keys (nr_cpumap u)) -> NoDup (keys (nr_numamem u)) ->
  nr_cpumap (written_back u) = nr_cpumap u /\ nr_numamem (written_back u) = nr_numamem u /\
  nr_mem (written_back u) = nr_mem u.
Proof.
  intros NC NN. unfold written_back, nr_add, nr_empty. simpl.
  rewrite !cpumap_add_nil by assumption. auto.
Qed.

Lemma commit_cap s ws incr live' : ni_cap (st_info (sr_state (commit s ws incr live'))) = ni_cap (st_info s).
Proof.
  unfold commit. rewrite usage_moved. destruct (validate _) as [e|i] eqn:V; simpl; [reflexivity|].
  apply validate_inr in V. subst i. reflexivity.
Qed.

Lemma step_cap s o : ni_cap (st_info (sr_state (step s o))) = ni_cap (st_info s).
Proof.
  revert s. induction o as [|ws|idxs|i|i req new|i origin|inner IH]; intro s; simpl; try reflexivity; try apply commit_cap.
  - destruct (nth_error _ _); simpl; [apply commit_cap|reflexivity].
  - destruct (nth_error _ _); simpl; [apply commit_cap|reflexivity].
  - destruct (sr_err (step s inner)); simpl; [reflexivity|].
    unfold set_node_resource_usage. destruct (validate _) as [e|i] eqn:V; simpl; [apply IH|].
    apply validate_inr in V. subst i. simpl. apply IH.
Qed.

(* from a valid state the rollback of a failed commit is always accepted *)
Lemma failed_commit_state s inner : inv_valid s ->
  let r := step s (OpFailedCommit inner) in
  sr_err r = true /\ st_live (sr_state r) = st_live s /\
  (st_info (sr_state r) = st_info s \/
   st_info (sr_state r) = mkNI (ni_cap (st_info s)) (written_back (ni_usage (st_info s)))).
Proof.
  intros (V & NC & NN). simpl.
  destruct (sr_err (step s inner)) eqn:E; simpl; [auto|].
  unfold set_node_resource_usage, calculate_node_resource. cbn [negb].
  fold (written_back (ni_usage (st_info s))).
  destruct (written_back_maps _ NC NN) as (M1 & M2 & _).
  rewrite step_cap.
  rewrite (validate_usage_congr (ni_cap (st_info s)) (ni_usage (st_info s)) (written_back (ni_usage (st_info s)))); simpl; auto.
  destruct (st_info s); exact V.
Qed.

(* the SetNodeResourceUsage call an operation makes, as (incr, workloads, the
   live set it leaves when the call is accepted) *)
Definition plan (s : state) (o : op) : option (bool * list wres * list wres) :=
  match o with
  | OpAlloc ws => Some (true, ws, st_live s ++ ws)
  | OpRelease idxs => Some (false, select_idxs (st_live s) idxs 0, remove_idxs (st_live s) idxs 0)
  | OpRealloc i _ new =>
      option_map (fun origin => (true, [realloc_delta new origin], replace_nth (st_live s) i new)) (nth_error (st_live s) i)
  | OpRollbackRealloc i origin =>
      option_map (fun cur => (false, [realloc_delta cur origin], replace_nth (st_live s) i origin)) (nth_error (st_live s) i)
  | _ => None
  end.

Definition after (s : state) (incr : bool) (ws : list wres) : node_info :=
  mkNI (ni_cap (st_info s)) (moved incr (ni_usage (st_info s)) ws).

(* where a step can lead: nowhere (refused, by the scheduler or by Validate),
   to the accepted call of its plan, or to the record written back after
   another plugin failed *)
Inductive step_to (s : state) (o : op) : state -> Prop :=
| to_same : step_to s o s
| to_commit incr ws live' : plan s o = Some (incr, ws, live') ->
    validate (after s incr ws) = inr (after s incr ws) -> step_to s o (mkState (after s incr ws) live')
| to_written_back :
    step_to s o (mkState (mkNI (ni_cap (st_info s)) (written_back (ni_usage (st_info s)))) (st_live s)).

Lemma commit_to s o incr ws live' :
  plan s o = Some (incr, ws, live') -> step_to s o (sr_state (commit s ws incr live')).
Proof.
  intro Pl. unfold commit. change (set_node_resource_usage (st_info s) None ws true incr) with (validate (after s incr ws)).
  destruct (validate (after s incr ws)) as [e|i] eqn:V; simpl; [apply to_same|].
  pose proof (validate_inr _ _ V) as E. subst i. apply to_commit; assumption.
Qed.

Lemma step_shape s o : inv_valid s -> step_to s o (sr_state (step s o)).
Proof.
  intro IV. destruct o as [|ws|idxs|i|i req new|i origin|inner]; try apply to_same.
  - apply commit_to. reflexivity.
  - apply commit_to. reflexivity.
  - simpl. destruct (nth_error (st_live s) i) as [origin|] eqn:N; [|apply to_same].
    apply commit_to. simpl. rewrite N. reflexivity.
  - simpl. destruct (nth_error (st_live s) i) as [cur|] eqn:N; [|apply to_same].
    apply commit_to. simpl. rewrite N. reflexivity.
  - destruct (failed_commit_state s inner IV) as (_ & L & E).
    destruct (sr_state (step s (OpFailedCommit inner))) as [i l]. simpl in L, E. subst l.
    destruct s as [i0 l0]. destruct E as [->| ->]; [apply to_same|apply to_written_back].
Qed.

Definition carries (P : wres -> Prop) (o : op) : Prop :=
  match o with
  | OpAlloc ws => Forall P ws
  | OpRealloc _ _ w | OpRollbackRealloc _ w => P w
  | _ => True
  end.

Lemma op_wf_carries o : op_wf o -> carries wf_wres o.
Proof. destruct o; simpl; auto. Qed.

(* how a call (incr, ws) and the change of the live set it comes with balance,
   for every way [f] of measuring a workload resource: either ws are whole
   workload resources that enter or leave the live set, or ws is the single
   delta a - b of a re-allocation *)
Definition balanced (P : wres -> Prop) (incr : bool) (ws live live' : list wres) : Prop :=
  (Forall P ws /\ forall f, zs f live' = zs f live + signed incr (zs f ws)) \/
  (exists a b, P a /\ P b /\ ws = [realloc_delta a b] /\ forall f, zs f live' = zs f live + signed incr (f a - f b)).

Lemma plan_spec (P : wres -> Prop) s o incr ws live' :
  carries P o -> Forall P (st_live s) -> plan s o = Some (incr, ws, live') ->
  Forall P live' /\ balanced P incr ws (st_live s) live'.
Proof.
  intros C L Pl. destruct o as [|ws0|idxs|i|i req new|i origin|inner]; simpl in C, Pl; try discriminate.
  - injection Pl as <- <- <-. split; [apply Forall_app; auto|left]. split; [exact C|]. intro f. apply zs_app.
  - injection Pl as <- <- <-. split; [apply Forall_remove, L|left]. split; [apply Forall_select, L|].
    intro f. rewrite (zs_select_remove f (st_live s) idxs 0). simpl. lia.
  - destruct (nth_error (st_live s) i) as [origin|] eqn:N; [|discriminate]. injection Pl as <- <- <-.
    pose proof (Forall_nth_error _ _ _ _ L N) as Po. split; [apply Forall_replace; assumption|right].
    exists new, origin. repeat split; auto. intro f. rewrite (zs_replace f _ i new origin N). simpl. lia.
  - destruct (nth_error (st_live s) i) as [cur|] eqn:N; [|discriminate]. injection Pl as <- <- <-.
    pose proof (Forall_nth_error _ _ _ _ L N) as Pc. split; [apply Forall_replace; assumption|right].
    exists cur, origin. repeat split; auto. intro f. rewrite (zs_replace f _ i origin cur N). simpl. lia.
Qed.

(* for a measure that is additive on deltas the two cases read the same *)
Lemma balanced_linear P incr ws live live' (f : wres -> Z) :
  balanced P incr ws live live' -> (forall a b, P a -> P b -> f (realloc_delta a b) = f a - f b) ->
  zs f live' = zs f live + signed incr (zs f ws).
Proof.
  intros [[_ B]|(a & b & Pa & Pb & -> & B)] Lin; rewrite (B f); [reflexivity|].
  rewrite zs1, Lin by assumption. reflexivity.
Qed.

Lemma delta_msum (g : wres -> smap Z) a b k :
  g (realloc_delta a b) = cpumap_sub (g a) (g b) -> NoDup (keys (g a)) ->
  msum (g (realloc_delta a b)) k = msum (g a) k - msum (g b) k.
Proof.
  intros -> Ha. rewrite msum_lookup by apply (cpumap_step_nodup false), Ha.
  rewrite cpumap_sub_lookup, (msum_lookup (g a)) by exact Ha. reflexivity.
Qed.

(* a map component of the usage is the sum over the live set after a balanced
   call if it was before: its lookups move by msum over ws, the live sums by
   the same amount *)
Lemma moved_exact (pn : node_resource -> smap Z) (pw : wres -> smap Z) {P : wres -> Prop} {incr u ws live live'} :
  (forall incr r w, pn (nr_step incr r w) = cpumap_step incr (pn r) (pw w)) ->
  (forall a b, pw (realloc_delta a b) = cpumap_sub (pw a) (pw b)) ->
  (forall w, P w -> NoDup (keys (pw w))) ->
  balanced P incr ws live live' -> Forall P live -> Forall P live' ->
  (forall k, lookup 0 (pn u) k = zs (fun w => lookup 0 (pw w) k) live) ->
  forall k, lookup 0 (pn (moved incr u ws)) k = zs (fun w => lookup 0 (pw w) k) live'.
Proof.
  intros F D W B L L' H k.
  rewrite (moved_lookup pn pw F), H, <- !(zs_msum_lookup pw) by (eapply Forall_impl; [exact W|assumption]).
  symmetry. apply (balanced_linear P incr ws _ _ _ B). intros a b Pa _. apply delta_msum; auto.
Qed.

Lemma step_valid o : forall s, inv_valid s -> inv_valid (sr_state (step s o)).
Proof.
  intros s IV. destruct (step_shape s o IV) as [|incr ws live' _ V|]; [exact IV| |]; destruct IV as (V0 & NC & NN).
  - split; [exact V|]. split; [apply (moved_nodup _ _ cpumap_field), NC|apply (moved_nodup _ _ numamem_field), NN].
  - destruct (written_back_maps _ NC NN) as (M1 & M2 & _). unfold inv_valid. cbn [st_info ni_usage].
    rewrite M1, M2. split; [|split; assumption].
    apply (validate_usage_congr _ (ni_usage (st_info s))); auto. destruct (st_info s); exact V0.
Qed.

Theorem step_inv_int s o : op_wf o -> inv_valid s -> inv_int s -> inv_int (sr_state (step s o)).
Proof.
  intros WF IV I. destruct (step_shape s o IV) as [|incr ws live' Pl _|]; [exact I| |]; destruct I as [(Hc & Hn & Hm) Hl].
  - destruct (plan_spec wf_wres s o incr ws live' (op_wf_carries o WF) Hl Pl) as [Hl' B].
    split; [|exact Hl'].
    split; [|split]; cbn [st_info st_live ni_usage after].
    + apply (moved_exact nr_cpumap wr_cpumap cpumap_field (fun _ _ => eq_refl) (fun w H => proj1 H) B Hl Hl' Hc).
    + apply (moved_exact nr_numamem wr_numamem numamem_field (fun _ _ => eq_refl) (fun w H => proj2 H) B Hl Hl' Hn).
    + rewrite moved_mem, Hm. symmetry. apply (balanced_linear wf_wres incr ws _ _ _ B). reflexivity.
  - (* a commit that failed in another plugin: usage written back, live set untouched *)
    destruct IV as (_ & NC & NN). destruct (written_back_maps _ NC NN) as (M1 & M2 & M3).
    split; [|exact Hl]. unfold usage_exact_int. cbn [st_info st_live ni_usage]. rewrite M1, M2, M3. auto.
Qed.

Definition run (s : state) (h : list op) : state := fold_left (fun s o => sr_state (step s o)) h s.

(* a node as AddNode leaves it: every usage entry is zero *)
Definition usage_zero (u : node_resource) : Prop :=
  (forall k, lookup 0 (nr_cpumap u) k = 0) /\ (forall k, lookup 0 (nr_numamem u) k = 0) /\ nr_mem u = 0.

Lemma run_cap h : forall s, ni_cap (st_info (run s h)) = ni_cap (st_info s).
Proof.
  unfold run. induction h as [|o t IH]; intro s; simpl; [reflexivity|]. rewrite IH. apply step_cap.
Qed.

Lemma run_valid h : forall s, inv_valid s -> inv_valid (run s h).
Proof.
  unfold run. induction h as [|o t IH]; intros s IV; simpl; [exact IV|]. apply IH, step_valid, IV.
Qed.

Lemma run_inv (P : state -> Prop) (Q : op -> Prop) :
  (forall s o, Q o -> inv_valid s -> P s -> P (sr_state (step s o))) ->
  forall h s, Forall Q h -> inv_valid s -> P s -> P (run s h).
Proof.
  intro St. unfold run. induction h as [|o t IH]; intros s HQ IV HP; simpl; [exact HP|].
  inversion HQ; subst. apply IH; [assumption|apply step_valid, IV|apply St; assumption].
Qed.

Theorem history_inv_int : forall h s, Forall op_wf h -> inv_valid s -> inv_int s ->
  inv_int (run s h) /\ inv_valid (run s h).
Proof.
  intros h s WF IV I. split; [|apply run_valid, IV]. revert h s WF IV I. apply run_inv. exact step_inv_int.
Qed.

Lemma inv_int_zero info : usage_zero (ni_usage info) -> inv_int (mkState info []).
Proof. intros (Zc & Zn & Zm). split; [|constructor]. split; [|split]; simpl; auto. Qed.

Theorem exact_int_all_histories info h :
  inv_valid (mkState info []) -> usage_zero (ni_usage info) -> Forall op_wf h ->
  usage_exact_int (ni_usage (st_info (run (mkState info []) h))) (st_live (run (mkState info []) h)).
Proof.
  intros IV UZ WF. apply (history_inv_int h (mkState info [])); [exact WF|exact IV|apply inv_int_zero, UZ].
Qed.

Definition usage_equiv_int (a b : node_resource) : Prop :=
  (forall k, lookup 0 (nr_cpumap a) k = lookup 0 (nr_cpumap b) k) /\
  (forall k, lookup 0 (nr_numamem a) k = lookup 0 (nr_numamem b) k) /\
  nr_mem a = nr_mem b.

(* Manager.Alloc commits SetNodeResourceUsage(workloads, Incr); RollbackAlloc is
   SetNodeResourceUsage(the same workloads, Decr).  Likewise Realloc commits
   Incr of [delta] and RollbackRealloc is Decr of [delta]; the rollback of a
   release is Decr then Incr.  Whenever both are accepted the usage is back
   where it was. *)
Theorem there_and_back_int incr info ws info1 info2 :
  set_node_resource_usage info None ws true incr = inr info1 ->
  set_node_resource_usage info1 None ws true (negb incr) = inr info2 ->
  usage_equiv_int (ni_usage info2) (ni_usage info) /\ ni_cap info2 = ni_cap info.
Proof.
  rewrite !usage_moved. intros V1 V2.
  apply validate_inr in V1. apply validate_inr in V2. subst info1 info2. simpl.
  split; [|reflexivity]. split; [|split].
  - intro k. rewrite !(moved_lookup _ _ cpumap_field). destruct incr; simpl; lia.
  - intro k. rewrite !(moved_lookup _ _ numamem_field). destruct incr; simpl; lia.
  - rewrite !moved_mem. destruct incr; simpl; lia.
Qed.
