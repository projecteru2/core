(* Cpumem/BookCpuProofs.v — the total-CPU component of the bookkeeping invariant.

   CPU amounts are binary64.  Every update goes through utils.Round (round to 9
   decimals), so the natural reading of "usage.CPU equals the sum of the live
   workloads' CPU requests" is on the decimal grid of 1e-9 units:
     G k        = the double nearest to k * 1e-9  (what a decimal literal with at
                  most 9 decimals parses to, and what utils.Round returns)
     cpu_is u k = u is finite and has the same real value as G k
   The invariant is  cpu_is usage.CPU (sum of the workloads' amounts in 1e-9 units).

   The float facts needed are isolated in [grid_closed] (proved in
   Cpumem/BookGridProofs.v): Round(G a + G b) = G (a+b) and Round(G a - G b) = G (a-b)
   as real values, for amounts up to 2^49 units (about 5.6e5 CPUs). *)
From Coq Require Import String List ZArith Bool Lia Reals.
From Flocq Require Import Core IEEE754.Binary IEEE754.Bits.
From Verif Require Import Base.GoFloat Cpumem.Types Cpumem.Node Cpumem.BookProofs.
Import ListNotations.
Local Open Scope Z_scope.

Definition G (k : Z) : f64 := fdiv (f_of_Z k) f_1e9.
Definition cpu_is (u : f64) (k : Z) : Prop :=
  f_finite u = true /\ B2R 53 1024 u = B2R 53 1024 (G k).
Definition BND : Z := 562949953421312. (* 2^49 *)

Definition grid_add_closed : Prop := forall u c a b,
  cpu_is u a -> cpu_is c b -> Z.abs a <= BND -> Z.abs b <= BND -> Z.abs (a + b) <= BND ->
  cpu_is (f_round9 (fadd u c)) (a + b).
Definition grid_sub_closed : Prop := forall u c a b,
  cpu_is u a -> cpu_is c b -> Z.abs a <= BND -> Z.abs b <= BND -> Z.abs (a - b) <= BND ->
  cpu_is (f_round9 (fsub u c)) (a - b).
Definition grid_closed : Prop := grid_add_closed /\ grid_sub_closed.

Definition kf (w : wres) : Z := nano (wr_cpu_req w).
Definition on_grid (w : wres) : Prop := cpu_is (wr_cpu_req w) (kf w) /\ 0 <= kf w <= BND.
Definition ktotal (live : list wres) : Z := zs kf live.

Lemma ktotal_nonneg live : Forall on_grid live -> 0 <= ktotal live.
Proof. unfold ktotal, zs. induction 1 as [|w t [_ Hw] _ IH]; simpl; lia. Qed.

Section WithGrid.
Hypothesis GC : grid_closed.

Lemma nr_step_cpu incr r w a b :
  cpu_is (nr_cpu r) a -> cpu_is (wr_cpu_req w) b ->
  Z.abs a <= BND -> Z.abs b <= BND -> Z.abs (a + signed incr b) <= BND ->
  cpu_is (nr_cpu (nr_step incr r w)) (a + signed incr b).
Proof. destruct incr; [apply (proj1 GC)|apply (proj2 GC)]. Qed.

(* the running total stays between its two ends, so within the bound *)
Lemma moved_cpu incr ws : forall u K, Forall on_grid ws ->
  cpu_is (nr_cpu u) K -> 0 <= K <= BND -> 0 <= K + signed incr (ktotal ws) <= BND ->
  cpu_is (nr_cpu (moved incr u ws)) (K + signed incr (ktotal ws)).
Proof.
  induction ws as [|w t IH]; intros u K Hg Hu HK HB.
  - change (ktotal []) with 0. replace (K + signed incr 0) with K by (destruct incr; simpl; lia). exact Hu.
  - inversion Hg as [|? ? [Hw [Hw0 Hw1]] Hg']; subst. pose proof (ktotal_nonneg t Hg') as Ht.
    change (ktotal (w :: t)) with (kf w + ktotal t) in *.
    replace (K + signed incr (kf w + ktotal t)) with ((K + signed incr (kf w)) + signed incr (ktotal t)) in *
      by (destruct incr; simpl; lia).
    assert (0 <= K + signed incr (kf w) <= BND) by (destruct incr; unfold signed in *; lia).
    apply (IH (nr_step incr u w)); [exact Hg'| |assumption..].
    apply nr_step_cpu; [exact Hu|exact Hw|lia..].
Qed.

Definition inv_cpu (s : state) : Prop :=
  cpu_is (nr_cpu (ni_usage (st_info s))) (ktotal (st_live s)) /\
  Forall on_grid (st_live s) /\ ktotal (st_live s) <= BND.

Fixpoint op_grid (o : op) : Prop :=
  match o with
  | OpAlloc ws => Forall on_grid ws
  | OpRealloc _ _ new => on_grid new
  | OpRollbackRealloc _ origin => on_grid origin
  | OpFailedCommit inner => op_grid inner
  | _ => True
  end.

Lemma op_grid_carries o : op_grid o -> carries on_grid o.
Proof. destruct o; simpl; auto. Qed.

Lemma G0 : G 0 = f_zero.
Proof. vm_compute. reflexivity. Qed.
Lemma cpu_is_f_zero : cpu_is f_zero 0.
Proof. split; [reflexivity|rewrite G0; reflexivity]. Qed.

Lemma delta_cpu new origin : on_grid new -> on_grid origin ->
  cpu_is (wr_cpu_req (realloc_delta new origin)) (kf new - kf origin).
Proof.
  intros [Hn [Hn0 Hn1]] [Ho [Ho0 Ho1]]. unfold realloc_delta, wr_deepcopy, wr_sub. simpl.
  apply (proj2 GC); [exact Hn|exact Ho|lia|lia|lia].
Qed.

Theorem step_inv_cpu s o : op_grid o -> inv_valid s -> inv_cpu s ->
  ktotal (st_live (sr_state (step s o))) <= BND ->
  inv_cpu (sr_state (step s o)).
Proof.
  intros OG IV I HB'. destruct (step_shape s o IV) as [|incr ws live' Pl _|]; [exact I| |];
    destruct I as (Hu & Hl & HB); pose proof (ktotal_nonneg _ Hl) as H0;
    unfold inv_cpu; cbn [st_live st_info ni_usage after] in *.
  - destruct (plan_spec on_grid s o incr ws live' (op_grid_carries o OG) Hl Pl) as [Hl' B].
    pose proof (ktotal_nonneg _ Hl') as H0'. split; [|split; assumption].
    destruct B as [[Gw B]|(a & b & Ga & Gb & -> & B)]; unfold ktotal in *; rewrite (B kf) in *.
    + apply moved_cpu; unfold ktotal; [exact Gw|exact Hu|lia|lia].
    + pose proof (proj2 Ga). pose proof (proj2 Gb).
      apply nr_step_cpu; [exact Hu|apply delta_cpu; assumption|lia..].
  - (* a commit that failed in another plugin: cpu written back through utils.Round *)
    split; [|split; assumption]. unfold written_back, nr_add, nr_empty. cbn [nr_cpu].
    replace (ktotal (st_live s)) with (0 + ktotal (st_live s)) by lia.
    apply (proj1 GC); [exact cpu_is_f_zero|exact Hu|unfold BND; lia|lia|lia].
Qed.

Fixpoint bounded_run (s : state) (h : list op) : Prop :=
  match h with
  | [] => True
  | o :: t => ktotal (st_live (sr_state (step s o))) <= BND /\ bounded_run (sr_state (step s o)) t
  end.

Theorem history_inv_cpu : forall h s, Forall op_grid h -> bounded_run s h -> inv_valid s -> inv_cpu s -> inv_cpu (run s h).
Proof.
  unfold run. induction h as [|o t IH]; intros s OG BR IV I; simpl; [exact I|].
  inversion OG; subst. destruct BR as [B1 B2].
  apply IH; [assumption|assumption|apply step_valid; exact IV|]. apply step_inv_cpu; assumption.
Qed.

Theorem incr_then_decr_cpu info ws info1 info2 K :
  cpu_is (nr_cpu (ni_usage info)) K -> 0 <= K -> K + ktotal ws <= BND -> Forall on_grid ws ->
  set_node_resource_usage info None ws true true = inr info1 ->
  set_node_resource_usage info1 None ws true false = inr info2 ->
  cpu_is (nr_cpu (ni_usage info2)) K.
Proof.
  rewrite !usage_moved. intros Hu H0 HB Hg V1 V2.
  apply validate_inr in V1. apply validate_inr in V2. subst info1 info2. simpl.
  pose proof (ktotal_nonneg _ Hg) as Hw.
  replace K with ((K + signed true (ktotal ws)) + signed false (ktotal ws)) at 1 by (simpl; lia).
  apply moved_cpu; [exact Hg|apply moved_cpu; [exact Hg|exact Hu|lia|simpl; lia]|simpl; lia..].
Qed.
End WithGrid.
