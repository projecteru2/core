(* Proofs about Select/Model.v (C21). *)
From Coq Require Import List Bool Arith String Lia Sorted Permutation.
From Verif Require Import Base.GoStr Base.GoStrLemmas Select.Model Base.ListFacts.
Import ListNotations.
Open Scope list_scope.

(* utils.Unique *)

Definition sgt (a b : string) : Prop := slt b a.

(* the kept elements (most recent first), ignoring where the skipped ones end up *)
Fixpoint uniq_final (first : bool) (last : string) (uniq_rev rest : list string) : list string :=
  match rest with
  | [] => uniq_rev
  | x :: rest' =>
      if String.eqb x last && negb first then uniq_final false last uniq_rev rest'
      else uniq_final false x (x :: uniq_rev) rest'
  end.

Lemma unique_loop_shape : forall rest first last U J,
  exists J', unique_loop first last U J rest
             = (rev (uniq_final first last U rest) ++ J', List.length (uniq_final first last U rest)).
Proof.
  induction rest as [|x rest IH]; intros first last U J; simpl.
  - exists J. reflexivity.
  - destruct (String.eqb x last && negb first).
    + apply IH.
    + destruct J; apply IH.
Qed.

Lemma unique_loop_length : forall rest first last U J,
  List.length (fst (unique_loop first last U J rest)) = List.length U + List.length J + List.length rest.
Proof.
  induction rest as [|x rest IH]; intros first last U J; simpl.
  - rewrite app_length, rev_length. lia.
  - destruct (String.eqb x last && negb first); [|destruct J]; rewrite IH, ?app_length; simpl; lia.
Qed.

(* the running state: [last] heads the kept elements and bounds the sorted rest from below *)
Lemma uniq_final_spec : forall rest last U,
  StronglySorted sle rest -> Forall (sle last) rest -> StronglySorted sgt (last :: U) ->
  StronglySorted sgt (uniq_final false last (last :: U) rest) /\
  (forall y, In y (uniq_final false last (last :: U) rest) <-> In y (last :: U) \/ In y rest).
Proof.
  induction rest as [|x rest IH]; intros last U Srt Hge SU; simpl uniq_final.
  - split; [exact SU|]. intro y. simpl. tauto.
  - inversion Srt as [|? ? Srt' Hx]; subst. inversion Hge as [|? ? Hlx Hge']; subst.
    rewrite andb_true_r. destruct (String.eqb_spec x last) as [->|Ne].
    + destruct (IH last U Srt' Hge' SU) as [A B]. split; [exact A|]. intro y. rewrite B. simpl. tauto.
    + assert (L : slt last x) by (apply str_leb_neq_ltb; [exact Hlx | congruence]).
      destruct (IH x (last :: U) Srt' Hx) as [A B].
      * constructor; [exact SU|]. constructor; [exact L|].
        inversion SU as [|? ? _ HU]; subst. eapply Forall_impl; [|exact HU].
        intros z Hz. exact (str_ltb_trans _ _ _ Hz L).
      * split; [exact A|]. intro y. rewrite B. simpl. tauto.
Qed.

Lemma ss_rev : forall (R : string -> string -> Prop) l,
  StronglySorted (fun a b => R b a) l -> StronglySorted R (rev l).
Proof.
  intros R. induction l as [|x t IH]; intro S; simpl; [constructor|].
  inversion S as [|? ? St Hx]; subst.
  apply sorted_snoc; [apply IH; exact St|].
  rewrite Forall_forall in Hx |- *. intros z Hz. apply Hx. apply in_rev. exact Hz.
Qed.

Lemma unique_spec : forall s out p, unique s = (out, p) ->
  StronglySorted slt (firstn p out) /\ (forall y, In y (firstn p out) <-> In y s)
  /\ List.length out = List.length s.
Proof.
  intros s out p H. unfold unique in H.
  pose proof (unique_loop_length (sort_str s) true ""%string [] []) as Len. rewrite H in Len.
  destruct (unique_loop_shape (sort_str s) true ""%string [] []) as [J' E].
  rewrite E in H. injection H as <- <-.
  set (F := uniq_final true ""%string [] (sort_str s)) in *.
  assert (AB : StronglySorted sgt F /\ forall y, In y F <-> In y (sort_str s)).
  { unfold F. pose proof (sort_str_sorted s) as Srt.
    destruct (sort_str s) as [|x rest]; [split; [constructor | reflexivity]|].
    (* the first element is always kept; from then on the state is the running one *)
    inversion Srt as [|? ? Srt' Hx]; subst. simpl uniq_final. rewrite andb_false_r.
    destruct (uniq_final_spec rest x [] Srt' Hx) as [A B]; [repeat constructor|].
    split; [exact A|]. intro y. rewrite B. simpl. tauto. }
  destruct AB as [A B].
  rewrite <- (rev_length F), firstn_app, firstn_all, Nat.sub_diag, app_nil_r.
  split; [apply ss_rev; exact A|]. split.
  - intro y. rewrite <- in_rev, B. apply sort_str_In.
  - (* the loop only moves elements *)
    simpl in Len. rewrite Len. symmetry. apply Permutation_length, sort_str_perm.
Qed.


Lemma by_name_some : forall ns nm n, by_name ns nm = Some n -> In n ns /\ n_name n = nm.
Proof.
  induction ns as [|a t IH]; intros nm n H; simpl in H; [discriminate|].
  destruct (by_name t nm) eqn:E.
  - inversion H; subst. destruct (IH _ _ E). split; [right|]; assumption.
  - destruct (String.eqb (n_name a) nm) eqn:E2; [|discriminate].
    inversion H; subst. apply String.eqb_eq in E2. split; [left; reflexivity | assumption].
Qed.
Lemma by_name_found : forall ns nm, In nm (map n_name ns) -> exists n, by_name ns nm = Some n.
Proof.
  induction ns as [|a t IH]; intros nm H; simpl in *; [contradiction|].
  destruct (by_name t nm) eqn:E; [eexists; reflexivity|].
  destruct H as [H|H].
  - subst. rewrite String.eqb_refl. eexists; reflexivity.
  - destruct (IH _ H) as [n Hn]. congruence.
Qed.

Lemma rebuild_names : forall ns names,
  (forall x, In x names -> In x (map n_name ns)) ->
  map n_name (flat_map (fun nm => match by_name ns nm with Some n => [n] | None => [] end) names) = names.
Proof.
  induction names as [|x t IH]; intro H; simpl; [reflexivity|].
  destruct (by_name_found ns x) as [n Hn]; [apply H; left; reflexivity|].
  rewrite Hn. simpl. destruct (by_name_some _ _ _ Hn) as [_ ->].
  f_equal. apply IH. intros y Hy. apply H. right. exact Hy.
Qed.
Lemma rebuild_in : forall ns names n,
  In n (flat_map (fun nm => match by_name ns nm with Some n => [n] | None => [] end) names) -> In n ns.
Proof.
  intros ns names n H. apply in_flat_map in H. destruct H as [x [_ Hx]].
  destruct (by_name ns x) eqn:E; [|contradiction].
  destruct Hx as [<-|[]]. apply (by_name_some _ _ _ E).
Qed.

Lemma finish_spec : forall ns,
  StronglySorted slt (map n_name (finish ns)) /\
  (forall x, In x (map n_name (finish ns)) <-> In x (map n_name ns)) /\
  (forall n, In n (finish ns) -> In n ns).
Proof.
  intros ns. unfold finish. destruct ns as [|a t].
  - simpl. split; [constructor|]. split; [tauto|tauto].
  - set (ns := a :: t). destruct (unique (map n_name ns)) as [sorted p] eqn:U.
    destruct (unique_spec _ _ _ U) as [S [M _]].
    assert (R := rebuild_names ns (firstn p sorted) (fun x Hx => proj1 (M x) Hx)).
    rewrite R. split; [exact S|]. split; [exact M|].
    intros n. apply rebuild_in.
Qed.


Lemma filter_all_true : forall (A : Type) (l : list A), filter (fun _ => true) l = l.
Proof. induction l; simpl; congruence. Qed.

Lemma do_get_nodes_nil_all : forall kvs, do_get_nodes kvs [] true = kvs.
Proof.
  intros. unfold do_get_nodes. simpl.
  rewrite (filter_all_true node kvs). apply filter_all_true.
Qed.

Lemma get_node_find : forall st x, get_node st x = find (fun n => String.eqb (n_name n) x) (s_nodes st).
Proof.
  intros. unfold get_node. rewrite do_get_nodes_nil_all.
  induction (s_nodes st) as [|a l IH]; [reflexivity|]. simpl.
  destruct (String.eqb (n_name a) x); [reflexivity | exact IH].
Qed.
Lemma get_node_some : forall st x n, get_node st x = Some n -> In n (s_nodes st) /\ n_name n = x.
Proof. intros st x n H. rewrite get_node_find in H. apply find_some in H. rewrite String.eqb_eq in H. exact H. Qed.
Lemma get_node_none : forall st x, get_node st x = None <-> ~ In x (map n_name (s_nodes st)).
Proof.
  intros st x. rewrite get_node_find, in_map_iff. split.
  - intros H [n [E Hn]]. apply (find_none _ _ H) in Hn. rewrite E, String.eqb_refl in Hn. discriminate.
  - intro H. destruct (find _ _) as [n|] eqn:E; [|reflexivity].
    apply find_some in E. rewrite String.eqb_eq in E. elim H. exists n. tauto.
Qed.

Lemma get_all_some : forall st names ns, get_all st names = Some ns ->
  map n_name ns = names /\ (forall n, In n ns -> In n (s_nodes st)).
Proof.
  induction names as [|x t IH]; intros ns H; simpl in H.
  - inversion H; subst. split; [reflexivity|]. intros ? [].
  - destruct (get_node st x) as [n|] eqn:G; [|discriminate].
    destruct (get_all st t) as [r|] eqn:A; [|discriminate].
    inversion H; subst. destruct (IH _ eq_refl) as [I1 I2].
    destruct (get_node_some _ _ _ G) as [G1 G2].
    split; [simpl; congruence|]. intros m [<-|Hm]; auto.
Qed.
Lemma get_all_none : forall st names, get_all st names = None ->
  exists x, In x names /\ ~ In x (map n_name (s_nodes st)).
Proof.
  induction names as [|x t IH]; intro H; simpl in H; [discriminate|].
  destruct (get_node st x) as [n|] eqn:G.
  - destruct (get_all st t) as [r|] eqn:A; [discriminate|].
    destruct (IH eq_refl) as [y [Y1 Y2]]. exists y. split; [right|]; assumption.
  - exists x. split; [left; reflexivity|]. apply get_node_none. exact G.
Qed.
Lemma get_all_defined : forall st names,
  (forall x, In x names -> In x (map n_name (s_nodes st))) -> exists ns, get_all st names = Some ns.
Proof.
  intros st names H. destruct (get_all st names) as [ns|] eqn:E; [eexists; reflexivity|].
  destruct (get_all_none _ _ E) as [x [X1 X2]]. elim X2. apply H. exact X1.
Qed.


Definition store_wf (st : store) : Prop := NoDup (map n_name (s_nodes st)).

Definition pod_matches (st : store) (f : nfilter) (n : node) : Prop :=
  (f_pod f = ""%string /\ In (n_pod n) (s_pods st)) \/ (f_pod f <> ""%string /\ n_pod n = f_pod f).

(* a node of the store that the pod-based selection must return *)
Definition selected (st : store) (f : nfilter) (n : node) : Prop :=
  In n (s_nodes st) /\ pod_matches st f n /\
  labels_filter (n_labels n) (f_labels f) = true /\
  ~ In (n_name n) (f_excludes f) /\
  (f_all f = true \/ is_down n = false).

Lemma in_do_get_nodes : forall kvs labels all n,
  In n (do_get_nodes kvs labels all) <->
  In n kvs /\ labels_filter (n_labels n) labels = true /\ (all = true \/ is_down n = false).
Proof.
  intros. unfold do_get_nodes. rewrite !filter_In, orb_true_iff, negb_true_iff. tauto.
Qed.

Lemma in_nodes_of_pod : forall st pod n, In n (nodes_of_pod st pod) <-> In n (s_nodes st) /\ n_pod n = pod.
Proof. intros. unfold nodes_of_pod. rewrite filter_In, String.eqb_eq. reflexivity. Qed.

Lemma in_get_nodes_by_pod : forall st f n,
  In n (get_nodes_by_pod st f) <->
  In n (s_nodes st) /\ pod_matches st f n /\ labels_filter (n_labels n) (f_labels f) = true
  /\ (f_all f = true \/ is_down n = false).
Proof.
  intros st f n. unfold get_nodes_by_pod, pod_matches.
  destruct (String.eqb_spec (f_pod f) "") as [E|E]; simpl.
  - (* every pod of the store: n is listed under its own pod *)
    rewrite in_flat_map. split.
    + intros [pod [Hp Hn]]. rewrite in_do_get_nodes, in_nodes_of_pod in Hn. destruct Hn as [[Hn <-] R]. tauto.
    + intros [Hn [[[_ Hp]|[Ne _]] R]]; [|congruence].
      exists (n_pod n). rewrite in_do_get_nodes, in_nodes_of_pod. tauto.
  - rewrite in_do_get_nodes, in_nodes_of_pod. tauto.
Qed.

Lemma wf_same_name : forall st n m, store_wf st -> In n (s_nodes st) -> In m (s_nodes st) ->
  n_name n = n_name m -> n = m.
Proof.
  intros st n m W. unfold store_wf in W. induction (s_nodes st) as [|a t IH]; intros Hn Hm E; [destruct Hn|].
  simpl in W. inversion W as [|? ? Ha Wt]; subst.
  destruct Hn as [<-|Hn]; destruct Hm as [<-|Hm]; auto.
  - elim Ha. rewrite E. apply in_map. exact Hm.
  - elim Ha. rewrite <- E. apply in_map. exact Hn.
Qed.

Definition select_spec (st : store) (f : nfilter) (r : option (list node)) : Prop :=
  match r with
  | None => f_includes f <> [] /\ exists x, In x (f_includes f) /\ ~ In x (map n_name (s_nodes st))
  | Some ns =>
      (* each selected node once, in name order *)
      StronglySorted slt (map n_name ns) /\
      (forall n, In n ns -> In n (s_nodes st)) /\
      (* include list: exactly the named nodes, whatever the repeats and the order *)
      (f_includes f <> [] ->
         (forall x, In x (f_includes f) -> In x (map n_name (s_nodes st))) /\
         (forall x, In x (map n_name ns) <-> In x (f_includes f))) /\
      (* otherwise: the pod's (or every pod's) nodes with the labels, minus excludes,
         skipping down / bypassed nodes unless all was requested *)
      (f_includes f = [] -> forall n, In n ns <-> selected st f n)
  end.

(* the names a successful answer must consist of *)
Definition expected (st : store) (f : nfilter) (x : string) : Prop :=
  match f_includes f with
  | _ :: _ => In x (f_includes f)
  | [] => exists n, selected st f n /\ n_name n = x
  end.

Lemma spec_names : forall st f ns, select_spec st f (Some ns) ->
  forall x, In x (map n_name ns) <-> expected st f x.
Proof.
  intros st f ns [_ [_ [A B]]] x. unfold expected. destruct (f_includes f) as [|i0 it].
  - rewrite in_map_iff. split.
    + intros [n [E Hn]]. exists n. split; [apply B; [reflexivity | exact Hn] | exact E].
    + intros [n [Sel E]]. exists n. split; [exact E | apply B; [reflexivity | exact Sel]].
  - apply A. discriminate.
Qed.

Lemma same_names_same_nodes : forall st ns1 ns2, store_wf st ->
  (forall n, In n ns1 -> In n (s_nodes st)) -> (forall n, In n ns2 -> In n (s_nodes st)) ->
  map n_name ns1 = map n_name ns2 -> ns1 = ns2.
Proof.
  intros st ns1 ns2 W. revert ns2.
  induction ns1 as [|a t IH]; intros [|b u] I1 I2 E; try discriminate; [reflexivity|].
  injection E as Ea Et. f_equal.
  - apply (wf_same_name st); auto; [apply I1 | apply I2]; left; reflexivity.
  - apply IH; auto; intros n Hn; [apply I1 | apply I2]; right; exact Hn.
Qed.

(* without an include list: an empty exclude list excludes nothing *)
Lemma filter_nodes_pods : forall st f, f_includes f = [] ->
  filter_nodes st f
  = Some (finish (filter (fun n => negb (mem_str (n_name n) (f_excludes f))) (get_nodes_by_pod st f))).
Proof.
  intros st f E. unfold filter_nodes. rewrite E. destruct (f_excludes f); [|reflexivity].
  simpl. rewrite filter_all_true. reflexivity.
Qed.

Lemma filter_nodes_spec : forall st f, store_wf st -> select_spec st f (filter_nodes st f).
Proof.
  intros st f W. unfold select_spec. destruct (f_includes f) as [|i0 it] eqn:EI.
  - (* pod-based selection *)
    rewrite (filter_nodes_pods st f EI). set (kept := filter _ _).
    assert (Hkept : forall n, In n kept <-> selected st f n).
    { intro n. unfold kept, selected.
      rewrite filter_In, in_get_nodes_by_pod, negb_true_iff, <- (not_true_iff_false (mem_str _ _)), mem_str_In. tauto. }
    destruct (finish_spec kept) as [S [M I]].
    split; [exact S|]. split; [intros n Hn; apply I, Hkept in Hn; apply Hn|].
    split; [intro C; congruence|]. intros _ n. split; [intro Hn; apply Hkept, I, Hn|].
    (* finish keeps some node of that name: names being distinct, it is n *)
    intro Sel. pose proof (proj2 (Hkept n) Sel) as K.
    apply (in_map n_name), M, in_map_iff in K. destruct K as [m [Em Hm]].
    rewrite <- (wf_same_name st m n W); auto; [apply Hkept, I, Hm | apply Sel].
  - (* include list *)
    unfold filter_nodes. rewrite EI. destruct (get_all st (i0 :: it)) as [ns|] eqn:G.
    + destruct (get_all_some _ _ _ G) as [Names InSt].
      destruct (finish_spec ns) as [S [M I]].
      split; [exact S|]. split; [intros n Hn; apply InSt, I, Hn|].
      split; [|intro C; discriminate]. intros _. split.
      * intros x Hx. rewrite <- Names in Hx. apply in_map_iff in Hx. destruct Hx as [n [<- Hn]].
        apply in_map. apply InSt. exact Hn.
      * intro x. rewrite M, Names. tauto.
    + split; [discriminate|]. apply get_all_none. exact G.
Qed.

(* an answer is determined by the set of names it must consist of *)
Lemma answer_unique : forall st1 st2 f1 f2 ns1 ns2, store_wf st1 -> store_wf st2 ->
  (forall n, In n (s_nodes st1) -> In n (s_nodes st2)) ->
  (forall x, expected st1 f1 x <-> expected st2 f2 x) ->
  filter_nodes st1 f1 = Some ns1 -> filter_nodes st2 f2 = Some ns2 -> ns1 = ns2.
Proof.
  intros st1 st2 f1 f2 ns1 ns2 W1 W2 Sub Same H1 H2.
  pose proof (filter_nodes_spec st1 f1 W1) as P1. rewrite H1 in P1.
  pose proof (filter_nodes_spec st2 f2 W2) as P2. rewrite H2 in P2.
  pose proof (spec_names _ _ _ P1) as M1. pose proof (spec_names _ _ _ P2) as M2.
  destruct P1 as [S1 [I1 _]], P2 as [S2 [I2 _]].
  apply (same_names_same_nodes st2); auto. apply strictly_sorted_unique; auto.
  intro x. rewrite M1, M2. apply Same.
Qed.

Lemma includes_order_irrelevant : forall st f1 f2 ns1 ns2,
  store_wf st ->
  f_includes f1 <> [] -> f_includes f2 <> [] ->
  (forall x, In x (f_includes f1) <-> In x (f_includes f2)) ->
  filter_nodes st f1 = Some ns1 -> filter_nodes st f2 = Some ns2 -> ns1 = ns2.
Proof.
  intros st f1 f2 ns1 ns2 W N1 N2 Same. apply (answer_unique st st f1 f2); auto.
  unfold expected. destruct (f_includes f1); [congruence|]. destruct (f_includes f2); [congruence|]. exact Same.
Qed.

Lemma includes_defined_iff : forall st f, f_includes f <> [] ->
  (filter_nodes st f <> None <-> forall x, In x (f_includes f) -> In x (map n_name (s_nodes st))).
Proof.
  intros st f N. unfold filter_nodes. destruct (f_includes f) as [|i0 it] eqn:E; [congruence|]. split.
  - intros H x Hx. destruct (get_all st (i0 :: it)) as [ns|] eqn:G; [|congruence].
    destruct (get_all_some _ _ _ G) as [Names InSt]. rewrite <- Names in Hx.
    apply in_map_iff in Hx. destruct Hx as [n [<- Hn]]. apply in_map, InSt, Hn.
  - intro H. destruct (get_all_defined st (i0 :: it) H) as [ns ->]. discriminate.
Qed.

Lemma selected_incl : forall st1 st2 f n,
  (forall m, In m (s_nodes st1) -> In m (s_nodes st2)) -> (forall p, In p (s_pods st1) -> In p (s_pods st2)) ->
  selected st1 f n -> selected st2 f n.
Proof.
  intros st1 st2 f n HN HP [Hn [Hp R]]. split; [apply HN, Hn|]. split; [|exact R].
  destruct Hp as [[E Hp]|Hp]; [left; split; [exact E | apply HP, Hp] | right; exact Hp].
Qed.

Lemma store_order_irrelevant : forall st1 st2 f ns1 ns2,
  store_wf st1 -> store_wf st2 ->
  (forall n, In n (s_nodes st1) <-> In n (s_nodes st2)) ->
  (forall p, In p (s_pods st1) <-> In p (s_pods st2)) ->
  filter_nodes st1 f = Some ns1 -> filter_nodes st2 f = Some ns2 -> ns1 = ns2.
Proof.
  intros st1 st2 f ns1 ns2 W1 W2 SameN SameP. apply (answer_unique st1 st2 f f); auto; [apply SameN|].
  intro x. unfold expected. destruct (f_includes f); [|reflexivity].
  split; intros [n [Sel E]]; exists n; (split; [|exact E]); revert Sel; apply selected_incl; intro; (apply SameN || apply SameP).
Qed.

(* the finding, on the model of the code before the repair *)

Definition n3 (x : string) : node := mkNode x "p" [] true false false.
Definition st3 : store := mkStore ["p"%string] [n3 "a"; n3 "b"; n3 "c"].
Definition f_dup : nfilter := mkFilter "" ["a"; "a"; "b"]%string [] [] false.

Lemma old_code_refuted :
  exists st f ns, store_wf st /\ filter_nodes_old st f = Some ns /\ ~ select_spec st f (Some ns).
Proof.
  exists st3, f_dup, [n3 "a"; n3 "a"]. split; [|split].
  - unfold store_wf. simpl. repeat constructor; simpl; intuition discriminate.
  - vm_compute. reflexivity.
  - intros [S _]. simpl in S. inversion S as [|? ? _ F]; subst. inversion F as [|? ? L _]; subst.
    vm_compute in L. discriminate.
Qed.

Lemma new_code_on_witness : option_map (map n_name) (filter_nodes st3 f_dup) = Some ["a"; "b"]%string.
Proof. vm_compute. reflexivity. Qed.

Lemma strictly_sorted_iff : forall l, strictly_sorted l = true <-> StronglySorted slt l.
Proof.
  induction l as [|x t IH]; simpl; [split; [constructor|reflexivity]|].
  destruct t as [|y u].
  - split; [intros _; constructor; constructor | reflexivity].
  - rewrite andb_true_iff, IH. split.
    + intros [L S]. constructor; [exact S|]. constructor; [exact L|].
      inversion S as [|? ? _ F]; subst. rewrite Forall_forall in F |- *. intros z Hz.
      unfold slt in *. eapply str_ltb_trans; [exact L | apply F; exact Hz].
    + intro S. inversion S as [|? ? St F]; subst. inversion F; subst. split; assumption.
Qed.

Lemma in_store_iff : forall st x, in_store st x = true <-> In x (map n_name (s_nodes st)).
Proof.
  intros. unfold in_store. rewrite existsb_exists, in_map_iff. split; intros [n [A B]]; exists n.
  - apply String.eqb_eq in B. tauto.
  - split; [tauto|]. apply String.eqb_eq. tauto.
Qed.

Lemma pod_selected_iff : forall st f n, In n (s_nodes st) ->
  (pod_selected st f n = true <-> selected st f n).
Proof.
  intros st f n Hn. unfold pod_selected, selected.
  rewrite !andb_true_iff, orb_true_iff, !negb_true_iff, <- (not_true_iff_false (mem_str _ _)), mem_str_In.
  assert (P : (if String.eqb (f_pod f) "" then mem_str (n_pod n) (s_pods st) else String.eqb (n_pod n) (f_pod f)) = true
              <-> pod_matches st f n).
  { unfold pod_matches. destruct (String.eqb_spec (f_pod f) ""); [rewrite mem_str_In | rewrite String.eqb_eq]; tauto. }
  rewrite P. tauto.
Qed.

Lemma expected_member_iff : forall st f x, expected_member st f x = true <-> expected st f x.
Proof.
  intros. unfold expected_member, expected. destruct (f_includes f); [|apply mem_str_In].
  rewrite existsb_exists. split; intros [n H]; exists n.
  - destruct H as [Hn H]. apply andb_true_iff in H. rewrite String.eqb_eq in H.
    split; [apply pod_selected_iff; tauto | tauto].
  - destruct H as [Sel <-]. split; [apply Sel|]. rewrite String.eqb_refl. apply pod_selected_iff; [apply Sel | exact Sel].
Qed.
Lemma expected_names_iff : forall st f x, In x (expected_names st f) <-> expected st f x.
Proof.
  intros. unfold expected_names, expected. destruct (f_includes f); [|reflexivity].
  rewrite in_map_iff. split; intros [n H]; exists n.
  - destruct H as [<- H]. apply filter_In in H. split; [apply pod_selected_iff; tauto | reflexivity].
  - destruct H as [Sel <-]. split; [reflexivity|]. apply filter_In.
    split; [apply Sel | apply pod_selected_iff; [apply Sel | exact Sel]].
Qed.

(* select_ok accepts exactly the name lists allowed by select_spec *)
Lemma select_ok_some_iff : forall st f names,
  select_ok st f (Some names) = true <->
  StronglySorted slt names /\ forall x, In x names <-> expected st f x.
Proof.
  intros st f names. unfold select_ok. rewrite !andb_true_iff, strictly_sorted_iff, !forallb_forall. split.
  - intros [[S A] B]. split; [exact S|]. intro x. split.
    + intro Hx. apply expected_member_iff, A, Hx.
    + intro Hx. apply mem_str_In, B, expected_names_iff, Hx.
  - intros [S A]. repeat split; [exact S | |]; intros x Hx.
    + apply expected_member_iff, A, Hx.
    + apply mem_str_In, A, expected_names_iff, Hx.
Qed.

Lemma select_ok_on_model : forall st f, store_wf st ->
  select_ok st f (option_map (map n_name) (filter_nodes st f)) = true.
Proof.
  intros st f W. pose proof (filter_nodes_spec st f W) as P.
  destruct (filter_nodes st f) as [ns|]; simpl option_map.
  - apply select_ok_some_iff. split; [apply P | apply (spec_names _ _ _ P)].
  - destruct P as [N [x [X1 X2]]]. simpl. destruct (f_includes f) as [|i0 it]; [congruence|].
    apply existsb_exists. exists x. split; [exact X1|]. apply negb_true_iff.
    destruct (in_store st x) eqn:E; [|reflexivity]. apply in_store_iff in E. contradiction.
Qed.

(* hypotheses are satisfiable: a well-formed store with a down node and a bypassed node *)
Example select_example :
  let st := mkStore ["p"%string]
     [mkNode "a" "p" [] true false false; mkNode "b" "p" [] true true false;
      mkNode "c" "p" [] false false false; mkNode "d" "p" [] false false true] in
  store_wf st /\
  option_map (map n_name) (filter_nodes st (mkFilter "p" [] [] [] false)) = Some ["a"; "d"]%string /\
  option_map (map n_name) (filter_nodes st (mkFilter "p" [] ["a"%string] [] true)) = Some ["b"; "c"; "d"]%string /\
  option_map (map n_name) (filter_nodes st (mkFilter "" ["d"; "b"; "d"]%string [] [] false)) = Some ["b"; "d"]%string.
Proof.
  split; [|vm_compute; auto].
  unfold store_wf. simpl. repeat constructor; simpl; intuition discriminate.
Qed.
