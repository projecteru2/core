(* Proofs about the Txn/PCR model: the [Prop]-level statement of C17.  A run is the
   condition step, then at most one follow-up, then at most one rollback; what the
   statements say about counts, order and membership holds of every list of that shape,
   and which of the two optional steps run is a finite table over the outcomes. *)
From Coq Require Import List Bool.
From Verif Require Import Utils.Txn.
Import ListNotations.

Definition ran (s : step) (evs : list ev) : Prop := In s (map who evs).
Definition a_step_failed (cnd thn : outcome) : Prop :=
  cnd = Failr \/ (cnd = Succeed /\ thn = Failr).

(* Prop-level statement of the property for utils.Txn *)
Definition txn_spec (cnd thn rb : outcome) (cp : cpoint) (ca : cause) : Prop :=
  let evs := fst (txn cnd thn rb cp ca) in
  let res := snd (txn cnd thn rb cp ca) in
  (* the condition step always runs, first, under the caller-derived context *)
  (exists e rest, evs = e :: rest /\ who e = SCond /\ kind e = Derived /\ count_step SCond evs = 1) /\
  (* follow-up runs (once) only if condition succeeded (and exists) *)
  (ran SThen evs <-> (cnd = Succeed /\ thn <> Absent)) /\
  (count_step SThen evs <= 1) /\
  (* rollback runs exactly once iff a step failed (and rollback exists), else never *)
  (count_step SRollback evs = 1 <-> (a_step_failed cnd thn /\ rb <> Absent)) /\
  (count_step SRollback evs <= 1) /\
  (* rollback is last, is told whether cond was the failing step, and runs under a
     context the caller's cancellation or deadline cannot reach (it is never
     expired on entry; it can only expire by outliving its own fresh ttl) *)
  (forall e, In e evs -> who e = SRollback ->
      flag e = failed cnd /\ kind e = Detached /\ c_entry e = false /\ (ca <> ByTtl -> c_exit e = false)
      /\ exists front, evs = front ++ [e]) /\
  (* follow-up context is detached iff no rollback supplied *)
  (forall e, In e evs -> who e = SThen -> (kind e = Detached <-> rb = Absent)) /\
  (* the first failure is returned; a rollback failure never surfaces *)
  (res = match cnd, thn with Failr, _ => RCondErr | _, Failr => RThenErr | _, _ => RNil end).

Lemma shape_spec : forall c t r (bt br : bool),
  who c = SCond -> who t = SThen -> who r = SRollback ->
  let evs := (c :: if bt then [t] else []) ++ (if br then [r] else []) in
  count_step SCond evs = 1 /\
  (ran SThen evs <-> bt = true) /\ count_step SThen evs <= 1 /\
  (count_step SRollback evs = 1 <-> br = true) /\ count_step SRollback evs <= 1 /\
  (forall e, In e evs -> who e = SThen -> e = t) /\
  (forall e, In e evs -> who e = SRollback -> e = r /\ br = true).
Proof.
  intros c t r bt br Hc Ht Hr. unfold count_step, ran.
  destruct bt, br; cbn [app filter map length In]; rewrite Hc, ?Ht, ?Hr; cbn [step_eqb length];
    intuition (subst; auto; congruence).
Qed.

(* a step under a detached context is never entered with an expired context, and only
   the step's own ttl can expire it *)
Lemma detached_uninterrupted : forall cp ca s fl, let e := mk cp ca s fl Detached in
  c_entry e = false /\ (ca <> ByTtl -> c_exit e = false).
Proof. intros cp ca s fl. split; [reflexivity|]. destruct ca; [reflexivity|reflexivity|congruence]. Qed.

Definition then_runs (cnd thn : outcome) : bool := negb (failed cnd) && negb (outcome_eqb thn Absent).
Definition rb_runs (cnd thn rb : outcome) : bool :=
  (failed cnd || then_runs cnd thn && failed thn) && negb (outcome_eqb rb Absent).

Lemma txn_eq : forall cnd thn rb cp ca,
  txn cnd thn rb cp ca =
  ((mk cp ca SCond false Derived
     :: if then_runs cnd thn then [mk cp ca SThen false (if outcome_eqb rb Absent then Detached else Derived)] else [])
   ++ (if rb_runs cnd thn rb then [mk cp ca SRollback (failed cnd) Detached] else []),
   if failed cnd then RCondErr else if then_runs cnd thn && failed thn then RThenErr else RNil).
Proof. reflexivity. Qed.

Lemma present_spec : forall o, negb (outcome_eqb o Absent) = true <-> o <> Absent.
Proof. intros []; cbn; intuition congruence. Qed.

Lemma then_runs_spec : forall cnd thn, cnd <> Absent ->
  (then_runs cnd thn = true <-> cnd = Succeed /\ thn <> Absent).
Proof.
  intros cnd thn H. unfold then_runs. rewrite andb_true_iff, present_spec.
  destruct cnd; cbn; intuition congruence.
Qed.

Lemma rb_runs_spec : forall cnd thn rb, cnd <> Absent ->
  (rb_runs cnd thn rb = true <-> a_step_failed cnd thn /\ rb <> Absent).
Proof.
  intros cnd thn rb H. unfold rb_runs, a_step_failed. rewrite andb_true_iff, present_spec.
  destruct cnd, thn; cbn; intuition congruence.
Qed.

Lemma txn_spec_holds : forall cnd thn rb cp ca, cnd <> Absent -> txn_spec cnd thn rb cp ca.
Proof.
  intros cnd thn rb cp ca Hc. unfold txn_spec. rewrite txn_eq. cbn [fst snd].
  match goal with |- context [(?c :: if ?bt then [?t] else []) ++ (if ?br then [?r] else [])] =>
    destruct (shape_spec c t r bt br eq_refl eq_refl eq_refl) as (C1 & T1 & T2 & R1 & R2 & Ht & Hr) end.
  split; [do 2 eexists; repeat split; exact C1|].
  split; [rewrite T1; apply then_runs_spec; exact Hc|]. split; [exact T2|].
  split; [rewrite R1; apply rb_runs_spec; exact Hc|]. split; [exact R2|].
  split; [|split].
  - intros e He Hw. destruct (Hr e He Hw) as [-> Hb].
    split; [reflexivity|]. split; [reflexivity|]. split; [apply detached_uninterrupted|].
    split; [apply detached_uninterrupted|]. rewrite Hb. eexists. reflexivity.
  - intros e He Hw. rewrite (Ht e He Hw). destruct rb; cbn; split; congruence.
  - destruct cnd, thn; try reflexivity; congruence.
Qed.

(* PCR: rollback runs (once) iff prepare succeeded and commit failed *)
Definition pcr_spec (prep com rb : outcome) (cp : cpoint) (ca : cause) : Prop :=
  let evs := fst (pcr prep com rb cp ca) in
  let res := snd (pcr prep com rb cp ca) in
  (count_step SRollback evs = 1 <-> (prep = Succeed /\ com = Failr)) /\
  (count_step SRollback evs <= 1) /\
  (ran SThen evs <-> prep = Succeed) /\
  (forall e, In e evs -> who e = SRollback -> c_entry e = false /\ (ca <> ByTtl -> c_exit e = false)) /\
  (res = match prep, com with Failr, _ => RCondErr | _, Failr => RThenErr | _, _ => RNil end).

(* the wrapper hides the rollback call made after a failed prepare *)
Lemma pcr_eq : forall prep com rb cp ca, prep <> Absent -> com <> Absent ->
  pcr prep com rb cp ca =
  ((mk cp ca SCond false Derived :: if negb (failed prep) then [mk cp ca SThen false Derived] else [])
   ++ (if negb (failed prep) && failed com then [mk cp ca SRollback false Detached] else []),
   if failed prep then RCondErr else if failed com then RThenErr else RNil).
Proof. intros [] [] rb cp ca H1 H2; try reflexivity; congruence. Qed.

Lemma pcr_spec_holds : forall prep com rb cp ca,
  prep <> Absent -> com <> Absent -> rb <> Absent -> pcr_spec prep com rb cp ca.
Proof.
  intros prep com rb cp ca H1 H2 _. unfold pcr_spec. rewrite pcr_eq by assumption. cbn [fst snd].
  match goal with |- context [(?c :: if ?bt then [?t] else []) ++ (if ?br then [?r] else [])] =>
    destruct (shape_spec c t r bt br eq_refl eq_refl eq_refl) as (_ & T1 & _ & R1 & R2 & _ & Hr) end.
  split; [rewrite R1; destruct prep, com; cbn; intuition congruence|]. split; [exact R2|].
  split; [rewrite T1; destruct prep; cbn; intuition congruence|].
  split; [intros e He Hw; destruct (Hr e He Hw) as [-> _]; apply detached_uninterrupted|].
  destruct prep, com; try reflexivity; congruence.
Qed.

(* the boolean reflection used by the correspondence check accepts the model's own output
   (the point of cancellation only enters through [mk], which the check never forces) *)
Lemma txn_ok_model : forall cnd thn rb cp ca, cnd <> Absent ->
  txn_ok cnd thn rb ca (fst (txn cnd thn rb cp ca)) (snd (txn cnd thn rb cp ca)) = true.
Proof.
  intros cnd thn rb cp ca Hc. destruct cnd; [congruence| |]; destruct thn, rb, ca; reflexivity.
Qed.

Lemma pcr_ok_model : forall prep com rb cp ca,
  prep <> Absent -> com <> Absent -> rb <> Absent ->
  pcr_ok prep com rb ca (fst (pcr prep com rb cp ca)) (snd (pcr prep com rb cp ca)) = true.
Proof.
  intros prep com rb cp ca H1 H2 _.
  destruct prep; [congruence| |]; (destruct com; [congruence| |]); destruct ca; reflexivity.
Qed.

(* non-vacuity: a concrete run with a failing follow-up and caller cancellation
   during it: rollback runs once, flag false, uninterruptible *)
Example txn_example :
  txn Succeed Failr Succeed InThen ByCancel =
  ([mkEv SCond false Derived false false; mkEv SThen false Derived false true;
    mkEv SRollback false Detached false false], RThenErr).
Proof. reflexivity. Qed.
