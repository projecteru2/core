(* Cobalt/ReallocProofs.v — C33: refutation witnesses (NUMA, fractional) of the
   full statement on the faithful model of CalculateRealloc, and the part that
   holds (realloc_keeps_cores, realloc_keeps_cores_numa) from
   Cobalt/AffinityProofs.v. *)
From Coq Require Import String List ZArith Lia.
From Verif Require Import Base.GoFloat Cpumem.Types Cpumem.Schedule Cpumem.Node Cobalt.Merge Cobalt.Realloc.
Import ListNotations.
Local Open Scope Z_scope.
Local Open Scope string_scope.

Definition f1 : f64 := f_of_Z 1.
Definition keep_req : wreq := mkReq false true f_zero f_zero 0 0.

(* (i) NUMA.  4 whole cores, cores 0,2 on NUMA node "0" and 1,3 on node "1"; one
   workload bound to core 1 (node "1", 100 memory).  When the NUMA iteration
   visits node "0" first, plans[0] comes from node "0": the workload moves to
   core 0 / node "0".  (Witness replayed on the real code: the corpus of
   harness/c08/c33_test.go.) *)
Definition numa_cap : node_resource :=
  mkNR (f_of_Z 4) [("0", 100); ("1", 100); ("2", 100); ("3", 100)] 4000 [("0", 2000); ("1", 2000)]
       [("0", "0"); ("1", "1"); ("2", "0"); ("3", "1")].
Definition numa_usage : node_resource :=
  mkNR f1 [("0", 0); ("1", 100); ("2", 0); ("3", 0)] 100 [("0", 0); ("1", 100)]
       [("0", "0"); ("1", "1"); ("2", "0"); ("3", "1")].
Definition numa_origin : wres := mkWR f1 f1 100 100 [("1", 100)] [("1", 100)] "1".

Definition numa_info : node_info := mkNI numa_cap numa_usage.
Definition numa_run (order : list string) :=
  calculate_realloc numa_info 100 (-1) numa_origin keep_req order (default_fuel (put_back numa_info numa_origin)).

Lemma numa_witness :
  match numa_run ["0"; "1"] with
  | Ok (inr (new, _)) => keeps_cores numa_origin new = false
  | _ => False
  end /\ In ["0"; "1"] (perms (numa_nodes numa_info)).
Proof. split; vm_compute; auto. Qed.

(* with the other order the cores are kept: the answer depends on Go's map order *)
Lemma numa_witness_other_order :
  match numa_run ["1"; "0"] with
  | Ok (inr (new, _)) => keeps_cores numa_origin new = true
  | _ => False
  end.
Proof. vm_compute. reflexivity. Qed.

(* since /repo 3d8e6c0 GetCPUPlans visits the origin's NUMA node first: with the
   order the code uses now the witness keeps its cores and its NUMA node *)
Lemma numa_witness_now :
  numa_visit_order (put_back numa_info numa_origin) (wr_cpumap numa_origin) = ["1"; "0"] /\
  match numa_run (numa_visit_order (put_back numa_info numa_origin) (wr_cpumap numa_origin)) with
  | Ok (inr (new, _)) => keeps_cores numa_origin new = true
  | _ => False
  end.
Proof. split; vm_compute; reflexivity. Qed.

(* (i') NUMA memory.  Same node; the workload on core 1 (node "1", 100 memory)
   asks for 1950 more memory: node "1" has only 2000, so no plan comes from it and
   the request is granted across NUMA nodes: same core, NUMA node cleared (on the
   current code, with the order it uses). *)
Definition grow_req : wreq := mkReq false true f_zero f_zero 1950 1950.
Lemma numa_memory_witness :
  match calculate_realloc numa_info 100 (-1) numa_origin grow_req
          (numa_visit_order (put_back numa_info numa_origin) (wr_cpumap numa_origin))
          (default_fuel (put_back numa_info numa_origin)) with
  | Ok (inr (new, _)) => keeps_cores numa_origin new = false /\ wr_numanode new = ""
  | _ => False
  end.
Proof. vm_compute. split; reflexivity. Qed.

(* (ii) fractional bound workload, no NUMA.  4 whole cores; one workload of 1.5
   cpu holding 50 pieces of core 0 and all of core 1.  After the origin is put
   back the planner hands out core 0 whole and 50 pieces of core 1. *)
Definition f15 : f64 := fdiv (f_of_Z 3) (f_of_Z 2).
Definition frac_cap : node_resource := mkNR (f_of_Z 4) [("0", 100); ("1", 100); ("2", 100); ("3", 100)] 4000 [] [].
Definition frac_usage : node_resource := mkNR f15 [("0", 50); ("1", 100); ("2", 0); ("3", 0)] 0 [] [].
Definition frac_origin : wres := mkWR f15 f15 0 0 [("0", 50); ("1", 100)] [] "".

Definition frac_info : node_info := mkNI frac_cap frac_usage.
Definition frac_run :=
  calculate_realloc frac_info 100 (-1) frac_origin keep_req [] (default_fuel (put_back frac_info frac_origin)).

Lemma frac_witness :
  match frac_run with
  | Ok (inr (new, _)) => keeps_cores frac_origin new = false
  | _ => False
  end /\ numa_nodes frac_info = [].
Proof. split; vm_compute; reflexivity. Qed.

From Verif Require Import Cobalt.AffinityProofs.

Lemma realloc_bind_keep origin raw : rq_keep raw = true -> wr_cpumap origin <> [] -> realloc_bind origin raw = true.
Proof. unfold realloc_bind. intros -> H. destruct (wr_cpumap origin); [congruence|reflexivity]. Qed.

Theorem realloc_keeps_cores sortf (info : node_info) (base maxshare : Z) (origin : wres) (raw nr : wreq)
    (fuel : nat) (new d : wres) :
  0 < base ->
  nr_numa (ni_cap info) = [] ->
  rq_keep raw = true ->
  wr_cpumap origin <> [] -> NoDup (keys (wr_cpumap origin)) ->
  (forall c v, In (c, v) (wr_cpumap origin) -> v = base) ->
  (* after the origin is put back its cores are whole free cores *)
  NoDup (keys (nr_cpumap (get_available_nofloat (put_back info origin)))) ->
  (forall c, In c (keys (wr_cpumap origin)) ->
             lookup_opt (nr_cpumap (get_available_nofloat (put_back info origin))) c = Some base) ->
  (* no cpu change: the validated new request asks for as many whole cores as the origin holds *)
  wreq_validate (realloc_newreq origin raw) = inr nr ->
  pieces_request base (rq_cpu_req nr) = base * Z.of_nat (List.length (wr_cpumap origin)) ->
  calculate_realloc_g sortf info base maxshare origin raw [] fuel = Ok (inr (new, d)) ->
  wr_numanode new = EmptyString /\ forall k, lookup_opt (wr_cpumap new) k = lookup_opt (wr_cpumap origin) k.
Proof.
  intros Hb Hn Hk Hne Hnd Hbase Hav Hfree V Hreq.
  unfold calculate_realloc_g. rewrite V.
  rewrite (realloc_bind_keep origin raw Hk Hne).
  destruct (get_cpu_plans_g sortf (put_back info origin) (wr_cpumap origin) base maxshare nr [] fuel) as [plans| | |] eqn:P;
    cbn [bind]; try discriminate.
  destruct (first_plan_is_origin sortf base maxshare (put_back info origin) (wr_cpumap origin) nr fuel
              Hb Hne Hnd Hbase Hreq plans Hn Hav Hfree P) as [->|[p [rest [-> L]]]].
  - discriminate.
  - intro E. injection E as <- _. simpl. split; [reflexivity|exact L].
Qed.

(* the same with a NUMA topology, the origin's NUMA node [nu] visited first (as
   GetCPUPlans does since /repo 3d8e6c0): a granted realloc stays on the origin's
   cores and on node [nu], unless node [nu] itself yields no plan (its memory
   cannot hold the new request): then the answer comes from elsewhere *)
Theorem realloc_keeps_cores_numa sortf (info : node_info) (base maxshare : Z) (origin : wres) (raw nr : wreq)
    (nu : string) (order : list string) (fuel : nat) (new d : wres) :
  0 < base ->
  rq_keep raw = true ->
  nu <> EmptyString ->
  wr_cpumap origin <> [] -> NoDup (keys (wr_cpumap origin)) ->
  (forall c v, In (c, v) (wr_cpumap origin) -> v = base) ->
  let info' := put_back info origin in
  let avail := get_available_nofloat info' in
  let numamap := numa_cpu_map (nr_numa (ni_cap info)) (nr_cpumap avail) nu in
  let numamem := Z.min (Types.lookup 0 (nr_numamem avail) nu) (nr_mem avail) in
  NoDup (keys numamap) ->
  (forall c, In c (keys (wr_cpumap origin)) -> lookup_opt numamap c = Some base) ->
  wreq_validate (realloc_newreq origin raw) = inr nr ->
  pieces_request base (rq_cpu_req nr) = base * Z.of_nat (List.length (wr_cpumap origin)) ->
  calculate_realloc_g sortf info base maxshare origin raw (nu :: order) fuel = Ok (inr (new, d)) ->
  (wr_numanode new = nu /\ wr_numamem new = [(nu, rq_mem_req nr)] /\
   forall k, lookup_opt (wr_cpumap new) k = lookup_opt (wr_cpumap origin) k)
  \/ do_get_cpu_plans_g sortf (wr_cpumap origin) numamap numamem base maxshare (rq_cpu_req nr) (rq_mem_req nr) fuel = Ok [].
Proof.
  intros Hb Hk Hnu Hne Hnd Hbase info' avail numamap numamem Hav Hfree V Hreq.
  unfold calculate_realloc_g. rewrite V.
  rewrite (realloc_bind_keep origin raw Hk Hne). fold info'.
  destruct (get_cpu_plans_g sortf info' (wr_cpumap origin) base maxshare nr (nu :: order) fuel) as [plans| | |] eqn:P;
    cbn [bind]; try discriminate.
  destruct (first_plan_is_origin_numa sortf base maxshare info' (wr_cpumap origin) nr fuel Hb Hne Hnd Hbase Hreq nu order plans Hav Hfree P)
    as [[p [rest [-> L]]]|E].
  - intro H. injection H as <- _. left. cbn [wr_numanode wr_numamem wr_cpumap].
    split; [reflexivity|]. split; [|exact L]. destruct nu; [congruence|reflexivity].
  - intros _. right. exact E.
Qed.

(* the hypotheses are satisfiable: 4 whole cores, a workload on cores 2 and 3, +50 memory *)
Example realloc_keeps_cores_example :
  let cap := mkNR (f_of_Z 4) [("0", 100); ("1", 100); ("2", 100); ("3", 100)] 4000 [] [] in
  let usage := mkNR (f_of_Z 2) [("0", 0); ("1", 0); ("2", 100); ("3", 100)] 100 [] [] in
  let origin := mkWR (f_of_Z 2) (f_of_Z 2) 100 100 [("2", 100); ("3", 100)] [] "" in
  let raw := mkReq false true f_zero f_zero 50 50 in
  match calculate_realloc (mkNI cap usage) 100 (-1) origin raw [] (default_fuel (put_back (mkNI cap usage) origin)) with
  | Ok (inr (new, _)) => keeps_cores origin new = true /\ wr_mem_req new = 150
  | _ => False
  end.
Proof. vm_compute. split; reflexivity. Qed.

From Verif Require Import Cpumem.BookProofs.

(* a node whose cores have whole-core shares, with the origin recorded on whole
   cores that it alone occupies: after the put-back those cores are whole free cores *)
Lemma avail_after_put_back (info : node_info) (origin : wres) (base : Z) :
  NoDup (keys (nr_cpumap (ni_cap info))) ->
  NoDup (keys (nr_cpumap (ni_usage info))) ->
  NoDup (keys (wr_cpumap origin)) ->
  (forall c, In c (keys (nr_cpumap (ni_usage info))) -> In c (keys (nr_cpumap (ni_cap info)))) ->
  (forall c, In c (keys (wr_cpumap origin)) -> In c (keys (nr_cpumap (ni_usage info)))) ->
  (forall c, In c (keys (wr_cpumap origin)) ->
     Types.lookup 0 (nr_cpumap (ni_cap info)) c = base /\ Types.lookup 0 (nr_cpumap (ni_usage info)) c = base
     /\ Types.lookup 0 (wr_cpumap origin) c = base) ->
  let av := nr_cpumap (get_available_nofloat (put_back info origin)) in
  NoDup (keys av) /\ forall c, In c (keys (wr_cpumap origin)) -> lookup_opt av c = Some base.
Proof.
  intros NC NU NO SUB OSUB VAL av.
  unfold av, get_available_nofloat, nr_sub_nofloat, put_back, nr_sub, nr_of_wres. cbn [ni_cap ni_usage nr_cpumap].
  set (u' := cpumap_sub (nr_cpumap (ni_usage info)) (wr_cpumap origin)).
  assert (KU : keys u' = keys (nr_cpumap (ni_usage info))) by (apply keys_cpumap_sub; exact OSUB).
  assert (KA : keys (cpumap_sub (nr_cpumap (ni_cap info)) u') = keys (nr_cpumap (ni_cap info))).
  { apply keys_cpumap_sub. intros k Hk. rewrite KU in Hk. apply SUB. exact Hk. }
  split; [rewrite KA; exact NC|].
  intros c Hc. destruct (VAL c Hc) as (V1 & V2 & V3).
  rewrite lookup_opt_of_key by (rewrite KA; apply SUB, OSUB, Hc). f_equal.
  rewrite lookup_cpumap_sub by (rewrite KU; exact NU). unfold u'. rewrite lookup_cpumap_sub by exact NO. lia.
Qed.
