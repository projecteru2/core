(* Cobalt/MergeErrorProofs.v — C09 for three or more plugins: binary64 addition
   is not associative, so the aggregated usage / rate / weight may differ between
   answer orders; this file bounds the difference.

   For non-negative values and weights and n answers, the weighted sum computed
   in binary64 (products rounded, then summed left to right in ANY order) is
   within  EA(n-1) * T + EB(n-1)  of the exact sum T, where EA(k) ~ (2k+1) * 2^-53
   and EB(k) ~ (2k+1) * eta, eta = 2^-100 standing in (generously) for the
   underflow unit.  Hence the results for two orders differ by at most twice
   that, i.e. a few units in the last place. *)
From Coq Require Import Reals Psatz Permutation List.
From Flocq Require Import Core IEEE754.BinarySingleNaN IEEE754.Binary IEEE754.Bits.
From Verif Require Import Base.GoFloat Cpumem.BookGridProofs Cobalt.Merge Cobalt.MergeProofs.
Import ListNotations.
Local Open Scope R_scope.

Fixpoint EA (k : nat) : R := match k with O => eps | S j => EA j * (1 + eps) + (2 * eps + eps * eps) end.
Fixpoint EB (k : nat) : R := match k with O => eta | S j => EB j * (1 + eps) + eta * (2 + eps) end.

Lemma eps_pos : 0 < eps. Proof. unfold eps. lra. Qed.
Lemma eta_pos : 0 < eta. Proof. unfold eta. lra. Qed.
Lemma EA_pos k : 0 < EA k.
Proof. pose proof eps_pos. induction k; simpl; nra. Qed.

Definition rsum (acc : R) (ps : list R) : R := fold_left (fun a p => rnd (a + p)) ps acc.
Definition Rsum' (l : list R) : R := fold_right Rplus 0 l.

(* p is the rounded version of the exact non-negative term t *)
Definition good (p t : R) : Prop := 0 <= t /\ Rabs (p - t) <= eps * t + eta.

Lemma Rsum'_nonneg ps ts : Forall2 good ps ts -> 0 <= Rsum' ts.
Proof. induction 1 as [|p t ps ts [H0 _] _ IH]; simpl; lra. Qed.

Lemma Rabs_triang3 x y z : Rabs (x + (y + z)) <= Rabs x + Rabs y + Rabs z.
Proof. pose proof (Rabs_triang x (y + z)). pose proof (Rabs_triang y z). lra. Qed.

(* one more rounded addition: with [e2] the error of the accumulator, [e1] that
   of the new term and [e4] the rounding error of their sum, a relative error
   [a] becomes a (1 + eps) + 2 eps + eps^2 *)
Lemma step_bound a b T t e1 e2 e4 : 0 <= a -> 0 <= T -> 0 <= t -> 0 <= e1 -> 0 <= e2 ->
  e2 <= a * T + b -> e1 <= eps * t + eta -> e4 <= eps * (T + t + e2 + e1) + eta ->
  e4 + e2 + e1 <= (a * (1 + eps) + (2 * eps + eps * eps)) * (T + t) + (b * (1 + eps) + eta * (2 + eps)).
Proof.
  intros Ha HT Ht H1 H2 B2 B1 B4. unfold eps, eta in *.
  assert (0 <= a * t) by nra. assert (0 <= a * T) by nra. nra.
Qed.

Lemma rsum_err : forall ps ts acc Tacc k, Forall2 good ps ts -> 0 <= Tacc ->
  Rabs (acc - Tacc) <= EA k * Tacc + EB k ->
  Rabs (rsum acc ps - (Tacc + Rsum' ts)) <= EA (k + length ps) * (Tacc + Rsum' ts) + EB (k + length ps).
Proof.
  induction ps as [|p ps IH]; intros ts acc Tacc k F HT HE; inversion F as [|? t ? ts' [Ht Hp] F']; subst; simpl.
  - rewrite Nat.add_0_r, Rplus_0_r. exact HE.
  - rewrite Nat.add_succ_r. change (S (k + length ps)) with (S k + length ps)%nat.
    replace (Tacc + (t + Rsum' ts')) with ((Tacc + t) + Rsum' ts') by ring.
    apply IH; [exact F'|lra|]. cbn [EA EB].
    replace (rnd (acc + p) - (Tacc + t)) with ((rnd (acc + p) - (acc + p)) + ((acc - Tacc) + (p - t))) by ring.
    eapply Rle_trans; [apply Rabs_triang3|].
    apply step_bound; try assumption; try apply Rabs_pos; [apply Rlt_le, EA_pos|].
    eapply Rle_trans; [apply rnd_err|].
    apply Rplus_le_compat_r, Rmult_le_compat_l; [apply Rlt_le, eps_pos|].
    replace (acc + p) with ((Tacc + t) + ((acc - Tacc) + (p - t))) by ring.
    eapply Rle_trans; [apply Rabs_triang3|]. rewrite (Rabs_pos_eq (Tacc + t)) by lra. lra.
Qed.

Theorem rsum_bound p1 t1 ps ts : good p1 t1 -> Forall2 good ps ts ->
  Rabs (rsum p1 ps - (t1 + Rsum' ts)) <= EA (length ps) * (t1 + Rsum' ts) + EB (length ps).
Proof.
  intros [H0 H1] F. apply (rsum_err ps ts p1 t1 0%nat F H0). simpl. exact H1.
Qed.

(* two orders: the same exact total, hence close results *)
Theorem rsum_two_orders p1 t1 ps ts q1 s1 qs ss :
  good p1 t1 -> Forall2 good ps ts -> good q1 s1 -> Forall2 good qs ss ->
  length qs = length ps -> s1 + Rsum' ss = t1 + Rsum' ts ->
  Rabs (rsum p1 ps - rsum q1 qs) <= 2 * (EA (length ps) * (t1 + Rsum' ts) + EB (length ps)).
Proof.
  intros G1 F1 G2 F2 L E.
  pose proof (rsum_bound p1 t1 ps ts G1 F1) as B1. pose proof (rsum_bound q1 s1 qs ss G2 F2) as B2.
  rewrite L, E in B2.
  replace (rsum p1 ps - rsum q1 qs) with ((rsum p1 ps - (t1 + Rsum' ts)) - (rsum q1 qs - (t1 + Rsum' ts))) by ring.
  eapply Rle_trans; [apply Rabs_triang|]. rewrite Rabs_Ropp. lra.
Qed.

(* the size of the bound for up to four plugins: below 2^-50 relative *)
Lemma EA3_small : EA 3 <= / 1125899906842624.
Proof. unfold EA, eps. lra. Qed.

Lemma fadd_finite_correct x y : f_finite x = true -> f_finite y = true -> f_finite (fadd x y) = true ->
  b2r (fadd x y) = rnd (b2r x + b2r y).
Proof.
  unfold f_finite, fadd, b64_plus. intros Fx Fy Fr.
  match goal with |- context [Bplus _ _ ?h1 ?h2 _ _ _ _] =>
    pose proof (Bplus_correct 53 1024 h1 h2 binop_nan_pl64 mode_NE x y Fx Fy) as H end.
  simpl round_mode in H; change (SpecFloat.fexp 53 1024) with (FLT_exp (-1074) 53) in H.
  destruct (Rlt_bool _ _).
  - destruct H as (H1 & _). exact H1.
  - destruct H as (H & _). exfalso.
    destruct (Bplus _ _ _ _ _ _ x y); simpl in *; try discriminate.
Qed.

Lemma fmul_finite_correct x y : f_finite (fmul x y) = true ->
  b2r (fmul x y) = rnd (b2r x * b2r y).
Proof.
  unfold f_finite, fmul, b64_mult. intros Fr.
  match goal with |- context [Bmult _ _ ?h1 ?h2 _ _ _ _] =>
    pose proof (Bmult_correct 53 1024 h1 h2 binop_nan_pl64 mode_NE x y) as H end.
  simpl round_mode in H; change (SpecFloat.fexp 53 1024) with (FLT_exp (-1074) 53) in H.
  destruct (Rlt_bool _ _).
  - destruct H as (H1 & _). exact H1.
  - exfalso. destruct (Bmult _ _ _ _ _ _ x y); simpl in *; try discriminate.
Qed.

Lemma Rsum'_perm l l' : Permutation l l' -> Rsum' l = Rsum' l'.
Proof. induction 1; simpl; lra. Qed.

(* A running binary64 sum of terms [g i], each the rounding of an exact
   non-negative term [t i].  [FR acc rest] says that every intermediate value
   stays finite; only the way it unfolds along the list is used. *)
Section Running.
  Variables (g : fndc -> f64) (t : fndc -> R) (FR : f64 -> list fndc -> Prop) (NN : fndc -> Prop).
  Hypothesis FR_cons : forall acc i l, FR acc (i :: l) ->
    f_finite (g i) = true /\ f_finite (fadd acc (g i)) = true /\ FR (fadd acc (g i)) l.
  Hypothesis good_g : forall i, NN i -> f_finite (g i) = true -> good (b2r (g i)) (t i).

  Lemma run_as_rsum : forall rest acc, f_finite acc = true -> FR acc rest ->
    b2r (fold_left (fun a i => fadd a (g i)) rest acc) = rsum (b2r acc) (map (fun i => b2r (g i)) rest).
  Proof.
    induction rest as [|i l IH]; intros acc Fa R; [reflexivity|].
    destruct (FR_cons _ _ _ R) as (Fg & Fs & R'). cbn [fold_left map]. rewrite (IH _ Fs R').
    unfold rsum. cbn [fold_left]. now rewrite (fadd_finite_correct _ _ Fa Fg Fs).
  Qed.

  Lemma run_good : forall rest acc, FR acc rest -> Forall NN rest ->
    Forall2 good (map (fun i => b2r (g i)) rest) (map t rest).
  Proof.
    induction rest as [|i l IH]; intros acc R N; [constructor|].
    destruct (FR_cons _ _ _ R) as (Fg & _ & R'). inversion N as [|? ? Ni Nl]; subst.
    constructor; [exact (good_g i Ni Fg)|exact (IH _ R' Nl)].
  Qed.

  Theorem sum_order_close i1 rest j1 rest' :
    Permutation (i1 :: rest) (j1 :: rest') -> Forall NN (i1 :: rest) ->
    f_finite (g i1) = true -> FR (g i1) rest -> f_finite (g j1) = true -> FR (g j1) rest' ->
    Rabs (b2r (fold_left (fun a i => fadd a (g i)) rest (g i1)) -
          b2r (fold_left (fun a i => fadd a (g i)) rest' (g j1))) <=
    2 * (EA (length rest) * Rsum' (map t (i1 :: rest)) + EB (length rest)).
  Proof.
    intros P N F1 R1 F2 R2.
    assert (N' : Forall NN (j1 :: rest')) by (eapply Permutation_Forall; eassumption).
    inversion N as [|? ? N1 Nr]; subst. inversion N' as [|? ? N2 Nr']; subst.
    rewrite (run_as_rsum rest _ F1 R1), (run_as_rsum rest' _ F2 R2).
    pose proof (rsum_two_orders _ _ _ _ _ _ _ _ (good_g _ N1 F1) (run_good _ _ R1 Nr)
                                (good_g _ N2 F2) (run_good _ _ R2 Nr')) as B.
    rewrite !map_length in B. apply B.
    - apply Permutation_length in P. simpl in P. lia.
    - exact (eq_sym (Rsum'_perm _ _ (Permutation_map t P))).
  Qed.
End Running.

Fixpoint fin_run (f : fndc -> f64) (acc : f64) (rest : list fndc) : Prop :=
  match rest with
  | [] => True
  | i :: t => f_finite (fmul (f i) (n_weight i)) = true /\
              f_finite (fadd acc (fmul (f i) (n_weight i))) = true /\
              fin_run f (fadd acc (fmul (f i) (n_weight i))) t
  end.

Definition term (f : fndc -> f64) (i : fndc) : R := b2r (f i) * b2r (n_weight i).

Definition nonneg_info (f : fndc -> f64) (i : fndc) : Prop := 0 <= b2r (f i) /\ 0 <= b2r (n_weight i).

Lemma good_term f i : nonneg_info f i -> f_finite (fmul (f i) (n_weight i)) = true ->
  good (b2r (fmul (f i) (n_weight i))) (term f i).
Proof.
  intros [Hu Hw] F. rewrite (fmul_finite_correct _ _ F). fold (term f i).
  assert (0 <= term f i) by (unfold term; nra).
  split; [assumption|]. pose proof (rnd_err (term f i)) as E. now rewrite (Rabs_pos_eq (term f i)) in E.
Qed.

(* C09, three or more plugins: for two answer orders (permutations of the infos
   of a node) whose intermediate values stay finite, the binary64 weighted sums
   differ by at most 2 * (EA(n-1) * T + EB(n-1)) where T is the exact sum of
   value * weight. *)
Theorem wsum_order_close (f : fndc -> f64) (i1 : fndc) rest (j1 : fndc) rest' :
  Permutation (i1 :: rest) (j1 :: rest') ->
  Forall (nonneg_info f) (i1 :: rest) ->
  f_finite (fmul (f i1) (n_weight i1)) = true -> fin_run f (fmul (f i1) (n_weight i1)) rest ->
  f_finite (fmul (f j1) (n_weight j1)) = true -> fin_run f (fmul (f j1) (n_weight j1)) rest' ->
  let T := Rsum' (map (term f) (i1 :: rest)) in
  Rabs (b2r (wsum fadd fmul f i1 rest) - b2r (wsum fadd fmul f j1 rest')) <=
  2 * (EA (length rest) * T + EB (length rest)).
Proof.
  exact (sum_order_close (fun i => fmul (f i) (n_weight i)) (term f) (fin_run f) (nonneg_info f)
           (fun _ _ _ H => H) (good_term f) i1 rest j1 rest').
Qed.

Fixpoint fin_run_w (acc : f64) (rest : list fndc) : Prop :=
  match rest with
  | [] => True
  | i :: t => f_finite (n_weight i) = true /\ f_finite (fadd acc (n_weight i)) = true /\ fin_run_w (fadd acc (n_weight i)) t
  end.

(* a weight enters the sum as it is: its own exact term *)
Lemma good_self x : 0 <= x -> good x x.
Proof.
  intro H. split; [exact H|]. rewrite Rminus_eq_0, Rabs_R0. pose proof eps_pos. pose proof eta_pos. nra.
Qed.

Theorem sumw_order_close (i1 : fndc) rest (j1 : fndc) rest' :
  Permutation (i1 :: rest) (j1 :: rest') ->
  Forall (fun i : fndc => 0 <= b2r (n_weight i)) (i1 :: rest) ->
  f_finite (n_weight i1) = true -> fin_run_w (n_weight i1) rest ->
  f_finite (n_weight j1) = true -> fin_run_w (n_weight j1) rest' ->
  let W := Rsum' (map (fun i => b2r (n_weight i)) (i1 :: rest)) in
  Rabs (b2r (sumw fadd i1 rest) - b2r (sumw fadd j1 rest')) <= 2 * (EA (length rest) * W + EB (length rest)).
Proof.
  exact (sum_order_close n_weight (fun i => b2r (n_weight i)) fin_run_w (fun i => 0 <= b2r (n_weight i))
           (fun _ _ _ H => H) (fun i N _ => good_self _ N) i1 rest j1 rest').
Qed.
