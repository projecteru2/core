(* Cobalt/CapacityProofs.v — C07: the reported capacity is the largest count the
   allocation path accepts, zero-capacity nodes are not offered, the total is
   the saturating sum for every iteration order, and committing k memory-only
   instances lowers the capacity by exactly k. *)
From Coq Require Import String List ZArith Bool Lia.
From Verif Require Import Base.GoInt Base.GoFloat Cpumem.Types Cpumem.Schedule Cpumem.Calc Cpumem.BookProofs
  Cobalt.Merge Cobalt.MergeProofs Cobalt.MergeFloat Cobalt.Capacity.
Import ListNotations.
Local Open Scope Z_scope.

Lemma validate_mem_nonneg raw req : wreq_validate raw = inr req -> 0 <= rq_mem_req req.
Proof.
  unfold wreq_validate. intro H.
  destruct ((rq_mem_lim raw <? 0) || (rq_mem_req raw <? 0)) eqn:E; [discriminate|].
  apply orb_false_iff in E. destruct E as [E1 E2]. apply Z.ltb_ge in E1. apply Z.ltb_ge in E2.
  destruct (flt _ _ || flt _ _); [discriminate|].
  destruct (feq _ _ && rq_bind raw); [discriminate|].
  injection H as <-. simpl.
  destruct ((rq_mem_req raw =? 0) && (0 <? rq_mem_lim raw)); lia.
Qed.

Lemma quot_sub_mul a m k : 0 < m -> 1 <= k <= Z.quot a m -> Z.quot (a - k * m) m = Z.quot a m - k.
Proof.
  intros Hm Hk.
  assert (A : 0 <= a).
  { destruct (Z.le_gt_cases 0 a) as [P|N]; [exact P|].
    pose proof (Z.quot_le_mono a 0 m Hm (Z.lt_le_incl _ _ N)) as Q. rewrite Z.quot_0_l in Q by lia. lia. }
  rewrite (Z.quot_div_nonneg a m) in * by lia.
  pose proof (Z.mul_div_le a m Hm).
  rewrite Z.quot_div_nonneg by nia.
  replace (a - k * m) with (a + (- k) * m) by lia. rewrite Z.div_add by lia. lia.
Qed.

Section Generic.
Variable sortf : list keyed -> outcome (list keyed).

Theorem mem_capacity_is_max info base maxshare req order fuel count c :
  rq_bind req = false -> 0 <= rq_mem_req req -> 1 <= count <= max_int ->
  node_capacity_g sortf info base maxshare req order fuel = Ok c ->
  ((exists r, do_alloc_by_memory info count req = inr r) <-> count <= cap_capacity c).
Proof.
  intros NB Hm Hc. unfold node_capacity_g, do_alloc_by_memory. rewrite NB. cbn [negb].
  destruct (fgt (rq_cpu_req req) _).
  - intro E. injection E as <-. cbn [cap_capacity]. split; [intros [r H]; discriminate|lia].
  - destruct (rq_mem_req req =? 0) eqn:Z0.
    + apply Z.eqb_eq in Z0. intro E. injection E as <-. cbn [cap_capacity]. rewrite Z0. cbn [Z.ltb Z.compare andb].
      split; [intros _; unfold max_int in *; lia|intros _; eexists; reflexivity].
    + apply Z.eqb_neq in Z0. intro E. injection E as <-. cbn [cap_capacity].
      replace (0 <? rq_mem_req req) with true by (symmetry; apply Z.ltb_lt; lia). cbn [andb].
      unfold get_available_nofloat, nr_sub_nofloat. cbn [nr_mem].
      destruct (Z.ltb_spec (Z.quot (nr_mem (ni_cap info) - nr_mem (ni_usage info)) (rq_mem_req req)) count).
      * split; [intros [r H0]; discriminate|intro; lia].
      * split; [intros _; lia|intros _; eexists; reflexivity].
Qed.

(* bound requests: both paths call the same planner *)
Theorem cpu_capacity_is_max info base maxshare req order fuel count c :
  rq_bind req = true -> 0 <= count ->
  node_capacity_g sortf info base maxshare req order fuel = Ok c ->
  ((exists r, do_alloc_by_cpu_g sortf info base maxshare count req order fuel = Ok (inr r)) <-> count <= cap_capacity c).
Proof.
  intros B Hc. unfold node_capacity_g, do_alloc_by_cpu_g. rewrite B. cbn [negb].
  destruct (get_cpu_plans_g sortf info [] base maxshare req order fuel) as [plans| | |]; cbn [bind]; try discriminate.
  intro E. injection E as <-. cbn [cap_capacity].
  destruct (Z.ltb_spec (Z.of_nat (length plans)) count).
  - split; [intros [r H0]; discriminate|lia].
  - replace (count <? 0) with false by (symmetry; apply Z.ltb_ge; lia).
    split; [intros _; lia|intros _; eexists; reflexivity].
Qed.

(* through the public entry points: GetNodesDeployCapacity and CalculateDeploy
   validate the same raw request *)
Theorem capacity_is_max info base maxshare raw req order fuel count c :
  wreq_validate raw = inr req -> 1 <= count <= max_int ->
  node_capacity_g sortf info base maxshare req order fuel = Ok c ->
  ((exists r, calculate_deploy_g sortf info base maxshare count raw order fuel = Ok (inr r)) <-> count <= cap_capacity c).
Proof.
  intros V Hc NC. unfold calculate_deploy_g. rewrite V.
  destruct (rq_bind req) eqn:B; cbn [negb].
  - apply cpu_capacity_is_max; [exact B|lia|exact NC].
  - rewrite <- (mem_capacity_is_max info base maxshare req order fuel count c B (validate_mem_nonneg _ _ V) Hc NC).
    split; intros [r H]; exists r; congruence.
Qed.

Lemma repeat_n_mem n (wr : wres) : zs wr_mem_req (repeat_n n wr) = Z.of_nat n * wr_mem_req wr.
Proof. unfold zs. induction n as [|n IH]; simpl repeat_n; simpl map; simpl fold_right; [lia|]. rewrite IH. lia. Qed.

Lemma commit_usage_mem info ws : nr_mem (ni_usage (commit_usage info ws)) = nr_mem (ni_usage info) + zs wr_mem_req ws.
Proof. exact (moved_mem true ws (ni_usage info)). Qed.

Lemma commit_usage_cap info ws : ni_cap (commit_usage info ws) = ni_cap info.
Proof. reflexivity. Qed.

Theorem mem_commit_lowers info base maxshare req order fuel c k r :
  rq_bind req = false -> 0 < rq_mem_req req -> 1 <= k <= cap_capacity c ->
  node_capacity_g sortf info base maxshare req order fuel = Ok c ->
  do_alloc_by_memory info k req = inr r ->
  exists c', node_capacity_g sortf (commit_usage info (snd r)) base maxshare req order fuel = Ok c' /\
             cap_capacity c' = cap_capacity c - k.
Proof.
  intros NB Hm Hk. unfold node_capacity_g, do_alloc_by_memory. rewrite NB. cbn [negb].
  rewrite !commit_usage_cap.
  destruct (fgt (rq_cpu_req req) _).
  - intro E. injection E as <-. cbn [cap_capacity] in Hk. lia.
  - replace (rq_mem_req req =? 0) with false by (symmetry; apply Z.eqb_neq; lia).
    intro E. injection E as <-. cbn [cap_capacity] in *.
    replace (0 <? rq_mem_req req) with true by (symmetry; apply Z.ltb_lt; lia). cbn [andb].
    unfold get_available_nofloat, nr_sub_nofloat in *. cbn [nr_mem] in *.
    destruct (Z.ltb_spec (Z.quot (nr_mem (ni_cap info) - nr_mem (ni_usage info)) (rq_mem_req req)) k) as [H|H]; [discriminate|].
    intro E. injection E as <-. cbn [snd].
    eexists. split; [reflexivity|]. cbn [cap_capacity].
    rewrite ?commit_usage_cap, commit_usage_mem, repeat_n_mem.
    cbn [wr_mem_req]. rewrite Z2Nat.id by lia.
    rewrite <- (quot_sub_mul _ (rq_mem_req req) k) by lia. f_equal. lia.
Qed.
End Generic.

Lemma in_plugin_offered caps n c : In (n, c) (plugin_offered caps) <-> In (n, c) caps /\ 0 < cap_capacity c.
Proof. unfold plugin_offered. rewrite filter_In, Z.ltb_lt. reflexivity. Qed.

Theorem offered_iff_positive (caps : list (string * capinfo)) n :
  In n (map fst (fst (manager_capacity caps))) <-> exists c, In (n, c) caps /\ 0 < cap_capacity c.
Proof.
  unfold manager_capacity. rewrite offered_iff_all by discriminate. split.
  - intro H. specialize (H _ (or_introl eq_refl)). rewrite map_map in H.
    apply in_map_iff in H. destruct H as [[n' c] [E I]]. simpl in E. subst n'.
    exists c. apply in_plugin_offered, I.
  - intros [c H] a [<-|[]]. rewrite map_map. apply in_map_iff. exists (n, c).
    split; [reflexivity|]. apply in_plugin_offered, H.
Qed.

(* the plugin's own total (ignored by the manager): saturating as long as the
   finite capacities alone do not exceed MaxInt *)
Lemma plugin_fold_sat caps : forall t,
  Forall (fun c => 0 <= c <= max_int) caps -> 0 <= t <= max_int ->
  (t < max_int -> t + fold_right Z.add 0 (filter (fun c => negb (c =? max_int)) caps) <= max_int) ->
  fold_left plugin_total_step caps t = Z.min max_int (t + fold_right Z.add 0 caps).
Proof.
  induction caps as [|c l IH]; intros t Hc Ht Hs; simpl.
  - lia.
  - inversion Hc as [|? ? Hc1 Hc2]; subst.
    pose proof (sum_caps_nonneg l Hc2) as NN.
    pose proof (sum_caps_nonneg _ (incl_Forall (incl_filter (fun c => negb (c =? max_int)) l) Hc2)) as NF.
    unfold plugin_total_step at 2.
    destruct (Z.eqb_spec t max_int) as [Et|Et]; [|destruct (Z.eqb_spec c max_int) as [Ec|Ec]]; cbn [orb].
    1, 2: rewrite IH; [lia|exact Hc2|lia|intro; lia].
    simpl in Hs. replace (c =? max_int) with false in Hs by (symmetry; apply Z.eqb_neq; exact Ec).
    simpl in Hs. specialize (Hs ltac:(lia)).
    rewrite wrap64_id by (unfold min_int, max_int in *; lia).
    rewrite IH; [lia|exact Hc2|lia|intro; lia].
Qed.

Theorem plugin_total_saturating caps :
  Forall (fun c => 0 <= c <= max_int) caps ->
  fold_right Z.add 0 (filter (fun c => negb (c =? max_int)) caps) <= max_int ->
  fold_left plugin_total_step caps 0 = satsum caps.
Proof.
  intros H S. unfold satsum. rewrite plugin_fold_sat; [reflexivity|exact H|unfold max_int; lia|intro; lia].
Qed.

Lemma lookup_map_in (caps : list (string * capinfo)) n (i : fndc) :
  Merge.lookup n (map (fun nc => (fst nc, ndc_of_cap (snd nc))) caps) = Some i ->
  exists c, In (n, c) caps /\ i = ndc_of_cap c.
Proof.
  intro H. apply lookup_some_In, in_map_iff in H. destruct H as [[k c] [E I]].
  simpl in E. injection E as -> <-. eauto.
Qed.

Theorem manager_reports_plugin_capacity (caps : list (string * capinfo)) n (i : fndc) :
  Merge.lookup n (fst (manager_capacity caps)) = Some i ->
  exists c, In (n, c) caps /\ 0 < cap_capacity c /\ n_cap i = cap_capacity c.
Proof.
  unfold manager_capacity. rewrite aggregate_f64 by discriminate. simpl.
  destruct (Merge.lookup n _) as [i1|] eqn:L; [|discriminate]. intros [= <-].
  destruct (lookup_map_in _ _ _ L) as [c [I ->]]. apply in_plugin_offered in I. destruct I as [I P].
  exists c. auto.
Qed.

(* Manager.Alloc asks every plugin (cobalt/alloc.go: any refusal refuses the
   allocation); if each plugin's capacity is the largest count it admits, the
   merged capacity (the minimum) is the largest count the manager admits *)
Theorem min_capacity_is_max (c1 c2 k : Z) (acc1 acc2 : Z -> Prop) :
  (forall j, acc1 j <-> j <= c1) -> (forall j, acc2 j <-> j <= c2) ->
  (acc1 k /\ acc2 k <-> k <= Z.min c1 c2).
Proof. intros H1 H2. rewrite H1, H2. lia. Qed.

(* every answer holds positive capacities only (what cpumem does: it filters
   Capacity > 0) => so does the merged result *)
Theorem positive_in_positive_out (answers : list famap) n (i : fndc) :
  answers <> [] ->
  (forall a k j, In a answers -> Merge.lookup k a = Some j -> 0 < n_cap j) ->
  Merge.lookup n (fst (gndc_f answers)) = Some i -> 0 < n_cap i.
Proof.
  intros NE POS. rewrite aggregate_f64 by exact NE.
  destruct (infos_of n answers) as [[|i1 rest]|] eqn:I; try discriminate.
  intros [= <-]. cbn [n_cap].
  destruct (mincap_is_min i1 rest) as [_ [j [Hj ->]]].
  destruct (infos_of_in answers n _ j I Hj) as [a [Ha L]]. exact (POS a n j Ha L).
Qed.

(* but the manager itself does not filter: a plugin entry with capacity 0 makes
   the node offered with capacity 0 *)
Lemma zero_entry_is_offered :
  let a := [("n"%string, mkNdc 5 (fb 0) (fb 0) (f_of_Z 1))] in
  let b := [("n"%string, mkNdc 0 (fb 0) (fb 0) (f_of_Z 1))] in
  option_map n_cap (Merge.lookup "n"%string (fst (gndc_f [a; b]))) = Some 0.
Proof. vm_compute. reflexivity. Qed.
