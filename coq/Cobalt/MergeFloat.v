(* Float-specific and real-number facts about cobalt's capacity aggregation.
   - binary64 addition commutes on non-NaN values, hence with at most two
     plugins the aggregated result is bit-identical for both answer orders;
   - over the reals (the value of the exact expression) the result is the
     weighted mean and is independent of the answer order for any number of
     plugins. *)
From Coq Require Import List String Bool Permutation Reals.
From Flocq Require Import Core IEEE754.BinarySingleNaN IEEE754.Binary IEEE754.Bits.
From Verif Require Import Base.GoFloat Cobalt.Merge Cobalt.MergeProofs.
Import ListNotations.
Local Open Scope Z_scope.

Section Comm.
  Variables prec emax : Z.
  Context (prec_gt_0_ : Prec_gt_0 prec) (prec_lt_emax_ : Prec_lt_emax prec emax).
  Lemma bsn_plus_comm m (x y : BinarySingleNaN.binary_float prec emax) :
    BinarySingleNaN.Bplus m x y = BinarySingleNaN.Bplus m y x.
  Proof.
    unfold BinarySingleNaN.Bplus.
    destruct x as [sx|sx| |sx mx ex Hx], y as [sy|sy| |sy my ey Hy]; try reflexivity.
    - destruct sx, sy; reflexivity.
    - destruct sx, sy; reflexivity.
    - cbv zeta. rewrite (Z.min_comm ey ex). unfold Fplus_naive. rewrite Z.add_comm. reflexivity.
  Qed.
End Comm.

Definition not_nan (x : f64) : Prop := Binary.is_nan 53 1024 x = false.

Lemma fadd_comm x y : not_nan x -> not_nan y -> fadd x y = fadd y x.
Proof.
  unfold not_nan, fadd, b64_plus, Binary.Bplus. intros Hx Hy.
  rewrite bsn_plus_comm.
  destruct x, y; try discriminate; reflexivity.
Qed.

Lemma finite_not_nan (x : f64) : f_finite x = true -> not_nan x.
Proof. unfold f_finite, not_nan. destruct x; simpl; congruence. Qed.

(* when the rounded result is out of range the operation returns the overflow
   value (an infinity or the largest finite number), never NaN *)
Lemma overflow_not_nan (z : f64) s :
  B2FF 53 1024 z = Binary.binary_overflow 53 1024 mode_NE s -> not_nan z.
Proof.
  unfold not_nan. destruct z; try reflexivity. intro H.
  unfold Binary.binary_overflow, BinarySingleNaN.binary_overflow in H. simpl in H. discriminate H.
Qed.

Lemma fmul_not_nan x y : f_finite x = true -> f_finite y = true -> not_nan (fmul x y).
Proof.
  unfold f_finite, fmul, b64_mult. intros Hx Hy.
  match goal with |- context [Bmult _ _ ?h1 ?h2 _ _ _ _] =>
    pose proof (Bmult_correct 53 1024 h1 h2 binop_nan_pl64 mode_NE x y) as H end.
  destruct (Rlt_bool _ _); [|exact (overflow_not_nan _ _ H)].
  apply finite_not_nan. destruct H as (_ & F & _). unfold f_finite. now rewrite F, Hx, Hy.
Qed.

Lemma fadd_not_nan_of_finite x y : f_finite x = true -> f_finite y = true -> not_nan (fadd x y).
Proof.
  unfold f_finite, fadd, b64_plus. intros Hx Hy.
  match goal with |- context [Bplus _ _ ?h1 ?h2 _ _ _ _] =>
    pose proof (Bplus_correct 53 1024 h1 h2 binop_nan_pl64 mode_NE x y Hx Hy) as H end.
  destruct (Rlt_bool _ _); [|exact (overflow_not_nan _ _ (proj1 H))].
  apply finite_not_nan. exact (proj1 (proj2 H)).
Qed.

Definition fin_ndc (i : fndc) : Prop :=
  f_finite (n_usage i) = true /\ f_finite (n_rate i) = true /\ f_finite (n_weight i) = true.

Lemma all_finite_lookup (answers : list famap) a n i :
  all_finite answers = true -> In a answers -> lookup n a = Some i -> fin_ndc i.
Proof.
  unfold all_finite. intros H Ha L. rewrite forallb_forall in H. specialize (H a Ha).
  rewrite forallb_forall in H. apply lookup_some_In, H in L. cbn [snd] in L.
  apply andb_true_iff in L as [L W]. apply andb_true_iff in L as [U R]. repeat split; assumption.
Qed.

Lemma merged_two_comm (i1 i2 : fndc) : fin_ndc i1 -> fin_ndc i2 ->
  merged fadd fmul i1 [i2] = merged fadd fmul i2 [i1].
Proof.
  intros (U1 & R1 & W1) (U2 & R2 & W2). unfold merged, mincap, wsum, sumw. simpl. f_equal.
  - apply Z.min_comm.
  - apply fadd_comm; apply fmul_not_nan; assumption.
  - apply fadd_comm; apply fmul_not_nan; assumption.
  - apply fadd_comm; apply finite_not_nan; assumption.
Qed.

Theorem two_plugins_exact (a b : famap) n : all_finite [a; b] = true ->
  lookup n (fst (gndc_f [a; b])) = lookup n (fst (gndc_f [b; a])).
Proof.
  intro F. unfold gndc_f. rewrite !gndc_lookup. simpl.
  destruct (lookup n a) as [i1|] eqn:La, (lookup n b) as [i2|] eqn:Lb; try reflexivity.
  rewrite merged_two_comm; [reflexivity| |].
  - eapply all_finite_lookup; [exact F| |exact La]. simpl; auto.
  - eapply all_finite_lookup; [exact F| |exact Lb]. simpl; auto.
Qed.

Local Open Scope R_scope.

Definition rndc := ndc R.
Definition ramap := list (string * rndc).
Definition gndc_R (answers : list ramap) : ramap * Z := gndc Rplus Rmult Rdiv answers.

Definition Rsum (l : list R) : R := fold_right Rplus 0 l.

Lemma fold_left_Rplus l x : fold_left Rplus l x = x + Rsum l.
Proof. revert x; induction l as [|y t IH]; intro x; simpl; [ring|]. rewrite IH. ring. Qed.

Lemma wsum_R (f : rndc -> R) i1 rest :
  wsum Rplus Rmult f i1 rest = Rsum (map (fun i => f i * n_weight i) (i1 :: rest)).
Proof.
  unfold wsum. rewrite (fold_left_map_acc Rplus (fun i => f i * n_weight i)), fold_left_Rplus.
  reflexivity.
Qed.

Lemma sumw_R i1 rest : sumw Rplus i1 rest = Rsum (map n_weight (i1 :: rest)).
Proof.
  unfold sumw. rewrite (fold_left_map_acc Rplus n_weight), fold_left_Rplus. reflexivity.
Qed.

Theorem gndc_R_spec (answers : list ramap) n : answers <> [] ->
  lookup n (fst (gndc_R answers)) =
  match infos_of n answers with
  | Some (i1 :: rest) =>
      let is := i1 :: rest in
      Some (mkNdc (mincap i1 rest)
                  (Rsum (map (fun i => n_usage i * n_weight i) is) / Rsum (map n_weight is))
                  (Rsum (map (fun i => n_rate i * n_weight i) is) / Rsum (map n_weight is))
                  (Rsum (map n_weight is)))
  | _ => None
  end.
Proof.
  intros _. unfold gndc_R. rewrite gndc_lookup.
  destruct (infos_of n answers) as [[|i1 rest]|]; try reflexivity.
  unfold finish, merged. cbn [n_cap n_usage n_rate n_weight].
  rewrite !wsum_R, sumw_R. reflexivity.
Qed.

Theorem gndc_R_order_indep (answers answers' : list ramap) n :
  Permutation answers answers' ->
  lookup n (fst (gndc_R answers)) = lookup n (fst (gndc_R answers')).
Proof.
  apply gndc_order_indep; intros; ring.
Qed.

Definition ndc_to_R (i : fndc) : rndc :=
  mkNdc (n_cap i) (B2R 53 1024 (n_usage i)) (B2R 53 1024 (n_rate i)) (B2R 53 1024 (n_weight i)).
Definition amap_to_R (a : famap) : ramap := map (fun kv => (fst kv, ndc_to_R (snd kv))) a.

Local Open Scope Z_scope.

(* what GetNodesDeployCapacity computes per node, in binary64 with the code's
   operation order: ((u1*w1 + u2*w2) + u3*w3 ...) / ((w1 + w2) + w3 ...) *)
Theorem aggregate_f64 (answers : list famap) n : answers <> [] ->
  lookup n (fst (gndc_f answers)) =
  match infos_of n answers with
  | Some (i1 :: rest) =>
      Some (mkNdc (mincap i1 rest)
                  (fdiv (wsum fadd fmul n_usage i1 rest) (sumw fadd i1 rest))
                  (fdiv (wsum fadd fmul n_rate i1 rest) (sumw fadd i1 rest))
                  (sumw fadd i1 rest))
  | _ => None
  end.
Proof. intros _. exact (gndc_lookup f64 fadd fmul fdiv answers n). Qed.

Theorem offered_iff_all (answers : list famap) n : answers <> [] ->
  (In n (map fst (fst (gndc_f answers))) <-> forall a, In a answers -> In n (map fst a)).
Proof.
  intro NE. rewrite <- (lookup_none_keys (fst (gndc_f answers)) n). unfold gndc_f. rewrite gndc_lookup.
  transitivity (infos_of n answers <> None).
  - destruct answers as [|a1 rest]; [congruence|]. cbn [infos_of].
    destruct (lookup n a1), (infos_of n rest); split; congruence.
  - rewrite infos_some_iff. split; intros H a Ha; apply lookup_none_keys, H, Ha.
Qed.

Lemma call_all_some {A} (rs : list (option A)) l : call_all rs = Some l -> rs = map Some l.
Proof.
  revert l; induction rs as [|[a|] t IH]; intros l H; simpl in H; try discriminate.
  - injection H as <-. reflexivity.
  - destruct (call_all t) as [l'|] eqn:E; [|discriminate]. injection H as <-. simpl. f_equal. apply IH. reflexivity.
Qed.

Theorem no_partial_merge (answers : list (option famap)) r :
  gndc_call answers = Some r -> exists l, answers = map Some l /\ r = gndc_f l.
Proof.
  unfold gndc_call. destruct (call_all answers) as [l|] eqn:E; [|discriminate].
  intro H. injection H as <-. exists l. split; [apply call_all_some; exact E|reflexivity].
Qed.

Theorem any_error_is_error (answers : list (option famap)) : In None answers -> gndc_call answers = None.
Proof.
  unfold gndc_call. intro H. replace (call_all answers) with (@None (list famap)); [reflexivity|].
  induction answers as [|[a|] t IH]; simpl in *; [tauto| |reflexivity].
  destruct H as [H|H]; [discriminate|]. rewrite <- (IH H). reflexivity.
Qed.
