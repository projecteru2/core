(* Cobalt/RepairLockProofs.v — for every schedule, a repair that takes the pod
   lock leaves usage = record next to a concurrent re-allocation; with another
   lock there is a schedule that breaks it. *)
From Coq Require Import List ZArith Bool.
From Verif Require Import Cobalt.RepairLock.
Import ListNotations.
Local Open Scope Z_scope.

(* the invariant of the interleaving system when both take the pod lock *)
Definition cinv (d : Z) (s : cst) : Prop :=
  c_node s = None /\
  match c_pcA s, c_pcB s with
  | 0%nat, 0%nat => c_pod s = None /\ c_usage s = c_record s
  | 1%nat, 0%nat => c_pod s = Some TA /\ c_usage s = c_record s
  | 2%nat, 0%nat => c_pod s = Some TA /\ c_usage s = c_record s + d
  | 3%nat, 0%nat => c_pod s = Some TA /\ c_usage s = c_record s
  | 4%nat, 0%nat => c_pod s = None /\ c_usage s = c_record s
  | 0%nat, 1%nat => c_pod s = Some TB /\ c_usage s = c_record s
  | 0%nat, 2%nat => c_pod s = Some TB /\ c_usage s = c_record s
  | 0%nat, 3%nat => c_pod s = None /\ c_usage s = c_record s
  | 4%nat, 1%nat => c_pod s = Some TB /\ c_usage s = c_record s
  | 4%nat, 2%nat => c_pod s = Some TB /\ c_usage s = c_record s
  | 4%nat, 3%nat => c_pod s = None /\ c_usage s = c_record s
  | 1%nat, 3%nat => c_pod s = Some TA /\ c_usage s = c_record s
  | 2%nat, 3%nat => c_pod s = Some TA /\ c_usage s = c_record s + d
  | 3%nat, 3%nat => c_pod s = Some TA /\ c_usage s = c_record s
  | _, _ => False
  end.

Lemma cstep_inv d s t : cinv d s -> cinv d (cstep d LPod s t).
Proof.
  (* [cinv] and [cstep] stay folded, so the case analysis on the two program
     counters copies a small goal; on each concrete pair both evaluate by
     conversion.  Fourteen control states are in the table (elsewhere the
     invariant is False); a blocked or finished thread leaves the state as it is. *)
  destruct s as [u r p n a b].
  destruct a as [|[|[|[|[|a]]]]], b as [|[|[|[|b]]]]; intros I; pose proof I as [Hn H];
    (destruct H as [Hp He] || destruct H); cbn in Hn, Hp, He; subst n p u;
    destruct t; first [exact I | split; [reflexivity|split; reflexivity]].
Qed.

Lemma crun_inv d sched : forall s, cinv d s -> cinv d (crun d LPod s sched).
Proof.
  unfold crun. induction sched as [|t l IH]; intros s H; simpl; [exact H|]. apply IH. apply cstep_inv. exact H.
Qed.

(* C15 next to a concurrent realloc: whatever the schedule, once both have
   finished the usage equals the sum of the recorded workloads; and at every
   moment the usage differs from the record only while the realloc itself holds
   the pod lock between its two writes *)
Theorem repair_serialised d x sched :
  let s := crun d LPod (cinit x) sched in
  cinv d s /\ (finished s = true -> c_usage s = c_record s).
Proof.
  intro s. assert (I : cinv d s).
  { apply crun_inv. unfold cinv, cinit. simpl. auto. }
  split; [exact I|]. intro F. unfold finished in F. apply andb_true_iff in F. destruct F as [FA FB].
  apply Nat.eqb_eq in FA. apply Nat.eqb_eq in FB. destruct I as [_ I]. rewrite FA, FB in I. tauto.
Qed.

(* the pod lock is needed: if the repair takes the node-operation lock instead,
   the schedule "realloc up to its usage change; whole repair; rest of the
   realloc" ends with usage <> record *)
Theorem repair_needs_pod_lock :
  let s := crun 5 LNode (cinit 10) [TA; TA; TB; TB; TB; TA; TA] in
  finished s = true /\ c_usage s <> c_record s.
Proof. vm_compute. split; [reflexivity|discriminate]. Qed.
