(* Proofs about the model of cobalt's capacity aggregation (Cobalt/Merge.v).
   Generic in the number type (any add/mul/div): closed form of the pairwise
   merge (gndc_lookup), capacity = min, the saturating total for every iteration
   order; then order independence for commutative-associative addition. *)
From Coq Require Import List ZArith String Lia Permutation.
From Verif Require Import Base.GoInt Cobalt.Merge.
Import ListNotations.
Local Open Scope Z_scope.

Lemma fold_left_map_acc {A B C} (f : C -> B -> C) (g : A -> B) (l : list A) (x : C) :
  fold_left (fun acc i => f acc (g i)) l x = fold_left f (map g l) x.
Proof. revert x; induction l as [|a t IH]; intro x; simpl; [reflexivity|apply IH]. Qed.

Lemma fold_left_some {A B} (f : option A -> B -> A) (l : list B) (a : A) :
  fold_left (fun acc b => Some (f acc b)) l (Some a) = Some (fold_left (fun a b => f (Some a) b) l a).
Proof. revert a; induction l as [|b t IH]; intro a; simpl; [reflexivity|apply IH]. Qed.

(* A non-empty list folded from its first element by a commutative and
   associative operation (no unit is assumed): the value depends on the
   elements only, not on their order. *)
Section NSum.
  Variable A : Type.
  Variable op : A -> A -> A.
  Hypothesis op_comm : forall a b, op a b = op b a.
  Hypothesis op_assoc : forall a b c, op a (op b c) = op (op a b) c.

  Lemma fold_left_op_acc : forall l x y, fold_left op l (op x y) = op x (fold_left op l y).
  Proof.
    induction l as [|z t IH]; intros x y; simpl; [reflexivity|].
    rewrite <- op_assoc. apply IH.
  Qed.

  Definition sum_ne (l : list A) : option A :=
    match l with [] => None | x :: t => Some (fold_left op t x) end.

  Lemma sum_ne_perm : forall l l', Permutation l l' -> sum_ne l = sum_ne l'.
  Proof.
    induction 1 as [|x l l' HP IH|x y l|l l' l'' _ IH1 _ IH2]; simpl.
    - reflexivity.
    - destruct l as [|y t], l' as [|y' t']; simpl in *;
        [reflexivity|now apply Permutation_nil_cons in HP
        |now apply Permutation_sym, Permutation_nil_cons in HP|].
      injection IH as IH. now rewrite !fold_left_op_acc, IH.
    - now rewrite (op_comm y x).
    - congruence.
  Qed.

  Lemma nsum_perm_map {B} (g : B -> A) x l y l' : Permutation (x :: l) (y :: l') ->
    fold_left (fun acc i => op acc (g i)) l (g x) = fold_left (fun acc i => op acc (g i)) l' (g y).
  Proof.
    intro P. apply (Permutation_map g), sum_ne_perm in P.
    rewrite !(fold_left_map_acc op g). now injection P.
  Qed.
End NSum.

Lemma fold_min_le l : forall c x, In x (c :: l) -> fold_left Z.min l c <= x.
Proof.
  induction l as [|y t IH]; intros c x H; simpl.
  - destruct H as [<-|[]]. lia.
  - assert (M : fold_left Z.min t (Z.min c y) <= Z.min c y) by (apply IH; left; reflexivity).
    destruct H as [<-|[<-|H]]; [lia|lia|apply IH; right; exact H].
Qed.

Lemma fold_min_in l : forall c, In (fold_left Z.min l c) (c :: l).
Proof.
  induction l as [|y t IH]; intro c; simpl; [auto|].
  destruct (IH (Z.min c y)) as [E|H]; [|auto].
  rewrite <- E. destruct (Z.min_spec c y) as [[_ ->]|[_ ->]]; auto.
Qed.

Section GenProofs.
  Variable T : Type.
  Variables add mul div : T -> T -> T.

  Notation Ndc := (ndc T).
  Notation Amap := (list (string * ndc T)).

  Lemma lookup_map_snd (g : Ndc -> Ndc) (n : string) (m : Amap) :
    lookup n (map (fun kv => (fst kv, g (snd kv))) m) = option_map g (lookup n m).
  Proof.
    induction m as [|[k v] t IH]; simpl; [reflexivity|].
    destruct (String.eqb n k); [reflexivity|exact IH].
  Qed.

  Lemma lookup_some_In (m : Amap) k v : lookup k m = Some v -> In (k, v) m.
  Proof.
    induction m as [|[k' v'] t IH]; simpl; [discriminate|].
    destruct (String.eqb_spec k k') as [->|_]; [intros [= ->]; left; reflexivity|auto].
  Qed.

  Lemma lookup_merge_none n (m2 : Amap) :
    lookup n (merge_capacity add mul None m2) = option_map (weigh mul) (lookup n m2).
  Proof. unfold merge_capacity. apply lookup_map_snd. Qed.

  Lemma lookup_merge_some n (m1 m2 : Amap) :
    lookup n (merge_capacity add mul (Some m1) m2) =
    match lookup n m1, lookup n m2 with
    | Some i1, Some i2 => Some (merge2 add mul i1 i2)
    | _, _ => None
    end.
  Proof.
    unfold merge_capacity.
    induction m1 as [|[k v] t IH]; simpl; [reflexivity|].
    destruct (String.eqb n k) eqn:E.
    - apply String.eqb_eq in E; subst k. destruct (lookup n m2) eqn:L; simpl.
      + rewrite String.eqb_refl. reflexivity.
      + rewrite IH. destruct (lookup n t); reflexivity.
    - destruct (lookup k m2); simpl; [rewrite E|]; exact IH.
  Qed.

  (* after the first answer the accumulator is never nil again *)
  Lemma merge_all_cons (a1 : Amap) (rest : list Amap) :
    merge_all add mul (a1 :: rest) =
    Some (fold_left (fun m a => merge_capacity add mul (Some m) a) rest (merge_capacity add mul None a1)).
  Proof. exact (fold_left_some (merge_capacity add mul) rest _). Qed.

  Lemma lookup_merge_fold n : forall (rest : list Amap) (m0 : Amap),
    lookup n (fold_left (fun m a => merge_capacity add mul (Some m) a) rest m0) =
    match lookup n m0, infos_of n rest with
    | Some i, Some l => Some (fold_left (merge2 add mul) l i)
    | _, _ => None
    end.
  Proof.
    induction rest as [|a t IH]; intro m0; cbn [fold_left infos_of].
    - destruct (lookup n m0); reflexivity.
    - rewrite IH, lookup_merge_some.
      destruct (lookup n m0), (lookup n a), (infos_of n t); reflexivity.
  Qed.

  Definition wsum (f : Ndc -> T) (i1 : Ndc) (rest : list Ndc) : T :=
    fold_left (fun acc i => add acc (mul (f i) (n_weight i))) rest (mul (f i1) (n_weight i1)).
  Definition sumw (i1 : Ndc) (rest : list Ndc) : T :=
    fold_left (fun acc i => add acc (n_weight i)) rest (n_weight i1).
  Definition mincap (i1 : Ndc) (rest : list Ndc) : Z :=
    fold_left (fun acc i => Z.min acc (n_cap i)) rest (n_cap i1).
  Definition merged (i1 : Ndc) (rest : list Ndc) : Ndc :=
    mkNdc (mincap i1 rest) (wsum n_usage i1 rest) (wsum n_rate i1 rest) (sumw i1 rest).

  Lemma fold_merge2_closed : forall (rest : list Ndc) (c : Z) (u r w : T),
    fold_left (merge2 add mul) rest (mkNdc c u r w) =
    mkNdc (fold_left (fun acc i => Z.min acc (n_cap i)) rest c)
          (fold_left (fun acc i => add acc (mul (n_usage i) (n_weight i))) rest u)
          (fold_left (fun acc i => add acc (mul (n_rate i) (n_weight i))) rest r)
          (fold_left (fun acc i => add acc (n_weight i)) rest w).
  Proof.
    induction rest as [|i t IH]; intros; simpl; [reflexivity|].
    unfold merge2 at 2; simpl. apply IH.
  Qed.

  (* the result of GetNodesDeployCapacity, per node (no plugin: no node) *)
  Theorem gndc_lookup (answers : list Amap) n :
    lookup n (fst (gndc add mul div answers)) =
    match infos_of n answers with
    | Some (i1 :: rest) => Some (finish div (merged i1 rest))
    | _ => None
    end.
  Proof.
    destruct answers as [|a1 rest]; [reflexivity|].
    unfold gndc. rewrite merge_all_cons. cbn [fst infos_of].
    rewrite lookup_map_snd, lookup_merge_fold, lookup_merge_none.
    destruct (lookup n a1) as [i1|], (infos_of n rest) as [l|]; try reflexivity.
    cbn [option_map]. unfold weigh. rewrite fold_merge2_closed. reflexivity.
  Qed.

  Theorem gndc_no_plugin : gndc add mul div (@nil Amap) = ([], 0).
  Proof. reflexivity. Qed.

  Lemma gndc_lookup_cap (answers : list Amap) n :
    option_map n_cap (lookup n (fst (gndc add mul div answers))) =
    match infos_of n answers with
    | Some (i1 :: rest) => Some (mincap i1 rest)
    | _ => None
    end.
  Proof. rewrite gndc_lookup. destruct (infos_of n answers) as [[|i1 rest]|]; reflexivity. Qed.

  Theorem mincap_is_min (i1 : Ndc) rest :
    (forall i, In i (i1 :: rest) -> mincap i1 rest <= n_cap i) /\
    (exists i, In i (i1 :: rest) /\ mincap i1 rest = n_cap i).
  Proof.
    unfold mincap. rewrite (fold_left_map_acc Z.min n_cap). split.
    - intros i H. apply fold_min_le. exact (in_map n_cap _ _ H).
    - pose proof (fold_min_in (map n_cap rest) (n_cap i1)) as H.
      apply (in_map_iff n_cap (i1 :: rest)) in H. destruct H as [i [E H]]. exists i. auto.
  Qed.

  Lemma lookup_none_keys (m : Amap) n : lookup n m <> None <-> In n (map fst m).
  Proof.
    induction m as [|[k v] t IH]; simpl; [tauto|].
    destruct (String.eqb_spec n k) as [->|N]; [split; [auto|discriminate]|].
    rewrite IH. split; [auto|]. intros [H|H]; [congruence|exact H].
  Qed.

  Lemma infos_some_iff (answers : list Amap) n :
    infos_of n answers <> None <-> (forall a, In a answers -> lookup n a <> None).
  Proof.
    induction answers as [|a t IH]; simpl; [split; [tauto|discriminate]|].
    destruct (lookup n a) as [i|] eqn:L.
    - destruct (infos_of n t) as [l|].
      + split; [|discriminate]. intros _ a' [<-|H]; [congruence|]. apply IH; [discriminate|exact H].
      + split; [congruence|]. intro H. apply IH. auto.
    - split; [congruence|]. intro H. destruct (H a (or_introl eq_refl) L).
  Qed.

  Lemma infos_of_in (answers : list Amap) n l i :
    infos_of n answers = Some l -> In i l -> exists a, In a answers /\ lookup n a = Some i.
  Proof.
    revert l; induction answers as [|a t IH]; simpl; intros l E H.
    - injection E as <-. destruct H.
    - destruct (lookup n a) as [i0|] eqn:L, (infos_of n t) as [l0|]; try discriminate.
      injection E as <-. destruct H as [<-|H]; [eauto|].
      destruct (IH l0 eq_refl H) as [a' [Ha La]]. eauto.
  Qed.

  Definition keys (m : Amap) : list string := map fst m.

  Lemma keys_merge_none (m2 : Amap) : keys (merge_capacity add mul None m2) = keys m2.
  Proof. unfold keys, merge_capacity. rewrite map_map. reflexivity. Qed.

  Lemma keys_merge_some (m1 m2 : Amap) :
    keys (merge_capacity add mul (Some m1) m2) =
    filter (fun k => match lookup k m2 with Some _ => true | None => false end) (keys m1).
  Proof.
    unfold keys, merge_capacity. induction m1 as [|[k v] t IH]; simpl; [reflexivity|].
    rewrite map_app, IH. destruct (lookup k m2); reflexivity.
  Qed.

  Lemma fold_merge_nodup (rest : list Amap) : forall m0 : Amap, NoDup (keys m0) ->
    NoDup (keys (fold_left (fun m a => merge_capacity add mul (Some m) a) rest m0)).
  Proof.
    induction rest as [|a t IH]; intros m0 ND; cbn [fold_left]; [exact ND|].
    apply IH. rewrite keys_merge_some. apply NoDup_filter, ND.
  Qed.

  Lemma merge_all_nodup (a1 : Amap) (rest : list Amap) m :
    NoDup (keys a1) -> merge_all add mul (a1 :: rest) = Some m -> NoDup (keys m).
  Proof.
    intros ND E. rewrite <- (keys_merge_none a1) in ND. apply (fold_merge_nodup rest) in ND.
    rewrite merge_all_cons in E. injection E as <-. exact ND.
  Qed.

  Lemma lookup_in (m : Amap) k v : NoDup (keys m) -> (In (k, v) m <-> lookup k m = Some v).
  Proof.
    intro ND. split; [|apply lookup_some_In].
    induction m as [|[k' v'] t IH]; simpl; [tauto|].
    inversion ND as [|? ? NI ND']; subst. intros [[= -> ->]|H].
    - now rewrite String.eqb_refl.
    - destruct (String.eqb_spec k k') as [->|_]; [|auto].
      destruct NI. exact (in_map fst _ _ H).
  Qed.

  Lemma same_lookup_perm (m m' : Amap) :
    NoDup (keys m) -> NoDup (keys m') -> (forall n, lookup n m = lookup n m') -> Permutation m m'.
  Proof.
    intros ND ND' L. apply NoDup_Permutation; try (eapply NoDup_map_inv; eassumption).
    intros [k v]. rewrite (lookup_in m k v ND), (lookup_in m' k v ND'), L. tauto.
  Qed.
End GenProofs.
Arguments merged {T}. Arguments mincap {T}. Arguments wsum {T}. Arguments sumw {T}.
Arguments mincap_is_min {T}. Arguments lookup_none_keys {T}. Arguments infos_some_iff {T}.
Arguments infos_of_in {T}. Arguments lookup_some_In {T}.

Lemma wrap64_id z : min_int <= z <= max_int -> wrap64 z = z.
Proof.
  unfold wrap64, min_int, max_int, two64. intro H.
  rewrite Z.mod_small; lia.
Qed.

Lemma total_step_sat t c : 0 <= t <= max_int -> 0 <= c <= max_int ->
  total_step t c = Z.min max_int (t + c).
Proof.
  unfold total_step. intros Ht Hc.
  destruct (Z.eqb_spec t max_int) as [E|E]; cbn [orb].
  - unfold max_int in *; lia.
  - rewrite (wrap64_id (max_int - t)) by (unfold min_int, max_int in *; lia).
    destruct (Z.leb_spec (max_int - t) c).
    + unfold max_int in *; lia.
    + rewrite wrap64_id by (unfold min_int, max_int in *; lia). unfold max_int in *; lia.
Qed.

Definition cap_ok (c : Z) : Prop := 0 <= c <= max_int.

Lemma sum_caps_nonneg caps : Forall cap_ok caps -> 0 <= fold_right Z.add 0 caps.
Proof. induction 1 as [|c l [H _] _ IH]; simpl; lia. Qed.

Lemma total_fold_sat : forall caps t, 0 <= t <= max_int -> Forall cap_ok caps ->
  fold_left total_step caps t = Z.min max_int (t + fold_right Z.add 0 caps).
Proof.
  induction caps as [|c l IH]; intros t Ht Hc; simpl.
  - lia.
  - inversion Hc as [|? ? Hc1 Hc2]; subst. unfold cap_ok in Hc1.
    pose proof (sum_caps_nonneg l Hc2). rewrite total_step_sat by assumption.
    rewrite IH by (assumption || lia). lia.
Qed.

Lemma total_of_sat caps : Forall cap_ok caps -> total_of caps = satsum caps.
Proof.
  intro H. unfold total_of, satsum. rewrite total_fold_sat; [reflexivity|unfold max_int; lia|exact H].
Qed.

Lemma sum_perm l l' : Permutation l l' -> fold_right Z.add 0 l = fold_right Z.add 0 l'.
Proof. induction 1; simpl; lia. Qed.

(* the total is the saturating sum in whatever order the merged map is iterated *)
Theorem total_any_order caps order : Forall cap_ok caps -> Permutation caps order ->
  total_of order = satsum caps.
Proof.
  intros H P. rewrite total_of_sat by (eapply Permutation_Forall; eassumption).
  unfold satsum. now rewrite (sum_perm _ _ P).
Qed.

Section OrderIndep.
  Variable T : Type.
  Variables add mul div : T -> T -> T.

  Notation Ndc := (ndc T).
  Notation Amap := (list (string * ndc T)).

  Lemma infos_perm n (answers answers' : list Amap) : Permutation answers answers' ->
    match infos_of n answers, infos_of n answers' with
    | Some l, Some l' => Permutation l l'
    | None, None => True
    | _, _ => False
    end.
  Proof.
    induction 1 as [|a l l' _ IH|a b l|l l' l'' _ IH1 _ IH2]; simpl.
    - constructor.
    - destruct (lookup n a); [|exact I].
      destruct (infos_of n l), (infos_of n l'); try exact IH; try exact I. now constructor.
    - destruct (lookup n a), (lookup n b), (infos_of n l); try exact I. apply perm_swap.
    - destruct (infos_of n l), (infos_of n l'), (infos_of n l''); try tauto.
      eapply Permutation_trans; eassumption.
  Qed.

  (* whatever is computed per node from the plugins' infos, if it does not
     depend on their order it does not depend on the order of the answers *)
  Lemma per_node_perm {B} (F : Ndc -> list Ndc -> B) n (answers answers' : list Amap) :
    (forall i1 rest j1 rest', Permutation (i1 :: rest) (j1 :: rest') -> F i1 rest = F j1 rest') ->
    Permutation answers answers' ->
    match infos_of n answers with Some (i1 :: rest) => Some (F i1 rest) | _ => None end =
    match infos_of n answers' with Some (j1 :: rest') => Some (F j1 rest') | _ => None end.
  Proof.
    intros HF P. pose proof (infos_perm n _ _ P) as IP.
    destruct (infos_of n answers) as [[|i1 r]|], (infos_of n answers') as [[|j1 r']|]; try tauto.
    - now apply Permutation_nil_cons in IP.
    - now apply Permutation_sym, Permutation_nil_cons in IP.
    - now rewrite (HF _ _ _ _ IP).
  Qed.

  (* presence and capacity: min is commutative and associative on Z, nothing is
     asked of [add] *)
  Theorem gndc_cap_order_indep (answers answers' : list Amap) n :
    Permutation answers answers' ->
    option_map n_cap (lookup n (fst (gndc add mul div answers))) =
    option_map n_cap (lookup n (fst (gndc add mul div answers'))).
  Proof.
    rewrite !gndc_lookup_cap. apply per_node_perm.
    intros i1 rest j1 rest'. apply (nsum_perm_map Z Z.min Z.min_comm Z.min_assoc).
  Qed.

  Hypothesis add_comm : forall a b, add a b = add b a.
  Hypothesis add_assoc : forall a b c, add a (add b c) = add (add a b) c.

  Lemma merged_perm (i1 : Ndc) rest (j1 : Ndc) rest' :
    Permutation (i1 :: rest) (j1 :: rest') -> merged add mul i1 rest = merged add mul j1 rest'.
  Proof.
    intro P. unfold merged, mincap, wsum, sumw. f_equal.
    - exact (nsum_perm_map Z Z.min Z.min_comm Z.min_assoc _ _ _ _ _ P).
    - exact (nsum_perm_map T add add_comm add_assoc (fun i => mul (n_usage i) (n_weight i)) _ _ _ _ P).
    - exact (nsum_perm_map T add add_comm add_assoc (fun i => mul (n_rate i) (n_weight i)) _ _ _ _ P).
    - exact (nsum_perm_map T add add_comm add_assoc _ _ _ _ _ P).
  Qed.

  Theorem gndc_order_indep (answers answers' : list Amap) n :
    Permutation answers answers' ->
    lookup n (fst (gndc add mul div answers)) = lookup n (fst (gndc add mul div answers')).
  Proof.
    rewrite !gndc_lookup. apply (per_node_perm (fun i1 rest => finish div (merged add mul i1 rest))).
    intros i1 rest j1 rest' P. now rewrite (merged_perm _ _ _ _ P).
  Qed.
End OrderIndep.
