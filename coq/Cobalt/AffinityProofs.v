(* Cobalt/AffinityProofs.v — C33, the positive part: on a node without NUMA
   whose origin cores are whole free cores after the put-back, a request for the
   same whole number of cores gets the origin's cores as its FIRST plan; with
   NUMA the same holds on the origin's NUMA node when it is visited first and
   yields a plan (first_plan_is_origin_numa).

   Path through the scheduler model (Cpumem/Schedule.v):
     get_cpu_plans_g (no NUMA) -> do_get_cpu_plans_g -> new_host (both maps)
     -> reorder_by_affinity -> host_cpu_plans_g -> get_full_plans_g (affinity)
     -> aff_loop: first plan = first [full] cores of the reordered list. *)
From Coq Require Import String List ZArith Lia Permutation Sorted.
From Verif Require Import Base.GoFloat Cpumem.Types Cpumem.Schedule Cpumem.BookProofs
  Cpumem.SchedProofs Cpumem.SchedProofsOrder Base.ListFacts.
Import ListNotations.
Local Open Scope Z_scope.

Lemma isort_ext {A} (l1 l2 : A -> A -> bool) l : (forall a b, l1 a b = l2 a b) -> isort l1 l = isort l2 l.
Proof.
  intro E. induction l as [|x t IH]; simpl; [reflexivity|]. rewrite IH.
  generalize (isort l2 t). intro s. induction s as [|y s IHs]; simpl; [reflexivity|].
  rewrite E, IHs. reflexivity.
Qed.

Section ByKey.
  Variable A : Type.
  Variable f : A -> Z.
  Let less (a b : A) : bool := f a <? f b.
  Let R (a b : A) : Prop := f a <= f b.

  Lemma insert_sorted x l : StronglySorted R l -> StronglySorted R (insert_by less x l).
  Proof.
    induction 1 as [|y t St IH Hy]; simpl; [constructor; constructor|].
    unfold less at 1. destruct (Z.ltb_spec (f y) (f x)).
    - constructor; [exact IH|].
      eapply Permutation_Forall; [apply Permutation_sym, insert_by_perm|].
      constructor; [unfold R; lia|exact Hy].
    - constructor; [constructor; assumption|].
      constructor; [unfold R; lia|].
      eapply Forall_impl; [|exact Hy]. intros z Hz. unfold R in *. lia.
  Qed.

  Lemma isort_sorted l : StronglySorted R (isort less l).
  Proof. induction l as [|x t IH]; simpl; [constructor|apply insert_sorted; exact IH]. Qed.

  Lemma sorted_partition (bound : Z) l : StronglySorted R l ->
    l = filter (fun a => f a <=? bound) l ++ filter (fun a => negb (f a <=? bound)) l.
  Proof.
    induction 1 as [|a t St IH Ha]; simpl; [reflexivity|].
    destruct (Z.leb_spec (f a) bound); simpl; [f_equal; exact IH|].
    (* the head is above the bound, hence so is everything behind it *)
    assert (E : filter (fun x => f x <=? bound) t = []).
    { destruct (filter _ t) as [|x s] eqn:E; [reflexivity|exfalso].
      assert (I : In x (filter (fun x => f x <=? bound) t)) by (rewrite E; left; reflexivity).
      apply filter_In in I. destruct I as [I Hx]. apply Z.leb_le in Hx.
      rewrite Forall_forall in Ha. specialize (Ha x I). unfold R in Ha. lia. }
    rewrite E in IH |- *. simpl. f_equal. exact IH.
  Qed.
End ByKey.

Lemma index1_range old id : forall i, 0 < i ->
  index1 old id i = 0 \/ (i <= index1 old id i < i + Z.of_nat (length old)).
Proof.
  induction old as [|c t IH]; intros i Hi; simpl; [auto|].
  destruct (String.eqb (cid c) id); [right; lia|].
  destruct (IH (i + 1)) as [H|H]; [lia|auto|right; lia].
Qed.

Lemma index1_nonzero_iff old id : forall i, 0 < i -> (index1 old id i <> 0 <-> In id (map cid old)).
Proof.
  induction old as [|c t IH]; intros i Hi; simpl; [tauto|].
  destruct (String.eqb_spec (cid c) id) as [E|N]; [split; [auto|lia]|].
  rewrite (IH (i + 1)) by lia. tauto.
Qed.

(* the sort key behind aff_less: position in [old], absent cores last *)
Definition rk (old : list core) (c : core) : Z :=
  let i := index1 old (cid c) 1 in if i =? 0 then Z.of_nat (length old) + 1 else i.

Lemma ltb_ext a b c d : (a < b <-> c < d) -> (a <? b) = (c <? d).
Proof. intro H. destruct (Z.ltb_spec a b), (Z.ltb_spec c d); reflexivity || lia. Qed.

Lemma aff_less_rk old a b : aff_less old a b = (rk old a <? rk old b).
Proof.
  unfold aff_less, rk.
  pose proof (index1_range old (cid a) 1 eq_refl). pose proof (index1_range old (cid b) 1 eq_refl).
  destruct (Z.eqb_spec (index1 old (cid a) 1) 0), (Z.eqb_spec (index1 old (cid b) 1) 0); cbn [andb orb];
    [symmetry; apply Z.ltb_irrefl|apply ltb_ext; lia ..].
Qed.

Lemma rk_member old c : (rk old c <=? Z.of_nat (length old)) = true <-> In (cid c) (map cid old).
Proof.
  unfold rk. rewrite Z.leb_le, <- (index1_nonzero_iff old (cid c) 1 eq_refl).
  pose proof (index1_range old (cid c) 1 eq_refl).
  destruct (Z.eqb_spec (index1 old (cid c) 1) 0); lia.
Qed.

Lemma reorder_members_first old l :
  let L := isort (aff_less old) l in
  L = filter (fun c => rk old c <=? Z.of_nat (length old)) L
      ++ filter (fun c => negb (rk old c <=? Z.of_nat (length old))) L.
Proof.
  intro L. apply (sorted_partition core (rk old)). unfold L.
  rewrite (isort_ext (aff_less old) (fun a b => rk old a <? rk old b)) by apply aff_less_rk.
  apply isort_sorted.
Qed.

Definition memb (k : string) (l : list string) : bool := existsb (String.eqb k) l.

Lemma fold_upd_lookup (cs : list core) (base : Z) : forall (acc : smap Z) k,
  lookup_opt (fold_left (fun p c => upd p (cid c) base) cs acc) k =
  if memb k (map cid cs) then Some base else lookup_opt acc k.
Proof.
  unfold memb. induction cs as [|c t IH]; intros acc k; [reflexivity|].
  cbn [fold_left map existsb]. rewrite IH, lookup_opt_upd.
  destruct (existsb (String.eqb k) (map cid t)); destruct (String.eqb k (cid c)); reflexivity.
Qed.

Lemma lookup_opt_all_base (m : smap Z) base k :
  (forall c v, In (c, v) m -> v = base) ->
  lookup_opt m k = if memb k (keys m) then Some base else None.
Proof.
  intro H. unfold memb, keys. induction m as [|[k0 v0] t IH]; [reflexivity|].
  cbn [lookup_opt map existsb fst]. destruct (String.eqb k k0) eqn:E.
  - rewrite (H k0 v0) by (simpl; auto). reflexivity.
  - cbn [orb]. apply IH. intros c v I. apply (H c v). simpl. auto.
Qed.

Lemma memb_perm k l l' : Permutation l l' -> memb k l = memb k l'.
Proof.
  unfold memb. induction 1; simpl; try congruence.
  - destruct (String.eqb k y), (String.eqb k x); reflexivity.
Qed.

Lemma aff_loop_prefix fuel : forall base full cores acc r,
  aff_loop fuel base full cores acc = Ok r -> exists r', r = acc ++ r'.
Proof.
  induction fuel as [|f IH]; intros base full cores acc r H; simpl in H; [discriminate|].
  destruct (Z.of_nat (length cores) <? full).
  - injection H as <-. exists []. now rewrite app_nil_r.
  - destruct (full =? 0); [discriminate|].
    apply IH in H. destruct H as [r' ->]. rewrite <- app_assoc. eexists; reflexivity.
Qed.

Lemma chunks_head n k (l : list core) : (0 < n)%nat -> exists rest, chunks n k l = firstn k l :: rest.
Proof. destruct n; [lia|]. intros _. simpl. eexists; reflexivity. Qed.

Lemma aff_loop_first fuel base full cores r : 0 < full ->
  aff_loop fuel base full cores [] = Ok r ->
  r = [] \/ exists rest, r = fold_left (fun p c => upd p (cid c) base) (firstn (Z.to_nat full) cores) [] :: rest.
Proof.
  intros Hf H. destruct fuel as [|f]; simpl in H; [discriminate|].
  destruct (Z.ltb_spec (Z.of_nat (length cores)) full).
  - injection H as <-. auto.
  - replace (full =? 0) with false in H by (symmetry; apply Z.eqb_neq; lia).
    right. apply aff_loop_prefix in H. destruct H as [r' ->]. simpl.
    assert (C : (0 < Z.to_nat (Z.quot (Z.of_nat (length cores)) full))%nat).
    { assert (1 <= Z.quot (Z.of_nat (length cores)) full).
      { apply Z.quot_le_lower_bound; lia. }
      lia. }
    destruct (chunks_head _ (Z.to_nat full) cores C) as [rest E]. rewrite E. simpl. eexists; reflexivity.
Qed.

Lemma cores_of_ids m : map cid (cores_of m) = keys m.
Proof. unfold cores_of, keys. rewrite map_map. reflexivity. Qed.

Lemma match_nonnil {V A} (m : list V) (a b : A) : m <> [] -> match m with [] => a | _ :: _ => b end = b.
Proof. destruct m; [congruence|reflexivity]. Qed.

Lemma full_core_base base k : 0 < base -> is_full_core base (mkCore k base) = true.
Proof. intro H. unfold is_full_core. simpl. now rewrite Z.leb_refl, Z.rem_same by lia. Qed.

Section Main.
Variable sortf : list keyed -> outcome (list keyed).
Variables (base maxfrag : Z) (avail : smap Z) (availmem : Z) (om : smap Z) (cpu : f64) (mem : Z) (fuel : nat).
Hypothesis Hbase : 0 < base.
Hypothesis Hom_ne : om <> [].
Hypothesis Hom_nd : NoDup (keys om).
Hypothesis Hom_base : forall c v, In (c, v) om -> v = base.
Hypothesis Hav_nd : NoDup (keys avail).
(* after the put-back the origin's cores are whole free cores of this map *)
Hypothesis Hfree : forall c, In c (keys om) -> lookup_opt avail c = Some base.
Hypothesis Hreq : pieces_request base cpu = base * Z.of_nat (length om).

Let n : nat := length om.
Let fulls : list core := filter (is_full_core base) (cores_of avail).
Let old : list core := isort core_less (filter (is_full_core base) (cores_of om)).
Let L : list core := isort (aff_less old) (isort core_less fulls).

Lemma om_all_full : filter (is_full_core base) (cores_of om) = cores_of om.
Proof.
  unfold cores_of. clear Hfree Hreq Hom_nd Hom_ne. induction om as [|[k v] t IH]; simpl; [reflexivity|].
  rewrite (Hom_base k v) by (simpl; auto). rewrite full_core_base by exact Hbase.
  f_equal. apply IH. intros c v' I. apply (Hom_base c). simpl. auto.
Qed.

Lemma old_ids : Permutation (map cid old) (keys om).
Proof.
  unfold old. rewrite om_all_full, <- cores_of_ids. apply Permutation_map. apply isort_perm.
Qed.

Lemma L_perm : Permutation L fulls.
Proof. unfold L. eapply perm_trans; apply isort_perm. Qed.

Lemma L_nodup : NoDup (map cid L).
Proof.
  eapply Permutation_NoDup; [apply Permutation_sym, Permutation_map, L_perm|].
  unfold fulls. apply NoDup_map_filter. rewrite cores_of_ids. exact Hav_nd.
Qed.

Definition member (c : core) : bool := rk old c <=? Z.of_nat (length old).

Lemma member_iff c : member c = true <-> In (cid c) (keys om).
Proof.
  unfold member. rewrite rk_member. split; intro H.
  - eapply Permutation_in; [apply old_ids|exact H].
  - eapply Permutation_in; [apply Permutation_sym, old_ids|exact H].
Qed.

Lemma members_ids : Permutation (map cid (filter member L)) (keys om).
Proof.
  apply NoDup_Permutation; [apply NoDup_map_filter, L_nodup|exact Hom_nd|].
  intro k. split.
  - intro H. apply in_map_iff in H. destruct H as [c [E I]]. apply filter_In in I. destruct I as [_ M].
    subst k. apply member_iff. exact M.
  - intro H. pose proof (Hfree k H) as F. apply lookup_opt_some_in in F.
    assert (I : In (mkCore k base) L).
    { eapply Permutation_in; [apply Permutation_sym, L_perm|]. unfold fulls. apply filter_In.
      split; [|apply full_core_base, Hbase]. unfold cores_of. apply in_map_iff. exists (k, base). auto. }
    apply in_map_iff. exists (mkCore k base). split; [reflexivity|]. apply filter_In. split; [exact I|].
    apply member_iff. exact H.
Qed.

Lemma first_n_are_origin : firstn n L = filter member L.
Proof.
  pose proof (reorder_members_first old (isort core_less fulls)) as P. fold L in P. cbv zeta in P.
  fold member in P.
  assert (LEN : length (filter member L) = n).
  { unfold n. rewrite <- (map_length cid), (Permutation_length members_ids). unfold keys. apply map_length. }
  rewrite P at 1. rewrite firstn_app, LEN, Nat.sub_diag. simpl. rewrite app_nil_r.
  rewrite <- LEN. apply firstn_all.
Qed.

Lemma first_plan_lookup k :
  lookup_opt (fold_left (fun p c => upd p (cid c) base) (firstn n L) []) k = lookup_opt om k.
Proof.
  rewrite fold_upd_lookup, first_n_are_origin, (memb_perm k _ _ members_ids).
  rewrite (lookup_opt_all_base om base k Hom_base). reflexivity.
Qed.

Theorem do_plans_first cross :
  do_get_cpu_plans_g sortf om avail availmem base maxfrag cpu mem fuel = Ok cross ->
  cross = [] \/ exists p rest, cross = p :: rest /\ forall k, lookup_opt p k = lookup_opt om k.
Proof.
  unfold do_get_cpu_plans_g, new_host.
  replace (base =? 0) with false by (symmetry; apply Z.eqb_neq; lia). cbn [andb bind].
  rewrite (match_nonnil om _ _ Hom_ne).
  cbn [bind]. unfold reorder_by_affinity. cbn [h_full h_base h_maxfrag].
  unfold host_cpu_plans_g. cbn [h_base]. rewrite Hreq.
  assert (Hn : (0 < n)%nat).
  { unfold n. assert (length om <> 0)%nat; [|lia]. intro E. apply Hom_ne. apply length_zero_iff_nil. exact E. }
  replace (base * Z.of_nat (length om) <=? 0) with false by (symmetry; apply Z.leb_gt; fold n; nia).
  replace (base =? 0) with false by (symmetry; apply Z.eqb_neq; lia).
  unfold host_plans_pieces_g. cbn [h_base h_full h_frag h_aff h_maxfrag].
  rewrite (Z.mul_comm base), Z.quot_mul, Z.rem_mul by lia. cbn [Z.eqb].
  unfold get_full_plans_g. fold (cores_of avail). fold fulls. fold (cores_of om). fold old. fold L.
  destruct (aff_loop fuel base (Z.of_nat (length om)) L []) as [r| | |] eqn:AL; cbn [bind]; try discriminate.
  (* the memory bound keeps a prefix of the plans *)
  intro H. assert (K : exists k, cross = firstn k r).
  { destruct (0 <? mem); [destruct (_ <? Z.of_nat (length r))|]; injection H as <-;
      [eexists; reflexivity|exists (length r); symmetry; apply firstn_all ..]. }
  destruct K as [k ->].
  assert (Hn' : 0 < Z.of_nat (length om)) by (fold n; lia).
  destruct (aff_loop_first fuel base (Z.of_nat (length om)) L r Hn' AL) as [->|[rest ->]].
  - left. apply firstn_nil.
  - rewrite Nat2Z.id. fold n. destruct k; [left; reflexivity|right].
    eexists _, _. split; [reflexivity|]. apply first_plan_lookup.
Qed.
End Main.

Lemma numa_loop_prefix sortf order : forall numa avail0 origin base maxfrag cpu mem fuel avail acc a r,
  numa_loop sortf order numa avail0 origin base maxfrag cpu mem fuel avail acc = Ok (a, r) -> exists r', r = acc ++ r'.
Proof.
  induction order as [|nid rest IH]; intros numa avail0 origin base maxfrag cpu mem fuel avail acc a r H; simpl in H.
  - injection H as _ <-. exists []. now rewrite app_nil_r.
  - destruct (do_get_cpu_plans_g _ _ _ _ _ _ _ _ _) as [plans| | |]; cbn [bind] in H; try discriminate.
    apply IH in H. destruct H as [r' ->]. rewrite <- app_assoc. eexists; reflexivity.
Qed.

Section Top.
Variable sortf : list keyed -> outcome (list keyed).
Variables (base maxfrag : Z) (info : node_info) (om : smap Z) (req : wreq) (fuel : nat).
Hypothesis Hbase : 0 < base.
Hypothesis Hom_ne : om <> [].
Hypothesis Hom_nd : NoDup (keys om).
Hypothesis Hom_base : forall c v, In (c, v) om -> v = base.
Hypothesis Hreq : pieces_request base (rq_cpu_req req) = base * Z.of_nat (length om).

Theorem first_plan_is_origin plans :
  nr_numa (ni_cap info) = [] ->
  NoDup (keys (nr_cpumap (get_available_nofloat info))) ->
  (forall c, In c (keys om) -> lookup_opt (nr_cpumap (get_available_nofloat info)) c = Some base) ->
  get_cpu_plans_g sortf info om base maxfrag req [] fuel = Ok plans ->
  plans = [] \/ exists p rest, plans = (EmptyString, p) :: rest /\ forall k, lookup_opt p k = lookup_opt om k.
Proof.
  intros Hnuma Hav Hfree. unfold get_cpu_plans_g. cbn [numa_loop bind].
  destruct (do_get_cpu_plans_g sortf om _ _ base maxfrag _ _ fuel) as [cross| | |] eqn:D; cbn [bind]; try discriminate.
  intro H. injection H as <-. simpl.
  destruct (do_plans_first sortf base maxfrag _ _ om _ _ fuel Hbase Hom_ne Hom_nd Hom_base Hav Hfree Hreq cross D) as [->|[p [rest [-> Lk]]]].
  - left. reflexivity.
  - right. exists p. eexists. split; [reflexivity|exact Lk].
Qed.

(* NUMA topology, the origin's NUMA node [nu] visited first (what GetCPUPlans does
   since /repo 3d8e6c0): unless node [nu] yields no plan at all (its memory cannot
   hold the request), the first plan is the origin's cores on node [nu] *)
Theorem first_plan_is_origin_numa nu order plans :
  let avail := get_available_nofloat info in
  let numamap := numa_cpu_map (nr_numa (ni_cap info)) (nr_cpumap avail) nu in
  let numamem := Z.min (lookup 0 (nr_numamem avail) nu) (nr_mem avail) in
  NoDup (keys numamap) ->
  (forall c, In c (keys om) -> lookup_opt numamap c = Some base) ->
  get_cpu_plans_g sortf info om base maxfrag req (nu :: order) fuel = Ok plans ->
  (exists p rest, plans = (nu, p) :: rest /\ forall k, lookup_opt p k = lookup_opt om k) \/
  do_get_cpu_plans_g sortf om numamap numamem base maxfrag (rq_cpu_req req) (rq_mem_req req) fuel = Ok [].
Proof.
  intros avail numamap numamem Hav Hfree. unfold get_cpu_plans_g. fold avail. cbn [numa_loop]. fold numamap. fold numamem.
  destruct (do_get_cpu_plans_g sortf om numamap numamem base maxfrag (rq_cpu_req req) (rq_mem_req req) fuel) as [pl| | |] eqn:D;
    cbn [bind]; try discriminate.
  destruct (do_plans_first sortf base maxfrag _ _ om _ _ fuel Hbase Hom_ne Hom_nd Hom_base Hav Hfree Hreq pl D) as [->|[p [rest [-> Lk]]]].
  - intros _. right. reflexivity.
  - destruct (numa_loop sortf order _ _ om base maxfrag _ _ fuel _ _) as [[a r]| | |] eqn:NL; cbn [bind]; try discriminate.
    apply numa_loop_prefix in NL. destruct NL as [r' ->]. simpl.
    destruct (do_get_cpu_plans_g sortf om (nr_cpumap a) (nr_mem a) base maxfrag _ _ fuel) as [cross| | |]; cbn [bind]; try discriminate.
    intro H. injection H as <-. left. exists p. eexists. split; [reflexivity|exact Lk].
Qed.
End Top.

Theorem visit_order_head (info : node_info) (origin : smap Z) (nu : string) :
  In nu (numa_nodes info) ->
  origin_on (nr_numa (ni_cap info)) origin nu = true ->
  (forall y, y <> nu -> origin_on (nr_numa (ni_cap info)) origin y = false) ->
  exists rest, numa_visit_order info origin = nu :: rest.
Proof. intros I On Off. apply visit_order_origin_first; auto. Qed.
