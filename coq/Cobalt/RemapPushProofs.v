(* Cobalt/RemapPushProofs.v — the push loop of doRemapResource reaches every
   workload of the remap result whose engine update succeeds, whatever the
   iteration order and whichever updates fail. *)
From Coq Require Import List ZArith Permutation.
From Verif Require Import Cobalt.RemapPush.
Import ListNotations.

Lemma eng_get_set e i m j : eng_get (eng_set e i m) j = if Nat.eqb j i then Some m else eng_get e j.
Proof.
  induction e as [|[k m'] t IH]; simpl.
  - destruct (Nat.eqb j i); reflexivity.
  - destruct (Nat.eqb i k) eqn:E; simpl.
    + apply Nat.eqb_eq in E. subst k. destruct (Nat.eqb j i); reflexivity.
    + destruct (Nat.eqb j k) eqn:E2.
      * apply Nat.eqb_eq in E2. subst k. rewrite Nat.eqb_sym, E. reflexivity.
      * exact IH.
Qed.

Lemma push_all_other fails remap : forall e i,
  (forall m, In (i, m) remap -> fails i = true) -> eng_get (push_all fails e remap) i = eng_get e i.
Proof.
  unfold push_all. induction remap as [|[j m] t IH]; intros e i H; simpl; [reflexivity|].
  rewrite IH by (intros m' I; apply (H m'); simpl; auto).
  unfold push_one. simpl. destruct (fails j) eqn:F; [reflexivity|].
  rewrite eng_get_set. destruct (Nat.eqb i j) eqn:E; [|reflexivity].
  apply Nat.eqb_eq in E. subst j. rewrite (H m) in F by (simpl; auto). discriminate.
Qed.

(* C32 at the engine: a workload of the remap result whose update does not fail
   ends up with exactly the cpu map computed for it *)
Theorem push_all_reaches fails remap : NoDup (map fst remap) ->
  forall e i m, In (i, m) remap -> fails i = false -> eng_get (push_all fails e remap) i = Some m.
Proof.
  unfold push_all. induction remap as [|[j m'] t IH]; intros ND e i m I F; simpl in *; [tauto|].
  inversion ND as [|? ? NI ND']; subst. destruct I as [I|I].
  - injection I as -> ->. fold (push_all fails (push_one fails e (i, m)) t).
    rewrite push_all_other.
    + unfold push_one. simpl. rewrite F, eng_get_set, Nat.eqb_refl. reflexivity.
    + intros m0 I0. destruct NI. exact (in_map fst _ _ I0).
  - apply IH; assumption.
Qed.

(* a workload that is not in the remap result (bound workloads), or whose update
   fails, keeps what it had *)
Theorem push_all_untouched fails remap e i :
  ~ In i (map fst remap) \/ fails i = true -> eng_get (push_all fails e remap) i = eng_get e i.
Proof.
  intros [H|H]; apply push_all_other; intros m I.
  - destruct H. exact (in_map fst _ _ I).
  - exact H.
Qed.

(* hence the result does not depend on the iteration order of the Go map *)
Theorem push_all_order_indep fails remap remap' e i :
  NoDup (map fst remap) -> Permutation remap remap' ->
  eng_get (push_all fails e remap) i = eng_get (push_all fails e remap') i.
Proof.
  intros ND P.
  assert (ND' : NoDup (map fst remap')) by (eapply Permutation_NoDup; [apply Permutation_map; exact P|exact ND]).
  destruct (fails i) eqn:F.
  - rewrite !push_all_untouched by auto. reflexivity.
  - destruct (in_dec Nat.eq_dec i (map fst remap)) as [I|NI].
    + apply in_map_iff in I. destruct I as [[j m] [E I]]. simpl in E. subst j.
      rewrite (push_all_reaches fails remap ND e i m I F).
      rewrite (push_all_reaches fails remap' ND' e i m (Permutation_in _ P I) F). reflexivity.
    + rewrite !push_all_untouched; [reflexivity| |left; exact NI].
      left. intro H. apply NI. eapply Permutation_in; [apply Permutation_sym, Permutation_map; exact P|exact H].
Qed.
