(* C27: the harness check ok accepts the model's own observations (canonical schedule) for every
   well-formed script that never exposes a stalled subscriber to a dispatch. *)
From Coq Require Import List Bool Arith PeanoNat Lia.
From Verif Require Import Discovery.Helium Discovery.HeliumProofs Discovery.OkProofs Base.ListFacts.
Import ListNotations.

Lemma last_consumed_app : forall a b,
  last_consumed (a ++ b) = last_consumed b \/ exists y, In (TConsume y) a /\ last_consumed (a ++ b) = y.
Proof.
  induction a as [|e t IH]; intro b; simpl; [left; reflexivity|].
  destruct e; try (destruct (IH b) as [H|[y [H1 H2]]]; [left; exact H|right; exists y; split; [right; exact H1|exact H2]]).
  right. exists a. split; [left; reflexivity|reflexivity].
Qed.

Lemma deliveries_of_app : forall i a b, deliveries_of i (a ++ b) = deliveries_of i a ++ deliveries_of i b.
Proof.
  intros i a b. induction a as [|e t IH]; simpl; [reflexivity|].
  destruct e; try exact IH. destruct (i0 =? i); simpl; rewrite IH; reflexivity.
Qed.

Lemma slot_shape : forall (c x : aset) i new told,
  (forall y, In (TConsume y) new -> y = x) ->
  deliveries_ok (new ++ told) -> last_consumed told = c ->
  exists a b, deliveries_of i new = repeat x a ++ repeat c b /\
              (a = 0 \/ last_consumed (new ++ told) = x).
Proof.
  intros c x i new told. induction new as [|e r IH]; intros Hc D Lc.
  - exists 0, 0. split; [reflexivity|left; reflexivity].
  - assert (Hr : forall y, In (TConsume y) r -> y = x) by (intros y Hy; apply Hc; right; exact Hy).
    simpl in D.
    assert (Dr : deliveries_ok (r ++ told)) by (destruct e; try exact D; destruct D; assumption).
    destruct (IH Hr Dr Lc) as [a [b [E Z]]].
    destruct e; simpl; try (exists a, b; split; [exact E|exact Z]).
    + (* TConsume *) exists a, b. split; [exact E|right]. apply Hc. left. reflexivity.
    + (* TDeliver: what is delivered is the list consumed last *)
      destruct D as [Dm _]. destruct (i0 =? i); [|exists a, b; split; [exact E|exact Z]].
      rewrite E, Dm. destruct Z as [Z|Z].
      * subst a. destruct (last_consumed_app r told) as [H|[y [H1 H2]]].
        -- exists 0, (S b). rewrite H, Lc. split; [reflexivity|left; reflexivity].
        -- exists 1, b. rewrite H2, (Hr y H1). split; [reflexivity|right; reflexivity].
      * exists (S a), b. rewrite Z. split; [reflexivity|right; reflexivity].
Qed.

(* the system goroutines only add to the trace; what they consume was on the stream channel *)
Definition textends (s s' : st) : Prop :=
  exists new, trace s' = new ++ trace s /\
    (forall y, In (TConsume y) new -> In (Item y) (src s)) /\
    (forall it, In it (src s') -> In it (src s)).

Lemma sys_trace_step : forall s e, sys_event e -> textends s (step s e).
Proof.
  intros s e Se.
  assert (K : forall new s', trace s' = new ++ trace s -> src s' = src s ->
              (forall y, ~ In (TConsume y) new) -> textends s s').
  { intros new s' T S N. exists new. rewrite S. split; [exact T|]. split; [intros y Hy; destruct (N y Hy)|auto]. }
  destruct (step_cases s e); try destruct Se.
  - exists [TConsume a]. rewrite Sr. split; [reflexivity|]. split.
    + intros y [E|[]]. inversion E. left. reflexivity.
    + intros it H. right. exact H.
  - exists [TExit]. rewrite Sr. split; [reflexivity|]. split; [intros y [E|[]]; discriminate|].
    intros it H. right. exact H.
  - apply (K [TClosed i; TUnsubRet i]); [reflexivity..|]. intros y [E|[E|[]]]; discriminate.
  - apply (K [TUnsubRet i]); [reflexivity..|]. intros y [E|[]]; discriminate.
  - apply (K []); [reflexivity..|]. intros y [].
  - apply (K [TDeliver cur msg]); [reflexivity..|]. intros y [E|[]]; discriminate.
  - apply (K []); [reflexivity..|]. intros y [].
  - apply (K []); [reflexivity..|]. intros y [].
Qed.

Lemma sys_trace_run : forall ks s, Forall sys_event ks -> textends s (run s ks).
Proof.
  apply run_rel; [| |exact sys_trace_step].
  - intro s. exists []. split; [reflexivity|]. split; [intros y []|auto].
  - intros a b c [n1 [T1 [C1 S1]]] [n2 [T2 [C2 S2]]].
    exists (n2 ++ n1). split; [rewrite T2, T1, app_assoc; reflexivity|]. split; [|auto].
    intros y Hy. apply in_app_or in Hy. destruct Hy as [Hy|Hy]; [apply S1, C2, Hy|apply C1, Hy].
Qed.

Lemma delta_trace : forall s s2 new i, wf s -> wf s2 -> trace s2 = new ++ trace s ->
  delta (clients s) (clients s2) i = rev (deliveries_of i new).
Proof.
  intros s s2 new i W W2 T.
  pose proof (wf_recv s W i) as R1. pose proof (wf_recv s2 W2 i) as R2.
  rewrite T, deliveries_of_app in R2. unfold recv_of in *. unfold delta.
  destruct (nth_error (clients s2) i) as [c2|].
  - rewrite R2. f_equal.
    replace (match nth_error (clients s) i with Some c1 => length (crecv c1) | None => 0 end)
      with (length (deliveries_of i (trace s))).
    + rewrite app_length, Nat.add_sub. rewrite firstn_app, Nat.sub_diag, firstn_all. simpl. apply app_nil_r.
    + destruct (nth_error (clients s) i); rewrite <- R1; reflexivity.
  - symmetry in R2. apply app_eq_nil in R2. destruct R2 as [R2 _]. rewrite R2. reflexivity.
Qed.

Lemma monotone_repeat : forall H p (c x : aset) b a jc jx,
  p <= jc -> jc <= jx -> nth_error H jc = Some c -> nth_error H jx = Some x ->
  monotone_in H p (repeat c b ++ repeat x a).
Proof.
  intros H p c x b. revert p. induction b as [|b IH]; intros p a jc jx L1 L2 Hc Hx; simpl.
  - assert (X : forall a p, p <= jx -> monotone_in H p (repeat x a)).
    { induction a0 as [|a0 IHa]; intros q Lq; simpl; [exact I|].
      exists jx. split; [exact Lq|]. split; [exact Hx|]. apply IHa. lia. }
    apply X. lia.
  - exists jc. split; [exact L1|]. split; [exact Hc|]. apply (IH jc a jc jx); auto.
Qed.

Lemma fuel_of_ge : forall s, mu s <= fuel_of s.
Proof. intro s. pose proof (mu_bound s). unfold drain_bound, fuel_of in *. nia. Qed.

(* ok's and the tag's per-subscriber flags against the model's clients *)
Definition crel1 (dead : bool) (s : st) (i : nat) (c : client) (f : cflags) (x : xfl) : Prop :=
  creading c = f_reading f /\ x_reading x = f_reading f /\ x_cancel x = f_cancel f /\ x_unsub x = f_unsub f /\
  (f_cancel f = true -> ccancel c = true) /\
  (f_cancel f = false -> f_unsub f = false -> ccancel c = false /\ In i (subs s)) /\
  (In i (unsubq s) -> f_unsub f = true) /\
  (dead = false -> f_unsub f = true -> In i (unsubq s) \/ ~ In i (subs s)).

Record crel (dead : bool) (s : st) (fl : list cflags) (xs : list xfl) (keys : list nat) : Prop := mkCrel {
  cr_len : length fl = length (clients s);
  cr_xlen : length xs = length (clients s);
  cr_keys : keys = map ckey (clients s);
  cr_all : forall i c f x, nth_error (clients s) i = Some c -> nth_error fl i = Some f -> nth_error xs i = Some x ->
           crel1 dead s i c f x
}.

Lemma nth_error_app_last : forall A (l : list A) x, nth_error (l ++ [x]) (length l) = Some x.
Proof. intros. rewrite nth_error_app2 by lia. rewrite Nat.sub_diag. reflexivity. Qed.

Lemma nth_error_lt : forall A (l : list A) i x, nth_error l i = Some x -> i < length l.
Proof. intros A l i x H. apply nth_error_Some. congruence. Qed.

Lemma crel_sys : forall dead s1 s2 fl xs keys,
  cframe s1 s2 -> unsubq s2 = [] ->
  (forall i, In i (unsubq s1) -> ~ In i (subs s2)) ->
  crel dead s1 fl xs keys -> crel dead s2 fl xs keys.
Proof.
  intros dead s1 s2 fl xs keys F U Done [L X K A].
  assert (Kc : map ckey (clients s2) = map ckey (clients s1)).
  { apply nth_ext with (d := 0) (d' := 0); [rewrite !map_length; apply (cf_len _ _ F)|].
    intros n Hn. rewrite map_length in Hn.
    destruct (nth_error (clients s1) n) as [c|] eqn:E.
    - destruct (cf_cl _ _ F n c E) as [c' [E' [K' _]]].
      rewrite (nth_error_nth _ _ 0 (map_nth_error ckey _ _ E')).
      rewrite (nth_error_nth _ _ 0 (map_nth_error ckey _ _ E)). exact K'.
    - apply nth_error_None in E. rewrite (cf_len _ _ F) in Hn. lia. }
  constructor.
  - rewrite (cf_len _ _ F). exact L.
  - rewrite (cf_len _ _ F). exact X.
  - rewrite Kc. exact K.
  - intros i c2 f x H2 Hf Hx.
    destruct (nth_error (clients s1) i) as [c|] eqn:H1.
    2:{ apply nth_error_None in H1. apply nth_error_lt in H2. rewrite (cf_len _ _ F) in H2. lia. }
    destruct (cf_cl _ _ F i c H1) as [c' [E' [_ [R' [C1 C2]]]]]. rewrite H2 in E'. inversion E'; subst c'.
    destruct (A i c f x H1 Hf Hx) as [B1 [B2 [B3 [B4 [B5 [B6 [B7 B8]]]]]]].
    unfold crel1. repeat split; try congruence.
    + intro Hc. apply C1. apply B5. exact Hc.
    + destruct (B6 H H0) as [Z1 Z2]. rewrite C2; [exact Z1|]. intro Q. apply B7 in Q. congruence.
    + destruct (B6 H H0) as [Z1 Z2]. apply (cf_keep _ _ F); [exact Z2|]. intro Q. apply B7 in Q. congruence.
    + rewrite U. intros [].
    + intros Hd Hu. right. destruct (B8 Hd Hu) as [Q|Q]; [apply Done; exact Q|].
      intro Z. apply Q. apply (cf_subs _ _ F). exact Z.
Qed.

Lemma key_unused : forall s keys k, wf s -> keys = map ckey (clients s) -> ~ In k keys ->
  key_used (clients s) k (subs s) = false.
Proof.
  intros s keys k W K N. unfold key_used. destruct (existsb _ (subs s)) eqn:E; [|reflexivity].
  apply existsb_exists in E. destruct E as [x [Hx Ex]]. apply Nat.eqb_eq in Ex.
  pose proof (wf_lt s W x Hx) as L. unfold key_of in Ex.
  destruct (nth_error (clients s) x) as [c|] eqn:Nc; [|apply nth_error_None in Nc; lia].
  exfalso. apply N. rewrite K. rewrite <- Ex. apply in_map. eapply nth_error_In. exact Nc.
Qed.

Lemma crel_same : forall dead s s' fl xs keys,
  clients s' = clients s -> subs s' = subs s -> unsubq s' = unsubq s ->
  crel dead s fl xs keys -> crel dead s' fl xs keys.
Proof.
  intros dead s s' fl xs keys A B C [L X K R]. constructor; try rewrite A; auto.
  intros i c f x H Hf Hx. unfold crel1. rewrite B, C. apply (R i c f x H Hf Hx).
Qed.

Lemma crel_subscribe : forall dead s fl xs keys k r, wf s -> ~ In k keys ->
  crel dead s fl xs keys ->
  crel dead (step s (ESubscribe k r)) (fl ++ [mkFlags r false false 0]) (xs ++ [mkX r false false]) (keys ++ [k]).
Proof.
  intros dead s fl xs keys k r W N [L X K R]. cbn [step]. rewrite (key_unused s keys k W K N).
  constructor; unf.
  - rewrite !app_length, L. reflexivity.
  - rewrite !app_length, X. reflexivity.
  - rewrite map_app, K. reflexivity.
  - intros i c f x H Hf Hx. apply nth_error_snoc in H. destruct H as [[Li H]|[Ei Ec]].
    + rewrite nth_error_app1 in Hf by lia. rewrite nth_error_app1 in Hx by lia.
      destruct (R i c f x H Hf Hx) as [B1 [B2 [B3 [B4 [B5 [B6 [B7 B8]]]]]]].
      unfold crel1. unf. repeat split; auto.
      * apply (B6 H0 H1).
      * rewrite insert_sub_In. right. apply (B6 H0 H1).
      * intros Hd Hu. destruct (B8 Hd Hu) as [Q|Q]; [left; exact Q|right].
        rewrite insert_sub_In. intros [E|E]; [lia|contradiction].
    + subst i c. rewrite <- L in Hf. rewrite nth_error_app_last in Hf. inversion Hf; subst f.
      rewrite <- X in Hx. rewrite nth_error_app_last in Hx. inversion Hx; subst x.
      unfold crel1. cbn. repeat split; auto; try discriminate.
      * rewrite insert_sub_In. left. reflexivity.
      * intro Q. apply (wf_uq s W) in Q. lia.
Qed.

Definition fl_set (i : nat) (g : cflags -> cflags) (fl : list cflags) := upd i g fl.

Lemma crel_upd : forall dead s fl xs keys i (gc : client -> client) (gf : cflags -> cflags) (gx : xfl -> xfl) s',
  clients s' = upd i gc (clients s) -> subs s' = subs s ->
  (forall j, In j (unsubq s) -> In j (unsubq s')) ->
  (forall c, ckey (gc c) = ckey c) ->
  (forall c f x, crel1 dead s i c f x -> crel1 dead s' i (gc c) (gf f) (gx x)) ->
  (forall j c f x, j <> i -> crel1 dead s j c f x -> crel1 dead s' j c f x) ->
  crel dead s fl xs keys -> crel dead s' (upd i gf fl) (upd i gx xs) keys.
Proof.
  intros dead s fl xs keys i gc gf gx s' A B C Kc G1 G2 [L X K R]. constructor.
  - rewrite A, !upd_length. exact L.
  - rewrite A, !upd_length. exact X.
  - rewrite A, K. clear - Kc. generalize (clients s). intro l. revert i. induction l as [|c t IH]; intros [|i]; simpl; auto.
    + rewrite Kc. reflexivity.
    + rewrite <- IH. reflexivity.
  - intros j c f x H Hf Hx. rewrite A in H. destruct (Nat.eq_dec i j) as [E|E].
    + subst j. rewrite nth_error_upd_same in H, Hf, Hx.
      destruct (nth_error (clients s) i) as [c0|] eqn:H0; [|discriminate].
      destruct (nth_error fl i) as [f0|] eqn:F0; [|discriminate].
      destruct (nth_error xs i) as [x0|] eqn:X0; [|discriminate].
      simpl in *. inversion H; inversion Hf; inversion Hx; subst. apply G1. apply (R i c0 f0 x0 H0 F0 X0).
    + rewrite nth_error_upd_other in H, Hf, Hx by exact E. apply G2; [congruence|]. apply (R j c f x H Hf Hx).
Qed.

Lemma ok_latest_length : forall H fl g, length (fst (ok_latest H fl g)) = length fl.
Proof.
  intros H fl. induction fl as [|f t IH]; intros [|ms g]; simpl; auto.
  specialize (IH g). destruct (ok_latest H t g) as [r b]. simpl in IH.
  destruct (check_msgs H (f_ptr f) ms); simpl; rewrite IH; reflexivity.
Qed.

Lemma find_from_lt : forall hist j0 p m j, find_from hist j0 p m = Some j -> j < j0 + length hist.
Proof.
  induction hist as [|x t IH]; intros j0 p m j H; simpl in H; [discriminate|].
  destruct ((p <=? j0) && aset_eqb x m); [inversion H; subst; simpl; lia|].
  apply IH in H. simpl. lia.
Qed.
Lemma check_msgs_lt : forall H ms p p', check_msgs H p ms = Some p' -> p < length H -> p' < length H.
Proof.
  intros H ms. induction ms as [|m t IH]; intros p p' E L; simpl in E; [inversion E; subst; exact L|].
  destruct (find_from H 0 p m) as [j|] eqn:F; [|discriminate].
  apply (IH j p' E). apply find_from_lt in F. exact F.
Qed.
Lemma ok_latest_ptr : forall H fl g, (forall f, In f fl -> f_ptr f < length H) ->
  forall f, In f (fst (ok_latest H fl g)) -> f_ptr f < length H.
Proof.
  intros H fl. induction fl as [|f0 t IH]; intros [|ms g] P f Hf; simpl in Hf; auto; try (destruct Hf; fail).
  destruct (ok_latest H t g) as [r b] eqn:E.
  assert (IH' : forall f, In f r -> f_ptr f < length H).
  { intros f1 H1. apply (IH g); [intros f2 H2; apply P; right; exact H2|]. rewrite E. exact H1. }
  destruct (check_msgs H (f_ptr f0) ms) as [p|] eqn:C; simpl in Hf; destruct Hf as [Hf|Hf]; try (apply IH'; exact Hf).
  - subst f. simpl. eapply check_msgs_lt; [exact C|]. apply P. left. reflexivity.
  - subst f. apply P. left. reflexivity.
Qed.

Lemma crel_flags : forall dead s fl fl' xs keys,
  length fl' = length fl ->
  (forall i f', nth_error fl' i = Some f' -> exists f, nth_error fl i = Some f /\
      f_reading f' = f_reading f /\ f_cancel f' = f_cancel f /\ f_unsub f' = f_unsub f) ->
  crel dead s fl xs keys -> crel dead s fl' xs keys.
Proof.
  intros dead s fl fl' xs keys Hl Hf [L X K R]. constructor; try congruence.
  intros i c f' x H Hf' Hx. destruct (Hf i f' Hf') as [f [E [A [B C]]]].
  pose proof (R i c f x H E Hx) as Q. unfold crel1 in *. rewrite A, B, C. exact Q.
Qed.

Definition is_envev (e : event) : Prop :=
  match e with ELoop _ | EDispatch _ => False | _ => True end.

(* what the events of the environment leave alone *)
Definition eframe (s s' : st) : Prop :=
  trace s' = trace s /\ loop s' = loop s /\ latest s' = latest s /\ length (clients s) <= length (clients s').
Lemma env_step_frame : forall s e, is_envev e -> eframe s (step s e).
Proof.
  intros s e H. unfold eframe.
  destruct (step_cases s e); try destruct H; unf; rewrite ?upd_length, ?app_length; repeat split; simpl; lia.
Qed.
Lemma env_run_frame : forall evs s, Forall is_envev evs -> eframe s (run s evs).
Proof.
  apply run_rel; [| |exact env_step_frame]; unfold eframe.
  - intro s. repeat split; auto.
  - intros a b c [A1 [A2 [A3 A4]]] [B1 [B2 [B3 B4]]]. repeat split; try congruence. lia.
Qed.

Lemma nth_error_map_seq : forall A (f : nat -> A) n i, i < n -> nth_error (map f (seq 0 n)) i = Some (f i).
Proof.
  intros A f n i H. rewrite nth_error_map. rewrite nth_error_nth' with (d := 0) by (rewrite seq_length; exact H).
  rewrite seq_nth by exact H. reflexivity.
Qed.

Lemma deliveries_of_In : forall i m new, In (TDeliver i m) new -> deliveries_of i new <> [].
Proof.
  intros i m new. induction new as [|e r IH]; intro H; [destruct H|].
  destruct H as [H|H].
  - subst e. simpl. rewrite Nat.eqb_refl. discriminate.
  - simpl. destruct e; try (apply IH; exact H). destruct (i0 =? i); [discriminate|apply IH; exact H].
Qed.

Lemma conv_ok_slot : forall s s2 ks fl2 xs keys,
  wf s -> src s = [] -> Forall sys_event ks -> s2 = run (step s ETick) ks -> quiescentb s2 = true ->
  crel false s2 fl2 xs keys ->
  converge_clause (latest s) fl2 (map (delta (clients s) (clients s2)) (seq 0 (length (clients s2)))).
Proof.
  intros s s2 ks fl2 xs keys W Sr F E Q C i f ms Hf Hm R Cn U.
  set (s1 := step s ETick) in *.
  assert (W1 : wf s1) by (apply wf_step; exact W).
  assert (W2 : wf s2) by (rewrite E; apply wf_run; exact W1).
  assert (Li : i < length (clients s2)) by (rewrite <- (cr_len _ _ _ _ _ C); eapply nth_error_lt; exact Hf).
  rewrite nth_error_map_seq in Hm by exact Li. inversion Hm; subst ms. clear Hm.
  destruct (sys_trace_run ks s1 F) as [new [T [Cs _]]]. rewrite <- E in T. change (trace s1) with (trace s) in T.
  rewrite (delta_trace s s2 new i W W2 T).
  (* i is live in s2 *)
  destruct (nth_error (clients s2) i) as [c|] eqn:Nc; [|apply nth_error_None in Nc; lia].
  destruct (nth_error xs i) as [x|] eqn:Nx.
  2:{ apply nth_error_None in Nx. rewrite (cr_xlen _ _ _ _ _ C) in Nx. lia. }
  destruct (cr_all _ _ _ _ _ C i c f x Nc Hf Nx) as [B1 [_ [_ [_ [_ [B6 _]]]]]].
  destruct (B6 Cn U) as [Z1 Z2].
  assert (Lv : liveb s2 i = true).
  { unfold liveb. rewrite Nc, B1, R, Z1. simpl. rewrite andb_true_r. apply memn_In. exact Z2. }
  assert (P1 : pending s1) by (left; reflexivity).
  pose proof (rest_served s1 ks W1 P1 F) as RD. rewrite <- E in RD.
  destruct (RD Q i Lv) as [_ [n [Tn Dn]]]. rewrite T in Tn. apply app_inv_tail in Tn. subst n.
  (* nothing was consumed in this slot: every delivery carries latest s *)
  assert (NoC : forall y, In (TConsume y) new -> y = latest s).
  { intros y Hy. apply Cs in Hy. simpl in Hy. rewrite Sr in Hy. destruct Hy. }
  assert (D : deliveries_ok (new ++ trace s)) by (rewrite <- T; apply (wf_deliv s2 W2)).
  destruct (slot_shape (latest s) (latest s) i new (trace s) NoC D (eq_sym (wf_latest s W))) as [a [b [Es _]]].
  pose proof (deliveries_of_In i _ new Dn) as Ne.
  rewrite Es, <- repeat_app in *. rewrite rev_repeat.
  destruct (a + b) as [|n]; [exfalso; apply Ne; reflexivity|].
  exists (repeat (latest s) n). apply repeat_cons.
Qed.

(* the invariant at slot boundaries *)
Record brel (o : okst) (xs : list xfl) (keys : list nat) (s : st) (eps : aset) : Prop := mkBrel {
  b_wf : wf s;
  b_cr : crel (o_dead o) s (o_flags o) xs keys;
  b_nodup : NoDup keys;
  b_ptr : forall f, In f (o_flags o) -> f_ptr f < length (o_hist o);
  b_hist : o_hist o <> [];
  b_eps : o_eps o = eps;
  b_rest : if o_dead o then loop s = LExit else (quiescentb s = true /\ latest s = ok_cur (o_hist o));
  b_calls : forall i, In i (o_calls o) -> i < length (clients s) /\ ret_or_queued s i
}.

Lemma ok_cur_snoc : forall H x, ok_cur (H ++ [x]) = x.
Proof. intros. unfold ok_cur. rewrite last_of_snoc. reflexivity. Qed.
Lemma ok_cur_nth : forall H, H <> [] -> nth_error H (length H - 1) = Some (ok_cur H).
Proof.
  intros H Hn. destruct (exists_last Hn) as [pre [y E]]. subst H.
  rewrite ok_cur_snoc, app_length. simpl. rewrite Nat.add_sub. apply nth_error_app_last.
Qed.

Lemma core_latest : forall dead H' fl1 xs keys s s2 new (c x : aset) jc jx,
  wf s -> wf s2 -> trace s2 = new ++ trace s ->
  (new = [] \/ ((forall y, In (TConsume y) new -> y = x) /\ latest s = c /\
                nth_error H' jc = Some c /\ nth_error H' jx = Some x /\ jc <= jx /\
                (forall f, In f fl1 -> f_ptr f <= jc))) ->
  (forall f, In f fl1 -> f_ptr f < length H') ->
  crel dead s2 fl1 xs keys ->
  let g := map (delta (clients s) (clients s2)) (seq 0 (length (clients s2))) in
  snd (ok_latest H' fl1 g) = true /\
  (forall f, In f (fst (ok_latest H' fl1 g)) -> f_ptr f < length H') /\
  crel dead s2 (fst (ok_latest H' fl1 g)) xs keys.
Proof.
  intros dead H' fl1 xs keys s s2 new c x jc jx W W2 T Cases P C g.
  assert (LC : latest_clause H' fl1 g).
  { split; [unfold g; rewrite map_length, seq_length; apply (cr_len _ _ _ _ _ C)|].
    intros i f ms Hf Hm.
    assert (Li : i < length (clients s2)) by (rewrite <- (cr_len _ _ _ _ _ C); eapply nth_error_lt; exact Hf).
    unfold g in Hm. rewrite nth_error_map_seq in Hm by exact Li. inversion Hm; subst ms.
    rewrite (delta_trace s s2 new i W W2 T).
    destruct Cases as [E|[Cx [Lc [Hc [Hx [Lj Pj]]]]]]; [subst new; exact I|].
    (* i received the old list c some times, then the consumed list x: both are in the history, in this order *)
    assert (D : deliveries_ok (new ++ trace s)) by (rewrite <- T; apply (wf_deliv s2 W2)).
    assert (Lt : last_consumed (trace s) = c) by (rewrite <- (wf_latest s W); exact Lc).
    destruct (slot_shape c x i new (trace s) Cx D Lt) as [a [b [E _]]].
    rewrite E, rev_app_distr, !rev_repeat.
    apply (monotone_repeat H' (f_ptr f) c x b a jc jx); auto.
    apply Pj. eapply nth_error_In. exact Hf. }
  split; [apply ok_latest_complete; exact LC|]. split.
  - apply ok_latest_ptr. exact P.
  - apply (crel_flags dead s2 fl1); [apply ok_latest_length|apply ok_latest_flags|exact C].
Qed.

(* the tag's flags, as exposed_from updates them *)
Definition x1 (a : action) (fl : list xfl) : list xfl :=
  match a with
  | ASub _ r => fl ++ [mkX r false false]
  | ARead i => upd i (fun x => mkX true (x_cancel x) (x_unsub x)) fl
  | AStall i => upd i (fun x => mkX false (x_cancel x) (x_unsub x)) fl
  | ACancel i => upd i (fun x => mkX (x_reading x) true (x_unsub x)) fl
  | _ => fl end.

Definition xhit (a : action) (fl1 : list xfl) : bool :=
  match a with
  | ASet _ | APut _ | ADel _ | ABatch _ | AWait => blocker None fl1
  | AUnsub i | ACancelUnsub i => blocker (Some i) fl1
  | _ => false end.

Definition x2 (a : action) (fl : list xfl) : list xfl :=
  match a with
  | AUnsub i => upd i (fun x => mkX (x_reading x) (x_cancel x) true) (x1 a fl)
  | ACancelUnsub i => upd i (fun x => mkX (x_reading x) true true) (x1 a fl)
  | _ => x1 a fl end.

Lemma exposed_from_cons : forall fl a t, exposed_from fl (a :: t) = xhit a (x1 a fl) || exposed_from (x2 a fl) t.
Proof. intros fl a t. destruct a; reflexivity. Qed.

Definition keys_after (keys : list nat) (a : action) : list nat :=
  match a with ASub k _ => keys ++ [k] | _ => keys end.

Lemma upd_upd : forall A (g1 g2 : A -> A) i l, upd i g2 (upd i g1 l) = upd i (fun x => g2 (g1 x)) l.
Proof. intros A g1 g2 i l. revert i. induction l as [|x t IH]; intros [|i]; simpl; auto. rewrite IH. reflexivity. Qed.

Lemma upd_id : forall A i (l : list A), upd i (fun x => x) l = l.
Proof. intros A i l. revert i. induction l as [|x t IH]; intros [|i]; simpl; auto. rewrite IH. reflexivity. Qed.

Lemma crel_reading : forall dead s fl xs keys i b,
  crel dead s fl xs keys ->
  crel dead (step s (ESetReading i b))
       (upd i (fun f => mkFlags b (f_cancel f) (f_unsub f) (f_ptr f)) fl)
       (upd i (fun x => mkX b (x_cancel x) (x_unsub x)) xs) keys.
Proof.
  intros dead s fl xs keys i b C. simpl.
  apply (crel_upd dead s fl xs keys i (c_set_reading b)) ; auto.
  intros c f x Q. unfold crel1 in *. simpl. intuition.
Qed.

Lemma crel_cancel : forall dead s fl xs keys i,
  crel dead s fl xs keys ->
  crel dead (step s (ECancel i))
       (upd i (fun f => mkFlags (f_reading f) true (f_unsub f) (f_ptr f)) fl)
       (upd i (fun x => mkX (x_reading x) true (x_unsub x)) xs) keys.
Proof.
  intros dead s fl xs keys i C. simpl.
  apply (crel_upd dead s fl xs keys i c_cancel); auto.
  intros c f x Q. unfold crel1 in *. simpl. intuition discriminate.
Qed.

Lemma crel_unsub : forall dead s fl xs keys i, i < length (clients s) ->
  crel dead s fl xs keys ->
  crel dead (step s (EUnsubscribe i))
       (upd i (fun f => mkFlags (f_reading f) (f_cancel f) true (f_ptr f)) fl)
       (upd i (fun x => mkX (x_reading x) (x_cancel x) true) xs) keys.
Proof.
  intros dead s fl xs keys i L C. cbn [step]. apply Nat.ltb_lt in L. rewrite L.
  apply (crel_upd dead s fl xs keys i (fun c => c)); auto; unf; try (rewrite upd_id; reflexivity).
  - intros j Hj. apply in_or_app. left. exact Hj.
  - intros c f x Q. unfold crel1 in *. unf. simpl. rewrite in_app_iff. simpl. intuition discriminate.
  - intros j c f x Ne Q. unfold crel1 in *. unf. rewrite in_app_iff. simpl. intuition congruence.
Qed.

Definition wfa (keys : list nat) (a : action) : bool :=
  match a with
  | ASub k _ => negb (existsb (Nat.eqb k) keys)
  | ARead i | AStall i | ACancel i | AUnsub i | ACancelUnsub i => i <? length keys
  | _ => true
  end.

Lemma wf_from_cons : forall keys a t, wf_from keys (a :: t) = wfa keys a && wf_from (keys_after keys a) t.
Proof. intros keys a t. destruct a; reflexivity. Qed.

Lemma In_upd : forall A (g : A -> A) i l y, In y (upd i g l) -> In y l \/ exists x, In x l /\ y = g x.
Proof.
  intros A g i l y H. apply In_nth_error in H. destruct H as [j H].
  destruct (nth_error_upd A g i j l y H) as [x [N [E|[_ E]]]]; apply nth_error_In in N; subst y; eauto.
Qed.

Lemma flags_step_ptr : forall a fl n, 0 < n -> (forall f, In f fl -> f_ptr f < n) ->
  forall f, In f (ok_flags_step a fl) -> f_ptr f < n.
Proof.
  intros a fl n Hn P f H. destruct a; simpl in H; auto;
    try (apply In_upd in H; destruct H as [H|[x [H1 H2]]]; [apply P; exact H|subst f; simpl; apply P; exact H1]).
  apply in_app_or in H. destruct H as [H|[H|[]]]; [apply P; exact H|subst f; simpl; exact Hn].
Qed.

Lemma act_envev : forall eps a, Forall is_envev (fst (act_events eps a)).
Proof.
  intros eps a. destruct a; cbn [act_events].
  all: try (cbn [fst]; repeat (constructor; try exact I); fail).
  all: destruct (apply_events _ _ false) as [e1 ch];
       destruct ch; cbn [fst]; repeat (constructor; try exact I).
Qed.

Lemma act_crel : forall o xs keys s eps a,
  brel o xs keys s eps -> wfa keys a = true ->
  let s1 := run s (fst (act_events eps a)) in
  eframe s s1 /\ wf s1 /\
  crel (o_dead o) s1 (ok_flags_step a (o_flags o)) (x2 a xs) (keys_after keys a) /\
  NoDup (keys_after keys a) /\
  (forall f, In f (ok_flags_step a (o_flags o)) -> f_ptr f < length (o_hist o)).
Proof.
  intros o xs keys s eps a [W C N P Hh E R Cl] Wa s1.
  assert (Hl : 0 < length (o_hist o)) by (destruct (o_hist o); [congruence|simpl; lia]).
  assert (Lk : length keys = length (clients s)) by (rewrite (cr_keys _ _ _ _ _ C), map_length; reflexivity).
  split; [apply env_run_frame, act_envev|]. split; [apply wf_run; exact W|].
  split; [|split; [|apply flags_step_ptr; assumption]].
  - unfold s1. destruct a; cbn [act_events fst x2 x1 keys_after ok_flags_step];
      try (destruct (apply_events _ eps false) as [e' [|]]; cbn [fst]); try exact C;
      try (apply (crel_same _ s); [reflexivity..|exact C]).
    + apply crel_subscribe; [exact W| |exact C]. apply existsb_eqb_In. simpl in Wa. apply negb_true_iff. exact Wa.
    + apply crel_reading. exact C.
    + apply crel_reading. exact C.
    + apply crel_cancel. exact C.
    + apply crel_unsub; [|exact C]. simpl in Wa. apply Nat.ltb_lt in Wa. lia.
    + (* cancel, then Unsubscribe *)
      change (run s [ECancel i; EUnsubscribe i]) with (step (step s (ECancel i)) (EUnsubscribe i)).
      pose proof (crel_cancel _ s _ _ _ i C) as C1.
      assert (L1 : i < length (clients (step s (ECancel i)))).
      { simpl. rewrite upd_length. simpl in Wa. apply Nat.ltb_lt in Wa. lia. }
      pose proof (crel_unsub _ _ _ _ _ i L1 C1) as C2.
      rewrite !upd_upd in C2. exact C2.
  - destruct a; simpl; try exact N. apply NoDup_snoc; [exact N|].
    apply existsb_eqb_In. simpl in Wa. apply negb_true_iff. exact Wa.
Qed.

Definition calls_after (o : okst) (a : action) : list nat :=
  match a with AUnsub i | ACancelUnsub i => o_calls o ++ [i] | _ => o_calls o end.

Lemma ok_env_eps : forall o eps a, o_eps o = eps -> snd (fst (ok_env o a)) = snd (act_events eps a).
Proof.
  intros o eps a E. subst eps. destruct a; cbn [ok_env act_events fst snd]; try reflexivity;
    destruct (apply_events _ _ false) as [e1 ch];
    destruct ch; reflexivity.
Qed.

Lemma ok_hist_len : forall o a, length (o_hist o) <= length (ok_hist o a).
Proof.
  intros o a. unfold ok_hist. destruct a; cbn [ok_env fst]; try lia; try (rewrite app_length; simpl; lia);
    destruct (apply_events _ _ false) as [e1 ch];
    destruct ch; cbn [fst]; try lia; rewrite app_length; simpl; lia.
Qed.

Lemma finish : forall o xs keys s eps a s2 new (c x : aset) jc jx,
  brel o xs keys s eps ->
  wf s2 -> trace s2 = new ++ trace s ->
  (new = [] \/ ((forall y, In (TConsume y) new -> y = x) /\ latest s = c /\
                nth_error (ok_hist o a) jc = Some c /\ nth_error (ok_hist o a) jx = Some x /\ jc <= jx /\
                (forall f, In f (ok_flags_step a (o_flags o)) -> f_ptr f <= jc))) ->
  crel (ok_dead o a) s2 (ok_flags_step a (o_flags o)) (x2 a xs) (keys_after keys a) ->
  NoDup (keys_after keys a) ->
  (forall f, In f (ok_flags_step a (o_flags o)) -> f_ptr f < length (o_hist o)) ->
  (if ok_dead o a then loop s2 = LExit else (quiescentb s2 = true /\ latest s2 = ok_cur (ok_hist o a))) ->
  (forall i, In i (calls_after o a) -> i < length (clients s2) /\ ret_or_queued s2 i) ->
  let sl := mkSlot a (map (delta (clients s) (clients s2)) (seq 0 (length (clients s2)))) in
  snd (ok_lat o sl) = true /\
  (forall f, In f (fst (ok_lat o sl)) -> f_ptr f < length (ok_hist o a)) /\
  crel (ok_dead o a) s2 (fst (ok_lat o sl)) (x2 a xs) (keys_after keys a) /\
  (ok_conv o sl = true -> brel (ok_step o sl) (x2 a xs) (keys_after keys a) s2 (snd (act_events eps a))).
Proof.
  intros o xs keys s eps a s2 new c x jc jx B W2 T Cases C N P R Cl sl.
  assert (P' : forall f, In f (ok_flags_step a (o_flags o)) -> f_ptr f < length (ok_hist o a)).
  { intros f Hf. pose proof (P f Hf). pose proof (ok_hist_len o a). lia. }
  destruct (core_latest (ok_dead o a) (ok_hist o a) _ _ _ s s2 new c x jc jx (b_wf _ _ _ _ _ B) W2 T Cases P' C) as [L1 [L2 L3]].
  split; [exact L1|]. split; [exact L2|]. split; [exact L3|]. intros _.
  constructor; cbn [ok_step o_flags o_hist o_eps o_dead o_calls]; auto.
  - pose proof (ok_hist_len o a) as Hl. pose proof (b_hist _ _ _ _ _ B) as Hn. intro E. change (ok_hist o a = []) in E. rewrite E in Hl.
    destruct (o_hist o); [congruence|simpl in Hl; lia].
  - apply ok_env_eps. apply (b_eps _ _ _ _ _ B).
Qed.

Lemma drain_noop : forall f s, drain_event s = None -> drain f s = s.
Proof. intros [|f] s H; simpl; [reflexivity|rewrite H; reflexivity]. Qed.

Lemma crel_weaken : forall s fl xs keys, crel false s fl xs keys -> crel true s fl xs keys.
Proof.
  intros s fl xs keys [L X K R]. constructor; auto. intros i c f x H Hf Hx.
  pose proof (R i c f x H Hf Hx) as Q. unfold crel1 in *. intuition discriminate.
Qed.

Lemma ok_dead_eq : forall o a, ok_dead o a = match a with AClose => true | _ => o_dead o end.
Proof.
  intros o a. unfold ok_dead. destruct a; cbn [ok_env]; try reflexivity;
    destruct (apply_events _ (o_eps o) false) as [e1 ch]; reflexivity.
Qed.

Lemma ok_dead_false : forall o a, o_dead o = false -> a <> AClose -> ok_dead o a = false.
Proof. intros o a H Na. rewrite ok_dead_eq. destruct a; congruence. Qed.

Lemma env_fields : forall s e, is_envev e ->
  loop (step s e) = loop s /\ latest (step s e) = latest s /\
  (forall it, e <> ESrc it) -> True.
Proof. auto. Qed.

Lemma existsb_i_false : forall A (f : nat -> A -> bool) l k i x,
  existsb_i f l k = false -> nth_error l i = Some x -> f (k + i) x = false.
Proof.
  intros A f l. induction l as [|y t IH]; intros k i x H N; [destruct i; discriminate|].
  simpl in H. apply orb_false_iff in H. destruct H as [H1 H2]. destruct i as [|i]; simpl in N.
  - inversion N; subst. rewrite Nat.add_0_r. exact H1.
  - replace (k + S i) with (S k + i) by lia. apply (IH (S k) i x H2 N).
Qed.

Lemma blocker_false : forall skip fl i x, blocker skip fl = false -> nth_error fl i = Some x ->
  (match skip with Some j => i = j | None => False end) \/
  x_reading x = true \/ x_cancel x = true \/ x_unsub x = true.
Proof.
  intros skip fl i x H N. unfold blocker in H. pose proof (existsb_i_false _ _ fl 0 i x H N) as E. simpl in E.
  destruct skip as [j|].
  - destruct (i =? j) eqn:Ej; [left; apply Nat.eqb_eq; exact Ej|right]. simpl in E.
    destruct (x_reading x), (x_cancel x), (x_unsub x); simpl in E; auto; discriminate.
  - right. simpl in E. destruct (x_reading x), (x_cancel x), (x_unsub x); simpl in E; auto; discriminate.
Qed.

Lemma stalled_from : forall s fl xs keys skip,
  crel false s fl xs keys -> blocker skip xs = false ->
  forall j, (match skip with Some i => j <> i | None => True end) ->
  (forall k, In k (unsubq s) -> match skip with Some i => k = i | None => False end) ->
  In j (subs s) -> stalledb (clients s) j = false.
Proof.
  intros s fl xs keys skip C B j Hs Hu Hj. unfold stalledb.
  destruct (nth_error (clients s) j) as [c|] eqn:Nc; [|reflexivity].
  assert (Lj : j < length (clients s)) by (eapply nth_error_lt; exact Nc).
  destruct (nth_error fl j) as [f|] eqn:Nf; [|apply nth_error_None in Nf; rewrite (cr_len _ _ _ _ _ C) in Nf; lia].
  destruct (nth_error xs j) as [x|] eqn:Nx; [|apply nth_error_None in Nx; rewrite (cr_xlen _ _ _ _ _ C) in Nx; lia].
  destruct (cr_all _ _ _ _ _ C j c f x Nc Nf Nx) as [B1 [B2 [B3 [B4 [B5 [B6 [B7 B8]]]]]]].
  destruct (blocker_false skip xs j x B Nx) as [S|[R|[R|R]]].
  - destruct skip; [contradiction|destruct S].
  - rewrite B1, <- B2, R. reflexivity.
  - rewrite B5 by congruence. apply andb_false_r.
  - exfalso. destruct (B8 eq_refl) as [Q|Q]; [congruence| |contradiction].
    apply Hu in Q. destruct skip; [contradiction|destruct Q].
Qed.

(* a live loop none of whose subscribers can stall it comes to rest *)
Lemma rest_from : forall s fl xs keys,
  crel false s fl xs keys -> wf s -> loop s = LSelect -> has_close (src s) = false ->
  unsubq s = [] -> blocker None xs = false ->
  let s2 := drain (fuel_of s) s in
  quiescentb s2 = true /\ exists ks, Forall sys_event ks /\ s2 = run s ks.
Proof.
  intros s fl xs keys C W L H U B.
  destruct (drain_rest (fuel_of s) s) as [Q [_ K]]; [|apply fuel_of_ge|auto].
  split; [exact W|]. split; [|unfold aliveb; rewrite L, H; reflexivity].
  apply no_stall_spec. intros i Hi.
  apply (stalled_from s fl xs keys None C B i I); [|exact Hi]. rewrite U. intros k [].
Qed.

Lemma unsub_fields : forall s i evs, (evs = [EUnsubscribe i] \/ evs = [ECancel i; EUnsubscribe i]) ->
  i < length (clients s) ->
  unsubq (run s evs) = unsubq s ++ [i] /\ src (run s evs) = src s.
Proof.
  intros s i evs E L. apply Nat.ltb_lt in L.
  destruct E; subst evs; unfold run; cbn [fold_left step]; unf; rewrite ?upd_length, L; split; reflexivity.
Qed.

Lemma calls_env : forall o xs keys s eps a s2,
  brel o xs keys s eps -> wfa keys a = true ->
  (exists ks, s2 = run (run s (fst (act_events eps a))) ks) ->
  length (clients s) <= length (clients s2) ->
  forall i, In i (calls_after o a) -> i < length (clients s2) /\ ret_or_queued s2 i.
Proof.
  intros o xs keys s eps a s2 B Wa [ks E] Len i Hi.
  assert (Lk : length keys = length (clients s)) by (rewrite (cr_keys _ _ _ _ _ (b_cr _ _ _ _ _ B)), map_length; reflexivity).
  assert (Old : In i (o_calls o) -> i < length (clients s2) /\ ret_or_queued s2 i).
  { intro H. destruct (b_calls _ _ _ _ _ B i H) as [A1 A2]. split; [lia|]. rewrite E. apply roq_run. apply roq_run. exact A2. }
  assert (New : a = AUnsub i \/ a = ACancelUnsub i -> i < length (clients s2) /\ ret_or_queued s2 i).
  { intro Ha. assert (Li : i < length (clients s)) by (rewrite <- Lk; apply Nat.ltb_lt; destruct Ha; subst a; exact Wa).
    split; [lia|]. rewrite E. apply roq_run. left.
    destruct (unsub_fields s i (fst (act_events eps a))) as [U _]; [destruct Ha; subst a; auto|exact Li|].
    rewrite U. apply in_or_app. right. left. reflexivity. }
  destruct a; simpl in Hi; try (apply Old; exact Hi);
    (apply in_app_or in Hi; destruct Hi as [Hi|[Hi|[]]]; [apply Old; exact Hi|subst; apply New; auto]).
Qed.

(* what the check must find of the model's own slot: the verdicts hold and the
   boundary invariant is re-established *)
Definition slot_ok (o : okst) (xs : list xfl) (keys : list nat) (s : st) (eps : aset) (a : action) (s2 : st) : Prop :=
  let sl := mkSlot a (map (delta (clients s) (clients s2)) (seq 0 (length (clients s2)))) in
  snd (ok_lat o sl) = true /\ ok_conv o sl = true /\
  brel (ok_step o sl) (x2 a xs) (keys_after keys a) s2 (snd (act_events eps a)).

(* once the loop has exited nothing happens any more *)
Lemma step_dead : forall o xs keys s eps a,
  brel o xs keys s eps -> o_dead o = true -> wfa keys a = true ->
  let s1 := run s (fst (act_events eps a)) in
  slot_ok o xs keys s eps a (drain (fuel_of s1) s1).
Proof.
  intros o xs keys s eps a B D Wa s1.
  destruct (act_crel o xs keys s eps a B Wa) as [[T [Lp [_ Ln]]] [W1 [C1 [N1 P1]]]]. fold s1 in T, Lp, Ln, W1, C1. rewrite D in C1.
  pose proof (b_rest _ _ _ _ _ B) as R. rewrite D, <- Lp in R.
  assert (Dd : ok_dead o a = true) by (rewrite ok_dead_eq, D; destruct a; reflexivity).
  assert (De : drain_event s1 = None) by (unfold drain_event; rewrite R; reflexivity).
  rewrite (drain_noop _ s1 De).
  destruct (finish o xs keys s eps a s1 [] [] [] 0 0 B W1 T (or_introl eq_refl)) as [L1 [_ [_ L4]]]; auto.
  - rewrite Dd. exact C1.
  - rewrite Dd. exact R.
  - apply (calls_env o xs keys s eps a s1 B Wa); [exists []; reflexivity|exact Ln].
  - assert (Cv : ok_conv o (mkSlot a (map (delta (clients s) (clients s1)) (seq 0 (length (clients s1))))) = true).
    { unfold ok_conv. cbn [act]. destruct a; try reflexivity. rewrite Dd. reflexivity. }
    split; [exact L1|]. split; [exact Cv|exact (L4 Cv)].
Qed.

(* a slot in which the (live) loop is triggered and comes to rest *)
Lemma step_dynamic : forall o xs keys s eps a (x : aset),
  brel o xs keys s eps -> o_dead o = false -> ok_dead o a = false -> wfa keys a = true ->
  let s1 := run s (fst (act_events eps a)) in
  let s2 := drain (fuel_of s1) s1 in
  quiescentb s2 = true /\ (exists ks, Forall sys_event ks /\ s2 = run s1 ks) ->
  ((src s1 = [] /\ ok_hist o a = o_hist o) \/ (src s1 = [Item x] /\ ok_hist o a = o_hist o ++ [x])) ->
  slot_ok o xs keys s eps a s2.
Proof.
  intros o xs keys s eps a x B D Dd Wa s1 s2 [Q [ks [F Ek]]] Hs. clearbody s2. subst s2.
  set (s2 := run s1 ks) in *.
  destruct (act_crel o xs keys s eps a B Wa) as [[T1 [_ [Ll Ln]]] [W1 [C1 [N1 P1]]]]. fold s1 in T1, Ll, Ln, W1, C1. rewrite D in C1.
  assert (W2 : wf s2) by (apply wf_run; exact W1).
  pose proof (sys_run_cframe ks s1 F) as CF. fold s2 in CF.
  pose proof (quiescentb_spec s2 Q) as [Q1 [Q2 [Q3 Q4]]].
  assert (C2 : crel false s2 (ok_flags_step a (o_flags o)) (x2 a xs) (keys_after keys a)).
  { apply (crel_sys false s1 s2); auto. intros i Hi. apply (returned_closed s2 i W2 Q3), roq_run. left. exact Hi. }
  destruct (sys_trace_run ks s1 F) as [new [T [Cs _]]]. fold s2 in T.
  rewrite T1 in T.
  pose proof (b_rest _ _ _ _ _ B) as R. rewrite D in R. destruct R as [Rq Rl].
  assert (Hn : o_hist o <> []) by apply (b_hist _ _ _ _ _ B).
  assert (Hl : 0 < length (o_hist o)) by (destruct (o_hist o); [congruence|simpl; lia]).
  assert (Reg : latest s2 = registered s1).
  { rewrite <- (registered_run ks s1 F). fold s2. unfold registered. rewrite Q2. reflexivity. }
  set (jc := length (o_hist o) - 1).
  assert (Pj : forall f, In f (ok_flags_step a (o_flags o)) -> f_ptr f <= jc) by (intros f Hf; pose proof (P1 f Hf); unfold jc; lia).
  assert (Cl : forall i, In i (calls_after o a) -> i < length (clients s2) /\ ret_or_queued s2 i).
  { apply (calls_env o xs keys s eps a s2 B Wa); [exists ks; reflexivity|]. rewrite (cf_len _ _ CF). exact Ln. }
  set (sl := mkSlot a (map (delta (clients s) (clients s2)) (seq 0 (length (clients s2))))).
  (* x' is the list every delivery of this slot carries once something was consumed, at jx in the history *)
  assert (Fin : forall (x' : aset) jx, (forall y, In (Item y) (src s1) -> y = x') ->
                nth_error (ok_hist o a) jc = Some (latest s) -> nth_error (ok_hist o a) jx = Some x' -> jc <= jx ->
                latest s2 = ok_cur (ok_hist o a) -> slot_ok o xs keys s eps a s2).
  { intros x' jx Cx Hc Hx Lj Ls.
    destruct (finish o xs keys s eps a s2 new (latest s) x' jc jx B W2 T) as [L1 [_ [L3 L4]]]; auto.
    - right. repeat split; auto.
    - rewrite Dd. exact C2.
    - rewrite Dd. split; assumption.
    - rewrite Dd in L3. assert (Cv : ok_conv o sl = true).
      { (* only a tick asks for convergence *)
        unfold ok_conv. change (act sl) with a. destruct a; try reflexivity. rewrite Dd. simpl orb.
        apply ok_converge_complete. change (ok_hist o AWait) with (o_hist o). rewrite <- Rl.
        apply (conv_ok_slot s s2 ks _ (x2 AWait xs) (keys_after keys AWait) (b_wf _ _ _ _ _ B)
                 (proj1 (proj2 (quiescentb_spec s Rq))) F eq_refl Q L3). }
      split; [exact L1|]. split; [exact Cv|exact (L4 Cv)]. }
  destruct Hs as [[Sr Hh]|[Sr Hh]]; rewrite Hh in *.
  - (* nothing to consume: every delivery carries the current list *)
    apply (Fin (latest s) jc); auto; try (rewrite Rl; apply ok_cur_nth; exact Hn).
    + rewrite Sr. intros y [].
    + rewrite Reg. unfold registered. rewrite Sr. simpl. rewrite Ll. exact Rl.
  - (* the new list x is consumed *)
    apply (Fin x (length (o_hist o))).
    + rewrite Sr. intros y [Hy|[]]. inversion Hy. reflexivity.
    + rewrite nth_error_app1 by (unfold jc; lia). rewrite Rl. apply ok_cur_nth. exact Hn.
    + apply nth_error_app_last.
    + unfold jc. lia.
    + rewrite Reg. unfold registered. rewrite Sr. symmetry. apply ok_cur_snoc.
Qed.

Definition quiet_ev (e : event) : Prop :=
  match e with ESubscribe _ _ | ESetReading _ _ | ECancel _ => True | _ => False end.

Lemma quiet_step : forall s e, quiet_ev e ->
  src (step s e) = src s /\ unsubq (step s e) = unsubq s /\ tickp (step s e) = tickp s /\
  loop (step s e) = loop s /\ latest (step s e) = latest s /\ subs s = subs s \/ True.
Proof. auto. Qed.

Lemma quiet_run : forall evs s, Forall quiet_ev evs -> quiescentb (run s evs) = quiescentb s.
Proof.
  apply (run_rel quiet_ev (fun a b => quiescentb b = quiescentb a)); [reflexivity|congruence|].
  intros s e H. destruct (step_cases s e); try destruct H; reflexivity.
Qed.

Lemma quiescent_drain_none : forall s, quiescentb s = true -> drain_event s = None.
Proof. exact quiescent_drain_event. Qed.

(* Unsubscribe(i) on a resting loop: it is processed first, then the loop rests again *)
Lemma unsub_rest : forall s1 i,
  wf s1 -> loop s1 = LSelect -> src s1 = [] -> unsubq s1 = [i] ->
  (forall j, j <> i -> In j (subs s1) -> stalledb (clients s1) j = false) ->
  let s2 := drain (fuel_of s1) s1 in
  quiescentb s2 = true /\ exists ks, Forall sys_event ks /\ s2 = run s1 ks.
Proof.
  intros s1 i W L Sr Uq Ns s2.
  assert (De : drain_event s1 = Some (ELoop BUnsub)) by (unfold drain_event; rewrite L, Sr, Uq; reflexivity).
  pose proof (wf_step s1 (ELoop BUnsub) W) as W'. pose proof (sys_cframe s1 (ELoop BUnsub) I) as F.
  destruct (step_unsub_taken s1 i [] L Uq) as [U' [S' [_ R']]].
  set (s1' := step s1 (ELoop BUnsub)) in *.
  assert (G : good s1').
  { split; [exact W'|]. split.
    - apply (cframe_no_stall s1 _ F). intros j Hj. apply Ns; [|apply (cf_subs _ _ F), Hj].
      intro E. subst j. apply (wf_ret s1' W' i R'). exact Hj.
    - apply alive_step; [exact I|]. unfold aliveb. rewrite L, Sr. reflexivity. }
  assert (M : mu s1' < fuel_of s1).
  { pose proof (mu_bound s1'). pose proof (NoDup_incl_length (wf_nodup _ W') (cf_subs _ _ F)).
    unfold drain_bound, fuel_of in *. rewrite S', U', Sr in *. simpl length in *. nia. }
  unfold s2. destruct (fuel_of s1) as [|f]; [lia|]. simpl. rewrite De. fold s1'.
  destruct (drain_rest f s1' G) as [Q [_ [ks [Fk Ek]]]]; [lia|]. split; [exact Q|].
  exists (ELoop BUnsub :: ks). split; [constructor; [exact I|exact Fk]|exact Ek].
Qed.

Lemma blocker_x2_unsub : forall a i xs, (a = AUnsub i \/ a = ACancelUnsub i) ->
  blocker (Some i) (x1 a xs) = false -> blocker (Some i) (x2 a xs) = false.
Proof.
  intros a i xs Ha H. unfold blocker in *.
  assert (E : forall (g : xfl -> xfl) (l : list xfl) k n, k + n = i ->
     existsb_i (fun j x => negb (j =? i) && negb (x_reading x) && negb (x_cancel x) && negb (x_unsub x)) l k = false ->
     existsb_i (fun j x => negb (j =? i) && negb (x_reading x) && negb (x_cancel x) && negb (x_unsub x)) (upd n g l) k = false).
  { intros g l. induction l as [|y t IH]; intros k n Hk Hl; destruct n as [|n]; simpl in *; auto.
    - apply orb_false_iff in Hl. destruct Hl as [_ H2]. apply orb_false_iff. split; [|exact H2].
      replace k with i by lia. rewrite Nat.eqb_refl. reflexivity.
    - apply orb_false_iff in Hl. destruct Hl as [H1 H2]. apply orb_false_iff. split; [exact H1|].
      apply IH; [lia|exact H2]. }
  destruct Ha as [Ha|Ha]; subst a; cbn [x2 x1] in *; apply (E _ xs 0 i); auto.
Qed.

(* what an action means to a resting loop *)
Inductive akind (o : okst) (eps : aset) (a : action) : Prop :=
| KPush x (Ev : fst (act_events eps a) = [ESrc (Item x)]) (Hh : ok_hist o a = o_hist o ++ [x])
    (Xb : forall fl, xhit a fl = blocker None fl) (Xe : forall fl, x2 a fl = x1 a fl)
    (Nc : a <> AClose) (Nw : a <> AWait)        (* the stream sends the new list x *)
| KQuiet (Ev : Forall quiet_ev (fst (act_events eps a))) (Hh : ok_hist o a = o_hist o)
    (Nc : a <> AClose) (Nw : a <> AWait)        (* nothing for the loop to do *)
| KClose (E : a = AClose)
| KUnsub i (E : a = AUnsub i \/ a = ACancelUnsub i)
| KWait (E : a = AWait).

(* an etcd action: one watch response l, sent on if it changes the endpoint map *)
Lemma kv_kind : forall o a l,
  act_events (o_eps o) a =
    (let '(e, ch) := apply_events l (o_eps o) false in (if ch then [ESrc (Item e)] else [], e)) ->
  ok_env o a =
    (let '(e, ch) := apply_events l (o_eps o) false in (if ch then o_hist o ++ [e] else o_hist o, e, o_dead o)) ->
  (forall fl, xhit a fl = blocker None fl) -> (forall fl, x2 a fl = x1 a fl) -> a <> AClose -> a <> AWait ->
  akind o (o_eps o) a.
Proof.
  intros o a l Ea Eo Xb Xe Nc Nw.
  destruct (apply_events l (o_eps o) false) as [e [|]]; [apply (KPush _ _ _ e)|apply KQuiet];
    unfold ok_hist; rewrite ?Ea, ?Eo; auto; constructor.
Qed.

Lemma act_kind : forall o eps a, o_eps o = eps -> akind o eps a.
Proof.
  intros o eps a E. subst eps.
  destruct a; try (apply KQuiet; [repeat constructor|reflexivity|discriminate..]; fail).
  - apply (KPush _ _ _ a); try reflexivity; discriminate.
  - apply KClose. reflexivity.
  - apply (kv_kind o _ [Put a]); try reflexivity; discriminate.
  - apply (kv_kind o _ [Del a]); try reflexivity; discriminate.
  - apply (kv_kind o _ evs); try reflexivity; discriminate.
  - apply (KUnsub _ _ _ i). auto.
  - apply (KUnsub _ _ _ i). auto.
  - apply KWait. reflexivity.
Qed.

Theorem gen_step27 : forall o xs keys s eps a t,
  brel o xs keys s eps -> wf_from keys (a :: t) = true -> exposed_from xs (a :: t) = false ->
  let s1 := run s (fst (act_events eps a)) in
  slot_ok o xs keys s eps a (drain (fuel_of s1) s1) /\
  wf_from (keys_after keys a) t = true /\ exposed_from (x2 a xs) t = false.
Proof.
  intros o xs keys s eps a t B Wf Ex s1.
  rewrite wf_from_cons in Wf. apply andb_true_iff in Wf. destruct Wf as [Wa Wt].
  rewrite exposed_from_cons in Ex. apply orb_false_iff in Ex. destruct Ex as [Xh Xt].
  split; [|split; assumption].
  destruct (act_crel o xs keys s eps a B Wa) as [[T1 [Lp [Lt Ln]]] [W1 [C1 [N1 P1]]]]. fold s1 in T1, Lp, Lt, Ln, W1, C1.
  pose proof (b_rest _ _ _ _ _ B) as R.
  destruct (o_dead o) eqn:D.
  - apply step_dead; assumption.
  - destruct R as [Rq Rl]. pose proof (quiescentb_spec s Rq) as [Q1 [Q2 [Q3 Q4]]].
    assert (L1 : loop s1 = LSelect) by (rewrite Lp; exact Q1).
    destruct (act_kind o eps a (b_eps _ _ _ _ _ B)) as [x Ev Hh Xb Xe Nc Nw|Ev Hh Nc Nw|E|i E|E].
    + (* the stream sends the list x: consumed and pushed *)
      assert (S1 : src s1 = [Item x]) by (unfold s1; rewrite Ev; cbn; rewrite Q2; reflexivity).
      assert (U1 : unsubq s1 = []) by (unfold s1; rewrite Ev; exact Q3).
      apply (step_dynamic o xs keys s eps a x B D (ok_dead_false o a D Nc) Wa); [|right; split; assumption].
      apply (rest_from s1 _ _ _ C1 W1 L1); [rewrite S1; reflexivity|exact U1|].
      rewrite Xe, <- Xb. exact Xh.
    + (* nothing triggers the loop: it rests already *)
      assert (Qs : quiescentb s1 = true) by (unfold s1; rewrite quiet_run by exact Ev; exact Rq).
      apply (step_dynamic o xs keys s eps a [] B D (ok_dead_false o a D Nc) Wa).
      * rewrite (drain_noop _ s1 (quiescent_drain_event s1 Qs)).
        split; [exact Qs|exists []; split; [constructor|reflexivity]].
      * left. split; [apply (quiescentb_spec s1 Qs)|exact Hh].
    + (* the loop takes the close and exits *)
      subst a.
      assert (S1 : src s1 = [Close]) by (unfold s1; cbn; rewrite Q2; reflexivity).
      assert (De : drain_event s1 = Some (ELoop BSrc)) by (unfold drain_event; rewrite L1, S1; reflexivity).
      pose proof (step_exit s1 [] L1 S1) as Ex. pose proof (wf_step s1 (ELoop BSrc) W1) as Wx.
      set (sx := step s1 (ELoop BSrc)) in *.
      assert (E2 : drain (fuel_of s1) s1 = sx).
      { assert (F1 : fuel_of s1 = S (fuel_of s1 - 1)) by (unfold fuel_of; lia). rewrite F1. cbn [drain]. rewrite De.
        fold sx. apply drain_noop. rewrite Ex. reflexivity. }
      rewrite E2.
      assert (Hn : o_hist o <> []) by apply (b_hist _ _ _ _ _ B).
      destruct (finish o xs keys s eps AClose sx [TExit] (latest s) (latest s) (length (o_hist o) - 1) (length (o_hist o) - 1) B Wx)
        as [L2 [_ [_ L4]]]; auto.
      * rewrite Ex. unf. rewrite T1. reflexivity.
      * right. split; [intros y [Hy|[]]; discriminate|]. split; [reflexivity|].
        change (ok_hist o AClose) with (o_hist o). rewrite Rl.
        split; [apply ok_cur_nth; exact Hn|]. split; [apply ok_cur_nth; exact Hn|]. split; [lia|].
        intros f Hf. pose proof (P1 f Hf). lia.
      * apply crel_weaken. apply (crel_sys false s1 sx); auto.
        -- apply sys_cframe. exact I.
        -- rewrite Ex. exact Q3.
        -- intros i Hi. change (In i (unsubq s)) in Hi. rewrite Q3 in Hi. destruct Hi.
      * change (loop sx = LExit). rewrite Ex. reflexivity.
      * apply (calls_env o xs keys s eps AClose sx B Wa); [exists [ELoop BSrc]; reflexivity|].
        rewrite Ex. exact Ln.
      * split; [exact L2|]. split; [reflexivity|]. apply L4. reflexivity.
    + (* Unsubscribe(i): the call is taken by the resting loop *)
      assert (Li : i < length (clients s)).
      { rewrite <- (map_length ckey), <- (cr_keys _ _ _ _ _ (b_cr _ _ _ _ _ B)). apply Nat.ltb_lt. destruct E; subst a; exact Wa. }
      destruct (unsub_fields s i (fst (act_events eps a))) as [U1 S1]; [destruct E; subst a; auto|exact Li|].
      fold s1 in U1, S1. rewrite Q3 in U1. rewrite Q2 in S1.
      assert (Nc : a <> AClose) by (destruct E; subst a; discriminate).
      apply (step_dynamic o xs keys s eps a [] B D (ok_dead_false o a D Nc) Wa);
        [|left; split; [exact S1|destruct E; subst a; reflexivity]].
      apply (unsub_rest s1 i W1 L1 S1 U1).
      intros j Ne Hj. apply (stalled_from s1 _ _ _ (Some i) C1); auto.
      * apply (blocker_x2_unsub a i xs E). destruct E; subst a; exact Xh.
      * intros k Hk. rewrite U1 in Hk. destruct Hk as [Hk|[]]. symmetry. exact Hk.
    + (* the ticker fires *)
      subst a.
      apply (step_dynamic o xs keys s eps AWait [] B D D Wa); [|left; split; [exact Q2|reflexivity]].
      apply (rest_from s1 _ _ _ C1 W1 L1); [|exact Q3|exact Xh].
      change (has_close (src s) = false). rewrite Q2. reflexivity.
Qed.

Definition ok0 : okst := mkOk [] [[]] [] false [] true.

Lemma brel_init : brel ok0 [] [] init [].
Proof.
  constructor; simpl; auto.
  - exact wf_init.
  - constructor; simpl; auto. intros i c f x H. destruct i; discriminate.
  - constructor.
  - intros f [].
  - discriminate.
  - intros i [].
Qed.

Lemma ok_step_calls : forall o sl, o_calls (ok_step o sl) = calls_after o (act sl).
Proof. intros o sl. unfold ok_step, calls_after. cbn [o_calls]. destruct (act sl); reflexivity. Qed.

Lemma gen_from_ok : forall acts o xs keys s eps,
  brel o xs keys s eps -> wf_from keys acts = true -> exposed_from xs acts = false -> o_good o = true ->
  let o' := fold_left ok_step (fst (gen_from (s, eps) acts)) o in
  o_good o' = true /\
  (exists xs' keys' eps', brel o' xs' keys' (snd (gen_from (s, eps) acts)) eps') /\
  length (o_calls o') = length (o_calls o) + count_unsub_calls (fst (gen_from (s, eps) acts)).
Proof.
  induction acts as [|a t IH]; intros o xs keys s eps B Wf Ex G.
  - simpl. split; [exact G|]. split; [exists xs, keys, eps; exact B|unfold count_unsub_calls; simpl; lia].
  - pose proof (gen_step27 o xs keys s eps a t B Wf Ex) as H. unfold slot_ok in H. cbv zeta in H.
    destruct H as [[H1 [H2 H3]] [H4 H5]].
    cbn [gen_from]. destruct (act_events eps a) as [evs eps'] eqn:Ae. cbn [fst snd] in *.
    set (s1 := run s evs) in *. set (s2 := drain (fuel_of s1) s1) in *.
    set (sl := mkSlot a (map (delta (clients s) (clients s2)) (seq 0 (length (clients s2))))) in *.
    destruct (gen_from (s2, eps') t) as [rest sf] eqn:Gt. cbn [fst snd fold_left].
    assert (G' : o_good (ok_step o sl) = true) by (rewrite ok_step_good, G, H1, H2; reflexivity).
    pose proof (IH (ok_step o sl) _ _ s2 eps' H3 H4 H5 G') as K. rewrite Gt in K. cbn [fst snd] in K.
    destruct K as [K1 [K2 K3]]. split; [exact K1|]. split; [exact K2|].
    rewrite K3, ok_step_calls. change (act sl) with a. unfold count_unsub_calls. cbn [filter]. change (act sl) with a.
    unfold calls_after. destruct a; simpl; rewrite ?app_length; simpl; lia.
Qed.

(* C27: the check accepts the model's own observations (canonical schedule) for
   EVERY well-formed script that never exposes a stalled subscriber to a dispatch *)
Theorem ok_gen : forall acts, wf_from [] acts = true -> exposed acts = false -> ok (gen_case acts) = true.
Proof.
  intros acts Wf Ex. unfold gen_case.
  pose proof (gen_from_ok acts ok0 [] [] init [] brel_init Wf Ex eq_refl) as K. cbv zeta in K.
  change (@pair st aset init (@nil addr)) with (@pair st (list addr) init (@nil addr)) in K.
  remember (gen_from (init, []) acts) as g eqn:Gf in *. destruct g as [sls sf]. cbn [fst snd] in K.
  destruct K as [G [[xs' [keys' [eps' B]]] Lc]].
  set (o' := fold_left ok_step sls ok0) in *.
  change (o_good o' && (o_dead o' || (forallb (fun b => b) (unsub_flags (count_unsub_calls sls) sf)
            && Nat.eqb (length (unsub_flags (count_unsub_calls sls) sf)) (length (o_calls o'))
            && forallb (fun i => nth i (map cclosed (clients sf)) false) (o_calls o'))) = true).
  apply andb_true_iff. split; [exact G|].
  destruct (o_dead o') eqn:D; [reflexivity|]. simpl orb.
  pose proof (b_rest _ _ _ _ _ B) as R. rewrite D in R. destruct R as [Rq _].
  pose proof (quiescentb_spec sf Rq) as [_ [_ [Q3 _]]].
  pose proof (b_wf _ _ _ _ _ B) as W.
  simpl in Lc.
  assert (Fl : unsub_flags (count_unsub_calls sls) sf = repeat true (count_unsub_calls sls)).
  { unfold unsub_flags. rewrite Q3. simpl. rewrite Nat.sub_0_r, Nat.sub_diag. simpl. apply app_nil_r. }
  rewrite Fl. apply andb_true_iff. split; [apply andb_true_iff; split|].
  - apply forallb_forall. intros b Hb. apply repeat_spec in Hb. exact Hb.
  - apply Nat.eqb_eq. rewrite repeat_length. symmetry. exact Lc.
  - apply forallb_forall. intros i Hi. destruct (b_calls _ _ _ _ _ B i Hi) as [Li Rr].
    destruct (returned_closed sf i W Q3 Rr) as [_ [_ [c [Nc Cc]]]].
    rewrite (nth_error_nth _ _ false (map_nth_error cclosed _ _ Nc)). exact Cc.
Qed.
