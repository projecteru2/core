(* The boolean check [Helium.ok] that the harness evaluates on the
   implementation's observations, against Prop-level statements. *)
From Coq Require Import List Bool Arith PeanoNat Lia.
From Verif Require Import Discovery.Helium.
Import ListNotations.

Lemma aset_eqb_eq : forall a b, aset_eqb a b = true -> a = b.
Proof.
  induction a as [|x a IH]; intros [|y b] H; simpl in H; try discriminate; [reflexivity|].
  apply andb_true_iff in H. destruct H as [H1 H2]. apply Nat.eqb_eq in H1. apply IH in H2. congruence.
Qed.
Lemma aset_eqb_refl : forall a, aset_eqb a a = true.
Proof. induction a; simpl; [reflexivity|]. rewrite Nat.eqb_refl, IHa. reflexivity. Qed.

(* the messages ms occur in hist at positions p <= j1 <= j2 <= ...: each message
   is one of the lists the stream produced, and a subscriber never goes back *)
Fixpoint monotone_in (hist : list aset) (p : nat) (ms : list aset) : Prop :=
  match ms with
  | [] => True
  | m :: t => exists j, p <= j /\ nth_error hist j = Some m /\ monotone_in hist j t
  end.

Lemma find_from_sound : forall hist j0 p m j, find_from hist j0 p m = Some j ->
  p <= j /\ j0 <= j /\ nth_error hist (j - j0) = Some m.
Proof.
  induction hist as [|x t IH]; intros j0 p m j H; simpl in H; [discriminate|].
  destruct ((p <=? j0) && aset_eqb x m) eqn:C.
  - inversion H; subst. apply andb_true_iff in C. destruct C as [C1 C2].
    apply Nat.leb_le in C1. apply aset_eqb_eq in C2. subst. rewrite Nat.sub_diag. simpl. auto.
  - apply IH in H. destruct H as [A [B C']]. split; [exact A|]. split; [lia|].
    replace (j - j0) with (S (j - S j0)) by lia. simpl. exact C'.
Qed.

Lemma check_msgs_sound : forall hist ms p p', check_msgs hist p ms = Some p' -> monotone_in hist p ms.
Proof.
  intros hist ms. induction ms as [|m t IH]; intros p p' H; simpl in *; [exact I|].
  destruct (find_from hist 0 p m) as [j|] eqn:F; [|discriminate].
  apply find_from_sound in F. destruct F as [A [_ C]]. rewrite Nat.sub_0_r in C.
  exists j. split; [exact A|]. split; [exact C|]. apply (IH j p' H).
Qed.

Definition latest_clause (hist : list aset) (fl : list cflags) (g : list (list aset)) : Prop :=
  length fl = length g /\
  forall i f ms, nth_error fl i = Some f -> nth_error g i = Some ms -> monotone_in hist (f_ptr f) ms.

Lemma ok_latest_sound : forall hist fl g, snd (ok_latest hist fl g) = true -> latest_clause hist fl g.
Proof.
  intros hist fl. induction fl as [|f t IH]; intros [|ms g] H; simpl in H; try discriminate.
  - split; [reflexivity|]. intros [|i] ? ? E; discriminate.
  - destruct (ok_latest hist t g) as [r b] eqn:E.
    destruct (check_msgs hist (f_ptr f) ms) as [p|] eqn:C; simpl in H; [|discriminate].
    subst b. assert (X : snd (ok_latest hist t g) = true) by (rewrite E; reflexivity).
    destruct (IH g X) as [L R]. split; [simpl; congruence|].
    intros [|i] f0 ms0 Hf Hm; simpl in *.
    + inversion Hf; inversion Hm; subst. eapply check_msgs_sound. exact C.
    + eapply R; eauto.
Qed.

Lemma ok_latest_flags : forall hist fl g i f, nth_error (fst (ok_latest hist fl g)) i = Some f ->
  exists f0, nth_error fl i = Some f0 /\ f_reading f = f_reading f0 /\ f_cancel f = f_cancel f0 /\ f_unsub f = f_unsub f0.
Proof.
  intros hist fl. induction fl as [|f0 t IH]; intros [|ms g] i f H; simpl in H.
  - destruct i; discriminate.
  - exists f. auto.
  - exists f. auto.
  - destruct (ok_latest hist t g) as [r b] eqn:E.
    assert (Hr : r = fst (ok_latest hist t g)) by (rewrite E; reflexivity).
    destruct (check_msgs hist (f_ptr f0) ms); simpl in H; destruct i as [|i]; simpl in *.
    + inversion H; subst. exists f0. simpl. auto.
    + rewrite Hr in H. apply IH in H. exact H.
    + inversion H; subst. exists f. auto.
    + rewrite Hr in H. apply IH in H. exact H.
Qed.

(* clause "converge" for an AWait slot: every live subscriber received
   something and its last message is the current list *)
Definition converge_clause (cur : aset) (fl : list cflags) (g : list (list aset)) : Prop :=
  forall i f ms, nth_error fl i = Some f -> nth_error g i = Some ms ->
    f_reading f = true -> f_cancel f = false -> f_unsub f = false ->
    exists pre, ms = pre ++ [cur].

Lemma last_of_spec : forall ms x, last_of ms = Some x -> exists pre, ms = pre ++ [x].
Proof.
  intros ms x H. unfold last_of in H. destruct (rev ms) as [|y r] eqn:E; simpl in H; [discriminate|].
  inversion H; subst. exists (rev r). rewrite <- (rev_involutive ms), E. reflexivity.
Qed.

Lemma ok_converge_sound : forall cur fl g, ok_converge cur fl g = true -> converge_clause cur fl g.
Proof.
  intros cur fl. induction fl as [|f t IH]; intros [|ms g] H [|i] f0 ms0 Hf Hm R C U; simpl in *; try discriminate.
  - inversion Hf; inversion Hm; subst. apply andb_true_iff in H. destruct H as [H _].
    rewrite R, C, U in H. simpl in H. unfold opt_aset_eqb in H.
    destruct (last_of ms0) as [x|] eqn:L; [|discriminate]. apply aset_eqb_eq in H. subst x.
    apply last_of_spec. exact L.
  - apply andb_true_iff in H. destruct H as [_ H]. eapply IH; eauto.
Qed.

Definition slot_clause (o : okst) (sl : slot) : Prop :=
  latest_clause (ok_hist o (act sl)) (ok_flags_step (act sl) (o_flags o)) (got sl) /\
  (act sl = AWait -> ok_dead o (act sl) = false ->
   converge_clause (ok_cur (ok_hist o (act sl))) (fst (ok_lat o sl)) (got sl)).

Lemma ok_step_good : forall o sl, o_good (ok_step o sl) = o_good o && snd (ok_lat o sl) && ok_conv o sl.
Proof. reflexivity. Qed.

Lemma ok_fold : forall sls o, o_good (fold_left ok_step sls o) = true ->
  o_good o = true /\
  forall pre sl post, sls = pre ++ sl :: post ->
    snd (ok_lat (fold_left ok_step pre o) sl) = true /\ ok_conv (fold_left ok_step pre o) sl = true.
Proof.
  induction sls as [|sl t IH]; intros o H; simpl in H.
  - split; [exact H|]. intros [|? ?] ? ? E; discriminate.
  - destruct (IH _ H) as [G R]. rewrite ok_step_good in G.
    apply andb_true_iff in G. destruct G as [G G3]. apply andb_true_iff in G. destruct G as [G1 G2].
    split; [exact G1|]. intros [|x pre] sl0 post E; simpl in E; inversion E; subst.
    + auto.
    + simpl. apply (R pre sl0 post). reflexivity.
Qed.

Definition ok_init (c : case) : okst :=
  let e0 := if etcd c then last_item (stream_start c) [] else [] in
  mkOk [] (if etcd c then [[]; e0] else [[]]) e0 (start_err c) [] true.
Definition ok_final (c : case) : okst := fold_left ok_step (slots c) (ok_init c).

(* "Unsubscribing always completes and closes the subscriber's channel" on the observed run *)
Definition unsub_clause (c : case) : Prop :=
  o_dead (ok_final c) = false ->
  (forall b, In b (fin_unsub c) -> b = true) /\
  length (fin_unsub c) = length (o_calls (ok_final c)) /\
  (forall i, In i (o_calls (ok_final c)) -> nth i (fin_closed c) false = true).

(* C27: [ok c = true] implies the clauses of the property, as propositions over
   what was observed: every slot satisfies "latest" and (across a tick, stream
   alive) "converge"; at the end every Unsubscribe call has returned and the
   channels of the unsubscribed are closed *)
Theorem ok_reflects : forall c, ok c = true ->
  (forall pre sl post, slots c = pre ++ sl :: post -> slot_clause (fold_left ok_step pre (ok_init c)) sl) /\
  unsub_clause c.
Proof.
  intros c H. unfold ok in H. fold (ok_init c) in H. fold (ok_final c) in H.
  apply andb_true_iff in H. destruct H as [G U].
  split.
  - intros pre sl post E. destruct (proj2 (ok_fold _ _ G) pre sl post E) as [L C].
    split.
    + apply ok_latest_sound. exact L.
    + intros A D. unfold ok_conv in C. rewrite A in C. rewrite A in D. rewrite D in C. simpl in C.
      rewrite <- A in C. apply ok_converge_sound. exact C.
  - intro D. rewrite D in U. simpl in U.
    apply andb_true_iff in U. destruct U as [U U3]. apply andb_true_iff in U. destruct U as [U1 U2].
    split; [|split].
    + intros b Hb. rewrite forallb_forall in U1. apply U1 in Hb. exact Hb.
    + apply Nat.eqb_eq. exact U2.
    + intros i Hi. rewrite forallb_forall in U3. apply U3. exact Hi.
Qed.

Lemma find_from_complete : forall hist j0 p m i, nth_error hist i = Some m -> p <= j0 + i ->
  exists j, find_from hist j0 p m = Some j /\ p <= j /\ j <= j0 + i.
Proof.
  induction hist as [|x t IH]; intros j0 p m i H L; [destruct i; discriminate|]. simpl.
  destruct ((p <=? j0) && aset_eqb x m) eqn:C.
  - apply andb_true_iff in C. destruct C as [C1 _]. apply Nat.leb_le in C1. exists j0. split; [reflexivity|lia].
  - destruct i as [|i]; simpl in H.
    + inversion H; subst. rewrite aset_eqb_refl, andb_true_r in C. apply Nat.leb_gt in C. lia.
    + destruct (IH (S j0) p m i H) as [j [F [A B]]]; [lia|]. exists j. split; [exact F|lia].
Qed.

Lemma monotone_weaken : forall hist ms p q, p <= q -> monotone_in hist q ms -> monotone_in hist p ms.
Proof.
  intros hist [|m t] p q L H; simpl in *; [exact I|]. destruct H as [j [A [B C]]]. exists j. split; [lia|auto].
Qed.

Lemma check_msgs_complete : forall hist ms p, monotone_in hist p ms -> exists p', check_msgs hist p ms = Some p'.
Proof.
  intros hist ms. induction ms as [|m t IH]; intros p H; simpl in *; [eauto|].
  destruct H as [j [A [B C]]].
  destruct (find_from_complete hist 0 p m j B) as [j' [F [A' B']]]; [lia|]. rewrite F.
  apply IH. apply (monotone_weaken hist t j' j); [lia|exact C].
Qed.

Lemma ok_latest_complete : forall hist fl g, latest_clause hist fl g -> snd (ok_latest hist fl g) = true.
Proof.
  intros hist fl. induction fl as [|f t IH]; intros [|ms g] [L R]; simpl in *; try discriminate; [reflexivity|].
  assert (X : snd (ok_latest hist t g) = true).
  { apply IH. split; [lia|]. intros i f0 ms0 Hf Hm. apply (R (S i) f0 ms0 Hf Hm). }
  destruct (ok_latest hist t g) as [r b]. simpl in X. subst b.
  destruct (check_msgs_complete hist ms (f_ptr f) (R 0 f ms eq_refl eq_refl)) as [p' E]. rewrite E. reflexivity.
Qed.

Lemma last_of_snoc : forall pre (x : aset), last_of (pre ++ [x]) = Some x.
Proof. intros. unfold last_of. rewrite rev_app_distr. reflexivity. Qed.

Lemma ok_converge_complete : forall cur fl g, converge_clause cur fl g -> ok_converge cur fl g = true.
Proof.
  intros cur fl. induction fl as [|f t IH]; intros [|ms g] H; simpl; try reflexivity.
  apply andb_true_iff. split.
  - destruct (f_reading f && negb (f_cancel f) && negb (f_unsub f)) eqn:C; [|reflexivity].
    apply andb_true_iff in C. destruct C as [C C3]. apply andb_true_iff in C. destruct C as [C1 C2].
    apply negb_true_iff in C2. apply negb_true_iff in C3.
    destruct (H 0 f ms eq_refl eq_refl C1 C2 C3) as [pre E]. subst ms. rewrite last_of_snoc. simpl. apply aset_eqb_refl.
  - apply IH. intros i f0 ms0 Hf Hm. apply (H (S i) f0 ms0 Hf Hm).
Qed.

(* the converse: the check accepts every run whose slots satisfy the clauses and
   whose Unsubscribe calls completed (or whose stream was closed) *)
Theorem ok_complete : forall c,
  (forall pre sl post, slots c = pre ++ sl :: post -> slot_clause (fold_left ok_step pre (ok_init c)) sl) ->
  (o_dead (ok_final c) = true \/
   ((forall b, In b (fin_unsub c) -> b = true) /\
    length (fin_unsub c) = length (o_calls (ok_final c)) /\
    (forall i, In i (o_calls (ok_final c)) -> nth i (fin_closed c) false = true))) ->
  ok c = true.
Proof.
  intros c H U. unfold ok. fold (ok_init c). fold (ok_final c).
  assert (G : forall sls o, o_good o = true ->
             (forall pre sl post, sls = pre ++ sl :: post -> slot_clause (fold_left ok_step pre o) sl) ->
             o_good (fold_left ok_step sls o) = true).
  { induction sls as [|sl t IH]; intros o Go R; simpl; [exact Go|].
    apply IH.
    - rewrite ok_step_good, Go. simpl. destruct (R [] sl t eq_refl) as [L C]. simpl in L, C.
      unfold ok_lat. rewrite (ok_latest_complete _ _ _ L). simpl. unfold ok_conv.
      destruct (act sl) eqn:A; try reflexivity.
      destruct (ok_dead o AWait) eqn:D; [reflexivity|]. simpl.
      apply ok_converge_complete. apply C; reflexivity.
    - intros pre sl0 post E. apply (R (sl :: pre) sl0 post). simpl. rewrite E. reflexivity. }
  apply andb_true_iff. split.
  - apply G; [reflexivity|exact H].
  - destruct U as [D|[U1 [U2 U3]]]; [rewrite D; reflexivity|].
    apply orb_true_iff. right. apply andb_true_iff. split; [apply andb_true_iff; split|].
    + apply forallb_forall. intros b Hb. apply U1 in Hb. exact Hb.
    + apply Nat.eqb_eq. exact U2.
    + apply forallb_forall. exact U3.
Qed.

(* the model's own output under its canonical schedule *)
Fixpoint gen_from (c : st * aset) (acts : list action) : list slot * st :=
  match acts with
  | [] => ([], fst c)
  | a :: t =>
      let '(s, eps) := c in
      let '(evs, eps') := act_events eps a in
      let s1 := run s evs in
      let s2 := drain (fuel_of s1) s1 in
      let g := map (delta (clients s) (clients s2)) (seq 0 (length (clients s2))) in
      let '(rest, sf) := gen_from (s2, eps') t in
      (mkSlot a g :: rest, sf)
  end.
Definition gen_case (acts : list action) : case :=
  let '(sls, sf) := gen_from (init, []) acts in
  mkCase false false [] [] [] sls (map cclosed (clients sf)) (unsub_flags (count_unsub_calls sls) sf).

(* the tag computed by the harness: a dispatch is triggered while a subscriber in
   the map neither reads nor is cancelled *)
Record xfl := mkX { x_reading : bool; x_cancel : bool; x_unsub : bool }.
Fixpoint existsb_i {A} (f : nat -> A -> bool) (l : list A) (i : nat) : bool :=
  match l with [] => false | x :: t => f i x || existsb_i f t (S i) end.
Definition blocker (skip : option nat) (fl : list xfl) : bool :=
  existsb_i (fun i x => negb (match skip with Some j => i =? j | None => false end)
                        && negb (x_reading x) && negb (x_cancel x) && negb (x_unsub x)) fl 0.
Fixpoint exposed_from (fl : list xfl) (acts : list action) : bool :=
  match acts with
  | [] => false
  | a :: t =>
      let fl1 := match a with
                 | ASub _ r => fl ++ [mkX r false false]
                 | ARead i => upd i (fun x => mkX true (x_cancel x) (x_unsub x)) fl
                 | AStall i => upd i (fun x => mkX false (x_cancel x) (x_unsub x)) fl
                 | ACancel i => upd i (fun x => mkX (x_reading x) true (x_unsub x)) fl
                 | _ => fl end in
      let hit := match a with
                 | ASet _ | APut _ | ADel _ | ABatch _ | AWait => blocker None fl1
                 | AUnsub i | ACancelUnsub i => blocker (Some i) fl1
                 | _ => false end in
      let fl2 := match a with
                 | AUnsub i => upd i (fun x => mkX (x_reading x) (x_cancel x) true) fl1
                 | ACancelUnsub i => upd i (fun x => mkX (x_reading x) true true) fl1
                 | _ => fl1 end in
      hit || exposed_from fl2 t
  end.
Definition exposed (acts : list action) : bool := exposed_from [] acts.

(* scripts the harness can produce: subscriber keys distinct, subscriber numbers in range *)
Fixpoint wf_from (keys : list nat) (acts : list action) : bool :=
  match acts with
  | [] => true
  | a :: t =>
      match a with
      | ASub k _ => negb (existsb (Nat.eqb k) keys) && wf_from (keys ++ [k]) t
      | ARead i | AStall i | ACancel i | AUnsub i | ACancelUnsub i => (i <? length keys) && wf_from keys t
      | _ => wf_from keys t
      end
  end.

Definition alphabet : list action :=
  [ASet [1]; ASet [1;2]; ASub 5 true; ASub 3 true; ASub 4 false; ARead 1; AStall 0; ACancel 0;
   AUnsub 0; ACancelUnsub 0; ACancelUnsub 1; AWait].
Fixpoint words (n : nat) : list (list action) :=
  match n with 0 => [[]] | S m => [] :: flat_map (fun w => map (fun a => a :: w) alphabet) (words m) end.
Definition good_word (pre w : list action) : bool :=
  let acts := pre ++ w ++ [AWait] in
  negb (wf_from [] acts) || exposed acts || ok (gen_case acts).
Definition bad (pre : list action) (n : nat) := filter (fun w => negb (good_word pre w)) (words n).

(* a small exhaustive sweep as a sanity example: ok accepts the model's own
   output on every well-formed script without an exposed stall among
   [ASet [7]] ++ w ++ [AWait], |w| <= 3 (1885 words) *)
Example ok_gen_sweep : bad [ASet [7]] 3 = [].
Proof. vm_compute. reflexivity. Qed.
