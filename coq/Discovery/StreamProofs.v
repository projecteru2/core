(* Proofs about Part 1 of Discovery/Helium.v: ServiceStatusStream (watch before
   get, event application).  Sets are compared by membership ([meq]): the Go
   code keeps a map and ToSlice has no defined order. *)
From Coq Require Import List Bool Arith PeanoNat Lia.
From Verif Require Import Discovery.Helium.
Import ListNotations.

Definition meq (s t : aset) : Prop := forall b, mem b s = mem b t.

Lemma mem_ins : forall b a s, mem b (ins a s) = (b =? a) || mem b s.
Proof.
  intros b a s. induction s as [|x t IH]; simpl.
  - rewrite orb_false_r. reflexivity.
  - destruct (a <? x) eqn:E1; simpl; [reflexivity|].
    destruct (a =? x) eqn:E2; simpl.
    + apply Nat.eqb_eq in E2. subst. destruct (b =? x); reflexivity.
    + rewrite IH. destruct (b =? x), (b =? a); reflexivity.
Qed.

Lemma mem_del : forall b a s, mem b (del a s) = mem b s && negb (b =? a).
Proof.
  intros b a s. unfold del. induction s as [|x t IH]; simpl; [reflexivity|].
  destruct (x =? a) eqn:E; simpl.
  - rewrite IH. apply Nat.eqb_eq in E. subst.
    destruct (b =? a) eqn:E2; simpl; [rewrite andb_false_r; reflexivity|reflexivity].
  - rewrite IH. destruct (b =? x) eqn:E2; simpl; [|reflexivity].
    apply Nat.eqb_eq in E2. subst. rewrite E. reflexivity.
Qed.

(* one event on the endpoint map / on the store keys, seen through membership of b *)
Definition ev_step (eps : aset) (e : kvev) : aset :=
  fst (match e with Put a => eps_add a eps | Del a => eps_remove a eps end).
Definition mstep (b : addr) (m : bool) (e : kvev) : bool :=
  match e with Put a => (b =? a) || m | Del a => m && negb (b =? a) end.
Definition final_mem (b : addr) (evs : list kvev) (m : bool) : bool := fold_left (mstep b) evs m.

Lemma ev_step_mem : forall b eps e, mem b (ev_step eps e) = mstep b (mem b eps) e.
Proof.
  intros b eps [a|a]; unfold ev_step, eps_add, eps_remove; simpl.
  - destruct (mem a eps) eqn:E; simpl.
    + destruct (b =? a) eqn:E2; simpl; [|reflexivity]. apply Nat.eqb_eq in E2. subst. exact E.
    + apply mem_ins.
  - destruct (mem a eps) eqn:E; simpl.
    + apply mem_del.
    + destruct (b =? a) eqn:E2; simpl; [|rewrite andb_true_r; reflexivity].
      apply Nat.eqb_eq in E2. subst. rewrite E. reflexivity.
Qed.

Lemma kv_step_mem : forall b keys e, mem b (kv_step keys e) = mstep b (mem b keys) e.
Proof.
  intros b keys [a|a]; simpl.
  - destruct (mem a keys) eqn:E.
    + destruct (b =? a) eqn:E2; simpl; [|reflexivity]. apply Nat.eqb_eq in E2. subst. exact E.
    + apply mem_ins.
  - apply mem_del.
Qed.

Lemma fold_ev_step_mem : forall b evs eps,
  mem b (fold_left ev_step evs eps) = final_mem b evs (mem b eps).
Proof.
  intros b evs. induction evs as [|e t IH]; intro eps; simpl; [reflexivity|].
  rewrite IH, ev_step_mem. reflexivity.
Qed.

Lemma kv_apply_mem : forall b evs keys,
  mem b (kv_apply keys evs) = final_mem b evs (mem b keys).
Proof.
  intros b evs. unfold kv_apply. induction evs as [|e t IH]; intro keys; simpl; [reflexivity|].
  rewrite IH, kv_step_mem. reflexivity.
Qed.

Lemma final_mem_cases : forall b evs,
  (forall m, final_mem b evs m = m) \/ (exists c, forall m, final_mem b evs m = c).
Proof.
  intros b evs. induction evs as [|e t IH]; [left; reflexivity|].
  unfold final_mem in *. simpl.
  destruct e as [a|a]; simpl; destruct (b =? a) eqn:E; simpl.
  - right. exists (fold_left (mstep b) t true). reflexivity.
  - exact IH.
  - right. exists (fold_left (mstep b) t false). intro m. rewrite andb_false_r. reflexivity.
  - destruct IH as [IH|[c IH]]; [left|right; exists c]; intro m; rewrite andb_true_r; apply IH.
Qed.

(* replaying events that are already reflected changes nothing: this is why
   "watch before get" is safe *)
Lemma final_mem_idem : forall b evs m, final_mem b evs (final_mem b evs m) = final_mem b evs m.
Proof.
  intros b evs m. destruct (final_mem_cases b evs) as [H|[c H]]; rewrite !H; reflexivity.
Qed.

Lemma final_mem_app : forall b e1 e2 m, final_mem b (e1 ++ e2) m = final_mem b e2 (final_mem b e1 m).
Proof. intros. unfold final_mem. apply fold_left_app. Qed.

Lemma apply_events_fst : forall evs eps c, fst (apply_events evs eps c) = fold_left ev_step evs eps.
Proof.
  induction evs as [|e t IH]; intros eps c; simpl; [reflexivity|].
  unfold ev_step at 2.
  destruct (match e with Put a => eps_add a eps | Del a => eps_remove a eps end) as [eps' c'] eqn:E.
  simpl. apply IH.
Qed.

Lemma eps_step_unchanged : forall e eps,
  snd (match e with Put a => eps_add a eps | Del a => eps_remove a eps end) = false ->
  ev_step eps e = eps.
Proof.
  intros [a|a] eps; unfold ev_step, eps_add, eps_remove; destruct (mem a eps); simpl; congruence.
Qed.

Lemma apply_events_unchanged : forall evs eps c,
  snd (apply_events evs eps c) = false -> c = false /\ fold_left ev_step evs eps = eps.
Proof.
  induction evs as [|e t IH]; intros eps c H; simpl in *; [auto|].
  pose proof (eps_step_unchanged e eps) as U. unfold ev_step in *.
  destruct (match e with Put a => eps_add a eps | Del a => eps_remove a eps end) as [eps' c'] eqn:E.
  simpl in *. apply IH in H. destruct H as [H1 H2].
  destruct c'; [discriminate|]. split; [exact H1|]. rewrite U in * by reflexivity. exact H2.
Qed.

Fixpoint no_err (resps : list wresp) : Prop :=
  match resps with [] => True | WErr :: _ => False | WEvents _ :: t => no_err t end.

Lemma last_item_stream_loop : forall resps eps, no_err resps ->
  last_item (stream_loop resps eps) eps = fold_left ev_step (events_of resps) eps.
Proof.
  induction resps as [|r t IH]; intros eps H; simpl; [reflexivity|].
  destruct r as [evs|]; [|destruct H]. simpl in H.
  rewrite fold_left_app.
  pose proof (apply_events_fst evs eps false) as F.
  pose proof (apply_events_unchanged evs eps false) as U.
  destruct (apply_events evs eps false) as [eps' ch]. simpl in *. subst eps'.
  destruct ch; simpl.
  - apply IH. exact H.
  - destruct (U eq_refl) as [_ U2]. rewrite U2. apply IH. exact H.
Qed.

Lemma fold_add_mem : forall b kvs acc,
  mem b (fold_left (fun e k => fst (eps_add k e)) kvs acc) = mem b kvs || mem b acc.
Proof.
  intros b kvs. induction kvs as [|k t IH]; intro acc; simpl; [reflexivity|].
  rewrite IH. change (fst (eps_add k acc)) with (ev_step acc (Put k)).
  rewrite ev_step_mem. simpl. destruct (b =? k), (mem b t), (mem b acc); reflexivity.
Qed.

(* C27, stream part: whatever happened between establishing the watch and
   serving the Get, and however the later events are batched, the last address
   list sent on the stream is exactly the set of registered keys. *)
Theorem stream_converges : forall keys0 between after,
  no_err (between ++ after) ->
  meq (last_item (service_status_stream true keys0 between after) [])
      (kv_apply keys0 (events_of (between ++ after))).
Proof.
  intros keys0 between after H b. unfold service_status_stream. simpl.
  rewrite last_item_stream_loop by exact H.
  rewrite fold_ev_step_mem, fold_add_mem. simpl. rewrite orb_false_r.
  rewrite kv_apply_mem.
  unfold events_of. rewrite flat_map_app. fold (events_of between). fold (events_of after).
  rewrite !kv_apply_mem.
  rewrite !final_mem_app. rewrite final_mem_idem. reflexivity.
Qed.

Lemma stream_loop_items : forall resps eps a,
  In (Item a) (stream_loop resps eps) ->
  exists pre, (exists post, events_of resps = pre ++ post) /\ a = fold_left ev_step pre eps.
Proof.
  induction resps as [|r t IH]; intros eps a H; simpl in *; [destruct H|].
  destruct r as [evs|]; [|destruct H as [H|[]]; discriminate].
  pose proof (apply_events_fst evs eps false) as F.
  destruct (apply_events evs eps false) as [eps' ch]. simpl in F. subst eps'.
  assert (R : In (Item a) (stream_loop t (fold_left ev_step evs eps)) ->
              exists pre, (exists post, evs ++ events_of t = pre ++ post) /\ a = fold_left ev_step pre eps).
  { intro H'. apply IH in H'. destruct H' as [pre [[post E] A]].
    exists (evs ++ pre). split.
    - exists post. rewrite E, app_assoc. reflexivity.
    - rewrite fold_left_app. exact A. }
  destruct ch.
  - destruct H as [H|H]; [|apply R; exact H].
    inversion H; subst. exists evs. split; [exists (events_of t); reflexivity|reflexivity].
  - apply R; exact H.
Qed.
