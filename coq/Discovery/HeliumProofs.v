(* Proofs about Part 2 of Discovery/Helium.v: the helium dispatch loop.  [step] is
   characterised once, as a table of moves (step_case); every invariant is proved
   over the rows of that table. *)
From Coq Require Import List Bool Arith PeanoNat Lia.
From Verif Require Import Discovery.Helium.
Import ListNotations.


Lemma memn_In : forall i l, memn i l = true <-> In i l.
Proof.
  intros i l. induction l as [|x t IH]; simpl; [split; [discriminate|tauto]|].
  rewrite orb_true_iff, Nat.eqb_eq, IH. tauto.
Qed.
Lemma memn_false : forall i l, memn i l = false <-> ~ In i l.
Proof. intros. rewrite <- memn_In. destruct (memn i l); split; congruence. Qed.

Lemma remn_In : forall j i l, In j (remn i l) <-> In j l /\ j <> i.
Proof.
  intros. unfold remn. rewrite filter_In, negb_true_iff, Nat.eqb_neq. tauto.
Qed.
Lemma remn_NoDup : forall i l, NoDup l -> NoDup (remn i l).
Proof.
  intros i l H. induction H as [|x t Hx Ht IH]; simpl; [constructor|].
  destruct (negb (x =? i)); [constructor; [|exact IH]|exact IH].
  intro C. apply remn_In in C. tauto.
Qed.
Lemma remn_length : forall i l, length (remn i l) <= length l.
Proof. intros. unfold remn. induction l; simpl; [lia|]. destruct (negb _); simpl; lia. Qed.

Lemma upd_length : forall A (f : A -> A) i l, length (upd i f l) = length l.
Proof. intros A f i l. revert i. induction l; intros [|i]; simpl; auto. Qed.
Lemma nth_error_upd_same : forall A (f : A -> A) i l,
  nth_error (upd i f l) i = option_map f (nth_error l i).
Proof. intros A f i l. revert i. induction l; intros [|i]; simpl; auto. Qed.
Lemma nth_error_upd_other : forall A (f : A -> A) i j l, i <> j ->
  nth_error (upd i f l) j = nth_error l j.
Proof.
  intros A f i j l. revert i j. induction l; intros [|i] [|j] H; simpl; auto; try congruence.
Qed.
Lemma nth_error_upd : forall A (f : A -> A) i j l c,
  nth_error (upd i f l) j = Some c ->
  exists c0, nth_error l j = Some c0 /\ (c = c0 \/ (i = j /\ c = f c0)).
Proof.
  intros A f i j l c H. destruct (Nat.eq_dec i j) as [E|E].
  - subst. rewrite nth_error_upd_same in H. destruct (nth_error l j) as [c0|]; [|discriminate].
    simpl in H. inversion H. eauto.
  - rewrite nth_error_upd_other in H by exact E. eauto.
Qed.

Lemma nth_error_snoc : forall A (l : list A) x j c,
  nth_error (l ++ [x]) j = Some c ->
  (j < length l /\ nth_error l j = Some c) \/ (j = length l /\ c = x).
Proof.
  intros A l x j c H. destruct (Nat.lt_ge_cases j (length l)) as [L|L].
  - left. split; [exact L|]. rewrite nth_error_app1 in H by exact L. exact H.
  - right. rewrite nth_error_app2 in H by exact L.
    destruct (j - length l) as [|d] eqn:E; simpl in H.
    + inversion H. split; [apply Nat.le_antisymm; [apply Nat.sub_0_le, E|exact L]|reflexivity].
    + destruct d; discriminate.
Qed.

Lemma insert_sub_In : forall cl k n l j, In j (insert_sub cl k n l) <-> j = n \/ In j l.
Proof.
  intros cl k n l j. induction l as [|x t IH]; simpl; [intuition|].
  destruct (k <? key_of cl x); simpl; [intuition|]. rewrite IH. intuition.
Qed.
Lemma insert_sub_NoDup : forall cl k n l, ~ In n l -> NoDup l -> NoDup (insert_sub cl k n l).
Proof.
  intros cl k n l Hn H. induction H as [|x t Hx Ht IH]; simpl; [constructor; [tauto|constructor]|].
  destruct (k <? key_of cl x).
  - constructor; [exact Hn|constructor; assumption].
  - constructor.
    + rewrite insert_sub_In. simpl in Hn. intuition.
    + apply IH. simpl in Hn. tauto.
Qed.
Lemma insert_sub_length : forall cl k n l, length (insert_sub cl k n l) = S (length l).
Proof. intros. induction l as [|x t IH]; simpl; [reflexivity|]. destruct (_ <? _); simpl; lia. Qed.

(* the part of the map still to be visited, starting at cur *)
Fixpoint from (cur : nat) (l : list nat) : list nat :=
  match l with [] => [] | x :: t => if x =? cur then l else from cur t end.

Lemma after_incl : forall cur l j, In j (after cur l) -> In j l.
Proof.
  intros cur l j. induction l as [|x t IH]; simpl; [tauto|].
  destruct (x =? cur); [tauto|]. intro H. right. apply IH. exact H.
Qed.
Lemma from_after : forall cur l, In cur l -> from cur l = cur :: after cur l.
Proof.
  intros cur l. induction l as [|x t IH]; simpl; [tauto|].
  destruct (x =? cur) eqn:E.
  - apply Nat.eqb_eq in E. subst. reflexivity.
  - intros [H|H]; [subst; rewrite Nat.eqb_refl in E; discriminate|]. apply IH. exact H.
Qed.
Lemma from_length : forall cur l, length (from cur l) <= length l.
Proof. intros. induction l as [|x t IH]; simpl; [lia|]. destruct (x =? cur); simpl; lia. Qed.
Lemma from_hd : forall c r, from c (c :: r) = c :: r.
Proof. intros. simpl. rewrite Nat.eqb_refl. reflexivity. Qed.
Lemma from_hd_after : forall cur l c r, NoDup l -> after cur l = c :: r -> from c l = c :: r.
Proof.
  intros cur l c r H. induction H as [|x t Hx Ht IH]; simpl; [discriminate|].
  destruct (x =? cur) eqn:E; intro A.
  - subst t. destruct (x =? c) eqn:E2.
    + apply Nat.eqb_eq in E2. subst. simpl in Hx. tauto.
    + apply from_hd.
  - destruct (x =? c) eqn:E2.
    + apply Nat.eqb_eq in E2. subst. exfalso. apply Hx. apply (after_incl cur). rewrite A. left. reflexivity.
    + apply IH. exact A.
Qed.

(* Reads the fields of an updated state.  A single [cbn] with the setters in its
   list: unfolding the setters first writes each nested state out seven times. *)
Ltac unf := cbn [clients subs src unsubq tickp latest loop trace begin_dispatch advance add_trace
                 set_clients set_subs set_src set_unsubq set_tickp set_latest set_loop].

(* Every event either leaves the state alone (its guard fails) or is one of these moves. *)
Inductive step_case (s : st) : event -> st -> Prop :=
| SSrc it : step_case s (ESrc it) (set_src s (src s ++ [it]))
| STick : step_case s ETick (set_tickp s true)
| SSubscribe k r (Ku : key_used (clients s) k (subs s) = false) :
    step_case s (ESubscribe k r)
      (set_subs (set_clients s (clients s ++ [mkClient k r false false []]))
                (insert_sub (clients s) k (length (clients s)) (subs s)))
| SSetReading i b : step_case s (ESetReading i b) (set_clients s (upd i (c_set_reading b) (clients s)))
| SCancel i : step_case s (ECancel i) (set_clients s (upd i c_cancel (clients s)))
| SUnsubscribe i (Lt : i < length (clients s)) : step_case s (EUnsubscribe i) (set_unsubq s (unsubq s ++ [i]))
| SConsume a r (Lp : loop s = LSelect) (Sr : src s = Item a :: r) :
    step_case s (ELoop BSrc) (begin_dispatch (add_trace (TConsume a) (set_latest (set_src s r) a)))
| SExit r (Lp : loop s = LSelect) (Sr : src s = Close :: r) :
    step_case s (ELoop BSrc) (add_trace TExit (set_loop (set_src s r) LExit))
| SUnsubIn i r (Lp : loop s = LSelect) (Uq : unsubq s = i :: r) (Mi : In i (subs s)) :
    step_case s (ELoop BUnsub)
      (begin_dispatch (add_trace (TClosed i) (set_subs (set_clients (add_trace (TUnsubRet i) (set_unsubq s r))
         (upd i c_close (clients s))) (remn i (subs s)))))
| SUnsubOut i r (Lp : loop s = LSelect) (Uq : unsubq s = i :: r) (Mi : ~ In i (subs s)) :
    step_case s (ELoop BUnsub) (begin_dispatch (add_trace (TUnsubRet i) (set_unsubq s r)))
| STicked (Lp : loop s = LSelect) (Tk : tickp s = true) :
    step_case s (ELoop BTick) (begin_dispatch (set_tickp s false))
| SDeliver cur msg c ch (Lp : loop s = LDispatch cur msg) (Nc : nth_error (clients s) cur = Some c)
    (Dl : creading c && (negb (ccancel c) || ch) = true) :
    step_case s (EDispatch ch)
      (advance (add_trace (TDeliver cur msg) (set_clients s (upd cur (c_recv msg) (clients s)))) cur msg)
| SSkip cur msg ch (Lp : loop s = LDispatch cur msg)
    (Cc : forall c, nth_error (clients s) cur = Some c -> ccancel c = true) :
    step_case s (EDispatch ch) (advance s cur msg)
| SIdle e : step_case s e s.

Lemma step_cases : forall s e, step_case s e (step s e).
Proof.
  intros s [it| |k r|i b|i|i|b|ch]; cbn [step].
  - apply SSrc.
  - apply STick.
  - destruct (key_used (clients s) k (subs s)) eqn:Ku; [apply SIdle|apply SSubscribe; exact Ku].
  - apply SSetReading.
  - apply SCancel.
  - destruct (i <? length (clients s)) eqn:Lt; [apply SUnsubscribe, Nat.ltb_lt, Lt|apply SIdle].
  - destruct (loop s) eqn:Lp; try apply SIdle. destruct b; cbn [loop_select].
    + destruct (src s) as [|[a|] r] eqn:Sr; [apply SIdle|apply SConsume|apply SExit]; assumption.
    + destruct (unsubq s) as [|i r] eqn:Uq; [apply SIdle|]. cbv zeta.
      change (subs (add_trace (TUnsubRet i) (set_unsubq s r))) with (subs s).
      change (clients (add_trace (TUnsubRet i) (set_unsubq s r))) with (clients s).
      destruct (memn i (subs s)) eqn:Mi; [apply SUnsubIn|apply SUnsubOut]; try assumption;
        [apply memn_In|apply memn_false]; exact Mi.
    + destruct (tickp s) eqn:Tk; [apply STicked; assumption|apply SIdle].
  - destruct (loop s) as [|cur msg|] eqn:Lp; try apply SIdle. unfold dispatch_one.
    destruct (nth_error (clients s) cur) as [c|] eqn:Nc; [|apply SSkip; [exact Lp|congruence]].
    destruct (creading c && (negb (ccancel c) || ch)) eqn:Dl; [apply (SDeliver s cur msg c ch Lp Nc Dl)|].
    destruct (ccancel c) eqn:Cc; [apply SSkip; [exact Lp|congruence]|apply SIdle].
Qed.

(* The idle row says nothing about progress: for that, the moves of the loop
   goroutine as equations under their guards. *)
Lemma step_consume : forall s a r, loop s = LSelect -> src s = Item a :: r ->
  step s (ELoop BSrc) = begin_dispatch (add_trace (TConsume a) (set_latest (set_src s r) a)).
Proof. intros s a r L E. cbn [step]. rewrite L. cbn [loop_select]. rewrite E. reflexivity. Qed.
Lemma step_exit : forall s r, loop s = LSelect -> src s = Close :: r ->
  step s (ELoop BSrc) = add_trace TExit (set_loop (set_src s r) LExit).
Proof. intros s r L E. cbn [step]. rewrite L. cbn [loop_select]. rewrite E. reflexivity. Qed.
Lemma step_unsub_in : forall s i r, loop s = LSelect -> unsubq s = i :: r -> memn i (subs s) = true ->
  step s (ELoop BUnsub) =
  begin_dispatch (add_trace (TClosed i) (set_subs (set_clients (add_trace (TUnsubRet i) (set_unsubq s r))
      (upd i c_close (clients s))) (remn i (subs s)))).
Proof. intros s i r L E M. cbn [step]. rewrite L. cbn [loop_select]. rewrite E. unf. rewrite M. reflexivity. Qed.
Lemma step_unsub_out : forall s i r, loop s = LSelect -> unsubq s = i :: r -> memn i (subs s) = false ->
  step s (ELoop BUnsub) = begin_dispatch (add_trace (TUnsubRet i) (set_unsubq s r)).
Proof. intros s i r L E M. cbn [step]. rewrite L. cbn [loop_select]. rewrite E. unf. rewrite M. reflexivity. Qed.
Lemma step_unsub_taken : forall s i r, loop s = LSelect -> unsubq s = i :: r ->
  let s' := step s (ELoop BUnsub) in
  unsubq s' = r /\ src s' = src s /\ tickp s' = tickp s /\ In (TUnsubRet i) (trace s').
Proof.
  intros s i r L E s'. unfold s'.
  destruct (memn i (subs s)) eqn:M; [rewrite (step_unsub_in s i r L E M)|rewrite (step_unsub_out s i r L E M)];
    unf; simpl; repeat split; auto.
Qed.
Lemma step_ticked : forall s, loop s = LSelect -> tickp s = true ->
  step s (ELoop BTick) = begin_dispatch (set_tickp s false).
Proof. intros s L T. cbn [step]. rewrite L. cbn [loop_select]. rewrite T. reflexivity. Qed.
Lemma step_deliver : forall s cur msg c ch, loop s = LDispatch cur msg -> nth_error (clients s) cur = Some c ->
  creading c && (negb (ccancel c) || ch) = true ->
  step s (EDispatch ch) =
  advance (add_trace (TDeliver cur msg) (set_clients s (upd cur (c_recv msg) (clients s)))) cur msg.
Proof. intros s cur msg c ch L N D. cbn [step]. rewrite L. unfold dispatch_one. rewrite N, D. reflexivity. Qed.
Lemma step_skip : forall s cur msg c ch, loop s = LDispatch cur msg -> nth_error (clients s) cur = Some c ->
  creading c && (negb (ccancel c) || ch) = false -> ccancel c = true ->
  step s (EDispatch ch) = advance s cur msg.
Proof. intros s cur msg c ch L N D C. cbn [step]. rewrite L. unfold dispatch_one. rewrite N, D, C. reflexivity. Qed.

Lemma run_inv : forall I : st -> Prop, (forall s e, I s -> I (step s e)) -> forall evs s, I s -> I (run s evs).
Proof. intros I H. induction evs as [|e t IH]; intros s Hs; [exact Hs|]. apply IH, H, Hs. Qed.

Lemma run_rel : forall (P : event -> Prop) (R : st -> st -> Prop),
  (forall s, R s s) -> (forall a b c, R a b -> R b c -> R a c) ->
  (forall s e, P e -> R s (step s e)) ->
  forall ks s, Forall P ks -> R s (run s ks).
Proof.
  intros P R Rr Rt Rs. induction ks as [|e t IH]; intros s F; [apply Rr|].
  inversion F; subst. apply (Rt _ (step s e)); [apply Rs|apply IH]; assumption.
Qed.


Fixpoint last_consumed (t : list tev) : aset :=
  match t with [] => [] | TConsume a :: _ => a | _ :: r => last_consumed r end.
(* every delivery carries the list most recently taken from the stream *)
Fixpoint deliveries_ok (t : list tev) : Prop :=
  match t with
  | [] => True
  | TDeliver _ m :: r => m = last_consumed r /\ deliveries_ok r
  | _ :: r => deliveries_ok r
  end.
Fixpoint deliveries_of (i : nat) (t : list tev) : list aset :=
  match t with
  | [] => []
  | TDeliver j m :: r => if j =? i then m :: deliveries_of i r else deliveries_of i r
  | _ :: r => deliveries_of i r
  end.
Definition recv_of (s : st) (i : nat) : list aset :=
  match nth_error (clients s) i with Some c => crecv c | None => [] end.

Record wf (s : st) : Prop := mkWf {
  wf_lt : forall i, In i (subs s) -> i < length (clients s);
  wf_nodup : NoDup (subs s);
  wf_disp : forall cur msg, loop s = LDispatch cur msg -> In cur (subs s) /\ msg = latest s;
  wf_closed : forall i c, nth_error (clients s) i = Some c -> (cclosed c = true <-> ~ In i (subs s));
  wf_uq : forall i, In i (unsubq s) -> i < length (clients s);
  wf_ret : forall i, In (TUnsubRet i) (trace s) -> i < length (clients s) /\ ~ In i (subs s);
  wf_latest : latest s = last_consumed (trace s);
  wf_deliv : deliveries_ok (trace s);
  wf_recv : forall i, recv_of s i = deliveries_of i (trace s)
}.

Lemma wf_empty : forall lp, (forall cur msg, lp <> LDispatch cur msg) -> wf (mkSt [] [] [] [] false [] lp []).
Proof.
  intros lp H. constructor; simpl; try tauto.
  - constructor.
  - intros cur msg E. destruct (H _ _ E).
  - intros [|i] c E; discriminate.
  - intros [|i]; reflexivity.
Qed.
Lemma wf_init : wf init.
Proof. apply wf_empty. discriminate. Qed.
Lemma wf_init_failed : wf init_failed.
Proof. apply wf_empty. discriminate. Qed.

Lemma enter_disp : forall l m cur msg, enter l m = LDispatch cur msg -> In cur l /\ msg = m.
Proof. intros [|x t] m cur msg H; simpl in H; [discriminate|]. inversion H. subst. simpl. auto. Qed.

Lemma step_lt : forall s e, wf s -> forall i, In i (subs (step s e)) -> i < length (clients (step s e)).
Proof.
  intros s e W. pose proof (wf_lt s W) as L.
  destruct (step_cases s e); unf; rewrite ?upd_length; auto; intros j Hj.
  - rewrite app_length. simpl. apply insert_sub_In in Hj. destruct Hj as [Hj|Hj]; [lia|].
    apply L in Hj. lia.
  - apply remn_In in Hj. apply L. tauto.
Qed.

Lemma step_nodup : forall s e, wf s -> NoDup (subs (step s e)).
Proof.
  intros s e W. pose proof (wf_nodup s W) as N. pose proof (wf_lt s W) as L.
  destruct (step_cases s e); unf; auto.
  - apply insert_sub_NoDup; [|exact N]. intro C. apply L in C. lia.
  - apply remn_NoDup. exact N.
Qed.

Lemma step_uq : forall s e, wf s -> forall i, In i (unsubq (step s e)) -> i < length (clients (step s e)).
Proof.
  intros s e W. pose proof (wf_uq s W) as U.
  destruct (step_cases s e); unf; rewrite ?upd_length; auto; intros j Hj;
    try (apply U; rewrite Uq; right; exact Hj).
  - rewrite app_length. simpl. apply U in Hj. lia.
  - apply in_app_or in Hj. destruct Hj as [Hj|[Hj|[]]]; [apply U; exact Hj|subst; exact Lt].
Qed.

Lemma step_disp : forall s e, wf s -> forall cur msg, loop (step s e) = LDispatch cur msg ->
  In cur (subs (step s e)) /\ msg = latest (step s e).
Proof.
  intros s e W. pose proof (wf_disp s W) as D.
  destruct (step_cases s e); unf; auto; intros cur' msg' H; try discriminate;
    try (apply enter_disp in H; exact H).
  { apply D in H. rewrite insert_sub_In. tauto. }
  (* dispatch moves on, with the same message *)
  all: apply enter_disp in H; destruct H as [H1 H2]; apply after_incl in H1;
    destruct (D _ _ Lp) as [_ D2]; split; congruence.
Qed.

Lemma step_closed : forall s e, wf s -> forall i c, nth_error (clients (step s e)) i = Some c ->
  (cclosed c = true <-> ~ In i (subs (step s e))).
Proof.
  intros s e W. pose proof (wf_closed s W) as C. pose proof (wf_lt s W) as L.
  destruct (step_cases s e); unf; auto; intros j c' H;
    try (apply nth_error_upd in H; destruct H as [c0 [H1 [H2|[_ H2]]]]; subst; [|simpl]; apply (C _ _ H1)).
  - apply nth_error_snoc in H. rewrite insert_sub_In. destruct H as [[H1 H2]|[H1 H2]].
    + rewrite (C _ _ H2). split; [intros A [B|B]; [lia|tauto]|tauto].
    + subst. simpl. split; [discriminate|]. intro A. exfalso. apply A. left. reflexivity.
  - rewrite remn_In. destruct (Nat.eq_dec i j) as [E|E].
    + subst. rewrite nth_error_upd_same in H. destruct (nth_error (clients s) j); [|discriminate].
      simpl in H. inversion H. simpl. tauto.
    + rewrite nth_error_upd_other in H by exact E. rewrite (C _ _ H). split; [tauto|].
      intros A B. apply A. split; [exact B|congruence].
Qed.

Lemma step_ret : forall s e, wf s -> forall i, In (TUnsubRet i) (trace (step s e)) ->
  i < length (clients (step s e)) /\ ~ In i (subs (step s e)).
Proof.
  intros s e W. pose proof (wf_ret s W) as R. pose proof (wf_uq s W) as U.
  destruct (step_cases s e); unf; rewrite ?upd_length; auto; intros j H;
    try (destruct H as [H|H]; [discriminate|]; auto; fail).
  - apply R in H. destruct H as [H1 H2]. rewrite app_length, insert_sub_In. simpl. split; [lia|].
    intros [A|A]; [lia|tauto].
  - rewrite remn_In. destruct H as [H|[H|H]]; [discriminate| |].
    + inversion H. subst. split; [apply U; rewrite Uq; left; reflexivity|tauto].
    + apply R in H. tauto.
  - destruct H as [H|H]; [|auto].
    inversion H. subst. split; [apply U; rewrite Uq; left; reflexivity|exact Mi].
Qed.

Lemma step_latest : forall s e, wf s -> latest (step s e) = last_consumed (trace (step s e)).
Proof. intros s e W. pose proof (wf_latest s W) as R. destruct (step_cases s e); unf; auto. Qed.

Lemma step_deliv : forall s e, wf s -> deliveries_ok (trace (step s e)).
Proof.
  intros s e W. pose proof (wf_deliv s W) as R. pose proof (wf_latest s W) as La.
  destruct (step_cases s e); unf; simpl; auto.
  split; [|exact R]. destruct (wf_disp s W _ _ Lp) as [_ D2]. congruence.
Qed.

Lemma recv_upd_frame : forall (f : client -> client) i j l,
  (forall c, crecv (f c) = crecv c) ->
  match nth_error (upd i f l) j with Some c => crecv c | None => [] end =
  match nth_error l j with Some c => crecv c | None => [] end.
Proof.
  intros f i j l Hf. destruct (Nat.eq_dec i j) as [E|E].
  - subst. rewrite nth_error_upd_same. destruct (nth_error l j); simpl; auto.
  - rewrite nth_error_upd_other by exact E. reflexivity.
Qed.

Lemma step_recv : forall s e, wf s -> forall i, recv_of (step s e) i = deliveries_of i (trace (step s e)).
Proof.
  intros s e W. pose proof (wf_recv s W) as R. unfold recv_of in *.
  destruct (step_cases s e); unf; auto; intro j; simpl;
    try (rewrite recv_upd_frame by reflexivity; apply R).
  - rewrite <- R. destruct (Nat.lt_ge_cases j (length (clients s))) as [L|L].
    + rewrite nth_error_app1 by exact L. reflexivity.
    + rewrite nth_error_app2 by exact L. replace (nth_error (clients s) j) with (@None client)
        by (symmetry; apply nth_error_None; exact L).
      destruct (j - length (clients s)) as [|[|d]]; reflexivity.
  - destruct (cur =? j) eqn:E.
    + apply Nat.eqb_eq in E. subst. rewrite nth_error_upd_same, Nc. simpl. rewrite <- R, Nc. reflexivity.
    + apply Nat.eqb_neq in E. rewrite nth_error_upd_other by exact E. apply R.
Qed.

Lemma wf_step : forall s e, wf s -> wf (step s e).
Proof.
  intros s e W.
  constructor; [apply step_lt|apply step_nodup|apply step_disp|apply step_closed|apply step_uq|apply step_ret
               |apply step_latest|apply step_deliv|apply step_recv]; exact W.
Qed.

Lemma wf_run : forall evs s, wf s -> wf (run s evs).
Proof. exact (run_inv wf wf_step). Qed.

(* what the system goroutines leave alone *)

Definition sys_event (e : event) : Prop := match e with ELoop _ | EDispatch _ => True | _ => False end.

Record cframe (s s' : st) : Prop := mkCframe {
  cf_len : length (clients s') = length (clients s);
  cf_subs : forall i, In i (subs s') -> In i (subs s);
  cf_keep : forall i, In i (subs s) -> ~ In i (unsubq s) -> In i (subs s');
  cf_uq : forall i, In i (unsubq s') -> In i (unsubq s);
  cf_cl : forall i c, nth_error (clients s) i = Some c ->
      exists c', nth_error (clients s') i = Some c' /\ ckey c' = ckey c /\ creading c' = creading c /\
                 (ccancel c = true -> ccancel c' = true) /\
                 (~ In i (unsubq s) -> ccancel c' = ccancel c)
}.

Lemma cframe_same : forall s s', clients s' = clients s -> subs s' = subs s ->
  (forall i, In i (unsubq s') -> In i (unsubq s)) -> cframe s s'.
Proof.
  intros s s' A B C. constructor; try rewrite A; try rewrite B; auto.
  intros i c H. exists c. repeat split; auto.
Qed.

Lemma cframe_trans : forall a b c, cframe a b -> cframe b c -> cframe a c.
Proof.
  intros a b c [A1 A2 A3 A4 A5] [B1 B2 B3 B4 B5]. constructor.
  - congruence.
  - auto.
  - intros i Hi Hn. apply B3; [apply A3; assumption|]. intro X. apply Hn. apply A4. exact X.
  - auto.
  - intros i c0 H. destruct (A5 i c0 H) as [c1 [H1 [K1 [R1 [C1 D1]]]]].
    destruct (B5 i c1 H1) as [c2 [H2 [K2 [R2 [C2 D2]]]]]. exists c2.
    split; [exact H2|]. split; [congruence|]. split; [congruence|]. split; [auto|].
    intro Hn. rewrite D2, D1; auto.
Qed.

Lemma sys_cframe : forall s e, sys_event e -> cframe s (step s e).
Proof.
  intros s e Se. destruct (step_cases s e); try destruct Se;
    try (apply cframe_same; unf; auto; intros j Hj; rewrite Uq; right; exact Hj).
  - (* Unsubscribe(i) taken, i in the map: the only move that cancels somebody *)
    assert (Hi : In i (unsubq s)) by (rewrite Uq; left; reflexivity).
    constructor; unf.
    + apply upd_length.
    + intros j Hj. apply remn_In in Hj. tauto.
    + intros j Hj Hn. apply remn_In. split; [exact Hj|congruence].
    + intros j Hj. rewrite Uq. right. exact Hj.
    + intros j c H. destruct (Nat.eq_dec i j) as [E|E].
      * subst. exists (c_close c). rewrite nth_error_upd_same, H. simpl. tauto.
      * exists c. rewrite nth_error_upd_other by exact E. auto.
  - constructor; unf; auto; [apply upd_length|].
    intros j c0 H. destruct (Nat.eq_dec cur j) as [E|E].
    + subst. exists (c_recv msg c0). rewrite nth_error_upd_same, H. simpl. auto.
    + exists c0. rewrite nth_error_upd_other by exact E. auto.
Qed.

Lemma sys_run_cframe : forall ks s, Forall sys_event ks -> cframe s (run s ks).
Proof.
  apply run_rel; [|exact cframe_trans|exact sys_cframe].
  intro s. apply cframe_same; auto.
Qed.

Definition served (s : st) (i : nat) : Prop := last_recv s i = Some (latest s).
(* "delivered since": the current list was delivered to i after state s0 *)
Definition newd (s0 s : st) (i : nat) : Prop :=
  exists new, trace s = new ++ trace s0 /\ In (TDeliver i (latest s)) new.
Definition todo (s : st) (i : nat) : Prop :=
  exists cur msg, loop s = LDispatch cur msg /\ In i (from cur (subs s)).
Definition pending (s : st) : Prop := tickp s = true \/ src s <> [] \/ unsubq s <> [].

(* while the loop is alive, a live subscriber holds the current list (received
   since s0), or the running dispatch has yet to reach it, or another dispatch
   is due *)
Definition J (s0 s : st) : Prop :=
  (exists new, trace s = new ++ trace s0) /\
  (loop s = LExit \/
   forall i, liveb s i = true -> (served s i /\ newd s0 s i) \/ todo s i \/ pending s).

Lemma since_cons : forall (x : tev) t t0, (exists new, t = new ++ t0) -> exists new, x :: t = new ++ t0.
Proof. intros x t t0 [n E]. exists (x :: n). rewrite E. reflexivity. Qed.

Lemma liveb_In : forall s i, liveb s i = true -> In i (subs s).
Proof. intros s i H. unfold liveb in H. apply andb_true_iff in H. apply memn_In. tauto. Qed.

Lemma todo_begin : forall s i, liveb (begin_dispatch s) i = true -> todo (begin_dispatch s) i.
Proof.
  intros s i H. apply liveb_In in H. change (In i (subs s)) in H. unfold todo. unf.
  destruct (subs s) as [|x t]; [destruct H|]. exists x, (latest s). split; [reflexivity|]. rewrite from_hd. exact H.
Qed.

Lemma todo_next : forall s s' cur msg j, wf s -> loop s = LDispatch cur msg ->
  subs s' = subs s -> loop s' = enter (after cur (subs s)) msg -> j <> cur -> todo s j -> todo s' j.
Proof.
  intros s s' cur msg j W Lp Es El Ne [cur0 [msg0 [L0 T]]]. rewrite Lp in L0. inversion L0; subst cur0 msg0.
  destruct (wf_disp s W _ _ Lp) as [Hc _]. rewrite from_after in T by exact Hc.
  destruct T as [T|T]; [congruence|].
  destruct (after cur (subs s)) as [|c' r'] eqn:A; [destruct T|].
  exists c', msg. rewrite El, Es. split; [reflexivity|].
  rewrite (from_hd_after cur _ c' r' (wf_nodup s W) A). exact T.
Qed.

Lemma liveb_recv : forall s s' cur msg, subs s' = subs s -> clients s' = upd cur (c_recv msg) (clients s) ->
  forall j, liveb s' j = liveb s j.
Proof.
  intros s s' cur msg Es Ec j. unfold liveb. rewrite Es, Ec. f_equal.
  destruct (Nat.eq_dec cur j) as [D|D].
  - subst. rewrite nth_error_upd_same. destruct (nth_error (clients s) j); reflexivity.
  - rewrite nth_error_upd_other by exact D. reflexivity.
Qed.

Lemma J_step : forall s0 s e, wf s -> sys_event e -> J s0 s -> J s0 (step s e).
Proof.
  intros s0 s e W Se [B Js].
  destruct (step_cases s e); try destruct Se; (split; [unf; repeat apply since_cons; exact B|]); auto;
    try (right; intros j Hl; right; left; apply todo_begin; exact Hl).
  - (* deliver to cur *)
    destruct (wf_disp s W _ _ Lp) as [_ Hm]. destruct Js as [Jx|Js]; [congruence|]. destruct B as [new B].
    right. intros j Hl. erewrite (liveb_recv s _ cur msg) in Hl by reflexivity.
    unfold served, last_recv, newd in *. unf.
    destruct (Nat.eq_dec j cur) as [E|E].
    + subst j. left. rewrite nth_error_upd_same, Nc. simpl. split; [congruence|].
      exists (TDeliver cur msg :: new). rewrite B. split; [reflexivity|left; congruence].
    + rewrite nth_error_upd_other by congruence.
      destruct (Js j Hl) as [[S [n [Tn N]]]|[T|P]]; [left; split; [exact S|]| |right; right; exact P].
      * exists (TDeliver cur msg :: n). rewrite Tn. split; [reflexivity|right; exact N].
      * right. left. apply (todo_next s _ cur msg j W Lp); auto.
  - (* cur is cancelled or gone: skipped *)
    destruct Js as [Jx|Js]; [congruence|]. right. intros j Hl. change (liveb s j = true) in Hl.
    destruct (Js j Hl) as [D|[T|P]]; [left; exact D| |right; right; exact P].
    right. left. apply (todo_next s _ cur msg j W Lp); auto.
    intro E. subst j. unfold liveb in Hl. destruct (nth_error (clients s) cur) as [c|]; [rewrite (Cc c eq_refl) in Hl|];
      rewrite ?andb_false_r in Hl; discriminate.
Qed.

Lemma J_run : forall s0 ks s, Forall sys_event ks -> wf s /\ J s0 s -> wf (run s ks) /\ J s0 (run s ks).
Proof.
  intro s0. apply (run_rel sys_event (fun a b => wf a /\ J s0 a -> wf b /\ J s0 b)); [tauto|tauto|].
  intros s e Se [W K]. split; [apply wf_step|apply J_step]; assumption.
Qed.

Lemma registered_step : forall s e, sys_event e -> registered (step s e) = registered s.
Proof.
  intros s e Se. unfold registered.
  destruct (step_cases s e); try destruct Se; unf; auto; rewrite Sr; reflexivity.
Qed.

Lemma registered_run : forall ks s, Forall sys_event ks -> registered (run s ks) = registered s.
Proof.
  apply (run_rel sys_event (fun a b => registered b = registered a)); [reflexivity|congruence|exact registered_step].
Qed.

Lemma run_app : forall s a b, run s (a ++ b) = run (run s a) b.
Proof. intros. unfold run. apply fold_left_app. Qed.

Lemma quiescentb_spec : forall s, quiescentb s = true ->
  loop s = LSelect /\ src s = [] /\ unsubq s = [] /\ tickp s = false.
Proof.
  intros s H. unfold quiescentb in H. destruct (loop s); try discriminate.
  destruct (src s); [|discriminate]. destruct (unsubq s); [|discriminate].
  destruct (tickp s); [discriminate|]. auto.
Qed.

Lemma rest_served : forall s1 ks, wf s1 -> pending s1 -> Forall sys_event ks ->
  quiescentb (run s1 ks) = true ->
  forall i, liveb (run s1 ks) i = true -> served (run s1 ks) i /\ newd s1 (run s1 ks) i.
Proof.
  intros s1 ks W P F Q i L.
  destruct (J_run s1 ks s1 F) as [_ [_ [X|K]]].
  { split; [exact W|]. split; [exists []; reflexivity|]. right. intros j _. right. right. exact P. }
  - unfold quiescentb in Q. rewrite X in Q. discriminate.
  - apply quiescentb_spec in Q. destruct Q as [Q1 [Q2 [Q3 Q4]]].
    destruct (K i L) as [D|[[c [m [T _]]]|[T|[T|T]]]]; [exact D|congruence..].
Qed.

(* C27_converge, safety half: for every history and every way the system
   goroutines continue after the next tick, once they are at rest every live
   subscriber's last message is the list the stream last produced. *)
Theorem converge_safe : forall evs ks, Forall sys_event ks ->
  let s0 := run init evs in
  let s1 := run s0 (ETick :: ks) in
  quiescentb s1 = true ->
  forall i, liveb s1 i = true -> last_recv s1 i = Some (registered s0).
Proof.
  intros evs ks F s0 s1 Q i L.
  assert (W0 : wf s0) by (apply wf_run; exact wf_init).
  destruct (rest_served (step s0 ETick) ks (wf_step _ _ W0) (or_introl eq_refl) F Q i L) as [S _].
  unfold served in S. change (run (step s0 ETick) ks) with s1 in S. rewrite S. f_equal.
  transitivity (registered s1).
  - apply quiescentb_spec in Q. destruct Q as [_ [Q2 _]]. unfold registered. rewrite Q2. reflexivity.
  - apply (registered_run ks (step s0 ETick) F).
Qed.


Definition pend (s : st) : nat := length (src s) + length (unsubq s) + (if tickp s then 1 else 0).
Definition rem_of (lp : lstate) (l : list nat) : nat :=
  match lp with LDispatch cur _ => length (from cur l) | _ => 0 end.
(* every select branch taken lowers pend and starts a dispatch of at most
   |subs| steps; every dispatch step lowers rem_of *)
Definition mu (s : st) : nat := pend s * (length (subs s) + 1) + rem_of (loop s) (subs s).
Definition good (s : st) : Prop := wf s /\ no_stallb s = true /\ aliveb s = true.

Lemma rem_enter : forall l m, rem_of (enter l m) l = length l.
Proof. intros [|x t] m; simpl; [reflexivity|]. rewrite Nat.eqb_refl. reflexivity. Qed.

Lemma rem_advance : forall l cur m, NoDup l -> In cur l ->
  S (rem_of (enter (after cur l) m) l) = length (from cur l).
Proof.
  intros l cur m N H. rewrite (from_after _ _ H). simpl. f_equal.
  destruct (after cur l) as [|c' r'] eqn:A; simpl; [reflexivity|].
  rewrite (from_hd_after cur l c' r' N A). reflexivity.
Qed.

Lemma no_stall_spec : forall s, no_stallb s = true <-> forall i, In i (subs s) -> stalledb (clients s) i = false.
Proof.
  intro s. unfold no_stallb. rewrite forallb_forall. split; intros H i Hi; specialize (H i Hi).
  - apply negb_true_iff in H. exact H.
  - rewrite H. reflexivity.
Qed.

Lemma cframe_no_stall : forall s s', cframe s s' ->
  (forall i, In i (subs s') -> stalledb (clients s) i = false) -> no_stallb s' = true.
Proof.
  intros s s' F Ns. apply no_stall_spec. intros i Hi. specialize (Ns i Hi).
  unfold stalledb in *. destruct (nth_error (clients s) i) as [c|] eqn:Nc.
  - destruct (cf_cl _ _ F i c Nc) as [c' [Nc' [_ [R [C _]]]]]. rewrite Nc', R.
    destruct (creading c); [reflexivity|]. destruct (ccancel c); [|discriminate]. rewrite C; reflexivity.
  - apply nth_error_None in Nc. rewrite <- (cf_len _ _ F) in Nc. apply nth_error_None in Nc. rewrite Nc. reflexivity.
Qed.

Lemma enter_not_exit : forall l m, enter l m <> LExit.
Proof. intros [|x t] m; simpl; discriminate. Qed.

Lemma aliveb_spec : forall s, aliveb s = true <-> has_close (src s) = false /\ loop s <> LExit.
Proof.
  intro s. unfold aliveb. rewrite andb_true_iff, negb_true_iff.
  destruct (loop s); split; intros [A B]; split; auto; try discriminate; congruence.
Qed.

Lemma alive_step : forall s e, sys_event e -> aliveb s = true -> aliveb (step s e) = true.
Proof.
  intros s e Se. rewrite !aliveb_spec. intros [Hc Hl].
  destruct (step_cases s e); try destruct Se; unf; try (split; [|apply enter_not_exit]); auto;
    rewrite Sr in Hc; simpl in Hc; [exact Hc|discriminate].
Qed.

Lemma drain_event_sys : forall s e, drain_event s = Some e -> sys_event e.
Proof.
  intros s e De. unfold drain_event in De. destruct (loop s); [|inversion De; exact I|discriminate].
  destruct (negb (is_nil (src s))); [inversion De; exact I|].
  destruct (negb (is_nil (unsubq s))); [inversion De; exact I|].
  destruct (tickp s); [inversion De; exact I|discriminate].
Qed.

Lemma drain_step_mu : forall s e, good s -> drain_event s = Some e -> mu (step s e) < mu s.
Proof.
  intros s e [W [Ns Al]] De. rewrite no_stall_spec in Ns. apply aliveb_spec in Al. destruct Al as [Hc _].
  unfold drain_event in De. destruct (loop s) as [|cur msg|] eqn:Lp; [| |discriminate].
  - (* at the select *)
    destruct (src s) as [|[a|] r] eqn:Sr; simpl in De; [| |simpl in Hc; discriminate].
    + destruct (unsubq s) as [|i r] eqn:Uq; simpl in De.
      * destruct (tickp s) eqn:Tk; [|discriminate]. inversion De; subst e.
        rewrite (step_ticked s Lp Tk). unfold mu, pend. unf. rewrite Sr, Uq, Tk, Lp, rem_enter. simpl. lia.
      * inversion De; subst e. destruct (memn i (subs s)) eqn:Mi.
        -- rewrite (step_unsub_in s i r Lp Uq Mi). unfold mu, pend. unf. rewrite Sr, Uq, Lp, rem_enter. simpl.
           pose proof (remn_length i (subs s)). destruct (tickp s); nia.
        -- rewrite (step_unsub_out s i r Lp Uq Mi). unfold mu, pend. unf. rewrite Sr, Uq, Lp, rem_enter. simpl.
           destruct (tickp s); nia.
    + inversion De; subst e.
      rewrite (step_consume s a r Lp Sr). unfold mu, pend. unf. rewrite Sr, Lp, rem_enter. simpl. nia.
  - (* inside dispatch: cur is served or, being cancelled, skipped *)
    inversion De; subst e. cbn [step]. rewrite Lp. unfold dispatch_one.
    destruct (wf_disp s W _ _ Lp) as [Hin _]. pose proof (Ns _ Hin) as St. unfold stalledb in St.
    pose proof (rem_advance (subs s) cur msg (wf_nodup s W) Hin) as RA.
    assert (A : forall x, pend x = pend s -> subs x = subs s -> mu (advance x cur msg) < mu s).
    { intros x P Sb. unfold mu, pend in *. unf. rewrite Sb, Lp. simpl. lia. }
    destruct (nth_error (clients s) cur) as [c|]; [|apply A; reflexivity].
    destruct (creading c); simpl in *; [rewrite orb_true_r|apply negb_false_iff in St; rewrite St];
      apply A; reflexivity.
Qed.

Lemma drain_step_good : forall s e, good s -> drain_event s = Some e -> good (step s e).
Proof.
  intros s e [W [Ns Al]] De. apply drain_event_sys in De. split; [apply wf_step; exact W|]. split.
  - pose proof (sys_cframe s e De) as F. apply (cframe_no_stall s _ F).
    intros i Hi. apply no_stall_spec; [exact Ns|apply (cf_subs _ _ F), Hi].
  - apply alive_step; assumption.
Qed.

Lemma drain_none_quiescent : forall s, good s -> drain_event s = None -> quiescentb s = true.
Proof.
  intros s [_ [_ Al]] De. apply aliveb_spec in Al. destruct Al as [_ Hl].
  unfold drain_event, quiescentb in *. destruct (loop s); [|discriminate|congruence].
  destruct (src s); simpl in *; [|discriminate].
  destruct (unsubq s); simpl in *; [|discriminate].
  destruct (tickp s); [discriminate|reflexivity].
Qed.

Lemma quiescent_drain_event : forall s, quiescentb s = true -> drain_event s = None.
Proof.
  intros s Q. apply quiescentb_spec in Q. destruct Q as [Q1 [Q2 [Q3 Q4]]].
  unfold drain_event. rewrite Q1, Q2, Q3, Q4. reflexivity.
Qed.

Theorem drain_quiescent : forall fuel s, good s -> mu s <= fuel -> quiescentb (drain fuel s) = true.
Proof.
  induction fuel as [|f IH]; intros s G M; simpl;
    (destruct (drain_event s) as [e|] eqn:De; [|apply drain_none_quiescent; assumption]);
    pose proof (drain_step_mu s e G De) as L; [lia|].
  apply IH; [apply drain_step_good; assumption|lia].
Qed.

Lemma mu_bound : forall s, mu s <= drain_bound s.
Proof.
  intro s. unfold mu, drain_bound, pend.
  assert (rem_of (loop s) (subs s) <= length (subs s)).
  { unfold rem_of. destruct (loop s); try lia. apply from_length. }
  destruct (tickp s); nia.
Qed.

Lemma drain_is_sys_run : forall fuel s, exists ks, Forall sys_event ks /\ drain fuel s = run s ks.
Proof.
  induction fuel as [|f IH]; intro s; simpl; [exists []; split; [constructor|reflexivity]|].
  destruct (drain_event s) as [e|] eqn:De; [|exists []; split; [constructor|reflexivity]].
  destruct (IH (step s e)) as [ks [F E]]. exists (e :: ks). split; [|exact E].
  constructor; [exact (drain_event_sys s e De)|exact F].
Qed.


Lemma cframe_live : forall s s' i, cframe s s' -> liveb s i = true -> ~ In i (unsubq s) -> liveb s' i = true.
Proof.
  intros s s' i F L U. unfold liveb in *. apply andb_true_iff in L. destruct L as [L1 L2].
  apply memn_In in L1. destruct (nth_error (clients s) i) as [c|] eqn:Nc; [|discriminate].
  destruct (cf_cl _ _ F i c Nc) as [c' [Nc' [_ [R [_ C]]]]]. rewrite Nc', R, (C U), L2, andb_true_r.
  apply memn_In. apply (cf_keep _ _ F); assumption.
Qed.

Definition ret_or_queued (s : st) (i : nat) : Prop := In i (unsubq s) \/ In (TUnsubRet i) (trace s).
Lemma roq_step : forall s e x, ret_or_queued s x -> ret_or_queued (step s e) x.
Proof.
  intros s e x K. unfold ret_or_queued in *.
  destruct (step_cases s e); unf; auto; destruct K as [K|K]; simpl; auto.
  - left. apply in_or_app. left. exact K.
  - rewrite Uq in K. destruct K as [K|K]; [subst; right; right; left; reflexivity|left; exact K].
  - rewrite Uq in K. destruct K as [K|K]; [subst; right; left; reflexivity|left; exact K].
Qed.
Lemma roq_run : forall ks s x, ret_or_queued s x -> ret_or_queued (run s ks) x.
Proof. intros ks s x. apply (run_inv (fun s => ret_or_queued s x)). intros s0 e. apply roq_step. Qed.

Lemma returned_closed : forall s i, wf s -> unsubq s = [] -> ret_or_queued s i ->
  In (TUnsubRet i) (trace s) /\ ~ In i (subs s) /\
  exists c, nth_error (clients s) i = Some c /\ cclosed c = true.
Proof.
  intros s i W U [K|K]; [rewrite U in K; destruct K|].
  destruct (wf_ret s W i K) as [L N]. split; [exact K|]. split; [exact N|].
  destruct (nth_error (clients s) i) as [c|] eqn:Nc; [|apply nth_error_None in Nc; lia].
  exists c. split; [reflexivity|]. apply (wf_closed s W i c Nc). exact N.
Qed.

Lemma drain_rest : forall fuel s, good s -> mu s <= fuel -> let s1 := drain fuel s in
  quiescentb s1 = true /\ wf s1 /\ exists ks, Forall sys_event ks /\ s1 = run s ks.
Proof.
  intros fuel s G M s1. destruct (drain_is_sys_run fuel s) as [ks [F E]]. fold s1 in E.
  split; [apply drain_quiescent; assumption|]. split; [rewrite E; apply wf_run, G|exists ks; auto].
Qed.

(* C27_full_partial: when no subscriber in the map is
   stalled (each one is receiving or cancelled) and the stream is alive, the
   canonical continuation after the next tick comes to rest within
   drain_bound steps, every live subscriber has then received exactly the list
   the stream last produced, subscribers that were live stay live, and no
   Unsubscribe call is left waiting. *)
Theorem converge_live : forall evs,
  let s0 := run init evs in
  aliveb s0 = true -> no_stallb s0 = true ->
  let s1 := drain (drain_bound s0) (step s0 ETick) in
  quiescentb s1 = true /\
  (forall i, liveb s1 i = true -> last_recv s1 i = Some (registered s0)) /\
  (forall i, liveb s0 i = true -> ~ In i (unsubq s0) -> liveb s1 i = true) /\
  unsubq s1 = [].
Proof.
  intros evs s0 A N s1.
  assert (W0 : wf s0) by (apply wf_run; exact wf_init).
  destruct (drain_rest (drain_bound s0) (step s0 ETick)) as [Q [_ [ks [F E]]]];
    [split; [apply wf_step; exact W0|split; assumption]|apply (mu_bound (step s0 ETick))|]. fold s1 in Q, E.
  split; [exact Q|]. split; [|split].
  - intros i L. rewrite E in *. exact (converge_safe evs ks F Q i L).
  - intros i L U. rewrite E. apply (cframe_live (step s0 ETick)); [apply sys_run_cframe; exact F|exact L|exact U].
  - apply quiescentb_spec in Q. tauto.
Qed.

(* C27_unsub: a subscriber whose context is cancelled before Unsubscribe is
   called (calcium.WatchServiceStatus) -- if no OTHER subscriber is stalled, the
   call returns, the subscriber is removed from the map and its channel is closed. *)
Theorem unsub_completes : forall evs i,
  let s0 := run init evs in
  i < length (clients s0) ->
  let s := run s0 [ECancel i; EUnsubscribe i] in
  aliveb s = true -> no_stallb s = true ->
  let s1 := drain (drain_bound s) s in
  quiescentb s1 = true /\ In (TUnsubRet i) (trace s1) /\ ~ In i (subs s1) /\
  exists c, nth_error (clients s1) i = Some c /\ cclosed c = true.
Proof.
  intros evs i s0 Li s A N s1.
  assert (W : wf s) by (apply wf_run; apply wf_run; exact wf_init).
  destruct (drain_rest (drain_bound s) s) as [Q [W1 [ks [F E]]]]; [split; [exact W|split; assumption]|apply mu_bound|].
  fold s1 in Q, W1, E.
  split; [exact Q|]. apply (returned_closed s1 i W1); [apply quiescentb_spec in Q; tauto|].
  rewrite E. apply roq_run. left. unfold s. simpl. rewrite upd_length.
  apply Nat.ltb_lt in Li. rewrite Li. simpl. apply in_or_app. right. left. reflexivity.
Qed.

(* C27_latest *)
Theorem latest_holds : forall evs,
  let s := run init evs in
  deliveries_ok (trace s) /\ (forall i, recv_of s i = deliveries_of i (trace s)).
Proof.
  intros evs s. assert (W : wf s) by (apply wf_run; exact wf_init).
  split; [apply (wf_deliv s W)|apply (wf_recv s W)].
Qed.

Definition same_but_tick (s s' : st) : Prop :=
  clients s' = clients s /\ subs s' = subs s /\ src s' = src s /\ unsubq s' = unsubq s /\
  latest s' = latest s /\ loop s' = loop s /\ trace s' = trace s.

Lemma stall_blocks_step : forall s cur msg e,
  loop s = LDispatch cur msg -> stalledb (clients s) cur = true ->
  sys_event e \/ e = ETick -> same_but_tick s (step s e).
Proof.
  intros s cur msg e Lp St Se. unfold same_but_tick.
  destruct e as [it| |k r|i b|i|i|b|ch];
    try (destruct Se as [Se|Se]; [destruct Se|discriminate]).
  - simpl. repeat split; reflexivity.
  - simpl. rewrite Lp. repeat split; auto.
  - simpl. rewrite Lp. unfold dispatch_one. unfold stalledb in St.
    destruct (nth_error (clients s) cur) as [c|]; [|discriminate].
    apply andb_true_iff in St. destruct St as [S1 S2].
    apply negb_true_iff in S1. apply negb_true_iff in S2. rewrite S1, S2. simpl. repeat split; auto.
Qed.

(* the general form of the defect: while dispatch waits on a subscriber that
   neither receives nor is cancelled, no amount of ticks or system steps
   delivers anything to anybody, consumes a stream item, or completes an
   Unsubscribe *)
Theorem stall_blocks : forall ks s cur msg,
  loop s = LDispatch cur msg -> stalledb (clients s) cur = true ->
  Forall (fun e => sys_event e \/ e = ETick) ks -> same_but_tick s (run s ks).
Proof.
  induction ks as [|e t IH]; intros s cur msg Lp St F; simpl.
  - unfold same_but_tick. repeat split; reflexivity.
  - inversion F; subst.
    destruct (stall_blocks_step s cur msg e Lp St H1) as [A [B [C [D [E0 [G T]]]]]].
    destruct (IH (step s e) cur msg) as [A' [B' [C' [D' [E' [G' T']]]]]].
    + congruence.
    + rewrite A. exact St.
    + exact H2.
    + unfold same_but_tick. repeat split; congruence.
Qed.
(* the unrestricted statement of C27 *)
Definition C27_full : Prop := forall evs,
  let s0 := run init evs in
  aliveb s0 = true ->
  let s1 := drain (drain_bound s0) (step s0 ETick) in
  (forall i, liveb s1 i = true -> last_recv s1 i = Some (registered s0)) /\ unsubq s1 = [].

(* subscriber 0 (first in map order) stalls; subscriber 1 reads; subscriber 2's
   Unsubscribe is called; the registered set changes to [1;2] *)
Definition witness : list event :=
  [ESrc (Item [1]); ESubscribe 0 false; ESubscribe 1 true; ESubscribe 2 true;
   ELoop BSrc; EUnsubscribe 2; ESrc (Item [1;2])].

Theorem full_refuted : ~ C27_full.
Proof.
  intro H. specialize (H witness). cbv zeta in H.
  assert (A : aliveb (run init witness) = true) by (vm_compute; reflexivity).
  destruct (H A) as [_ H2]. vm_compute in H2. discriminate.
Qed.

(* ... and it stays that way for ever: subscriber 1 is live, never gets [1;2],
   and the Unsubscribe of 2 never returns *)
Theorem witness_starves : forall ks, Forall (fun e => sys_event e \/ e = ETick) ks ->
  let s := run (run init witness) ks in
  liveb s 1 = true /\ last_recv s 1 = None /\ registered s = [1;2] /\ unsubq s = [2].
Proof.
  intros ks F s.
  destruct (stall_blocks ks (run init witness) 0 [1]) as [A [B [C [D [E0 [G T]]]]]];
    [vm_compute; reflexivity|vm_compute; reflexivity|exact F|].
  fold s in A, B, C, D, E0, G, T.
  unfold liveb, last_recv, registered. rewrite A, B, C, D, E0. vm_compute. auto.
Qed.

(* the hypotheses of converge_live and unsub_completes are satisfiable *)
Example converge_live_nonvacuous :
  let evs := [ESrc (Item [1]); ESubscribe 0 true; ESubscribe 1 true; ELoop BSrc;
              EDispatch true; EDispatch true; ESrc (Item [1;2])] in
  let s0 := run init evs in
  aliveb s0 = true /\ no_stallb s0 = true /\ liveb s0 0 = true /\ liveb s0 1 = true /\
  last_recv (drain (drain_bound s0) (step s0 ETick)) 1 = Some [1;2].
Proof. vm_compute. auto. Qed.

Definition bye (i : nat) : list event := [ECancel i; EUnsubscribe i].
Definition cancel_all (n : nat) : list event := flat_map bye (seq 0 n).

Definition cancelled_at (s : st) (i : nat) : Prop :=
  exists c, nth_error (clients s) i = Some c /\ ccancel c = true.

Lemma cancelled_step : forall s e i, cancelled_at s i -> cancelled_at (step s e) i.
Proof.
  intros s e i [c [N C]]. unfold cancelled_at.
  assert (U : forall k f, (forall c, ccancel c = true -> ccancel (f c) = true) ->
              exists c', nth_error (upd k f (clients s)) i = Some c' /\ ccancel c' = true).
  { intros k f Hf. destruct (Nat.eq_dec k i) as [E|E].
    - subst. exists (f c). rewrite nth_error_upd_same, N. auto.
    - exists c. rewrite nth_error_upd_other by exact E. auto. }
  destruct (step_cases s e); unf; try (apply U; auto; fail); try (exists c; auto; fail).
  exists c. rewrite nth_error_app1 by (apply nth_error_Some; congruence). auto.
Qed.

Lemma bye_step : forall s i, i < length (clients s) ->
  let s' := run s (bye i) in
  length (clients s') = length (clients s) /\ src s' = src s /\ loop s' = loop s /\
  cancelled_at s' i /\ In i (unsubq s').
Proof.
  intros s i L. unfold cancelled_at, run, bye. cbn [fold_left step]. unf. rewrite upd_length.
  apply Nat.ltb_lt in L. rewrite L. unf. rewrite upd_length. repeat split; auto.
  - apply Nat.ltb_lt, nth_error_Some in L. destruct (nth_error (clients s) i) as [c|] eqn:N; [|congruence].
    exists (c_cancel c). rewrite nth_error_upd_same, N. auto.
  - apply in_or_app. right. left. reflexivity.
Qed.

Lemma byes_run : forall l s, (forall i, In i l -> i < length (clients s)) ->
  let s' := run s (flat_map bye l) in
  length (clients s') = length (clients s) /\ src s' = src s /\ loop s' = loop s /\
  (forall i, In i l -> cancelled_at s' i /\ ret_or_queued s' i).
Proof.
  induction l as [|i t IH]; intros s H; [simpl; repeat split; auto; contradiction|].
  cbn [flat_map]. rewrite run_app.
  destruct (bye_step s i (H i (or_introl eq_refl))) as [A [B [C [D E]]]].
  set (sa := run s (bye i)) in *.
  destruct (IH sa) as [A' [B' [C' D']]]; [intros j Hj; rewrite A; apply H; right; exact Hj|].
  repeat split; try congruence; destruct H0 as [H0|H0]; try (apply D'; exact H0); subst.
  - apply (run_inv (fun s => cancelled_at s i0)); [intros; apply cancelled_step; assumption|exact D].
  - apply roq_run. left. exact E.
Qed.

(* C27_unsub for everybody: when every subscriber's context is cancelled and
   Unsubscribe is called for it (what calcium.WatchServiceStatus does when the
   client goes away), then -- stalled readers or not -- every call returns, the
   map is empty and every channel is closed. *)
Theorem unsub_all : forall evs,
  let s0 := run init evs in
  aliveb s0 = true ->
  let s := run s0 (cancel_all (length (clients s0))) in
  let s1 := drain (drain_bound s) s in
  quiescentb s1 = true /\ subs s1 = [] /\ unsubq s1 = [] /\
  (forall i c, nth_error (clients s1) i = Some c -> cclosed c = true).
Proof.
  intros evs s0 A s s1.
  destruct (byes_run (seq 0 (length (clients s0))) s0) as [L [Sr [Lp All]]].
  { intros i Hi. apply in_seq in Hi. lia. }
  fold (cancel_all (length (clients s0))) in *. fold s in L, Sr, Lp, All.
  assert (W : wf s) by (do 2 apply wf_run; exact wf_init).
  assert (G : good s).
  { split; [exact W|]. split; [|unfold aliveb in *; rewrite Sr, Lp; exact A].
    (* everybody in the map is cancelled *)
    apply no_stall_spec. intros i Hi. pose proof (wf_lt s W i Hi) as Li. rewrite L in Li.
    destruct (All i) as [[c [N C]] _]; [apply in_seq; lia|].
    unfold stalledb. rewrite N, C. simpl. apply andb_false_r. }
  destruct (drain_rest (drain_bound s) s G (mu_bound s)) as [Q [W1 [ks [F E]]]]. fold s1 in Q, W1, E.
  pose proof (quiescentb_spec s1 Q) as [_ [_ [Uq _]]].
  assert (Out : forall i, i < length (clients s1) -> ~ In i (subs s1) /\
                 exists c, nth_error (clients s1) i = Some c /\ cclosed c = true).
  { intros i Li. apply (returned_closed s1 i W1 Uq). rewrite E. apply roq_run, All.
    rewrite E, (cf_len _ _ (sys_run_cframe ks s F)), L in Li. apply in_seq. lia. }
  split; [exact Q|]. split; [|split; [exact Uq|]].
  - destruct (subs s1) as [|i r] eqn:Sb1; [reflexivity|]. exfalso.
    apply (Out i); [apply (wf_lt s1 W1); rewrite Sb1|]; left; reflexivity.
  - intros i c N. destruct (Out i) as [_ [c' [N' C]]]; [apply nth_error_Some; congruence|congruence].
Qed.
