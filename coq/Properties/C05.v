(* C05 — CPU-bound instances receive exactly the CPU amount requested.
   This file contains only the property theorems (proofs: Cpumem/SchedProofs*.v).

   A request "expressible with the share base's precision" is the double nearest
   to the decimal k/base ([decimal_request k base], what a client's 0.29 is).
   The model follows the code after the repair `int(math.Round(cpu*base))`
   (/repo 5bf30c8); before it the piece count was truncated
   (C05_truncation_before_repair). *)
From Coq Require Import String List ZArith Permutation.
From Verif Require Import Base.GoFloat Cpumem.Types Cpumem.Schedule Cpumem.Calc Cpumem.SchedCase.
From Verif Require Import Cpumem.SchedProofsPieces Cpumem.SchedProofsTop Cpumem.SchedProofsDeploy Cpumem.SchedProofsExamples.
Local Open Scope Z_scope.

(* the arithmetic core, analytically (Flocq): two correctly rounded operations
   lose less than half a piece for every k < 2^50 and every base up to 2^53 *)
Theorem C05_pieces_exact : forall k base, 1 <= k < 2^50 -> 1 <= base <= 2^53 ->
  pieces_request base (decimal_request k base) = k.
Proof. exact decimal_pieces. Qed.
Print Assumptions C05_pieces_exact.

(* every plan GetCPUPlans returns for such a request: pieces total k, as
   k/base cores at exactly [base] plus, when k mod base <> 0, exactly one more
   core with the remainder; for every node, NUMA order and any permuting sort *)
Theorem C05_exact : forall sortf,
  (forall l, exists l', sortf l = Ok l' /\ Permutation l' l) ->
  forall info origin base maxfrag req numa_order fuel plans k,
  get_cpu_plans_g sortf info origin base maxfrag req numa_order fuel = Ok plans ->
  wf_maps info -> NoDup numa_order ->
  1 <= k < 2^50 -> 1 <= base <= 2^53 -> rq_cpu_req req = decimal_request k base ->
  forall tp, In tp plans ->
    c05_plan_ok base k (snd tp) = true
    /\ exists p0 fr, snd tp = p0 ++ fr /\ Z.of_nat (length p0) = Z.quot k base
         /\ Forall (fun kv => snd kv = base) p0
         /\ ((Z.rem k base = 0 /\ fr = nil) \/ (0 < Z.rem k base /\ exists c, fr = cons (c, Z.rem k base) nil))
         /\ total_pieces (snd tp) = k.
Proof. exact plans_exact. Qed.
Print Assumptions C05_exact.

(* for ANY float request (on the decimal grid or not): every plan totals exactly
   int(math.Round(request * base)) pieces, the request times the share base to the nearest
   piece, with the same core layout *)
Theorem C05_nearest_piece : forall sortf,
  (forall l, exists l', sortf l = Ok l' /\ Permutation l' l) ->
  forall info origin base maxfrag req numa_order fuel plans,
  get_cpu_plans_g sortf info origin base maxfrag req numa_order fuel = Ok plans ->
  wf_maps info -> NoDup numa_order -> 0 < base ->
  forall tp, In tp plans ->
    let pr := pieces_request base (rq_cpu_req req) in
    0 < pr /\ total_pieces (snd tp) = pr /\ c05_plan_ok base pr (snd tp) = true.
Proof. exact plans_total_nearest. Qed.
Print Assumptions C05_nearest_piece.

(* the amount recorded for the workload agrees with the pieces it was given *)
Theorem C05_recorded : forall sortf,
  (forall l, exists l', sortf l = Ok l' /\ Permutation l' l) ->
  forall info base maxshare count raw numa_order fuel eps ws req k,
  calculate_deploy_g sortf info base maxshare count raw numa_order fuel = Ok (inr (eps, ws)) ->
  wreq_validate raw = inr req -> rq_bind req = true ->
  wf_maps info -> NoDup numa_order ->
  1 <= k < 2^50 -> 1 <= base <= 2^53 -> rq_cpu_req req = decimal_request k base ->
  length eps = length ws
  /\ forall i w e, nth_error ws i = Some w -> nth_error eps i = Some e ->
       wr_cpu_req w = decimal_request k base
       /\ total_pieces (wr_cpumap w) = k
       /\ c05_plan_ok base k (wr_cpumap w) = true
       /\ ep_cpumap e = wr_cpumap w.
Proof. exact deploy_recorded. Qed.
Print Assumptions C05_recorded.

(* the code before the repair violated the property *)
Theorem C05_truncation_before_repair :
  pieces_request_trunc 100 (decimal_request 29 100) = 28
  /\ pieces_request_trunc 100 (decimal_request 57 100) = 56
  /\ pieces_request_trunc 100 (decimal_request 115 100) = 114.
Proof. exact truncation_defect. Qed.
Print Assumptions C05_truncation_before_repair.
