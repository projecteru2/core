(* C06 — CPU planning always terminates without crashing.
   This file contains only the property theorems (proofs: Cpumem/SchedProofs*.v).

   The model (Cpumem/Schedule.v, Calc.v) gives every loop explicit fuel and
   turns every bad slice bound, index and integer division by zero into a
   [Panic] outcome; [Ok] therefore means "returned, no panic, fuel not
   exhausted".  The theorems hold for EVERY node state (valid or not), every
   origin map (the affinity path used by realloc), every float request (also
   below one piece, NaN, infinite, out of range), every max-share value and every
   NUMA iteration order; the only hypothesis is a positive share base.  They are
   stated for an arbitrary final sort of getFullCPUPlans that permutes its input
   (Go's sort.Slice is unstable above 12 elements) and instantiated
   (C06_total_model) for the stable insertion sort [sort_exact] of
   [get_cpu_plans], which is sort.Slice for at most 12 plans.  The model run by
   the correspondence check sorts with [sort_pdq] (the port of Go's pdqsort in
   Cpumem/Pdqsort.v); that port is not proved to permute its input, so the
   theorems are not instantiated for it. *)
From Coq Require Import String List ZArith Permutation.
From Verif Require Import Cpumem.Types Cpumem.Schedule Cpumem.Calc Cpumem.SchedProofs Cpumem.SchedProofsCalc.
Local Open Scope Z_scope.

Theorem C06_total : forall sortf,
  (forall l, exists l', sortf l = Ok l' /\ Permutation l' l) ->
  forall info origin base maxfrag req numa_order fuel,
  0 < base -> (default_fuel info <= fuel)%nat ->
  exists plans, get_cpu_plans_g sortf info origin base maxfrag req numa_order fuel = Ok plans.
Proof. exact get_cpu_plans_total'. Qed.
Print Assumptions C06_total.

Theorem C06_total_model : forall info origin base maxfrag req numa_order,
  0 < base ->
  exists plans, get_cpu_plans info origin base maxfrag req numa_order (default_fuel info) = Ok plans.
Proof. exact get_cpu_plans_total_model. Qed.
Print Assumptions C06_total_model.

Theorem C06_deploy_total : forall sortf,
  (forall l, exists l', sortf l = Ok l' /\ Permutation l' l) ->
  forall info base maxshare count raw numa_order fuel,
  0 < base -> 0 <= count -> (default_fuel info <= fuel)%nat ->
  exists r, calculate_deploy_g sortf info base maxshare count raw numa_order fuel = Ok r.
Proof. exact calculate_deploy_total. Qed.
Print Assumptions C06_deploy_total.

Theorem C06_capacity_total : forall sortf,
  (forall l, exists l', sortf l = Ok l' /\ Permutation l' l) ->
  forall info base maxshare req numa_order fuel,
  0 < base -> (default_fuel info <= fuel)%nat ->
  exists c, node_capacity_g sortf info base maxshare req numa_order fuel = Ok c.
Proof. exact node_capacity_total. Qed.
Print Assumptions C06_capacity_total.

(* CalculateRealloc: the origin's resources are given back, then the same planner runs
   with the origin map (affinity path) *)
Theorem C06_realloc_total : forall sortf,
  (forall l, exists l', sortf l = Ok l' /\ Permutation l' l) ->
  forall info base maxshare origin raw numa_order fuel,
  0 < base -> (default_fuel (realloc_info info origin) <= fuel)%nat ->
  exists r, calculate_realloc_g sortf info base maxshare origin raw numa_order fuel = Ok r.
Proof. exact calculate_realloc_total. Qed.
Print Assumptions C06_realloc_total.
