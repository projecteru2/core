(* C20 — cluster operations take locks in one global order; hence no
   combination of concurrent operations can deadlock on locks. *)
From Coq Require Import List.
From Verif Require Import Base.LockOrder Base.LockOrderProofs Calcium.Locks Calcium.LocksProofs.

(* Every goroutine of every operation (create, capacity, remove-pod, remove,
   dissociate, realloc, replace, control, send, raw-engine, set-node,
   remove-node, node/pod resource, remap, and the two lock helpers with
   arbitrary filters / id lists), for every store content, every outcome oracle
   and every placement of failing lock attempts:
   - attempts keys in strictly increasing (class, key) order w.r.t. everything it
     holds (pod keys < workload keys < node-operation keys, bytewise inside a
     class), releases only held keys and ends holding nothing   [k_ordered]
   - releases in LIFO order                                       [k_nested]
     (exception: the multi-id workload helper called directly, whose releases after
      a failing attempt follow Go map order - an oracle of the model; still ordered)
   - uses only the three key classes                              [known_class]
   - attempts a node-operation key only while holding nothing and attempts
     nothing while holding one                                    [nodeop_alone]
     (the multi-node node-operation helper, never called by an operation with
      more than one node, is the stated exception). *)
Theorem C20_order : forall s o fls flr t, In t (op_threads s o fls flr) ->
  k_ordered t = true /\
  (match o with OHelperWorkloads _ _ _ => True | _ => k_nested t = true end) /\
  known_class t = true /\
  (match o with OHelperNodes _ true => True | _ => nodeop_alone t = true end).
Proof. exact op_threads_ok. Qed.
Print Assumptions C20_order.

(* Any number of operations (each on its own view of the store, with its own
   oracles) running concurrently, under every schedule: no reachable state is a
   deadlock (somebody unfinished and nobody able to move). *)
Theorem C20_no_deadlock : forall ops st,
  steps key_eqb (start (threads_of ops)) st -> ~ deadlocked key_eqb st.
Proof. exact no_deadlock_ops. Qed.
Print Assumptions C20_no_deadlock.

(* every maximal run ends with all goroutines finished and every lock free *)
Theorem C20_runs_end_unlocked : forall ops st,
  steps key_eqb (start (threads_of ops)) st -> (forall st', ~ step key_eqb st st') ->
  all_finished st /\ all_held st = nil.
Proof. exact runs_end_unlocked. Qed.
Print Assumptions C20_runs_end_unlocked.

(* the transition system itself never lets two goroutines hold one key *)
Theorem C20_mutex_model : forall ops st,
  steps key_eqb (start (threads_of ops)) st -> mutex st.
Proof. exact mutex_ops. Qed.
Print Assumptions C20_mutex_model.

(* the generic theorem (Base/LockOrder): for ANY key type with a decidable strict
   order, threads whose scripts are [ordered] cannot deadlock *)
Theorem C20_lock_order_generic :
  forall (key : Type) (eqb ltb : key -> key -> bool),
  (forall a b, eqb a b = true <-> a = b) ->
  (forall a, ltb a a = false) ->
  (forall a b c, ltb a b = true -> ltb b c = true -> ltb a c = true) ->
  forall scripts st,
  (forall sc, In sc scripts -> ordered eqb ltb sc = true) ->
  steps eqb (start scripts) st -> ~ deadlocked eqb st.
Proof. exact (@no_deadlock). Qed.
Print Assumptions C20_lock_order_generic.

(* the boolean check evaluated on the implementation's recorded lock calls
   accepts every thread of the model *)
Theorem C20_ok_sound_on_model : forall s o fls flr t,
  match o with OHelperNodes _ true => False | OHelperWorkloads _ _ _ => False | _ => True end ->
  In t (op_threads s o fls flr) -> thread_ok t = true.
Proof. exact op_thread_ok_bool. Qed.
Print Assumptions C20_ok_sound_on_model.
