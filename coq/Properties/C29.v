(* C29 — file transfers deliver identical content and always finish.

   [to_chunks size c]: rpc.toSendLargeFileChunks; [send_file size c targets behs]:
   Vibranium.Send of one file = Calcium.SendLargeFile fed with those chunks, for
   targets (Some o = the o-th existing workload, None = an unknown id; repeats
   allowed) whose engines behave as behs (read to EOF | read to EOF then fail |
   fail after k bytes | return success unread).  Both polymorphic in the bytes. *)
From Coq Require Import List Permutation Bool.
From Verif Require Import Xfer.Chunks Xfer.ChunksProofs Xfer.Pipeline Xfer.PipelineProofs Xfer.Steps Xfer.StepsProofs Xfer.StepsBridge Xfer.Direct Xfer.DirectProofs Xfer.Multi Xfer.MultiProofs.
Import ListNotations.
Local Open Scope bool_scope.

(* chunking round trip, any content (the empty file included), any positive chunk size:
   the chunks concatenate to the content, all but the last are full, there is at
   least one, and no chunk of a non-empty file is empty *)
Theorem C29_chunks : forall {A} size (c : list A), 0 < size ->
  concat (to_chunks size c) = c /\
  shape size (to_chunks size c) /\
  (c <> [] -> Forall (fun ch => ch <> []) (to_chunks size c)).
Proof. exact @chunks_statement. Qed.
Print Assumptions C29_chunks.

(* ids, destination, owner, mode and total size are repeated on every chunk *)
Theorem C29_chunk_metadata : forall {M A} size (meta : M) (c : list A),
  map o_chunk (to_options size meta c) = to_chunks size c /\
  Forall (fun o => o_meta o = meta /\ o_size o = length c) (to_options size meta c).
Proof. exact @options_statement. Qed.
Print Assumptions C29_chunk_metadata.

(* an engine that reads to EOF receives exactly the content; one that aborts has
   read a prefix; a workload that is not a target receives nothing *)
Theorem C29_delivery : forall {A} size (content : list A) targets behs o,
  0 < size ->
  let out := send_file size content targets behs in
  (In (Some o) targets ->
     received out o = Some (match beh_of behs o with
                            | Drain | DrainErr => content
                            | GiveUp k => firstn k content
                            | Ignore => []
                            end)) /\
  (~ In (Some o) targets -> received out o = None).
Proof. exact @delivery. Qed.
Print Assumptions C29_delivery.

(* exactly one result per distinct target -- existing, missing or listed twice *)
Theorem C29_one_result_per_target : forall {A} size (content : list A) targets behs,
  0 < size ->
  let out := send_file size content targets behs in
  Permutation (messages out) (map (message behs) (dedupe targets)) /\
  NoDup (dedupe targets) /\ (forall t, In t (dedupe targets) <-> In t targets).
Proof. exact @one_result_per_target. Qed.
Print Assumptions C29_one_result_per_target.

(* ... carrying the engine's verdict, or an error for an unknown id *)
Theorem C29_verdicts : forall behs t,
  message behs t = match t with
                   | Some o => mkMsg (Some o) (engine_err (beh_of behs o)) true
                   | None => mkMsg None EOther false
                   end.
Proof. exact verdicts. Qed.
Print Assumptions C29_verdicts.

(* the call always finishes (dataflow model of the repaired network: nothing can block) *)
Theorem C29_termination : forall {A} size (content : list A) targets behs,
  finished (send_file size content targets behs) = true.
Proof. exact @terminates. Qed.
Print Assumptions C29_termination.

(* ... and in model steps, for ALL schedules of the goroutines (dispatcher, one
   sender and one engine goroutine per target, buffers of 10, io.Pipe rendezvous,
   reader closed after the copy): from the initial state, any execution of k steps
   (1) has k <= mu(init) -- every schedule terminates, with an explicit bound;
   (2) ends in a state that is finished or can still move -- no deadlock, whatever
       the engines do (read to EOF, give up after any number of bytes, never start);
   (3) if finished: every target reported exactly once and its engine read exactly
       the whole content / its first k bytes *)
Theorem C29_all_schedules : forall {A} (chunks : list (list A)) (ts : list target) (behs : list beh),
  chunks <> [] ->
  let n := length ts in
  let want := fun i => want_of_target behs (nth i ts None) in
  forall k s, steps A n want k (init A n chunks) s ->
    k <= mu A n (init A n chunks) /\
    (dst A s <> DFinished A -> exists s', step A n want s s') /\
    (dst A s = DFinished A ->
       forall i, i < n ->
         nmsg A (tg A s i) = 1 /\
         got A (tg A s i) = reads_spec A (want i) (concat chunks)).
Proof. intros A chunks ts behs Hne n want. exact (all_schedules A n want chunks Hne). Qed.
Print Assumptions C29_all_schedules.

(* what an engine has read when the network finished is what the dataflow model
   (the one the correspondence harness runs against the code) computes *)
Theorem C29_steps_match_dataflow : forall {A} (chunks : list (list A)) (ts : list target) (behs : list beh),
  chunks <> [] ->
  let n := length ts in
  let want := fun i => want_of_target behs (nth i ts None) in
  forall k s, steps A n want k (init A n chunks) s -> dst A s = DFinished A ->
  forall i o, i < n -> nth i ts None = Some o ->
    got A (tg A s i) = engine_reads (beh_of behs o) chunks.
Proof. exact @transfer_matches_dataflow. Qed.
Print Assumptions C29_steps_match_dataflow.

(* Calcium.Send, the non-chunked path of the cluster API: the engine is handed the
   whole content; exactly one result per (listed target, file) for any id list
   (after the repair; before it an id listed twice was served and reported twice) *)
Theorem C29_direct_delivery : forall {A} (content : list A),
  direct_reads Drain content = content /\ direct_reads DrainErr content = content /\
  forall k, direct_reads (GiveUp k) content = firstn k content.
Proof. exact @direct_delivery. Qed.
Print Assumptions C29_direct_delivery.

Theorem C29_direct_one_result : forall nfiles ids behs o f,
  In (Some o) ids -> f < nfiles ->
  fst (send_direct nfiles ids behs) = DOk /\
  length (filter (fun m => onat_eqb (d_target m) (Some o) && onat_eqb (d_file m) (Some f))
                 (snd (send_direct nfiles ids behs))) = 1.
Proof. exact direct_one_result_any. Qed.
Print Assumptions C29_direct_one_result.

Theorem C29_direct_orig_duplicate_refuted :
  snd (send_direct_with false 1 [Some 0; Some 0] []) = [mkDMsg (Some 0) (Some 0) ENone; mkDMsg (Some 0) (Some 0) ENone] /\
  snd (send_direct 1 [Some 0; Some 0] []) = [mkDMsg (Some 0) (Some 0) ENone].
Proof. exact direct_duplicate_refuted. Qed.
Print Assumptions C29_direct_orig_duplicate_refuted.

(* the outcome does not depend on how the client of the streaming RPC cut the file into
   chunks (2500 bytes as 1000+1000+500 or as the core's own 2048+452) *)
Theorem C29_chunking_independent : forall {A} (c1 c2 : list (list A)) targets behs,
  c1 <> [] -> c2 <> [] -> concat c1 = concat c2 ->
  messages (send_chunks c1 targets behs) = messages (send_chunks c2 targets behs) /\
  finished (send_chunks c1 targets behs) = finished (send_chunks c2 targets behs) /\
  forall o, received (send_chunks c1 targets behs) o = received (send_chunks c2 targets behs) o.
Proof. exact @chunking_independent. Qed.
Print Assumptions C29_chunking_independent.

(* several files on ONE SendLargeFile input channel (a client of the streaming RPC):
   every (distinct target, file) gets a result and every file is delivered completely
   to every engine that reads to EOF (after the repair; before it only the first file) *)
Theorem C29_multi_results : forall {A} (files : list (list (list A))) targets behs,
  let out := send_files files targets behs in
  mfinished out = true /\
  Permutation (mresults out) (flat_map (results_of (length files)) (dedupe targets)) /\
  length (mresults out) = length files * length (dedupe targets).
Proof. exact @multi_results. Qed.
Print Assumptions C29_multi_results.

Theorem C29_multi_delivery : forall {A} size (contents : list (list A)) targets behs o f c,
  0 < size -> In (Some o) targets -> nth_error contents f = Some c ->
  mreceived (send_files (map (to_chunks size) contents) targets behs) o f =
    Some (match beh_of behs o with
          | Drain | DrainErr => c
          | GiveUp k => firstn k c
          | Ignore => []
          end).
Proof. exact @multi_delivery. Qed.
Print Assumptions C29_multi_delivery.

Theorem C29_multi_orig_refuted :
  let out := send_files_with false [[[1; 2]]; [[3]]] [Some 0] [] in
  mresults out = [(Some 0, Some 0)] /\ mreceived out 0 1 = None /\
  mresults (send_files [[[1; 2]]; [[3]]] [Some 0] []) = [(Some 0, Some 0); (Some 0, Some 1)] /\
  mreceived (send_files [[[1; 2]]; [[3]]] [Some 0] []) 0 1 = Some [3].
Proof. exact multi_orig_refuted. Qed.
Print Assumptions C29_multi_orig_refuted.

(* the unrepaired network: finished when every target existed and every engine
   read to EOF, but blocked for ever on a missing target or an aborting engine
   once more than 11 chunks were pending; duplicated ids doubled the content;
   an empty file produced no chunk, no transfer and no result *)
Theorem C29_orig_partial : forall lens targets behs,
  (forall t, In t targets -> exists o, t = Some o /\ (beh_of behs o = Drain \/ beh_of behs o = DrainErr)) ->
  finishes_with false lens targets behs = true.
Proof. exact orig_finishes_when_all_drain. Qed.
Print Assumptions C29_orig_partial.

Theorem C29_orig_missing_target_refuted : finishes_with false thirteen [Some 0; None] [] = false.
Proof. exact orig_missing_target_blocks. Qed.
Print Assumptions C29_orig_missing_target_refuted.

Theorem C29_orig_abort_refuted :
  finishes_with false thirteen [Some 0; Some 1] [GiveUp 3000] = false /\
  finishes_with false (repeat 2048 12) [Some 0] [GiveUp 10] = false /\
  finishes_with false (repeat 2048 11) [Some 0] [GiveUp 10] = true.
Proof. exact orig_aborting_engine_blocks. Qed.
Print Assumptions C29_orig_abort_refuted.

Theorem C29_orig_duplicate_refuted :
  engine_reads Drain (dup_stream 2 (to_chunks 2 [1; 2; 3])) = [1; 2; 1; 2; 3; 3] /\
  engine_reads Drain (dup_stream 1 (to_chunks 2 [1; 2; 3])) = [1; 2; 3].
Proof. exact orig_duplicate_garbles. Qed.
Print Assumptions C29_orig_duplicate_refuted.

Theorem C29_orig_empty_file_refuted : forall {A} size, @to_chunks_orig A size [] = [].
Proof. exact @orig_empty_refuted. Qed.
Print Assumptions C29_orig_empty_file_refuted.
