(* C10 — node usage always equals the sum of the workloads recorded on the node.

   MAIN THEOREM (C10_history): for EVERY history of add-pod / add-node / remove-node / set-node / create /
   remove / dissociate / realloc / replace / run-and-wait operations, each with at most one injected fault at ANY faultable call of the
   operation (store, resource plugin, engine, WAL, lock; [k : option nat] is the index of the failing call), from
   EVERY world satisfying Inv: Inv holds after the history, in particular (C10_history_usage)
       for every plugin record p:  p_use p = sum of w_res over the workloads recorded on p_node p.
   Inv w := wf w (distinct ids; a recorded workload's node has a plugin record; it has a container)
            /\ use_ok w /\ one plugin record per node name /\ every node record is available.
   Step validity (valid_step, the only hypotheses on the steps):
     * create: the plan handed to create is a strategy output for the world of that moment (distinct node names,
       the nodes exist, each node's plugin can fit its count) and the operation index is fresh;
     * remove: force, or the engine does not refuse to remove running containers (a natural refusal PLUS an
       injected fault on the compensation is a second, independent failure);
     * replace: the operation index is fresh, and the step did not report, for any workload, a failure AFTER its
       new workload was deployed (a message MReplace id (Some new) false (Some err); is_window).  With that outcome
       the statement is FALSE of the code as it is: C10_replace_refuted (a replace whose removal of the old
       workload fails leaves old and new workload recorded on one allocation; known finding
       replace-remove-old-fails).  C10_replace_op is the whole-operation theorem.
     * run-and-wait: create's hypotheses (C10_lambda_op: the whole operation keeps Inv at every fault position).
   The per-operation theorems below are the same statement one operation at a time (C10_step); C10_create_capacity
   adds usage <= capacity for create; C10_fault_addresses: every fault address (method, target, ordinal) of the
   harness is one of the positions k.
   CONCURRENCY (C10_interleaving, C10_orders_agree, C10_inplace_ops_interleave): operations of a history run one
   after the other; two operations interleaved at call granularity (run2: a schedule says whose call is next, each
   operation has its own fault position) give EXACTLY the result of the sequential history whenever their calls
   lie in classes that commute pairwise; this is proved for the operations that update records in place (realloc,
   set-node) on disjoint footprints (workload ids, node names), and, up to the message channel (ONE shared list in
   the model, one channel per operation in the code), for dissociate as well (C10_xops_interleave).  Operations that
   append records (create, the re-adding rollbacks of remove/replace) commute only up to the order of the appended
   elements: not proved; the harness drives concurrent pairs of realloc/dissociate/remove/set-node through a
   call-by-call gate and compares with the sequential model. *)
From Coq Require Import List Bool Arith ZArith.
From Verif Require Import Base.Effects Calcium.World Calcium.Ops Calcium.Run Calcium.EffectsProofs
  Calcium.OpsProofs Calcium.OpsProofs2 Calcium.InvProofs Calcium.Sweeps Calcium.DeployProofs Calcium.DeployProofs2
  Calcium.CreateProofs Calcium.CreateProofs2 Calcium.NodeProofs Calcium.CapProofs Calcium.HistoryProofs
  Calcium.Interleave Calcium.InterleaveOps Calcium.InterleaveGen Calcium.InterleaveMsg Calcium.LambdaHistory Calcium.Examples.

Theorem C10_history : forall (h : list (op * option nat)) w, Inv w -> valid_hist_all w h -> Inv (run_hist w h).
Proof. exact history_all_keeps_Inv. Qed.
Print Assumptions C10_history.

Theorem C10_history_usage : forall (h : list (op * option nat)) w, Inv w -> valid_hist_all w h -> use_ok (run_hist w h).
Proof. exact history_all_keeps_usage. Qed.
Print Assumptions C10_history_usage.

(* valid_hist_all = valid_hist (below: C10_step) extended with run-and-wait steps *)
Theorem C10_valid_hist_all_of : forall h w, valid_hist w h -> valid_hist_all w h.
Proof. exact valid_hist_all_of. Qed.
Print Assumptions C10_valid_hist_all_of.

(* whole run-and-wait: create, the closure of every created workload, close *)
Theorem C10_lambda_op : forall opi pod r plan stdin lines w k, create_hyp w opi r plan -> Inv w ->
  Inv (after (lambda opi pod r plan stdin lines) w k).
Proof. exact lambda_keeps_Inv. Qed.
Print Assumptions C10_lambda_op.

(* one step: any operation, any fault position *)
Theorem C10_step : forall w o k, Inv w -> valid_step_all w (o, k) -> Inv (step_world w (o, k)).
Proof. exact step_keeps_Inv_all. Qed.
Print Assumptions C10_step.

(* whole RemoveWorkload / DissociateWorkload (all nodes, all ids, all messages), every world, every fault position *)
Theorem C10_remove_op : forall emit idl force w k, Inv w ->
  (force = true \/ strict_remove w = false) ->
  Inv (after (remove emit idl force) w k).
Proof. exact remove_keeps_Inv. Qed.
Print Assumptions C10_remove_op.

Theorem C10_dissociate_op : forall idl w k, Inv w -> Inv (after (dissociate idl) w k).
Proof. exact dissociate_keeps_Inv. Qed.
Print Assumptions C10_dissociate_op.

(* whole ReplaceWorkload: unless it reports the known outcome, the invariant is kept *)
Theorem C10_replace_op : forall opi idl w k l, Inv w -> fresh_from opi 0 w ->
  out (after (replace opi idl) w k) = l ++ out w ->
  (forall m, In m l -> ~ is_window m) ->
  Inv (after (replace opi idl) w k).
Proof. exact replace_keeps_Inv. Qed.
Print Assumptions C10_replace_op.

(* the side condition of the replace step is necessary, in EVERY world: the reported outcome "failed after the new
   workload was deployed" breaks usage = sum as soon as the old workload holds any resource *)
Theorem C10_replace_window_breaks_usage : forall opi index old w w' r,
  Inv w -> find_wl w (w_id old) = Some old -> w_res old <> rzero ->
  replace_post opi index old w w' r -> snd r <> None -> fst (fst r) <> None ->
  ~ use_ok w'.
Proof. exact replace_window_breaks_usage. Qed.
Print Assumptions C10_replace_window_breaks_usage.

(* AddNode in EVERY world (also when the store refuses the node and the plugin's clean-up is the failing call) *)
Theorem C10_add_node_op : forall n p cap w k, Inv w -> Inv (after (add_node n p cap) w k).
Proof. exact add_node_keeps_Inv. Qed.
Print Assumptions C10_add_node_op.

(* the invariant and the step hypotheses are satisfiable: a concrete world and a concrete history with faults *)
Theorem C10_history_instance : Inv busy3v /\ valid_hist busy3v history_example /\ Inv (run_hist busy3v history_example)
  /\ valid_hist busy3v history_example2.
Proof. exact (conj busy3_Inv (conj history_example_valid (conj history_example_Inv history_example2_valid))). Qed.
Print Assumptions C10_history_instance.

Theorem C10_interleaving : forall (P1 P2 : call -> Prop) (I : world -> Prop),
  (forall c w, P1 c -> I w -> I (fst (exec w c))) ->
  (forall c w, P2 c -> I w -> I (fst (exec w c))) ->
  (forall c1 c2 w, P1 c1 -> P2 c2 -> I w ->
    fst (exec (fst (exec w c1)) c2) = fst (exec (fst (exec w c2)) c1) /\
    snd (exec (fst (exec w c1)) c2) = snd (exec w c2) /\
    snd (exec (fst (exec w c2)) c1) = snd (exec w c1)) ->
  forall A B sched (p1 : cprog A) (p2 : cprog B) k1 k2 w,
    I w -> safe P1 I p1 -> safe P2 I p2 ->
    run2 sched p1 k1 p2 k2 w = run2 nil p1 k1 p2 k2 w.
Proof. exact interleave_is_sequential. Qed.
Print Assumptions C10_interleaving.

Theorem C10_orders_agree : forall (P1 P2 : call -> Prop) (I : world -> Prop),
  (forall c w, P1 c -> I w -> I (fst (exec w c))) ->
  (forall c w, P2 c -> I w -> I (fst (exec w c))) ->
  (forall c1 c2 w, P1 c1 -> P2 c2 -> I w ->
    fst (exec (fst (exec w c1)) c2) = fst (exec (fst (exec w c2)) c1) /\
    snd (exec (fst (exec w c1)) c2) = snd (exec w c2) /\
    snd (exec (fst (exec w c2)) c1) = snd (exec w c1)) ->
  forall A B (p2 : cprog B), safe P2 I p2 -> forall (p1 : cprog A) k1 k2 w, I w -> safe P1 I p1 ->
  run2 nil p1 k1 p2 k2 w = (let '(w', b, a) := run2 nil p2 k2 p1 k1 w in (w', a, b)).
Proof. exact sequential_orders_agree. Qed.
Print Assumptions C10_orders_agree.

Theorem C10_inplace_ops_interleave : forall F1 F2 o1 o2 w, disjoint F1 F2 -> ip_in F1 o1 -> ip_in F2 o2 ->
  fp_inv F1 w -> fp_inv F2 w ->
  (forall sched k1 k2, run2 sched (ip_script o1) k1 (ip_script o2) k2 w = run2 nil (ip_script o1) k1 (ip_script o2) k2 w) /\
  (forall k1 k2, run2 nil (ip_script o1) k1 (ip_script o2) k2 w =
                 (let '(w', b, a) := run2 nil (ip_script o2) k2 (ip_script o1) k1 w in (w', a, b))).
Proof. exact inplace_ops_interleave. Qed.
Print Assumptions C10_inplace_ops_interleave.

(* the calls of two disjoint footprints commute: same world, same replies, whichever goes first *)
Theorem C10_calls_commute : forall F1 F2 c1 c2 w, disjoint F1 F2 -> in_fp F1 c1 -> in_fp F2 c2 ->
  fst (exec (fst (exec w c1)) c2) = fst (exec (fst (exec w c2)) c1) /\
  snd (exec (fst (exec w c1)) c2) = snd (exec w c2) /\
  snd (exec (fst (exec w c2)) c1) = snd (exec w c1).
Proof. exact fp_calls_commute. Qed.
Print Assumptions C10_calls_commute.

(* realloc, set-node and dissociate on disjoint footprints: every interleaving, any two fault positions, gives the
   results and the world of the sequential history, equal in everything but the shared message channel *)
Theorem C10_xops_interleave : forall F1 F2 o1 o2 w, disjoint F1 F2 -> x_in F1 o1 -> x_in F2 o2 ->
  fp_inv F1 w -> fp_inv F2 w ->
  forall sched k1 k2,
    let '(w1, a, b) := run2 sched (x_script o1) k1 (x_script o2) k2 w in
    let '(w2, a', b') := run2 nil (x_script o1) k1 (x_script o2) k2 w in
    hide w1 = hide w2 /\ a = a' /\ b = b'.
Proof. exact xops_interleave. Qed.
Print Assumptions C10_xops_interleave.

Theorem C10_realloc_pair : forall id1 id2 n1 n2 req1 req2 w, id1 <> id2 -> n1 <> n2 ->
  (forall x, In x (wls w) -> w_id x = id1 -> w_node x = n1) ->
  (forall x, In x (wls w) -> w_id x = id2 -> w_node x = n2) ->
  forall sched k1 k2,
    run2 sched (realloc id1 req1) k1 (realloc id2 req2) k2 w = run2 nil (realloc id1 req1) k1 (realloc id2 req2) k2 w.
Proof. exact realloc_pair_interleave. Qed.
Print Assumptions C10_realloc_pair.

Theorem C10_realloc : forall id req w k, wf w -> use_ok w ->
  use_ok (fst (fst (crunk (realloc id req) w k))).
Proof. exact realloc_keeps_usage. Qed.
Print Assumptions C10_realloc.

Theorem C10_remove : forall n id force w k, wf w -> use_ok w ->
  (force = true \/ strict_remove w = false) ->
  (forall x, find_wl w id = Some x -> w_node x = n) ->
  use_ok (fst (fst (crunk (with_workload_locked id (fun x => remove_txn n x force)) w k))).
Proof. exact remove_keeps_usage. Qed.
Print Assumptions C10_remove.

Theorem C10_dissociate : forall n id w k, wf w -> use_ok w ->
  (forall x, find_wl w id = Some x -> w_node x = n) ->
  use_ok (fst (fst (crunk (with_workload_locked id (fun x => dissociate_txn n x)) w k))).
Proof. exact dissociate_keeps_usage. Qed.
Print Assumptions C10_dissociate.

Theorem C10_add_node : forall n p cap w k,
  existsb (Nat.eqb p) (pods w) = true -> find_node w n = None ->
  (forall x, In x (wls w) -> w_node x <> n) ->
  use_ok w -> use_ok (fst (fst (crunk (add_node n p cap) w k))).
Proof. exact add_node_keeps_usage. Qed.
Print Assumptions C10_add_node.

(* create, every world in which the op index is fresh, every feasible plan or refusal, every fault position *)
Theorem C10_create : forall opi pod r plan w k, create_hyp w opi r plan -> use_ok w ->
  use_ok (fst (fst (crunk (create opi pod r plan) w k))).
Proof. exact create_keeps_usage. Qed.
Print Assumptions C10_create.

(* "no allocation ever raises a node's memory usage above its capacity": create, every world with distinct
   plugin records, every feasible plan, every fault position *)
Theorem C10_create_capacity : forall opi pod r plan w k, create_hyp w opi r plan -> (0 <= snd r)%Z ->
  NoDup (pnames (plugs w)) -> cap_ok w ->
  cap_ok (fst (fst (crunk (create opi pod r plan) w k))).
Proof. exact create_keeps_capacity. Qed.
Print Assumptions C10_create_capacity.

(* create: usage = sum and usage <= capacity (and C12) after every fault position, on the scenario family *)
Theorem C10_create_scenarios : forall w o, (w = busy3 \/ w = base3) -> In o create_ops ->
  forall k, c12_check (prep w o) o (fst (final (script_of o) (prep w o) k)) = true.
Proof. exact create_scenarios_every_k. Qed.
Print Assumptions C10_create_scenarios.

(* the full statement is false for replace *)
Theorem C10_replace_refuted :
  r_err replace_bad = 0%Z /\
  In (MReplace (mkWid 7 0 0) (Some (mkWid 9 0 0)) false (Some EInjected)) (r_msgs replace_bad) /\
  use_okb busy3 = true /\ use_okb (r_world replace_bad) = false /\
  same_proj (r_world replace_bad) busy3 = false.
Proof. exact replace_breaks_usage. Qed.
Print Assumptions C10_replace_refuted.

(* every single fail-before fault addressed as (method, target, ordinal) is a fault at some index k of the
   faultable calls (store, resource manager, engine, WAL, locks; a channel send is not a fault position) *)
Theorem C10_fault_addresses : forall A (p : cprog A) (s : ist call world key),
  (forall f, i_fault s = Some f -> f_what f = FailBefore) ->
  exists k, (i_hit s = true -> k = None) /\
    exists s' a k', crun p s = (s', Some a) /\ crunk p (i_world s) k = (i_world s', k', a).
Proof. exact (run_is_runk call reply world key key_eqb key_of exec fail_reply is_faultable unfaultable_has_no_key). Qed.
Print Assumptions C10_fault_addresses.

(* the hypotheses are satisfiable *)
Theorem C10_hypotheses_hold : wf busy3v /\ use_ok busy3v /\
  create_hyp base3v 9 (50, 100)%Z (Some ((0%nat, 2%nat) :: (1%nat, 1%nat) :: nil)).
Proof. exact (conj busy3_wf (conj busy3_use_ok create_hyp_example)). Qed.
Print Assumptions C10_hypotheses_hold.
