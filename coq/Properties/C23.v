(* C23 — the etcd and Redis metadata stores behave identically; a failed create
   leaves the store unchanged.  This file contains only the property theorems.

   Full statement (kept visible): for every operation history h over safe names,
     run estep e_init h  ~  run spec_step s_init h  ~  run rstep r_init h
   (same success/failure and payload for every operation, same abstract state),
   and on both stores a create that fails leaves every read-only call unchanged.
   The etcd half is proved for all histories.  The Redis half is false of the
   faithful model (C23_redis_refuted, C23_redis_failed_create_changes); it is
   proved for all histories whose steps are redis-safe (Spec.redis_safe, a
   decidable condition on the abstract state): C23_redis_refines_spec_partial,
   C23_equiv, C23_redis_failed_create_noop_partial. *)
From Verif Require Import Store.EtcdProofs Store.C23Proofs Store.KeyStrings Store.RedisGlob Store.ScanOracle
  Store.Concurrent Store.ConcurrentProofs Store.BatchOp Store.BatchOpProofs.

Theorem C23_etcd_refines_spec : etcd_refines_spec_stmt.
Proof. exact etcd_refines_spec_holds. Qed.
Print Assumptions C23_etcd_refines_spec.

Theorem C23_etcd_step_refines : etcd_step_refines_stmt.
Proof. exact etcd_step_refines_holds. Qed.
Print Assumptions C23_etcd_step_refines.

Theorem C23_failed_create_noop : etcd_failed_create_noop_stmt.
Proof. exact etcd_failed_create_noop_holds. Qed.
Print Assumptions C23_failed_create_noop.

Theorem C23_spec_failed_create_noop : spec_failed_create_noop_stmt.
Proof. exact spec_failed_create_noop. Qed.
Print Assumptions C23_spec_failed_create_noop.

Theorem C23_redis_refuted : redis_refuted_stmt.
Proof. exact redis_refuted_holds. Qed.
Print Assumptions C23_redis_refuted.

Theorem C23_redis_failed_create_changes : redis_failed_create_changes_stmt.
Proof. exact redis_failed_create_changes_holds. Qed.
Print Assumptions C23_redis_failed_create_changes.

Theorem C23_redis_refines_spec_partial : redis_refines_spec_partial_stmt.
Proof. exact redis_refines_spec_partial_holds. Qed.
Print Assumptions C23_redis_refines_spec_partial.

Theorem C23_equiv : equiv_stmt.
Proof. exact equiv_holds. Qed.
Print Assumptions C23_equiv.

Theorem C23_redis_failed_create_noop_partial : redis_failed_create_noop_partial_stmt.
Proof. exact redis_failed_create_noop_partial_holds. Qed.
Print Assumptions C23_redis_failed_create_noop_partial.

(* the string level of the shared key layout: for names without '/' and ':' the
   key formats are injective and every prefix read / "prefix*" pattern selects
   exactly the structural matches the models use *)
Theorem C23_key_strings_injective : render_injective_stmt.
Proof. exact render_injective. Qed.
Print Assumptions C23_key_strings_injective.

Theorem C23_prefix_scans_exact : scans_exact_stmt.
Proof. exact scans_exact_holds. Qed.
Print Assumptions C23_prefix_scans_exact.

(* Redis: the key patterns as globs (matcher of coq/Names, C24) select exactly the
   structural matches; escapeGlob makes metacharacters in names harmless *)
Theorem C23_redis_patterns_exact : redis_patterns_exact_stmt.
Proof. exact redis_patterns_exact_holds. Qed.
Print Assumptions C23_redis_patterns_exact.

(* Redis: for every order in which SCAN may return the keys, a limited pattern
   read fetches exactly min(limit, matches) matching records (the count of the
   etcd range read), and the same set when the limit does not truncate *)
Theorem C23_redis_scan_order_oracle : scan_oracle_stmt.
Proof. exact scan_oracle_holds. Qed.
Print Assumptions C23_redis_scan_order_oracle.

(* Two concurrent writers.  "The same observable metadata afterwards" is
   read as linearizability: whatever the interleaving of the atomic steps
   (transactions / MULTI blocks / single commands) of two Store calls, both
   calls return what they return in one of the two sequential orders and the
   store ends in the state of that order.

   etcd: every writing method except AddWorkload-with-processing is a single
   transaction (C23_conc_etcd_atomic_pair); two AddWorkload calls on one
   processing counter -- Get, then the compare-value transaction in a retry
   loop -- are linearizable under every schedule and return after at most three
   own steps each (C23_conc_etcd_add_add_linearizable / _terminates).
   AddWorkload-with-processing against DeleteProcessing is linearizable under
   every schedule since the repair 85b2a9b (C23_conc_etcd_add_del_linearizable).
   redis: every writing method except UpdateWorkload is one MULTI block or one
   command (C23_conc_redis_atomic_pair); UpdateWorkload (EXISTS, then MULTI{SET})
   is not linearizable: a RemoveWorkload in the window is undone
   (C23_conc_redis_update_window_refuted). *)
Theorem C23_conc_etcd_atomic_pair : atomic_pair_linearizable_stmt.
Proof. exact atomic_pair_linearizable_holds. Qed.
Print Assumptions C23_conc_etcd_atomic_pair.

Theorem C23_conc_etcd_add_add_linearizable : add_add_linearizable_stmt.
Proof. exact add_add_linearizable_holds. Qed.
Print Assumptions C23_conc_etcd_add_add_linearizable.

Theorem C23_conc_etcd_add_add_terminates : add_add_terminates_stmt.
Proof. exact add_add_terminates_holds. Qed.
Print Assumptions C23_conc_etcd_add_add_terminates.

Theorem C23_conc_etcd_add_del_linearizable : add_del_linearizable_stmt.
Proof. exact add_del_linearizable_holds. Qed.
Print Assumptions C23_conc_etcd_add_del_linearizable.

Theorem C23_conc_redis_atomic_pair : ratomic_pair_linearizable_stmt.
Proof. exact ratomic_pair_linearizable_holds. Qed.
Print Assumptions C23_conc_redis_atomic_pair.

Theorem C23_conc_etcd_decr_delete_window_closed : etcd_decr_delete_window_closed_stmt.
Proof. exact etcd_decr_delete_window_closed_holds. Qed.
Print Assumptions C23_conc_etcd_decr_delete_window_closed.

Theorem C23_conc_redis_update_window_refuted : redis_update_window_stmt.
Proof. exact redis_update_window_holds. Qed.
Print Assumptions C23_conc_redis_update_window_refuted.

(* doBatchOp and its split into commits of at most 125 operations: a batch
   of at most 125 keys is exactly the single transaction of the etcd model, for
   every commit order (all conditioned batches of the Store methods have at most
   5 keys); a condition-free batch of any size (UpdateNodes) leaves the same
   key-value content as one transaction, for every commit order *)
Theorem C23_batch_small_is_one_txn : small_batch_stmt.
Proof. exact small_batch_holds. Qed.
Print Assumptions C23_batch_small_is_one_txn.

Theorem C23_batch_conditioned_small : conditioned_batches_small_stmt.
Proof. exact conditioned_batches_small_holds. Qed.
Print Assumptions C23_batch_conditioned_small.

Theorem C23_batch_big_put_any_order : big_put_stmt.
Proof. exact big_put_holds. Qed.
Print Assumptions C23_batch_big_put_any_order.
