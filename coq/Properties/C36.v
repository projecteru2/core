(* C36 — client watch streams retry transparently.

   [run_stream m max script pl r]: the caller opens streaming method m with
   request r through NewStreamRetry(Max = max) and receives until an error;
   the i-th stream that reaches the server behaves as script[i] (messages, then
   error | clean end | hang; streams beyond the script fail at once); pl says
   whether / when the caller cancels.  [recv_msg pl max s] is one call of
   retryStream.RecvMsg ("one break").  [Inv s]: the context is only cancelled on
   a drained stream (true of every state of a run); [pending s]: the messages
   still owed to the caller, in server order. *)
From Coq Require Import List Arith.
From Verif Require Import Rpc.Retry Rpc.RetryProofs Rpc.RetryOk Rpc.Concurrent Rpc.ConcurrentProofs.
Import ListNotations.

(* watch streams, all scripts, budgets and cancellation plans: the caller
   receives exactly the messages of the streams that reached the server, stream
   after stream in order (delivered = concatenation); every stream carried the
   original request; after a cancellation no stream reaches the server; the
   model's fuel always suffices *)
Theorem C36_retry : forall m max script pl r t fin,
  need_retry m = true -> run_stream m max script pl r = (t, fin) ->
  deliveries t = all_from 0 (firstn (opens t) script) /\
  Forall (eq r) (requests t) /\
  1 <= opens t /\
  quiet t = true /\
  fin <> FOutOfFuel.
Proof. exact retry_run_statement. Qed.
Print Assumptions C36_retry.

(* each break opens at most Max+1 new streams, each re-sending the recorded request *)
Theorem C36_budget : forall pl max s ev r s', Inv s ->
  recv_msg pl max s = (ev, r, s') ->
  opens ev <= S max /\ Forall (eq (sent s)) (requests ev).
Proof. exact recv_msg_budget. Qed.
Print Assumptions C36_budget.

(* a successful RecvMsg returns the next message owed, whichever stream it comes from *)
Theorem C36_transparent : forall pl max s ev i j s', Inv s ->
  recv_msg pl max s = (ev, RMsg i j, s') -> pending s = (i, j) :: pending s'.
Proof. exact recv_msg_delivers. Qed.
Print Assumptions C36_transparent.

(* exhausted budget surfaces the error: a RecvMsg that fails with a live context
   (and is not blocked for ever) has made all Max+1 attempts, none delivered a
   message, and it returns the error of the last attempt's stream *)
Theorem C36_exhausted : forall pl max s ev e s', Inv s ->
  recv_msg pl max s = (ev, RErr e, s') -> cancelled s' = false -> e <> FTimeout ->
  opens ev = S max /\ deliveries ev = [] /\ e = err_of (c_end (cur s')) /\ (e = FBreak \/ e = FEOF).
Proof. exact recv_msg_exhausted. Qed.
Print Assumptions C36_exhausted.

(* ... whole run: a watch stream that ends with anything but context.Canceled (and
   is not blocked) ends with the error of the last stream that reached the
   server, after a last RecvMsg that made all Max+1 attempts in vain *)
Theorem C36_exhausted_run : forall m max script pl r t fin,
  need_retry m = true -> run_stream m max script pl r = (t, fin) ->
  fin <> FCtxCanceled -> fin <> FTimeout ->
  fin = err_of (s_end (nth_script script (opens t - 1))) /\ (fin = FBreak \/ fin = FEOF) /\
  exists tp tl, t = tp ++ tl /\ opens tl = S max /\ deliveries tl = [].
Proof. exact retry_run_exhausted. Qed.
Print Assumptions C36_exhausted_run.

(* which streams a whole run opens (no cancellation, no hanging stream; n = streams that
   reached the server): the last Max+1 of them are empty failing re-opens, the error of the
   last one surfaces, and NO earlier window of Max+1 consecutive empty failing re-opens
   exists -- the client neither gave up earlier nor went on longer than its budget *)
Theorem C36_no_earlier_window : forall m max script r t fin,
  need_retry m = true -> NoHang script -> run_stream m max script plain r = (t, fin) ->
  let n := opens t in
  S (S max) <= n /\
  all_empty script (n - S max) (S max) = true /\
  no_early_window script max 1 (n - S max - 1) = true /\
  fin = err_of (s_end (nth_script script (n - 1))).
Proof. exact plain_run_shape. Qed.
Print Assumptions C36_no_earlier_window.

(* the boolean check the harness evaluates on the implementation's answers accepts the
   model's own output, for every such script and budget *)
Theorem C36_ok_on_model : forall m max script t fin,
  need_retry m = true -> NoHang script -> run m max script plain the_req = (t, fin) ->
  ok (mkCase m max script plain (deliveries t) fin (opens t) (map (Nat.eqb the_req) (requests t))) = true.
Proof. exact ok_on_model_plain. Qed.
Print Assumptions C36_ok_on_model.

(* a cancelled context is never retried at the server: RecvMsg after the
   cancellation opens nothing that reaches the server and returns context.Canceled *)
Theorem C36_cancelled_call : forall pl max s ev r s', Inv s -> cancelled s = true ->
  recv_msg pl max s = (ev, r, s') -> opens ev = 0 /\ r = RErr FCtxCanceled.
Proof. exact recv_msg_cancelled. Qed.
Print Assumptions C36_cancelled_call.

Theorem C36_cancelled_run : forall m max script pl r t fin,
  need_retry m = true -> run_stream m max script pl r = (t, fin) ->
  has_cancel t = true -> fin = FCtxCanceled.
Proof. exact retry_run_cancel. Qed.
Print Assumptions C36_cancelled_run.

(* streaming calls outside the allow-list are passed through untouched: exactly
   one stream reaches the server whatever the budget *)
Theorem C36_passthrough : forall m max script pl r t fin,
  need_retry m = false -> run_stream m max script pl r = (t, fin) ->
  opens t = 1 /\ deliveries t = all_from 0 (firstn 1 script) /\ fin <> FOutOfFuel.
Proof. exact passthrough_statement. Qed.
Print Assumptions C36_passthrough.

(* unary calls: invoked at most Max+1 times, and exactly once with the budget
   client.dial configures (Max = 0) *)
Theorem C36_unary : forall left script idx r t fin,
  unary_loop left script idx r = (t, fin) ->
  1 <= opens t /\ opens t <= S left /\ Forall (eq r) (requests t) /\
  (fin = FNone \/ (fin = FBreak /\ opens t = S left)).
Proof. exact unary_facts. Qed.
Print Assumptions C36_unary.

Theorem C36_unary_once : forall script pl r t fin, run MUnary 0 script pl r = (t, fin) -> opens t = 1.
Proof. exact unary_once. Qed.
Print Assumptions C36_unary_once.

(* Several watch streams at the same time behind ONE interceptor.
   [cstep]: one step of one stream's client (a RecvMsg of the caller, or ONE attempt of the
   reopen loop with its own policy); [grun max cfgs schedule]: the whole client, streams
   stepping in the order of an arbitrary schedule; Max is the only thing they share. *)

(* the step-wise client of one stream computes exactly the single-stream run *)
Theorem C36_single_stream_steps : forall m max script pl r t fin,
  need_retry m = true -> run_stream m max script pl r = (t, fin) ->
  exists k s', forall k', k <= k' ->
    iter k' (cstep pl max) (cinit script r) = mkCst s' (PDone fin) t.
Proof. exact single_stream_steps. Qed.
Print Assumptions C36_single_stream_steps.

(* frame: whatever the schedule, a stream's state is the result of its own steps only *)
Theorem C36_frame : forall max cfgs sched g j c cfg,
  nth_error g j = Some c -> nth_error cfgs j = Some cfg ->
  nth_error (grun max cfgs sched g) j =
    Some (iter (count_occ Nat.eq_dec sched j) (cstep (g_plan cfg) max) c).
Proof. exact frame. Qed.
Print Assumptions C36_frame.

(* independence: any number of concurrent watch streams, any schedule that lets stream j
   run long enough: stream j ends exactly as it would alone -- the budget is per stream
   and per break, never shared *)
Theorem C36_independence : forall m max cfgs j cfg t fin,
  need_retry m = true ->
  nth_error cfgs j = Some cfg ->
  run_stream m max (g_script cfg) (g_plan cfg) (g_req cfg) = (t, fin) ->
  exists k s', forall sched, k <= count_occ Nat.eq_dec sched j ->
    nth_error (grun max cfgs sched (ginit cfgs)) j = Some (mkCst s' (PDone fin) t).
Proof. exact independence. Qed.
Print Assumptions C36_independence.
