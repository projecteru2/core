(* C08 — plugin resource bookkeeping is exact and reversible.
   Model: Cpumem/Node.v (after the `fix:` of WorkloadResource.DeepCopy).
   This file contains only the property theorems.

   Full statement: after any history of alloc / rollback-alloc / realloc /
   rollback-realloc / release committed through the resource manager, the
   node's usage equals the sum of the resources of the live workloads in total
   CPU, per-core pieces, memory and per-NUMA-node memory; a rollback restores
   the usage exactly.

   The allocation and re-allocation steps take what CalculateDeploy /
   CalculateRealloc returned as an arbitrary oracle value (only required to be
   a Go map, i.e. unique keys), so the theorems hold whatever the scheduler
   does. *)
From Coq Require Import String List ZArith Reals.
From Flocq Require Import IEEE754.Binary.
From Verif Require Import Base.GoFloat Cpumem.Types Cpumem.Node Cpumem.BookProofs Cpumem.BookCpuProofs Cpumem.BookGridProofs.
Import ListNotations.

(* per-core pieces, memory, per-NUMA memory: every history, every oracle *)
Theorem C08_exact_int : forall (info : node_info) (h : list op),
  inv_valid (mkState info []) -> usage_zero (ni_usage info) -> Forall op_wf h ->
  usage_exact_int (ni_usage (st_info (run (mkState info []) h))) (st_live (run (mkState info []) h)).
Proof. exact exact_int_all_histories. Qed.
Print Assumptions C08_exact_int.

(* the invariant is inductive: it is preserved from ANY state in which it holds *)
Theorem C08_step_int : forall (s : state) (o : op),
  op_wf o -> inv_valid s -> inv_int s -> inv_int (sr_state (step s o)).
Proof. exact step_inv_int. Qed.
Print Assumptions C08_step_int.

(* the stored record stays valid (passes Validate, usage maps are Go maps) *)
Theorem C08_step_valid : forall (o : op) (s : state), inv_valid s -> inv_valid (sr_state (step s o)).
Proof. exact step_valid. Qed.
Print Assumptions C08_step_valid.

(* a manager-level operation that fails because ANOTHER plugin of the manager
   refuses the commit leaves this plugin's usage exactly as before: cobalt writes
   the saved "before" usage back, the write is always accepted from a valid
   state, and the maps, memory (and, by C08_step_cpu, the cpu total) are those
   of the state before; the live set is untouched.  (An operation refused by
   this plugin itself stores nothing: every theorem above covers that case.) *)
Theorem C08_failed_commit : forall (s : state) (inner : op), inv_valid s ->
  let r := step s (OpFailedCommit inner) in
  sr_err r = true /\ st_live (sr_state r) = st_live s /\
  (st_info (sr_state r) = st_info s \/
   st_info (sr_state r) = mkNI (ni_cap (st_info s)) (written_back (ni_usage (st_info s)))).
Proof. exact failed_commit_state. Qed.
Print Assumptions C08_failed_commit.

Theorem C08_written_back : forall u : node_resource,
  NoDup (keys (nr_cpumap u)) -> NoDup (keys (nr_numamem u)) ->
  nr_cpumap (written_back u) = nr_cpumap u /\ nr_numamem (written_back u) = nr_numamem u /\
  nr_mem (written_back u) = nr_mem u.
Proof. exact written_back_maps. Qed.
Print Assumptions C08_written_back.

(* RollbackAlloc / RollbackRealloc (Decr of what was just Incr-ed) and the
   re-adding rollback of a release restore the usage *)
Theorem C08_rollback_int : forall (info : node_info) (ws : list wres) (info1 info2 : node_info),
  set_node_resource_usage info None ws true true = inr info1 ->
  set_node_resource_usage info1 None ws true false = inr info2 ->
  usage_equiv_int (ni_usage info2) (ni_usage info) /\ ni_cap info2 = ni_cap info.
Proof. exact (there_and_back_int true). Qed.
Print Assumptions C08_rollback_int.

Theorem C08_rollback_release_int : forall (info : node_info) (ws : list wres) (info1 info2 : node_info),
  set_node_resource_usage info None ws true false = inr info1 ->
  set_node_resource_usage info1 None ws true true = inr info2 ->
  usage_equiv_int (ni_usage info2) (ni_usage info) /\ ni_cap info2 = ni_cap info.
Proof. exact (there_and_back_int false). Qed.
Print Assumptions C08_rollback_release_int.

(* total CPU.  CPU amounts are binary64 and every update goes through
   utils.Round, so the sum is read on the decimal grid of 1e-9 units:
   [cpu_is u k] = u is finite and has the real value of the double nearest to
   k * 1e-9; [kf w] = the workload's cpu request in 1e-9 units; [on_grid w] = the
   request is such a double with 0 <= k <= 2^49 (any decimal with at most nine
   places up to about 5.6e5 CPUs); [bounded_run] = the running total stays
   <= 2^49 units.  Then, for every history and every oracle value on the grid,
   usage.CPU is exactly (as a real value; the sign of a zero is not tracked) the
   double nearest to the exact decimal sum of the live workloads' requests. *)
Theorem C08_exact_cpu : forall (info : node_info) (h : list op),
  inv_valid (mkState info []) ->
  f_finite (nr_cpu (ni_usage info)) = true -> B2R 53 1024 (nr_cpu (ni_usage info)) = 0%R ->
  Forall op_grid h -> bounded_run (mkState info []) h ->
  inv_cpu (run (mkState info []) h).
Proof. exact cpu_all_histories. Qed.
Print Assumptions C08_exact_cpu.

Theorem C08_step_cpu : forall (s : state) (o : op), op_grid o -> inv_valid s -> inv_cpu s ->
  (ktotal (st_live (sr_state (step s o))) <= BND)%Z -> inv_cpu (sr_state (step s o)).
Proof. exact cpu_step. Qed.
Print Assumptions C08_step_cpu.

Theorem C08_rollback_cpu : forall (info : node_info) (ws : list wres) (info1 info2 : node_info) (K : Z),
  cpu_is (nr_cpu (ni_usage info)) K -> (0 <= K)%Z -> (K + ktotal ws <= BND)%Z -> Forall on_grid ws ->
  set_node_resource_usage info None ws true true = inr info1 ->
  set_node_resource_usage info1 None ws true false = inr info2 ->
  cpu_is (nr_cpu (ni_usage info2)) K.
Proof. exact cpu_rollback. Qed.
Print Assumptions C08_rollback_cpu.

(* utils.Round keeps sums on the grid: the float fact behind the three theorems above *)
Theorem C08_round_keeps_grid : grid_closed.
Proof. exact grid_closed_holds. Qed.
Print Assumptions C08_round_keeps_grid.

(* [on_grid] is satisfied by every workload whose cpu request is (as a real
   value) the double nearest to k * 1e-9 for some 0 <= k <= 2^49: the model's
   reading [nano] of the amount in 1e-9 units (math.Round(x * 1e9), the integer
   utils.Round computes on the way) returns k *)
Theorem C08_on_grid_of_decimal : forall (w : wres) (k : Z),
  cpu_is (wr_cpu_req w) k -> (0 <= k <= BND)%Z -> on_grid w.
Proof. exact on_grid_of_decimal. Qed.
Print Assumptions C08_on_grid_of_decimal.

(* a rollback is never refused: from a valid record whose usage has an entry
   for every core and NUMA node the workloads name (AddNode's Validate creates
   one for every capacity core and NUMA node), once the Incr of [ws] has been
   accepted the Decr of [ws] (RollbackAlloc, RollbackRealloc with ws = [delta])
   is accepted by Validate and gives back the very same maps and memory; the
   same for re-adding what a release took away *)
From Verif Require Import Cpumem.BookRollbackProofs.

Theorem C08_rollback_never_refused : forall (info info1 : node_info) (ws : list wres),
  inv_valid (mkState info []) -> names_known (ni_usage info) ws ->
  set_node_resource_usage info None ws true true = inr info1 ->
  exists info2, set_node_resource_usage info1 None ws true false = inr info2 /\
                nr_cpumap (ni_usage info2) = nr_cpumap (ni_usage info) /\
                nr_numamem (ni_usage info2) = nr_numamem (ni_usage info) /\
                nr_mem (ni_usage info2) = nr_mem (ni_usage info).
Proof. exact (back_never_refused true). Qed.
Print Assumptions C08_rollback_never_refused.

Theorem C08_readd_never_refused : forall (info info1 : node_info) (ws : list wres),
  inv_valid (mkState info []) -> names_known (ni_usage info) ws ->
  set_node_resource_usage info None ws true false = inr info1 ->
  exists info2, set_node_resource_usage info1 None ws true true = inr info2 /\
                nr_cpumap (ni_usage info2) = nr_cpumap (ni_usage info) /\
                nr_numamem (ni_usage info2) = nr_numamem (ni_usage info) /\
                nr_mem (ni_usage info2) = nr_mem (ni_usage info).
Proof. exact (back_never_refused false). Qed.
Print Assumptions C08_readd_never_refused.
