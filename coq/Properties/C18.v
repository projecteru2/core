(* C18 — distributed locks are mutually exclusive (etcd and redis backends).
   This file contains only the property theorems.  The transition systems
   (EtcdLock.step over EtcdLock.sys, RedisLock.rstep over RedisLock.rsys) have an
   unbounded number of contenders (label LNew / RNew creates one) and every
   theorem about "reachable" states holds under every schedule, including lease
   revocation / expiry and clock advance. *)
From Coq Require Import List ZArith.
From Verif Require Import Base.KV Locks.Interleave Locks.LockLog Locks.EtcdLock Locks.EtcdLockProofs
  Locks.EtcdAcceptProofs Locks.EtcdFifoProofs Locks.RedisLock Locks.RedisLockProofs Locks.RedisAcceptProofs.

Theorem C18_etcd_mutex : forall s i j a b,
  reachable step sys_init s ->
  nth_error (s_cs s) i = Some a -> nth_error (s_cs s) j = Some b ->
  holds s a = true -> holds s b = true -> i = j.
Proof. exact etcd_mutex. Qed.
Print Assumptions C18_etcd_mutex.

Theorem C18_etcd_at_most_one_holder : forall s, reachable step sys_init s -> (holders s <= 1)%nat.
Proof. exact etcd_holders_le_one. Qed.
Print Assumptions C18_etcd_at_most_one_holder.

Theorem C18_etcd_mutex_while_leases_live : forall s i j a b,
  reachable step sys_init s ->
  (forall c, In c (s_cs s) -> c_pc c = Held -> e_lease_live (s_kv s) (c_lease c) = true) ->
  nth_error (s_cs s) i = Some a -> nth_error (s_cs s) j = Some b ->
  c_pc a = Held -> c_pc b = Held -> i = j.
Proof. exact etcd_mutex_no_expiry. Qed.
Print Assumptions C18_etcd_mutex_while_leases_live.

Theorem C18_etcd_trylock : forall s s' i j c h,
  reachable step sys_init s ->
  nth_error (s_cs s) j = Some h -> holds s h = true -> i <> j ->
  nth_error (s_cs s) i = Some c -> c_pc c = Called OpTry ->
  step s (LAcq i) = Some s' ->
  exists c', nth_error (s_cs s') i = Some c' /\
             (c_pc c' = TryDel \/ c_pc c' = Failed ErrLeaseNotFound).
Proof. exact etcd_trylock_fails. Qed.
Print Assumptions C18_etcd_trylock.

Theorem C18_etcd_trylock_returns_locked : forall s i c,
  nth_error (s_cs s) i = Some c -> c_pc c = TryDel ->
  exists s' c', step s (LDelOwn i) = Some s' /\ nth_error (s_cs s') i = Some c' /\ c_pc c' = Failed ErrLocked.
Proof. exact etcd_trydel_fails. Qed.
Print Assumptions C18_etcd_trylock_returns_locked.

Theorem C18_etcd_wait_acquires : forall s i c,
  reachable step sys_init s ->
  nth_error (s_cs s) i = Some c -> c_pc c = Waiting -> e_lease_live (s_kv s) (c_lease c) = true ->
  nobody_ahead s c ->
  exists s1 s2 c2, step s (LPoll i) = Some s1 /\ step s1 (LVerify i) = Some s2 /\
                   nth_error (s_cs s2) i = Some c2 /\ c_pc c2 = Held /\ s_kv s2 = s_kv s.
Proof. exact etcd_wait_acquires. Qed.
Print Assumptions C18_etcd_wait_acquires.

Theorem C18_etcd_wait_timeout : forall s i c,
  nth_error (s_cs s) i = Some c -> c_pc c = Waiting ->
  exists s1 s2 c2, step s (LTimeout i) = Some s1 /\ step s1 (LDelOwn i) = Some s2 /\
                   nth_error (s_cs s2) i = Some c2 /\ c_pc c2 = Failed ErrDeadline.
Proof. exact etcd_wait_timeout. Qed.
Print Assumptions C18_etcd_wait_timeout.

(* nobody overtakes a waiter: the number of keys ahead of a waiting contender
   never grows, whatever step anybody takes *)
Theorem C18_etcd_no_overtaking : forall s l s' i c c',
  reachable step sys_init s -> step s l = Some s' ->
  nth_error (s_cs s) i = Some c -> nth_error (s_cs s') i = Some c' ->
  c_pc c = Waiting -> c_pc c' = Waiting -> e_lease_live (s_kv s) (c_lease c) = true ->
  (ahead s' c' <= ahead s c)%nat.
Proof. exact etcd_ahead_mono. Qed.
Print Assumptions C18_etcd_no_overtaking.

(* the tie between the three parts: an event log (with no injected loss) that the
   trace acceptor explains by the model has no overlapping critical sections, so
   an implementation run that breaks mutual exclusion also breaks agreement *)
Theorem C18_etcd_agree_implies_mutex_ok : forall c,
  EtcdLock.agree c = true -> no_lose (k_log c) -> mutex_ok (k_log c) = true.
Proof. exact etcd_agree_implies_mutex_ok. Qed.
Print Assumptions C18_etcd_agree_implies_mutex_ok.

Theorem C18_redis_mutex : forall s i j a b,
  reachable rstep rsys_init s ->
  nth_error (rs_cs s) i = Some a -> nth_error (rs_cs s) j = Some b ->
  rholds s a = true -> rholds s b = true -> i = j.
Proof. exact redis_mutex. Qed.
Print Assumptions C18_redis_mutex.

Theorem C18_redis_at_most_one_holder : forall s, reachable rstep rsys_init s -> (rholders s <= 1)%nat.
Proof. exact redis_holders_le_one. Qed.
Print Assumptions C18_redis_at_most_one_holder.

Theorem C18_redis_trylock : forall s s' i j c h,
  reachable rstep rsys_init s ->
  nth_error (rs_cs s) j = Some h -> rholds s h = true -> i <> j ->
  nth_error (rs_cs s) i = Some c -> r_pc c = RCalled OpTry ->
  rstep s (RTry i) = Some s' ->
  exists c' e, nth_error (rs_cs s') i = Some c' /\ r_pc c' = RFailed e /\ rs_kv s' = rs_kv s.
Proof. exact redis_trylock_fails. Qed.
Print Assumptions C18_redis_trylock.

Theorem C18_redis_wait_acquires : forall s i c,
  nth_error (rs_cs s) i = Some c -> waiting_pc (r_pc c) -> r_dead c = false -> key_free s = true ->
  exists s' c', rstep s (RTry i) = Some s' /\ nth_error (rs_cs s') i = Some c' /\ r_pc c' = RHeld.
Proof. exact redis_wait_acquires. Qed.
Print Assumptions C18_redis_wait_acquires.

Theorem C18_redis_wait_blocked : forall s i c,
  nth_error (rs_cs s) i = Some c -> waiting_pc (r_pc c) -> r_dead c = false -> key_free s = false ->
  exists s' c', rstep s (RTry i) = Some s' /\ nth_error (rs_cs s') i = Some c' /\ r_pc c' = RRetrying
                /\ rs_kv s' = rs_kv s.
Proof. exact redis_wait_blocked. Qed.
Print Assumptions C18_redis_wait_blocked.

Theorem C18_redis_wait_timeout : forall s i c,
  nth_error (rs_cs s) i = Some c -> waiting_pc (r_pc c) ->
  exists s1 s2 c2, rstep s (RTimeout i) = Some s1 /\ rstep s1 (RTry i) = Some s2 /\
                   nth_error (rs_cs s2) i = Some c2 /\ r_pc c2 = RFailed RDeadline /\ rs_kv s2 = rs_kv s.
Proof. exact redis_wait_timeout. Qed.
Print Assumptions C18_redis_wait_timeout.

Theorem C18_redis_agree_implies_mutex_ok : forall c,
  RedisLock.ragree c = true -> no_lose (rk_log c) -> mutex_ok (rk_log c) = true.
Proof. exact redis_agree_implies_mutex_ok. Qed.
Print Assumptions C18_redis_agree_implies_mutex_ok.
