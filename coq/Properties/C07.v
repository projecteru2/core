(* C07 — the reported deploy capacity equals what an allocation accepts.
   Models: Cpumem/Calc.v (node_capacity = doGetNodeDeployCapacity,
   calculate_deploy = CalculateDeploy, commit_usage), Cobalt/Capacity.v (plugin
   and manager GetNodesDeployCapacity), Cobalt/Merge.v (the manager's total,
   after the `fix:` that makes it saturate).  This file contains only the
   property theorems.  [sortf] is the final sort of getFullCPUPlans (any
   function; Go's sort.Slice is unstable), [order] the NUMA iteration order,
   [fuel] the loop fuel: the theorems hold for every value of each. *)
From Coq Require Import String List ZArith Permutation.
From Verif Require Import Base.GoInt Base.GoFloat Cpumem.Types Cpumem.Schedule Cpumem.Calc
  Cobalt.Merge Cobalt.Capacity Cobalt.CapacityProofs.
Import ListNotations.
Local Open Scope Z_scope.

(* the capacity reported for a node is exactly the largest instance count that
   CalculateDeploy accepts on it (bound and memory-only requests; a memory
   request of zero means unlimited: capacity MaxInt, every count accepted) *)
Theorem C07_capacity_is_max : forall sortf info base maxshare raw req order fuel count c,
  wreq_validate raw = inr req -> 1 <= count <= max_int ->
  node_capacity_g sortf info base maxshare req order fuel = Ok c ->
  ((exists r, calculate_deploy_g sortf info base maxshare count raw order fuel = Ok (inr r))
   <-> count <= cap_capacity c).
Proof. exact capacity_is_max. Qed.
Print Assumptions C07_capacity_is_max.

(* nodes with zero capacity are not offered by the manager *)
Theorem C07_zero_not_offered : forall (caps : list (string * capinfo)) (n : string),
  In n (map fst (fst (manager_capacity caps))) <-> exists c, In (n, c) caps /\ 0 < cap_capacity c.
Proof. exact offered_iff_positive. Qed.
Print Assumptions C07_zero_not_offered.

(* the manager's total is the saturating sum of the offered capacities for
   every iteration order of the merged map *)
Theorem C07_total_saturating : forall caps order : list Z,
  Forall (fun c => 0 <= c <= max_int) caps -> Permutation caps order -> total_of order = satsum caps.
Proof. exact MergeProofs.total_any_order. Qed.
Print Assumptions C07_total_saturating.

(* the plugin's own total (which the manager ignores) saturates as long as the
   finite capacities alone do not exceed MaxInt *)
Theorem C07_plugin_total : forall caps : list Z,
  Forall (fun c => 0 <= c <= max_int) caps ->
  fold_right Z.add 0 (filter (fun c => negb (c =? max_int)) caps) <= max_int ->
  fold_left plugin_total_step caps 0 = satsum caps.
Proof. exact plugin_total_saturating. Qed.
Print Assumptions C07_plugin_total.

(* memory-only: committing k accepted instances lowers the capacity by exactly k *)
Theorem C07_memory_commit : forall sortf info base maxshare req order fuel c k r,
  rq_bind req = false -> 0 < rq_mem_req req -> 1 <= k <= cap_capacity c ->
  node_capacity_g sortf info base maxshare req order fuel = Ok c ->
  do_alloc_by_memory info k req = inr r ->
  exists c', node_capacity_g sortf (commit_usage info (snd r)) base maxshare req order fuel = Ok c' /\
             cap_capacity c' = cap_capacity c - k.
Proof. exact mem_commit_lowers. Qed.
Print Assumptions C07_memory_commit.

(* and the capacity the manager reports for an offered node is the plugin's *)
Theorem C07_manager_capacity : forall (caps : list (string * capinfo)) (n : string) (i : fndc),
  Merge.lookup n (fst (manager_capacity caps)) = Some i ->
  exists c, In (n, c) caps /\ 0 < cap_capacity c /\ n_cap i = cap_capacity c.
Proof. exact manager_reports_plugin_capacity. Qed.
Print Assumptions C07_manager_capacity.

(* several plugins.  Manager.Alloc is refused as soon as one plugin refuses; if
   every plugin's capacity is the largest count it admits, the merged capacity
   (the minimum, C09) is the largest count the manager admits *)
Theorem C07_min_capacity_is_max : forall (c1 c2 k : Z) (acc1 acc2 : Z -> Prop),
  (forall j, acc1 j <-> j <= c1) -> (forall j, acc2 j <-> j <= c2) ->
  (acc1 k /\ acc2 k <-> k <= Z.min c1 c2).
Proof. exact min_capacity_is_max. Qed.
Print Assumptions C07_min_capacity_is_max.

(* zero capacity not offered, several plugins: FULL statement "no node is offered
   with capacity 0" is refuted when a plugin reports an entry with capacity 0 (the
   manager does not filter: C07_zero_entry_refuted; known finding); it holds when
   every plugin filters its own answer as cpumem does (C07_zero_not_offered_partial) *)
Theorem C07_zero_entry_refuted :
  let a := [("n"%string, mkNdc 5 (fb 0) (fb 0) (f_of_Z 1))] in
  let b := [("n"%string, mkNdc 0 (fb 0) (fb 0) (f_of_Z 1))] in
  option_map n_cap (Merge.lookup "n"%string (fst (gndc_f [a; b]))) = Some 0.
Proof. exact zero_entry_is_offered. Qed.
Print Assumptions C07_zero_entry_refuted.

Theorem C07_zero_not_offered_partial : forall (answers : list famap) (n : string) (i : fndc),
  answers <> [] ->
  (forall a k j, In a answers -> Merge.lookup k a = Some j -> 0 < n_cap j) ->
  Merge.lookup n (fst (gndc_f answers)) = Some i -> 0 < n_cap i.
Proof. exact positive_in_positive_out. Qed.
Print Assumptions C07_zero_not_offered_partial.
