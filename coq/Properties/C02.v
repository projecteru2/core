(* C02 — a deployment is refused only when no plan under the strategy's rule exists.

   [feasible s need limit infos] (Strategy/Model.v) is the reference feasibility:
     AUTO: need <= sum of room n, room n = min(cap n, max(0, limit - count n)) (cap n when limit = 0);
     GLOBAL / DRAINED: need <= sum of capacities (mathematical sum);
     EACH: limit' <= #nodes, 1 <= limit', limit' <= #{cap >= need};
     FILL: the same with #{count + cap >= need}  (mathematical +).
   [total = satsum caps] is the saturating sum the caller passes. *)
From Coq Require Import String ZArith List Permutation.
From Verif Require Import Base.GoInt Strategy.Model Strategy.ProofsBase Strategy.Proofs
  Strategy.ProofsOk Strategy.ProofsOld Strategy.Glue Strategy.ProofsGlue Strategy.ModelW Strategy.ProofsW Strategy.ProofsW2 Calcium.DeployPath Calcium.DeployPathProofs.
Local Open Scope Z_scope.

Theorem C02_complete :
  forall infos need limit total,
  valid_infos infos -> 0 < need -> 0 <= limit ->
  forall s, s <> Other -> need <= max_int -> total = satsum (map cap infos) ->
  (feasible s need limit infos = true -> exists p, is_plan (deploy s need limit infos total) p) /\
  (feasible s need limit infos = false ->
     deploy s need limit infos total = Err EInsufficientResource \/
     deploy s need limit infos total = Err EInsufficientCapacity).
Proof. exact Proofs.C02_complete. Qed.
Print Assumptions C02_complete.

(* whatever total the caller passes: the outcome is a plan or an insufficient-* refusal
   (never a panic, never fuel exhaustion of the model) *)
Theorem C02_total_outcome :
  forall infos need limit total,
  valid_infos infos -> 0 < need -> 0 <= limit ->
  forall s, s <> Other ->
  (exists p, is_plan (deploy s need limit infos total) p) \/
  (deploy s need limit infos total = Err EInsufficientResource \/
   deploy s need limit infos total = Err EInsufficientCapacity).
Proof. exact deploy_total_outcome. Qed.
Print Assumptions C02_total_outcome.

(* the code before the repair (/repo: "fix: FILL skips a node with unlimited capacity ...")
   violated the property: a feasible request was refused *)
Theorem C02_fill_old_refuted :
  feasible Fill 3 0 w_fill = true /\ fill_old w_fill 3 0 = Err EInsufficientResource.
Proof. exact fill_old_refuted. Qed.
Print Assumptions C02_fill_old_refuted.

(* the model's own output passes the boolean check; meaning of a passing check
   on an implementation output *)
Theorem C02_ok_links :
  (forall s need limit infos total ord,
  C02_ok (mkCase s need limit infos total (deploy s need limit infos total) ord) = true) /\
  (forall c, valid_case c = true -> c_total c = satsum (map cap (c_infos c)) ->
  C02_ok c = true ->
  (feasible (c_strat c) (c_need c) (c_limit c) (c_infos c) = true ->
     exists p, o_res c = Ok p \/ o_res c = AlreadyFilled p) /\
  (feasible (c_strat c) (c_need c) (c_limit c) (c_infos c) = false ->
     o_res c = Err EInsufficientResource \/ o_res c = Err EInsufficientCapacity)).
Proof. exact (conj C02_ok_model ProofsOk.C02_ok_meaning). Qed.
Print Assumptions C02_ok_links.

Theorem C02_glue :
  forall caps order status need limit total,
  valid_caps caps status -> Permutation caps order -> 0 < need -> 0 <= limit ->
  forall s, s <> Other -> need <= max_int -> total = satsum (map ce_cap order) ->
  (feasible s need limit (glue_infos order status) = true ->
     (exists p, glue s need limit order status total = Ok p) \/
     glue s need limit order status total = AlreadyFilled nil) /\
  (feasible s need limit (glue_infos order status) = false ->
     glue s need limit order status total = Err EInsufficientResource \/
     glue s need limit order status total = Err EInsufficientCapacity).
Proof. exact glue_C02. Qed.
Print Assumptions C02_glue.

Theorem C02_complete_int64 :
  forall s need limit infos total,
  NoDup (names infos) -> dom64 s need limit infos ->
  s <> Other -> total = satsum (map cap infos) ->
  (feasible s need limit infos = true -> exists p, is_plan (deployW s need limit infos total) p) /\
  (feasible s need limit infos = false ->
     deployW s need limit infos total = Err EInsufficientResource \/
     deployW s need limit infos total = Err EInsufficientCapacity).
Proof. exact C02_complete_W. Qed.
Print Assumptions C02_complete_int64.

(* along the composed deploy path the total IS the saturating sum: C02 without
   the hypothesis on [total] (discharged by the cobalt / cpumem models) *)
Theorem C02_path :
  (forall (answers : list Merge.famap) morder,
  answers <> nil ->
  (forall a, In a answers -> NoDup (map fst a)) ->
  (forall a k v, In a answers -> In (k, v) a -> 0 <= Merge.n_cap v <= max_int) ->
  Permutation (entries_of (fst (Merge.gndc_f answers))) morder ->
  snd (Merge.gndc_f answers) = satsum (map ce_cap morder)) /\
  (forall sortf base maxshare raw req orders nodes caps morder status need limit s,
  path_hyps sortf base maxshare raw req orders nodes caps morder status need limit ->
  s <> Other -> need <= max_int ->
  (feasible s need limit (glue_infos morder status) = true ->
     (exists p, deploy_path sortf base maxshare raw orders nodes morder status s need limit = PResult (Ok p)) \/
     deploy_path sortf base maxshare raw orders nodes morder status s need limit = PResult (AlreadyFilled nil)) /\
  (feasible s need limit (glue_infos morder status) = false ->
     deploy_path sortf base maxshare raw orders nodes morder status s need limit = PResult (Err EInsufficientResource) \/
     deploy_path sortf base maxshare raw orders nodes morder status s need limit = PResult (Err EInsufficientCapacity))).
Proof. exact (conj path_total deploy_path_C02). Qed.
Print Assumptions C02_path.

