(* C25 — status reports are bound to live entities and expire.
   This file contains only the property theorems.

   Full statement (kept visible): on both stores, for every history: a node or
   workload status reported with ttl > 0 is accepted iff the entity exists; it is
   visible at every time < last report + ttl unless re-reported / the workload is
   removed; a same-value re-report extends to now + ttl; ttl 0 never expires.
   Proved for the etcd store model for all histories (the statement is relative
   to an arbitrary reachable state, so it covers first reports, same-value
   re-reports through KeepAliveOnce and value / ttl changes alike).
   The node half is false of the Redis store (C25_redis_node_refuted); on
   redis-safe histories (Spec.redis_safe: in particular node status only for
   existing nodes) the Redis store model has the same lifetime behaviour
   (C25_status_redis_node_partial, C25_status_redis_workload_partial). *)
From Verif Require Import Store.StatusProofs.

Theorem C25_status_etcd_node : C25_etcd_node_stmt.
Proof. exact C25_etcd_node_holds. Qed.
Print Assumptions C25_status_etcd_node.

Theorem C25_status_etcd_workload : C25_etcd_workload_stmt.
Proof. exact C25_etcd_workload_holds. Qed.
Print Assumptions C25_status_etcd_workload.

Theorem C25_redis_workload_accept : C25_redis_workload_accept_stmt.
Proof. exact C25_redis_workload_accept_holds. Qed.
Print Assumptions C25_redis_workload_accept.

Theorem C25_redis_node_refuted : C25_redis_node_refuted_stmt.
Proof. exact C25_redis_node_refuted_holds. Qed.
Print Assumptions C25_redis_node_refuted.

Theorem C25_status_redis_node_partial : C25_redis_node_partial_stmt.
Proof. exact C25_redis_node_partial_holds. Qed.
Print Assumptions C25_status_redis_node_partial.

Theorem C25_status_redis_workload_partial : C25_redis_workload_partial_stmt.
Proof. exact C25_redis_workload_partial_holds. Qed.
Print Assumptions C25_status_redis_workload_partial.

Theorem C25_status_etcd_node_expires : C25_etcd_node_expires_stmt.
Proof. exact C25_etcd_node_expires_holds. Qed.
Print Assumptions C25_status_etcd_node_expires.

(* the status record of C25_status_etcd_workload is what GetWorkloadStatus shows
   when the workload record carries the names the status was reported under *)
Theorem C25_workload_status_api : workload_status_api_stmt.
Proof. exact workload_status_api_holds. Qed.
Print Assumptions C25_workload_status_api.

Theorem C25_status_redis_node_expires_partial : C25_redis_node_expires_partial_stmt.
Proof. exact C25_redis_node_expires_partial_holds. Qed.
Print Assumptions C25_status_redis_node_expires_partial.
