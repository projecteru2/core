(* C12 — deployment results are complete and truthful.

   C12_messages (EVERY world in which the op index is fresh, EVERY feasible plan or a refusal, EVERY position k
   of the single injected fault): the create script returns either the single message [MCreateErr] or one
   message per planned instance; the records and containers added are exactly those of the success messages
   (recorded on the reported node with the reported resources, container running), nothing else is added;
   every node's usage grows by exactly the resources of the instances created on it (so failures leave no
   record, container or usage); every message is sent on the channel, in order, and then the channel is closed
   (cr_out: out w' = MClose :: rev ms ++ out w).  Fault positions are the faultable calls (store, resource
   manager, engine, WAL, locks); a channel send is not a fault position (C12_send_is_no_fault_position).
   C12_instance / C12_plan are the per-instance and per-plan statements it is built from.
   C12_messages_scenarios re-checks, for every fault position, the boolean the harness evaluates on the
   implementation, on explicit scenarios.  Hypotheses: the plan is feasible for the plugin (every Alloc of it
   succeeds), its nodes exist and are distinct, no record/container of this op index exists yet. *)
From Coq Require Import List ZArith.
From Verif Require Import Calcium.World Calcium.Ops Calcium.Run Calcium.Sweeps
  Calcium.DeployProofs Calcium.DeployProofs2 Calcium.CreateProofs2.

Theorem C12_messages : forall opi pod r plan w k, create_hyp w opi r plan ->
  exists w' k' ms, crunk (create opi pod r plan) w k = (w', k', ms) /\ create_post opi pod r plan w w' ms.
Proof. exact create_spec. Qed.
Print Assumptions C12_messages.

Theorem C12_instance : forall x decr w k,
  find_wl w (w_id x) = None -> find_cont w (w_id x) = None ->
  exists w' k' r, crunk (deploy_one x decr) w k = (w', k', r) /\
  (r = None -> core_eq w' w (wls w ++ (x :: nil)) (conts w ++ (mkCont (w_id x) CRunning :: nil))) /\
  (r <> None -> core_eq w' w (wls w) (conts w) /\ k' = None).
Proof. exact deploy_one_spec. Qed.
Print Assumptions C12_instance.

Theorem C12_plan : forall opi pod r plan w k,
  NoDup (map fst plan) -> fresh_on w opi (map fst plan) -> (forall n, In n (map fst plan) -> find_node w n <> None) ->
  exists w' k' rb ms, crunk (deploy_all opi pod r plan) w k = (w', k', (rb, ms)) /\
    length ms = plan_total plan /\
    (rb <> nil -> k' = None) /\
    (forall p, In p (created_of ms) -> wi_op (fst p) = opi /\ In (wi_node (fst p)) (map fst plan) /\ snd p = r) /\
    (forall n cnt, In (n, cnt) plan -> (rb_len rb n + created_on ms n = cnt)%nat) /\
    (forall n, ~ In n (map fst plan) -> rb_len rb n = 0%nat) /\
    (forall g, In g rb -> In (fst g) (map fst plan)) /\
    out w' = rev ms ++ out w /\
    core3 w' w (wls w ++ map (wl_of pod) (created_of ms)) (conts w ++ map cont_of (created_of ms)).
Proof. exact deploy_all_ms. Qed.
Print Assumptions C12_plan.

Theorem C12_messages_scenarios : forall w o, (w = busy3 \/ w = base3) -> In o create_ops ->
  forall k, c12_check (prep w o) o (fst (final (script_of o) (prep w o) k)) = true.
Proof. exact create_scenarios_every_k. Qed.
Print Assumptions C12_messages_scenarios.

(* the positions k range over the faultable calls only: no position is a channel send *)
Theorem C12_send_is_no_fault_position : forall A (p : cprog A) w k c,
  In c (calls_of p w k) -> is_faultable c = true.
Proof. exact calls_faultable. Qed.
Print Assumptions C12_send_is_no_fault_position.

(* a check that holds for the fault-free run and at every call index of it holds for every k *)
Theorem C12_all_positions : forall A (p : cprog A) w (chk : world -> A -> bool),
  forallb (fun k => let '(w', a) := final p w (Some k) in chk w' a) (seq 0 (ncalls p w)) = true ->
  (let '(w', a) := final p w None in chk w' a) = true ->
  forall k, (let '(w', a) := final p w k in chk w' a) = true.
Proof. exact all_k. Qed.
Print Assumptions C12_all_positions.
