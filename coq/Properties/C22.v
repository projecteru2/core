(* C22 — pods, nodes, node resources and workloads stay referentially consistent.

   FULL STATEMENT (false of the code as it is):
     forall world w with Ref w, operations ops (add-pod / remove-pod / add-node /
     remove-node / create / remove, overlapping names, at most one injected
     failure of a store or plugin step), schedules s:
       all threads finished after s -> Ref (final world).
   It is refuted by three witnesses (the C22_refuted theorems; a fourth, a three-operation
   race, is closed by the repair e1dbf90: RemoveNode re-reads the node under the pod lock,
   RefsProofs.stale_removenode_closed); what holds instead is the
   C22_partial theorems below; C22_general* are the UNBOUNDED ones (all worlds,
   all names, any number of concurrent operations of all six kinds, every
   schedule, no injected failure), proved by an ownership invariant over the
   interleaving system; the bounded C22_partial_pairs and C22_partial_triples
   are instances of them, the bounded results on isolation and on single
   failures are by exhaustive exploration. *)
From Coq Require Import List String.
From Verif Require Import Calcium.Refs Calcium.RefsProofs Calcium.RefsIsolation Calcium.RefsGeneral.
Import ListNotations.
Local Open Scope string_scope.

(* witness 1: AddNode takes no pod lock.  AddNode: plugin add, GetPod ok ||
   RemovePod: pod has no node -> no lock -> pod deleted || AddNode: node keys
   created.  The node lives in a removed pod. *)
Theorem C22_refuted_addnode_removepod :
  quiescent_bad W1 [(OAddNode "n" "p", None); (ORemovePod "p", None)] [0; 0; 1; 1; 1; 0].
Proof. exact refuted_addnode_removepod. Qed.
Print Assumptions C22_refuted_addnode_removepod.

(* witness 2: create records the workload after releasing the pod lock.
   create: alloc, unlock, node fetched || RemoveNode: node empty -> removed ||
   create: workload recorded on the missing node (and it can no longer be listed). *)
Theorem C22_refuted_create_removenode :
  quiescent_bad W2 [(OCreate "n" "x", None); (ORemoveNode "n", None)] [0; 0; 0; 0; 0; 0; 1; 1; 1; 1; 1; 1; 1; 1; 1; 0].
Proof. exact refuted_create_removenode. Qed.
Print Assumptions C22_refuted_create_removenode.

(* witness 3 (single injected failure): RemoveNode's plugin removal fails after
   the store record is gone; the rollback is empty: a resource record without node. *)
Theorem C22_refuted_removenode_fault :
  quiescent_bad W2 [(ORemoveNode "n", Some 6)] [0; 0; 0; 0; 0; 0; 0; 0; 0; 0; 0].
Proof. exact refuted_removenode_fault. Qed.
Print Assumptions C22_refuted_removenode_fault.

(* the decision procedure used below is sound for ALL schedules: if [explore]
   accepts, every run that ends with all threads finished has a good verdict *)
Theorem C22_explore_sound : forall fuel good w ts tr, explore fuel good w ts tr = true ->
  forall sched w' ts' tr', run_sched w ts sched tr = (w', ts', tr') ->
  forallb finished ts' = true -> good w' tr' = true.
Proof. exact explore_sound. Qed.
Print Assumptions C22_explore_sound.

(* GENERAL (unbounded): ANY world with Ref, distinct node names and no lock
   held; ANY list of AddPod / RemovePod / AddNode / RemoveNode / create (one
   instance) / remove-workload operations (any number, any names, repeated and
   overlapping); EVERY schedule; no injected failure.  When all operations have
   finished, Ref holds or the trace contains one of the two check-then-act
   overlaps (witness 1's and witness 2's windows).  Proof: inductive invariant
   over the interleaving system (RefsGeneral.v): ownership of resource records
   without a node by exactly one in-flight AddNode / RemoveNode, lock table =
   the lock footprints of the control states (pod locks and workload locks),
   per control-state assertions about the trace; no bound, no exploration.
   [rop_of] maps the six operation kinds (RefsGeneral.pnop) to Refs.rop. *)
Theorem C22_general : forall w ops sched w' ts' tr,
  ref_ok w = true -> NoDup (node_names w) -> held w = [] ->
  run_sched w (mk_threads (map (fun o => (rop_of o, None)) ops)) sched [] = (w', ts', tr) ->
  forallb finished ts' = true ->
  ref_ok w' = true \/ window_addnode_removepod tr = true \/ window_create_removenode tr = true.
Proof. exact general_quiescent. Qed.
Print Assumptions C22_general.

(* ... and at EVERY reachable state (operations still in flight): every node's
   pod exists, every node has its resource record, every workload's node
   exists - unless one of the overlaps has happened.  (Only "every resource
   record has a node" is a quiescent-only clause: an in-flight AddNode /
   RemoveNode owns its record.) *)
Theorem C22_general_always : forall w ops sched w' ts' tr,
  ref_ok w = true -> NoDup (node_names w) -> held w = [] ->
  run_sched w (mk_threads (map (fun o => (rop_of o, None)) ops)) sched [] = (w', ts', tr) ->
  window_addnode_removepod tr = true \/ window_create_removenode tr = true \/
  ((forall n p, In (n, p) (nodes w') -> In p (pods w')) /\
   (forall n p, In (n, p) (nodes w') -> In n (nres w')) /\
   (forall id n, In (id, n) (wls w') -> In n (node_names w'))).
Proof. exact general_always. Qed.
Print Assumptions C22_general_always.

(* ... and no reachable state is a deadlock: some operation can take a step
   until all have finished (an operation waits for a pod lock holding nothing,
   and for a workload lock holding one pod lock; holders of workload locks never
   wait).  Nothing is claimed after an overlap. *)
Theorem C22_general_no_deadlock : forall w ops sched w' ts' tr,
  ref_ok w = true -> NoDup (node_names w) -> held w = [] ->
  run_sched w (mk_threads (map (fun o => (rop_of o, None)) ops)) sched [] = (w', ts', tr) ->
  window_addnode_removepod tr = true \/ window_create_removenode tr = true \/
  forallb finished ts' = true \/ enabled_steps w' ts' <> [].
Proof. exact general_no_deadlock. Qed.
Print Assumptions C22_general_no_deadlock.

(* PARTIAL 1 (bounded universe, all schedules): for every world of u_worlds
   (empty; pod; pod+node; pod+node+workload; two pods with a node each), every
   ordered pair of operations of u_ops (add-pod, remove-pod, add-node x2,
   remove-node, create x2, remove-workload) and EVERY schedule: the run never
   deadlocks, and at quiescence Ref holds unless the trace contains one of the
   two named check-then-act windows. *)
Theorem C22_partial_pairs : forall w a b sched w' ts' tr',
  In w u_worlds -> In a u_ops -> In b u_ops ->
  run_sched w (mk_threads [(a, None); (b, None)]) sched [] = (w', ts', tr') ->
  (forallb finished ts' = true \/ enabled_steps w' ts' <> []) /\
  (forallb finished ts' = true ->
   ref_ok w' = true \/ window_addnode_removepod tr' = true \/ window_create_removenode tr' = true).
Proof. exact pairs_partial. Qed.
Print Assumptions C22_partial_pairs.

(* PARTIAL 1b: all TRIPLES of the pod / node operations (add-pod, remove-pod,
   add-node, remove-node on the worlds {pod} and {pod, node}), every schedule *)
Theorem C22_partial_triples : forall w a b c sched w' ts' tr',
  In w t_worlds -> In a t_ops -> In b t_ops -> In c t_ops ->
  run_sched w (mk_threads [(a, None); (b, None); (c, None)]) sched [] = (w', ts', tr') ->
  (forallb finished ts' = true \/ enabled_steps w' ts' <> []) /\
  (forallb finished ts' = true ->
   ref_ok w' = true \/ window_addnode_removepod tr' = true \/ window_create_removenode tr' = true).
Proof. exact triples_partial. Qed.
Print Assumptions C22_partial_triples.

(* PARTIAL 2: every operation run in isolation preserves Ref *)
Theorem C22_partial_isolation : forall w a sched w' ts' tr',
  In w u_worlds -> In a u_ops ->
  run_sched w (mk_threads [(a, None)]) sched [] = (w', ts', tr') ->
  forallb finished ts' = true -> ref_ok w' = true.
Proof. exact isolation_partial. Qed.
Print Assumptions C22_partial_isolation.

(* PARTIAL 3: with one injected failure at any store / plugin step of any
   operation, Ref is preserved except for witness 3 and for a failure injected
   into AddNode's own compensation step *)
Theorem C22_partial_single_fault : forall w a fl sched w' ts' tr',
  In w u_worlds -> In a u_ops -> In fl fault_opts ->
  run_sched w (mk_threads [(a, fl)]) sched [] = (w', ts', tr') ->
  forallb finished ts' = true ->
  ref_ok w' = true \/ fault_removenode_plugin tr' = true \/ addnode_rollback_failed tr' = true.
Proof. exact single_fault_partial. Qed.
Print Assumptions C22_partial_single_fault.

(* UNBOUNDED partial theorems: for ALL worlds satisfying Ref (any pods, nodes,
   records, workloads, any names) the pod / node operations run in isolation
   preserve Ref; AddNode and RemoveNode do so under every placement of a single
   injected failure, except when the failure hits AddNode's own compensation
   (fault index 2 or 3 = the plugin removal after a failed store step) or
   RemoveNode's plugin removal (index 6, witness 3; indices 3 and 5 are the node-status set / delete whose results the code ignores).  [RefP] is the Prop form of
   ref_ok (C22_ref_reflect); [run1] runs one thread alone (= run_sched with the
   constant schedule, RefsIsolation.run1_sched). *)
Theorem C22_ref_reflect : forall w, ref_ok w = true <-> RefP w.
Proof. exact ref_ok_RefP. Qed.
Print Assumptions C22_ref_reflect.

Theorem C22_isolation_add_pod : forall w p, RefP w ->
  let '(w', t') := run1 4 w (mkTh (add_pod p) 0 None) in finished t' = true /\ RefP w'.
Proof. exact add_pod_ref. Qed.
Print Assumptions C22_isolation_add_pod.

Theorem C22_isolation_remove_pod : forall w p, RefP w -> held w = nil ->
  let '(w', t') := run1 8 w (mkTh (remove_pod p) 0 None) in finished t' = true /\ RefP w'.
Proof. exact remove_pod_ref. Qed.
Print Assumptions C22_isolation_remove_pod.

Theorem C22_single_fault_add_node : forall w n p fl, RefP w ->
  let '(w', t') := run1 8 w (mkTh (add_node n p) 0 fl) in
  finished t' = true /\ (RefP w' \/ exists j, fl = Some j /\ (j = 2 \/ j = 3)%nat).
Proof. exact add_node_ref. Qed.
Print Assumptions C22_single_fault_add_node.

Theorem C22_single_fault_remove_node : forall w n fl, RefP w -> held w = nil ->
  let '(w', t') := run1 14 w (mkTh (remove_node n) 0 fl) in
  finished t' = true /\ (RefP w' \/ fl = Some 6%nat).
Proof. exact remove_node_ref. Qed.
Print Assumptions C22_single_fault_remove_node.
