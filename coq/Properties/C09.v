(* C09 — multi-plugin capacity aggregation is independent of plugin order.
   Model: Cobalt/Merge.v (mergeCapacity / GetNodesDeployCapacity after the two
   repairs).  This file contains only the property theorems.

   Full statement of the property: for all sets of plugin answers and all answer
   orders, a node is offered iff every plugin offers it, its capacity is the
   smallest capacity, its usage and rate are the weight-averaged plugin values,
   and the result does not depend on the answer order.

   What is proved, precisely:
   - C09_aggregate, C09_offered_iff_all, C09_capacity_is_min: for all answer
     sets and every answer order (the list order), in binary64 with the code's
     operation order.
   - C09_order_indep_exact_part: node set and capacity are bit-for-bit
     independent of the order, any number of plugins.
   - C09_order_indep_two_plugins: with two plugins and finite values the whole
     result (usage, rate, weight too) is bit-identical for both orders.
   - C09_weighted_mean_real, C09_order_indep_real: the value of the exact
     expression (the same text read over the reals) is the weighted mean and is
     independent of the order for any number of plugins.  With three or more
     plugins the binary64 results for different orders may differ in the last
     bits (float addition is not associative); this is inherent and observed
     by the harness (bounded there by 2^-40 relative). *)
From Coq Require Import List ZArith String Permutation Reals.
From Verif Require Import Base.GoFloat Cobalt.Merge Cobalt.MergeProofs Cobalt.MergeFloat.
Import ListNotations.

Theorem C09_aggregate : forall (answers : list famap) (n : string), answers <> [] ->
  lookup n (fst (gndc_f answers)) =
  match infos_of n answers with
  | Some (i1 :: rest) =>
      Some (mkNdc (mincap i1 rest)
                  (fdiv (wsum fadd fmul n_usage i1 rest) (sumw fadd i1 rest))
                  (fdiv (wsum fadd fmul n_rate i1 rest) (sumw fadd i1 rest))
                  (sumw fadd i1 rest))
  | _ => None
  end.
Proof. exact aggregate_f64. Qed.
Print Assumptions C09_aggregate.

Theorem C09_offered_iff_all : forall (answers : list famap) (n : string), answers <> [] ->
  (In n (map fst (fst (gndc_f answers))) <-> forall a, In a answers -> In n (map fst a)).
Proof. exact offered_iff_all. Qed.
Print Assumptions C09_offered_iff_all.

Theorem C09_capacity_is_min : forall (i1 : fndc) (rest : list fndc),
  (forall i, In i (i1 :: rest) -> (mincap i1 rest <= n_cap i)%Z) /\
  (exists i, In i (i1 :: rest) /\ mincap i1 rest = n_cap i).
Proof. exact (@mincap_is_min f64). Qed.
Print Assumptions C09_capacity_is_min.

Theorem C09_order_indep_exact_part : forall (answers answers' : list famap) (n : string),
  Permutation answers answers' ->
  option_map n_cap (lookup n (fst (gndc_f answers))) = option_map n_cap (lookup n (fst (gndc_f answers'))).
Proof. exact (gndc_cap_order_indep f64 fadd fmul fdiv). Qed.
Print Assumptions C09_order_indep_exact_part.

Theorem C09_order_indep_two_plugins : forall (a b : famap) (n : string),
  all_finite [a; b] = true ->
  lookup n (fst (gndc_f [a; b])) = lookup n (fst (gndc_f [b; a])).
Proof. exact two_plugins_exact. Qed.
Print Assumptions C09_order_indep_two_plugins.

Theorem C09_weighted_mean_real : forall (answers : list ramap) (n : string), answers <> [] ->
  lookup n (fst (gndc_R answers)) =
  match infos_of n answers with
  | Some (i1 :: rest) =>
      let is := i1 :: rest in
      Some (mkNdc (mincap i1 rest)
                  (Rsum (map (fun i => n_usage i * n_weight i) is) / Rsum (map n_weight is))%R
                  (Rsum (map (fun i => n_rate i * n_weight i) is) / Rsum (map n_weight is))%R
                  (Rsum (map n_weight is)))
  | _ => None
  end.
Proof. exact gndc_R_spec. Qed.
Print Assumptions C09_weighted_mean_real.

Theorem C09_order_indep_real : forall (answers answers' : list ramap) (n : string),
  Permutation answers answers' ->
  lookup n (fst (gndc_R answers)) = lookup n (fst (gndc_R answers')).
Proof. exact gndc_R_order_indep. Qed.
Print Assumptions C09_order_indep_real.

From Verif Require Import Cobalt.MergeErrorProofs.
From Flocq Require Import IEEE754.Binary.

(* three or more plugins, binary64: the weighted sums (and the weight sums)
   computed for two answer orders differ by at most
       2 * (EA (n-1) * T + EB (n-1)),
   T the exact sum of value * weight over the n plugins, for non-negative
   values and weights and intermediate values that stay finite.  EA(k) is about
   (2k+1) * 2^-53 (EA 3 <= 2^-50: four plugins), EB(k) a few units of 2^-100
   (a generous stand-in for the underflow unit).  So the aggregated usage / rate /
   weight are order independent up to a few units in the last place. *)
Theorem C09_order_close_weighted_sum : forall (f : fndc -> f64) (i1 : fndc) rest (j1 : fndc) rest',
  Permutation (i1 :: rest) (j1 :: rest') ->
  Forall (nonneg_info f) (i1 :: rest) ->
  f_finite (fmul (f i1) (n_weight i1)) = true -> fin_run f (fmul (f i1) (n_weight i1)) rest ->
  f_finite (fmul (f j1) (n_weight j1)) = true -> fin_run f (fmul (f j1) (n_weight j1)) rest' ->
  let T := Rsum' (map (term f) (i1 :: rest)) in
  (Rabs (B2R 53 1024 (wsum fadd fmul f i1 rest) - B2R 53 1024 (wsum fadd fmul f j1 rest')) <=
   2 * (EA (List.length rest) * T + EB (List.length rest)))%R.
Proof. exact wsum_order_close. Qed.
Print Assumptions C09_order_close_weighted_sum.

Theorem C09_order_close_weight_sum : forall (i1 : fndc) rest (j1 : fndc) rest',
  Permutation (i1 :: rest) (j1 :: rest') ->
  Forall (fun i : fndc => (0 <= B2R 53 1024 (n_weight i))%R) (i1 :: rest) ->
  f_finite (n_weight i1) = true -> fin_run_w (n_weight i1) rest ->
  f_finite (n_weight j1) = true -> fin_run_w (n_weight j1) rest' ->
  let W := Rsum' (map (fun i => B2R 53 1024 (n_weight i)) (i1 :: rest)) in
  (Rabs (B2R 53 1024 (sumw fadd i1 rest) - B2R 53 1024 (sumw fadd j1 rest')) <=
   2 * (EA (List.length rest) * W + EB (List.length rest)))%R.
Proof. exact sumw_order_close. Qed.
Print Assumptions C09_order_close_weight_sum.

Theorem C09_error_size_four_plugins : (EA 3 <= / 1125899906842624)%R.
Proof. exact EA3_small. Qed.
Print Assumptions C09_error_size_four_plugins.

(* the fan-out helper (resource/cobalt/call.go): GetNodesDeployCapacity waits for
   every plugin; it either fails or aggregates over ALL of them - a result never
   is a silent merge of the plugins that happened to have answered *)
Theorem C09_no_partial_merge : forall (answers : list (option famap)) (r : famap * Z),
  gndc_call answers = Some r -> exists l, answers = map Some l /\ r = gndc_f l.
Proof. exact no_partial_merge. Qed.
Print Assumptions C09_no_partial_merge.

Theorem C09_any_error_is_error : forall answers : list (option famap),
  In None answers -> gndc_call answers = None.
Proof. exact any_error_is_error. Qed.
Print Assumptions C09_any_error_is_error.
