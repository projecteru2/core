(* C11 — a failed cluster operation leaves no lasting effect.

   FULL STATEMENT (false of the code as it is): for every operation, world and fault position, a
   reported failure leaves workloads, nodes, capacity and usage as they were.
   Refuted for remove-node (C11_remove_node_refuted: the plugin's removal failing after the store record
   is gone has an empty rollback) and for replace (C11_replace_refuted).  Proved for EVERY world and EVERY
   fault position: realloc, set-node (after 2cbaadc; whole operation), add-node (fresh name, existing pod),
   the locked per-workload transactions of remove (records equal up to order) and dissociate; and for replace
   (C11_replace_outcomes, C11_replace_failed, every world, every fault position): the replacement of one
   workload ends in exactly one of three ways: success; a failure before the new workload exists, which leaves
   records, usage and nodes as they were and the old container untouched or running again; a failure after the
   new workload was deployed (only the removal of the old workload can fail there: the known finding), which
   leaves old AND new recorded.  In every failed case the old workload is still recorded and its container is
   untouched or running.  The transaction combinator used by every script is the C17 model (C11_txn_is_C17). *)
From Coq Require Import Bool Arith ZArith.
From Coq Require Import List Permutation.
From Verif Require Import Base.Effects Utils.Txn Calcium.World Calcium.Ops Calcium.Run Calcium.EffectsProofs
  Calcium.OpsProofs Calcium.OpsProofs2 Calcium.NodeProofs Calcium.Sweeps Calcium.HistoryProofs.

Theorem C11_realloc_atomic : forall id req w k, wf w ->
  exists w' k' r, crunk (realloc id req) w k = (w', k', r) /\
  (r <> None -> w' = w) /\
  (r = None -> exists x, find_wl w id = Some x /\
     w' = oth w (upd_wl (mkWl (w_id x) (w_node x) (w_pod x) (radd (w_res x) req)) (wls w))
                (upd_plug (w_node x) (add_use req) (plugs w)) (conts w)).
Proof. exact realloc_atomic. Qed.
Print Assumptions C11_realloc_atomic.

Theorem C11_remove_atomic : forall n id force w k, wf w ->
  (force = true \/ strict_remove w = false) ->
  (forall x, find_wl w id = Some x -> w_node x = n) ->
  exists w' k' r, crunk (with_workload_locked id (fun x => remove_txn n x force)) w k = (w', k', r) /\
  (r <> None -> exists l, w' = oth w l (plugs w) (conts w) /\ Permutation l (wls w)) /\
  (r = None -> exists x, find_wl w id = Some x /\
     w' = oth w (del_wl id (wls w)) (upd_plug n (sub_use (w_res x)) (plugs w)) (del_cont id (conts w))).
Proof. exact remove_locked_atomic. Qed.
Print Assumptions C11_remove_atomic.

Theorem C11_dissociate_atomic : forall n id w k, wf w ->
  (forall x, find_wl w id = Some x -> w_node x = n) ->
  exists w' k' r, crunk (with_workload_locked id (fun x => dissociate_txn n x)) w k = (w', k', r) /\
  (r <> None -> w' = w) /\
  (r = None -> exists x, find_wl w id = Some x /\
     w' = oth w (del_wl id (wls w)) (upd_plug n (sub_use (w_res x)) (plugs w)) (conts w)).
Proof. exact dissociate_locked_atomic. Qed.
Print Assumptions C11_dissociate_atomic.

Theorem C11_add_node_atomic : forall n p cap w k,
  existsb (Nat.eqb p) (pods w) = true -> find_node w n = None ->
  exists w' k' r, crunk (add_node n p cap) w k = (w', k', r) /\
  (r <> None -> w' = w) /\
  (r = None -> w' = othn w (nodes w ++ (mkNode n p false true 0 :: nil)) (plugs w ++ (mkPlug n cap rzero :: nil))).
Proof. exact add_node_atomic. Qed.
Print Assumptions C11_add_node_atomic.

Theorem C11_set_node_atomic : forall n bypass mem label w k,
  NoDup (pnames (plugs w)) ->
  exists w' k' r, crunk (set_node n bypass mem label) w k = (w', k', r) /\
  (r <> None -> w' = w) /\
  (r = None -> exists x, find_node w n = Some x /\
     w' = othnp w (upd_node (mkNode (n_name x) (n_pod x) (match bypass with Some b => b | None => n_bypass x end) (n_avail x)
                                    (match label with Some l => l | None => n_label x end)) (nodes w))
                  (upd_plug n (new_cap mem) (plugs w))).
Proof. exact set_node_atomic. Qed.
Print Assumptions C11_set_node_atomic.

Theorem C11_set_node_scenarios : forall o, In o setnode_ops -> forall k,
  let '(w', r) := final (script_of o) (prep busy3 o) (Some k) in
  use_okb w' = true /\ (r <> None -> same_proj w' (prep busy3 o) = true).
Proof. exact setnode_scenarios_all_k. Qed.
Print Assumptions C11_set_node_scenarios.

(* RemoveNode: the strongest true statement *)
Theorem C11_remove_node_partial : forall n w k,
  (forall y, In y (nodes w) -> n_name y = n -> n_avail y = true) ->
  exists w' k' r, crunk (remove_node n) w k = (w', k', r) /\
  (r <> None -> w' = w \/ w' = othnp w (del_node n (nodes w)) (plugs w)) /\
  (r = None -> w' = othnp w (del_node n (nodes w)) (del_plug n (plugs w))).
Proof. exact remove_node_partial. Qed.
Print Assumptions C11_remove_node_partial.

Theorem C11_remove_node_refuted :
  r_err rmnode_bad = 1%Z /\ same_proj (r_world rmnode_bad) busy3 = false /\
  find_node (r_world rmnode_bad) 2 = None /\ find_plug (r_world rmnode_bad) 2 <> None.
Proof. exact remove_node_not_atomic. Qed.
Print Assumptions C11_remove_node_refuted.

(* replace, one workload under its lock: the three outcomes (replace_post), every world, every fault position *)
Theorem C11_replace_outcomes : forall opi index old w k c0,
  NoDup (ids (wls w)) -> find_wl w (w_id old) = Some old -> find_cont w (w_id old) = Some c0 ->
  find_wl w (w_id (new_of opi index old)) = None -> find_cont w (w_id (new_of opi index old)) = None ->
  exists w' k' r, crunk (do_replace opi index old) w k = (w', k', r) /\ replace_post opi index old w w' r.
Proof. exact do_replace_spec. Qed.
Print Assumptions C11_replace_outcomes.

(* a failed replace leaves the old workload recorded and its container untouched or running; nothing about
   usage or nodes changes; if the new workload was not deployed the records are what they were *)
Theorem C11_replace_failed : forall opi index old w k c0,
  NoDup (ids (wls w)) -> find_wl w (w_id old) = Some old -> find_cont w (w_id old) = Some c0 ->
  find_wl w (w_id (new_of opi index old)) = None -> find_cont w (w_id (new_of opi index old)) = None ->
  exists w' k' r, crunk (do_replace opi index old) w k = (w', k', r) /\
    (snd r <> None ->
       In old (wls w') /\ plugs w' = plugs w /\ nodes w' = nodes w /\
       (conts w' = conts w \/ find_cont w' (w_id old) = Some (mkCont (w_id old) CRunning))) /\
    (snd r <> None -> fst (fst r) = None -> wls w' = wls w).
Proof. exact replace_failed_keeps_old. Qed.
Print Assumptions C11_replace_failed.

Theorem C11_replace_refuted :
  r_err replace_bad = 0%Z /\
  In (MReplace (mkWid 7 0 0) (Some (mkWid 9 0 0)) false (Some EInjected)) (r_msgs replace_bad) /\
  use_okb busy3 = true /\ use_okb (r_world replace_bad) = false /\
  same_proj (r_world replace_bad) busy3 = false.
Proof. exact replace_breaks_usage. Qed.
Print Assumptions C11_replace_refuted.

Theorem C11_txn_is_C17 : forall cnd thn rb cp ca,
  cnd <> Absent ->
  let '(w, _, r) := runk tcall unit tworld texec (fun _ => tt) (fun _ => true) (txn_of cnd thn rb) nil None in
  w = map (fun e => (who e, flag e)) (fst (Txn.txn cnd thn rb cp ca)) /\
  tresult r cnd = snd (Txn.txn cnd thn rb cp ca).
Proof. exact txn_matches_C17. Qed.
Print Assumptions C11_txn_is_C17.
