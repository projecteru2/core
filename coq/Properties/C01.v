(* C01 — deploy plans respect the requested count and each node's capacity.
   Only theorem statements here; proofs are in Strategy/Proofs*.v and
   Strategy/Statements.v, those of the deploy path in Calcium/DeployPath*.v.

   [deploy s need limit infos total] is the model of strategy.Deploy
   (Strategy/Model.v).  [valid_infos]: distinct names, 0 <= capacity, 0 <= count
   (usage and rate arbitrary).  [C01_spec s need limit infos p] (Strategy/ProofsBase.v):
     keys of p are distinct candidate names; 0 <= p n <= cap n for every candidate;
     AUTO/GLOBAL/DRAINED: sum p = need;
     EACH: exactly limit' keys (limit' = limit, or all nodes when 0), each with value need;
     FILL: exactly limit' keys, each selected node ends at max(count, need);
     AUTO with limit <> 0: count n + p n <= limit for every node that received >= 1. *)
From Coq Require Import String ZArith List Permutation Sorted.
From Verif Require Import Base.GoInt Base.GoSort Base.GoSortSpec Strategy.Model Strategy.ProofsBase
  Strategy.ProofsSort Strategy.Proofs Strategy.ProofsOk Strategy.ProofsOld Strategy.Statements Strategy.Glue Strategy.ProofsGlue Strategy.ProofsProj Strategy.ModelW Strategy.ProofsW Strategy.ProofsW2 Calcium.DeployPath Calcium.DeployPathProofs Calcium.DeployPathCaps Calcium.DeployPathCommit.
Local Open Scope Z_scope.

(* full statement, all five strategies, all tables / counts / limits / totals *)
Theorem C01_plans_sound :
  forall infos need limit total,
  valid_infos infos -> 0 < need -> 0 <= limit ->
  forall s p, is_plan (deploy s need limit infos total) p -> C01_spec s need limit infos p.
Proof. exact C01_sound. Qed.
Print Assumptions C01_plans_sound.

(* the sort-based strategies for EVERY sorted permutation sort.Slice may produce *)
Theorem C01_any_sorted_order :
  (forall infos sorted need limit,
  valid_infos infos -> Permutation infos sorted -> Sorted (ngt each_less) sorted -> 0 < need -> 0 <= limit ->
  forall p, each_from sorted need (each_limit infos limit) = Ok p -> C01_spec Each need limit infos p) /\
  (forall infos sorted need limit,
  valid_infos infos -> Permutation infos sorted -> Sorted (ngt fill_less) sorted -> 0 <= limit ->
  forall r p, fill_from sorted need (each_limit infos limit) = r -> is_plan r p ->
  C01_spec Fill need limit infos p /\ (r = AlreadyFilled p -> plan_sum p = 0)) /\
  (forall infos sorted need total,
  valid_infos infos -> Permutation infos sorted -> Sorted (ngt drained_less) sorted -> 0 < need ->
  forall p limit, drained_from sorted need total = Ok p -> C01_spec Drained need limit infos p).
Proof. exact (conj each_C01 (conj fill_C01 drained_C01_limit)). Qed.
Print Assumptions C01_any_sorted_order.

(* ErrAlreadyFilled is returned only by FILL and plans nothing *)
Theorem C01_already_filled :
  forall infos need limit total,
  valid_infos infos -> 0 < need -> 0 <= limit ->
  forall s p, deploy s need limit infos total = AlreadyFilled p -> s = Fill /\ plan_sum p = 0.
Proof. exact already_filled_fill. Qed.
Print Assumptions C01_already_filled.

(* the boolean check evaluated on the implementation's output decides the
   specification, and the model's own output always passes it *)
Theorem C01_ok_reflects_and_sound :
  (forall s need limit infos p,
  C01_plan_ok s need limit infos p = true <-> C01_spec s need limit infos p) /\
  (forall s need limit infos total ord,
  C01_ok (mkCase s need limit infos total (deploy s need limit infos total) ord) = true).
Proof. exact (conj C01_reflect C01_ok_model). Qed.
Print Assumptions C01_ok_reflects_and_sound.

(* non-vacuity: a valid table on which every strategy returns a plan *)
Theorem C01_hypotheses_satisfiable :
  valid_infos ex_infos /\
  (exists p, deploy Auto 4 3 ex_infos max_int = Ok p) /\
  (exists p, deploy Global 5 0 ex_infos max_int = Ok p) /\
  (exists p, deploy Drained 5 0 ex_infos max_int = Ok p) /\
  (exists p, deploy Each 2 2 ex_infos max_int = Ok p) /\
  (exists p, deploy Fill 4 2 ex_infos max_int = Ok p) /\
  feasible Auto 4 3 ex_infos = true /\ feasible Fill 4 2 ex_infos = true /\
  feasible Each 2 0 ex_infos = true /\ feasible Auto 5 3 ex_infos = false.
Proof. exact (conj ex_valid ex_all_strategies_plan). Qed.
Print Assumptions C01_hypotheses_satisfiable.

(* through the glue doGetDeployStrategy (cluster/calcium/resource.go), for every
   iteration order of the capacity map *)
Theorem C01_glue :
  forall caps order status need limit total,
  valid_caps caps status -> Permutation caps order -> 0 < need -> 0 <= limit ->
  forall s p, glue s need limit order status total = Ok p ->
  C01_spec s need limit (glue_infos order status) p.
Proof. exact glue_C01. Qed.
Print Assumptions C01_glue.

(* Which sorted permutation sort.Slice returns (pdqsort is unstable beyond 12 elements)
   does not matter up to ties: any two sorted permutations give the same multiset of
   projected tuples (attributes the strategy reads, plan entry), and the outcome class
   (plan / already filled / which refusal) does not depend on the sorted permutation either *)
Theorem C01_ties_well_defined :
  (forall infos s1 s2 need limit,
  valid_infos infos -> Permutation infos s1 -> Permutation infos s2 ->
  Sorted (ngt each_less) s1 -> Sorted (ngt each_less) s2 -> 0 <= limit ->
  forall p1 p2, each_from s1 need (each_limit infos limit) = Ok p1 ->
  each_from s2 need (each_limit infos limit) = Ok p2 ->
  Permutation (map (proj Each p1) infos) (map (proj Each p2) infos)) /\
  (forall infos s1 s2 need limit,
  valid_infos infos -> Permutation infos s1 -> Permutation infos s2 ->
  Sorted (ngt fill_less) s1 -> Sorted (ngt fill_less) s2 -> 0 <= limit ->
  forall r1 r2 p1 p2, fill_from s1 need (each_limit infos limit) = r1 -> is_plan r1 p1 ->
  fill_from s2 need (each_limit infos limit) = r2 -> is_plan r2 p2 ->
  Permutation (map (proj Fill p1) infos) (map (proj Fill p2) infos)) /\
  (forall infos s1 s2 need total,
  valid_infos infos -> (forall x, In x infos -> GoFloat.f_finite (usage x) = true) ->
  Permutation infos s1 -> Permutation infos s2 ->
  Sorted (ngt drained_less) s1 -> Sorted (ngt drained_less) s2 -> 0 < need ->
  forall p1 p2, drained_from s1 need total = Ok p1 -> drained_from s2 need total = Ok p2 ->
  Permutation (map (proj Drained p1) infos) (map (proj Drained p2) infos)) /\
  (forall infos s1 s2 need limit,
  Permutation infos s1 -> Permutation infos s2 ->
  Sorted (ngt each_less) s1 -> Sorted (ngt each_less) s2 -> 0 <= limit ->
  res_class_eqb (each_from s1 need (each_limit infos limit)) (each_from s2 need (each_limit infos limit)) = true) /\
  (forall infos s1 s2 need limit,
  valid_infos infos -> Permutation infos s1 -> Permutation infos s2 ->
  Sorted (ngt fill_less) s1 -> Sorted (ngt fill_less) s2 -> 0 <= limit ->
  res_class_eqb (fill_from s1 need (each_limit infos limit)) (fill_from s2 need (each_limit infos limit)) = true) /\
  (forall infos s1 s2 need total,
  valid_infos infos -> Permutation infos s1 -> Permutation infos s2 -> 0 < need ->
  res_class_eqb (drained_from s1 need total) (drained_from s2 need total) = true).
Proof. exact (conj each_proj_invariant (conj fill_proj_invariant (conj drained_proj_invariant (conj each_class_invariant (conj fill_class_invariant drained_class_invariant))))). Qed.
Print Assumptions C01_ties_well_defined.

(* int64: the twin model with every + and - wrapped to int64 (the one the
   correspondence check runs) equals the Z model on the domain; so the theorem also
   holds for the int64 twin there, and the domain conditions are needed *)
Theorem C01_int64 :
  (forall s need limit infos total,
  NoDup (names infos) -> dom64 s need limit infos ->
  deploy_fullW s need limit infos total = deploy_full s need limit infos total) /\
  (forall s need limit infos total,
  NoDup (names infos) -> dom64 s need limit infos ->
  forall p, is_plan (deployW s need limit infos total) p -> C01_spec s need limit infos p).
Proof. exact (conj deploy_fullW_eq C01_sound_W). Qed.
Print Assumptions C01_int64.

Theorem C01_int64_domain_needed :
  ((exists p, deployW Fill max_int 0 w_fill_wrap max_int = AlreadyFilled p /\ plan_sum p <> 0) /\
   (exists p, deploy Fill max_int 0 w_fill_wrap max_int = Ok p) /\
   int64_domain Fill max_int 0 w_fill_wrap = false) /\
  (deployW Auto 4 0 w_auto_wrap 10 <> deploy Auto 4 0 w_auto_wrap 10 /\
   int64_domain Auto 4 0 w_auto_wrap = false).
Proof. exact (conj fill_todeploy_wraps auto_count_wraps). Qed.
Print Assumptions C01_int64_domain_needed.

(* the composed deploy path (Calcium/DeployPath.v): cpumem capacity -> cobalt
   aggregation -> doGetDeployStrategy -> strategy.Deploy -> per-node Alloc.
   [path_hyps] (Calcium/DeployPathProofs.v): valid request, distinct node names,
   the plugin computed [caps], capacities are Go ints (named hypothesis caps_int64),
   deploy status >= 0, [morder] any iteration order of the merged capacity map.
   (b) every planned allocation is accepted by the plugin on the unchanged node;
   (b) for any set of plugins: the planned count is within every plugin's capacity;
   (c) a node that some plugin does not offer, or offers with capacity <= 0, never
   receives instances *)
Theorem C01_path :
  (forall sortf base maxshare raw req orders nodes caps morder status need limit s p n,
  path_hyps sortf base maxshare raw req orders nodes caps morder status need limit ->
  deploy_path sortf base maxshare raw orders nodes morder status s need limit = PResult (Ok p) ->
  In n nodes -> 1 <= mget p (fst n) ->
  alloc_accepts sortf base maxshare raw orders n (mget p (fst n)) = true) /\
  (forall (answers : list Merge.famap) morder status need limit,
  answers <> nil ->
  (forall a, In a answers -> NoDup (map fst a)) ->
  (forall a k v, In a answers -> In (k, v) a -> 0 <= Merge.n_cap v <= max_int) ->
  (forall k, 0 <= mget status k) ->
  Permutation (entries_of (fst (Merge.gndc_f answers))) morder ->
  0 < need -> 0 <= limit ->
  forall s p n a i,
  manager_then_deploy answers morder status s need limit = Ok p ->
  In a answers -> Merge.lookup n a = Some i -> 0 <= mget p n <= Merge.n_cap i) /\
  (forall (answers : list Merge.famap) morder status need limit,
  answers <> nil ->
  (forall a, In a answers -> NoDup (map fst a)) ->
  (forall a k v, In a answers -> In (k, v) a -> 0 <= Merge.n_cap v <= max_int) ->
  (forall k, 0 <= mget status k) ->
  Permutation (entries_of (fst (Merge.gndc_f answers))) morder ->
  0 < need -> 0 <= limit ->
  forall s p n,
  manager_then_deploy answers morder status s need limit = Ok p ->
  mhas p n = true -> forall a, In a answers -> In n (map fst a)) /\
  (forall sortf base maxshare raw req orders nodes caps morder status need limit s p n c,
  path_hyps sortf base maxshare raw req orders nodes caps morder status need limit ->
  deploy_path sortf base maxshare raw orders nodes morder status s need limit = PResult (Ok p) ->
  In (n, c) caps -> Calc.cap_capacity c <= 0 -> mhas p n = false /\ mget p n = 0).
Proof. exact (conj deploy_path_alloc_accepted (conj path_within_every_plugin (conj path_only_offered deploy_path_not_offered))). Qed.
Print Assumptions C01_path.

(* the hypothesis caps_int64 inside [path_hyps] follows from the node records being Go
   ints with well-formed maps (Calcium/DeployPathCaps.v, from Cpumem.SchedProofsFit2.get_cpu_plans_content): [nodes_ok] *)
Theorem C01_path_hyps_discharged :
  forall (sortf : list Schedule.keyed -> Types.outcome (list Schedule.keyed)),
  (forall l, exists l', sortf l = Types.Ok l' /\ Permutation l' l) ->
  forall base maxshare (raw req : Types.wreq) orders nodes caps morder status need limit,
  Types.wreq_validate raw = Datatypes.inr req -> NoDup (map fst nodes) -> 0 < base -> nodes_ok orders nodes ->
  plugin_caps sortf base maxshare req orders nodes = Types.Ok caps ->
  (forall k, 0 <= mget status k) ->
  Permutation (entries_of (fst (Capacity.manager_capacity caps))) morder ->
  0 < need -> 0 <= limit ->
  path_hyps sortf base maxshare raw req orders nodes caps morder status need limit.
Proof. exact path_hyps_of_nodes. Qed.
Print Assumptions C01_path_hyps_discharged.

(* (d) commit step along the path: a node that received instances keeps its capacity and
   its memory usage grows by exactly planned count * memory request *)
Theorem C01_path_commit :
  forall sortf base maxshare (raw req : Types.wreq) orders nodes caps morder status need limit s p n,
  path_hyps sortf base maxshare raw req orders nodes caps morder status need limit ->
  deploy_path sortf base maxshare raw orders nodes morder status s need limit = PResult (Ok p) ->
  In n nodes -> 1 <= mget p (fst n) ->
  exists info', node_after sortf base maxshare raw orders n (mget p (fst n)) = Some info' /\
    Types.ni_cap info' = Types.ni_cap (snd n) /\
    Types.nr_mem (Types.ni_usage info') =
      Types.nr_mem (Types.ni_usage (snd n)) + mget p (fst n) * Types.rq_mem_req req.
Proof. exact deploy_path_commit. Qed.
Print Assumptions C01_path_commit.

(* (d, cpu side): on every node that received instances the usage of every core grows by
   exactly what the recorded workloads bind on it, as many workloads as planned are
   recorded, and the node record stays valid (per-core usage <= capacity, memory <= capacity) *)
Theorem C01_path_commit_cpu :
  forall (sortf : list Schedule.keyed -> Types.outcome (list Schedule.keyed)),
  (forall l, exists l', sortf l = Types.Ok l' /\ Permutation l' l) ->
  forall base maxshare (raw req : Types.wreq) orders nodes caps morder status need limit s p n,
  path_hyps sortf base maxshare raw req orders nodes caps morder status need limit ->
  0 < base -> SchedCase.valid_node (snd n) = true -> NoDup (orders (fst n)) -> ~ In EmptyString (orders (fst n)) ->
  deploy_path sortf base maxshare raw orders nodes morder status s need limit = PResult (Ok p) ->
  In n nodes -> 1 <= mget p (fst n) ->
  exists eps ws,
    Calc.calculate_deploy_g sortf (snd n) base maxshare (mget p (fst n)) raw (orders (fst n)) (Schedule.default_fuel (snd n))
      = Types.Ok (Datatypes.inr (eps, ws)) /\
    node_after sortf base maxshare raw orders n (mget p (fst n)) = Some (Calc.commit_usage (snd n) ws) /\
    length ws = Z.to_nat (mget p (fst n)) /\
    (forall id, Types.lookup 0 (Types.nr_cpumap (Types.ni_usage (Calc.commit_usage (snd n) ws))) id =
                Types.lookup 0 (Types.nr_cpumap (Types.ni_usage (snd n))) id
                + SchedProofsFit.used (map Types.wr_cpumap ws) id) /\
    Types.validate_ok (Calc.commit_usage (snd n) ws) = true.
Proof. exact deploy_path_commit_cpu. Qed.
Print Assumptions C01_path_commit_cpu.
