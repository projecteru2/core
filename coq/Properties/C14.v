(* C14 — a crash during deployment is repaired by recovery.
   (Model of create.go after the repair (6b580a2) of the order of the deferred clean-up;
   the defect is kept as RecoverProofs.old_order_marker_leak and as a fixed finding.) *)
From Coq Require Import List ZArith.
From Verif Require Import Calcium.Recover Calcium.RecoverProofs.
Import ListNotations.
Local Open Scope Z_scope.

(* For every plan (any number of nodes and instances), every crash
   configuration g satisfying the program-order invariant [valid] (= every
   crash point between two externally visible steps - store write, plugin
   write, engine call, log write / commit - under every interleaving of the
   instance goroutines), every node whose usage equalled the sum of its recorded
   workloads before the deployment: after the WAL handlers ran in log order
   - usage = sum of the recorded workloads,
   - every instance is recorded and running, or absent from store and engine,
     or is the container created right before the crash and not yet logged,
   - no in-progress marker of the deployment remains. *)
Theorem C14_recovery : forall g (before : list (Z * Z)),
  valid g = true -> List.length before = List.length (per_node g) ->
  (forall p, In p before -> fst p = snd p) ->
  forall p nc, In (p, nc) (combine before (per_node g)) ->
  let ns := crash_node (fst p) (snd p) nc in
  let ns' := recover_node (wal_alloc_open g) ns in
  usage_ok ns' = true /\ insts_ok ns ns' = true /\ marker_ok ns' = true.
Proof. exact recovery_ok. Qed.
Print Assumptions C14_recovery.

(* program order rules out the window in which a marker would leak *)
Theorem C14_no_leak_window : forall g nc, valid g = true -> In nc (per_node g) -> leak_window nc = false.
Proof. exact valid_no_leak_window. Qed.
Print Assumptions C14_no_leak_window.

(* every configuration reached by executing calls in program order (any
   interleaving of instances) is a valid crash configuration *)
Theorem C14_reachable_valid : forall plan cs g,
  grun (gc_start plan) cs = Some g -> valid g = true.
Proof. exact reachable_valid. Qed.
Print Assumptions C14_reachable_valid.
