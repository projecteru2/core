(* C21 — node selection yields exactly the filtered set of distinct nodes. *)
From Coq Require Import List String Sorted.
From Verif Require Import Base.GoStr Base.GoStrLemmas Select.Model Select.Proofs.
Import ListNotations.

(* For every store with distinct node names, every filter: the result of filterNodes is
   strictly sorted by name (each node once); with an include list it is exactly the set of
   named nodes (error iff one is unknown); otherwise it is exactly the pod's (or all pods')
   nodes carrying the labels, minus the excludes, minus down/bypassed nodes unless all. *)
Theorem C21_select : forall st f, store_wf st -> select_spec st f (filter_nodes st f).
Proof. exact filter_nodes_spec. Qed.
Print Assumptions C21_select.

(* regardless of repeats or order of the include list *)
Theorem C21_includes_order_irrelevant : forall st f1 f2 ns1 ns2,
  store_wf st -> f_includes f1 <> [] -> f_includes f2 <> [] ->
  (forall x, In x (f_includes f1) <-> In x (f_includes f2)) ->
  filter_nodes st f1 = Some ns1 -> filter_nodes st f2 = Some ns2 -> ns1 = ns2.
Proof. exact includes_order_irrelevant. Qed.
Print Assumptions C21_includes_order_irrelevant.

Theorem C21_includes_error_iff : forall st f, f_includes f <> [] ->
  (filter_nodes st f <> None <-> forall x, In x (f_includes f) -> In x (map n_name (s_nodes st))).
Proof. exact includes_defined_iff. Qed.
Print Assumptions C21_includes_error_iff.

(* the (nondeterministic) order in which the store returns nodes and pods is irrelevant *)
Theorem C21_store_order_irrelevant : forall st1 st2 f ns1 ns2,
  store_wf st1 -> store_wf st2 ->
  (forall n, In n (s_nodes st1) <-> In n (s_nodes st2)) ->
  (forall p, In p (s_pods st1) <-> In p (s_pods st2)) ->
  filter_nodes st1 f = Some ns1 -> filter_nodes st2 f = Some ns2 -> ns1 = ns2.
Proof. exact store_order_irrelevant. Qed.
Print Assumptions C21_store_order_irrelevant.

(* utils.Unique: the first p elements are the distinct elements of the input, sorted *)
Theorem C21_unique : forall s out p, unique s = (out, p) ->
  StronglySorted slt (firstn p out) /\ (forall y, In y (firstn p out) <-> In y s)
  /\ List.length out = List.length s.
Proof. exact unique_spec. Qed.
Print Assumptions C21_unique.

(* the code before the repair (Unique on a copy of the names, then ns[:p]) violated the
   statement: Includes = [a; a; b] selects [a; a] *)
Theorem C21_old_code_refuted :
  exists st f ns, store_wf st /\ filter_nodes_old st f = Some ns /\ ~ select_spec st f (Some ns).
Proof. exact old_code_refuted. Qed.
Print Assumptions C21_old_code_refuted.

(* the boolean check evaluated on the implementation's output is the Prop-level statement *)
Theorem C21_ok_reflects : forall st f names, store_wf st ->
  (select_ok st f (Some names) = true <->
   StronglySorted slt names /\
   match f_includes f with
   | _ :: _ => forall x, In x names <-> In x (f_includes f)
   | [] => forall x, In x names <-> exists n, selected st f n /\ n_name n = x
   end).
Proof.
  intros st f names _. rewrite select_ok_some_iff. unfold expected. destruct (f_includes f); reflexivity.
Qed.
Print Assumptions C21_ok_reflects.

Theorem C21_ok_sound_on_model : forall st f, store_wf st ->
  select_ok st f (option_map (map n_name) (filter_nodes st f)) = true.
Proof. exact select_ok_on_model. Qed.
Print Assumptions C21_ok_sound_on_model.
