(* C27 — service discovery subscribers converge to the registered set.
   Only the property theorems; model in Discovery/Helium.v, proofs in
   Discovery/StreamProofs.v and Discovery/HeliumProofs.v; those about the
   harness check in Discovery/OkProofs.v and Discovery/GenProofs.v.

   Full statement (refuted, see C27_full_refuted): for every history, after the
   next tick every live subscriber has received exactly the registered set and
   no Unsubscribe call is left waiting.  It fails when some subscriber in the
   map neither receives nor is cancelled (C27_stall_blocks); the strongest true
   statements are C27_converge (safety, all schedules), C27_full_partial
   (liveness under "no stalled subscriber") and C27_unsub. *)
From Coq Require Import List.
From Verif Require Import Discovery.Helium Discovery.StreamProofs Discovery.HeliumProofs Discovery.OkProofs Discovery.GenProofs.
Import ListNotations.

(* store/etcdv3 ServiceStatusStream: watch before get.  Whatever is committed
   between establishing the watch and serving the Get, and however the watch
   batches later events, the last address list sent equals the registered keys. *)
Theorem C27_stream : forall keys0 between after,
  no_err (between ++ after) ->
  meq (last_item (service_status_stream true keys0 between after) [])
      (kv_apply keys0 (events_of (between ++ after))).
Proof. exact stream_converges. Qed.
Print Assumptions C27_stream.

(* every delivered message is the list most recently consumed from the stream
   (for all event scripts = all interleavings), and what a subscriber holds is
   exactly its deliveries *)
Theorem C27_latest : forall evs,
  let s := run init evs in
  deliveries_ok (trace s) /\ (forall i, recv_of s i = deliveries_of i (trace s)).
Proof. exact latest_holds. Qed.
Print Assumptions C27_latest.

(* after any history, a tick and ANY continuation of the system goroutines:
   once they are at rest every live subscriber's last message is the list the
   stream last produced *)
Theorem C27_converge : forall evs ks, Forall sys_event ks ->
  let s0 := run init evs in
  let s1 := run s0 (ETick :: ks) in
  quiescentb s1 = true ->
  forall i, liveb s1 i = true -> last_recv s1 i = Some (registered s0).
Proof. exact converge_safe. Qed.
Print Assumptions C27_converge.

(* ... and they do come to rest within drain_bound steps of the next tick when
   no subscriber is stalled; live subscribers stay live; no Unsubscribe waits *)
Theorem C27_full_partial : forall evs,
  let s0 := run init evs in
  aliveb s0 = true -> no_stallb s0 = true ->
  let s1 := drain (drain_bound s0) (step s0 ETick) in
  quiescentb s1 = true /\
  (forall i, liveb s1 i = true -> last_recv s1 i = Some (registered s0)) /\
  (forall i, liveb s0 i = true -> ~ In i (unsubq s0) -> liveb s1 i = true) /\
  unsubq s1 = [].
Proof. exact converge_live. Qed.
Print Assumptions C27_full_partial.

(* cancel-then-Unsubscribe (calcium.WatchServiceStatus) completes and closes the channel *)
Theorem C27_unsub : forall evs i,
  let s0 := run init evs in
  i < length (clients s0) ->
  let s := run s0 [ECancel i; EUnsubscribe i] in
  aliveb s = true -> no_stallb s = true ->
  let s1 := drain (drain_bound s) s in
  quiescentb s1 = true /\ In (TUnsubRet i) (trace s1) /\ ~ In i (subs s1) /\
  exists c, nth_error (clients s1) i = Some c /\ cclosed c = true.
Proof. exact unsub_completes. Qed.
Print Assumptions C27_unsub.

(* ... and when EVERY subscriber is cancelled and unsubscribed this way no
   hypothesis about stalled readers is needed: all calls return, the map is
   empty, every channel is closed *)
Theorem C27_unsub_all : forall evs,
  let s0 := run init evs in
  aliveb s0 = true ->
  let s := run s0 (cancel_all (length (clients s0))) in
  let s1 := drain (drain_bound s) s in
  quiescentb s1 = true /\ subs s1 = [] /\ unsubq s1 = [] /\
  (forall i c, nth_error (clients s1) i = Some c -> cclosed c = true).
Proof. exact unsub_all. Qed.
Print Assumptions C27_unsub_all.

(* the unrestricted statement is false of the code as it is *)
Theorem C27_full_refuted : ~ C27_full.
Proof. exact full_refuted. Qed.
Print Assumptions C27_full_refuted.

(* the defect in general: dispatch waiting on a stalled subscriber blocks
   deliveries to everybody else, stream consumption and every Unsubscribe, for ever *)
Theorem C27_stall_blocks : forall ks s cur msg,
  loop s = LDispatch cur msg -> stalledb (clients s) cur = true ->
  Forall (fun e => sys_event e \/ e = ETick) ks -> same_but_tick s (run s ks).
Proof. exact stall_blocks. Qed.
Print Assumptions C27_stall_blocks.

(* the boolean check evaluated by the harness: ok c = true implies the clauses of the property as propositions over the
   observed run: per slot "latest" (every message is one of the lists produced so
   far, never going back) and, across a tick with the stream alive, "converge"
   (every live subscriber's last message is the current list); at the end every
   Unsubscribe call returned and the channels of the unsubscribed are closed *)
Theorem C27_ok_reflects : forall c, ok c = true ->
  (forall pre sl post, slots c = pre ++ sl :: post -> OkProofs.slot_clause (fold_left ok_step pre (ok_init c)) sl) /\
  unsub_clause c.
Proof. exact OkProofs.ok_reflects. Qed.
Print Assumptions C27_ok_reflects.

(* ... and conversely ok accepts every run whose slots satisfy the clauses and
   whose Unsubscribe calls completed (or whose stream was closed) *)
Theorem C27_ok_complete : forall c,
  (forall pre sl post, slots c = pre ++ sl :: post -> OkProofs.slot_clause (fold_left ok_step pre (ok_init c)) sl) ->
  (o_dead (ok_final c) = true \/
   ((forall b, In b (fin_unsub c) -> b = true) /\
    length (fin_unsub c) = length (o_calls (ok_final c)) /\
    (forall i, In i (o_calls (ok_final c)) -> nth i (fin_closed c) false = true))) ->
  ok c = true.
Proof. exact OkProofs.ok_complete. Qed.
Print Assumptions C27_ok_complete.


(* ok accepts the model's own observations (canonical schedule of the system
   goroutines) for EVERY script the harness can produce (subscriber keys
   distinct, subscriber numbers in range) in which no dispatch is triggered
   while a subscriber in the map neither reads nor is cancelled -- the tag
   stall_exposed of the known finding, defined here as OkProofs.exposed *)
Theorem C27_ok_gen : forall acts,
  wf_from [] acts = true -> exposed acts = false -> ok (OkProofs.gen_case acts) = true.
Proof. exact GenProofs.ok_gen. Qed.
Print Assumptions C27_ok_gen.
