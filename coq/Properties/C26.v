(* C26 — ephemeral registrations are exclusive and owner-safe.
   etcd implementation (store/etcdv3/meta/ephemeral.go): proved, for any number of
   registrants under any schedule of register / tick / stop / third-party lease
   revocation / clock advance.
   redis implementation (store/redis/ephemeral.go): REFUTED (known finding
   C26-redis-no-owner-check): EXPIRE and DEL carry no owner check and a lapse is
   never notified.  Full statement for redis, false of the faithful model:
     forall reachable s, two believers -> i = j;  a lapsed believer is closed at
     its next tick;  QTick i / QStop i leave a key created by j <> i untouched.
   Strongest true statement: C26_redis_partial (no lapse: exclusive, and the one
   believer is the creator of the key, so its refresh / delete act on its own key).
   This file contains only the property theorems. *)
From Coq Require Import List ZArith.
From Verif Require Import Base.KV Locks.Interleave Locks.Ephemeral Locks.EphemeralProofs Locks.EphemeralOkProofs.

Theorem C26_etcd_exclusive : forall s i j a b,
  reachable estep esys_init s ->
  nth_error (es_rs s) i = Some a -> nth_error (es_rs s) j = Some b ->
  e_holds s a = true -> e_holds s b = true -> i = j.
Proof. exact etcd_exclusive. Qed.
Print Assumptions C26_etcd_exclusive.

Theorem C26_etcd_holder_owns_key : forall s i a,
  reachable estep esys_init s -> nth_error (es_rs s) i = Some a -> e_holds s a = true ->
  e_owner_lease s = Some (g_lease a).
Proof. exact etcd_holder_owns_key. Qed.
Print Assumptions C26_etcd_holder_owns_key.

Theorem C26_etcd_notified : forall s i g,
  nth_error (es_rs s) i = Some g -> g_pc g = EActive -> e_lease_live (es_kv s) (g_lease g) = false ->
  exists s1 s2 g2, estep s (GTick i) = Some s1 /\ estep s1 (GRevokeOwn i) = Some s2 /\
                   nth_error (es_rs s2) i = Some g2 /\ g_pc g2 = EClosed.
Proof. exact etcd_notified. Qed.
Print Assumptions C26_etcd_notified.

Theorem C26_etcd_owner_safe : forall s l s' i g',
  own_step i l -> estep s l = Some s' -> nth_error (es_rs s') i = Some g' ->
  touches_only (g_lease g') (es_kv s) (es_kv s').
Proof. exact etcd_owner_safe. Qed.
Print Assumptions C26_etcd_owner_safe.

Theorem C26_etcd_others_cannot_disturb : forall s l s' i j a,
  reachable estep esys_init s ->
  own_step i l -> i <> j -> estep s l = Some s' ->
  nth_error (es_rs s) j = Some a -> e_holds s a = true ->
  nth_error (es_rs s') j = Some a /\ e_holds s' a = true /\ e_owner_lease s' = Some (g_lease a).
Proof. exact etcd_others_cannot_disturb. Qed.
Print Assumptions C26_etcd_others_cannot_disturb.

Theorem C26_redis_refuted :
  exists s0 s1 s2 a0 b0 a1 b2,
    run sstep ssys_init c26_prefix = Some s0 /\
    nth_error (ss_rs s0) 0 = Some a0 /\ nth_error (ss_rs s0) 1 = Some b0 /\
    s_believes a0 = true /\ s_believes b0 = true /\ s_owner s0 = Some 1%nat /\
    r_ttl ueq (ss_kv s0) tt = Some (Some 200%Z) /\
    sstep s0 (QTick 0) = Some s1 /\
    s_owner s1 = Some 1%nat /\ r_ttl ueq (ss_kv s1) tt = Some (Some 1000%Z) /\
    nth_error (ss_rs s1) 0 = Some a1 /\ s_believes a1 = true /\
    sstep s1 (QStop 0) = Some s2 /\
    s_owner s2 = None /\ nth_error (ss_rs s2) 1 = Some b2 /\ s_believes b2 = true.
Proof. exact redis_c26_refuted. Qed.
Print Assumptions C26_redis_refuted.

Theorem C26_redis_never_notified : forall ls s s' i g,
  run sstep s ls = Some s' -> nth_error (ss_rs s) i = Some g -> q_pc g = SActive -> no_stop i ls ->
  exists g', nth_error (ss_rs s') i = Some g' /\ q_pc g' = SActive.
Proof. exact redis_never_notified_run. Qed.
Print Assumptions C26_redis_never_notified.

Theorem C26_redis_partial : forall s i j a b,
  reachable sstep_nl ssys_init s ->
  nth_error (ss_rs s) i = Some a -> nth_error (ss_rs s) j = Some b ->
  s_believes a = true -> s_believes b = true -> i = j /\ s_owner s = Some i.
Proof. exact redis_exclusive_without_lapse. Qed.
Print Assumptions C26_redis_partial.

(* bounded sweep (the bound is part of the statement): on every schedule of at most
   5 macro operations over two registrants that the harness can produce, directly
   and through selfmon.withActiveLock, the boolean reflection [Ephemeral.ok]
   evaluated on what the etcd model produces is true *)
Theorem C26_ok_accepts_etcd_model_bounded :
  forallb (fun ops => orb (negb (e_legal e_start ops)) (ok_on_model BEtcd (1%Z :: 1%Z :: nil) ops)) (schedules 5) = true /\
  forallb (fun ops => orb (negb (ew_legal (e_start, None) ops)) (ok_on_model BEtcdW (1%Z :: 1%Z :: nil) ops)) (schedules 5) = true.
Proof. exact ok_sound_on_etcd_model_bounded. Qed.
Print Assumptions C26_ok_accepts_etcd_model_bounded.

(* the registrants named by the property — service registration
   (calcium.RegisterService) and the active node-status watcher (selfmon.run /
   withActiveLock) — are client loops over StartEphemeral: in any of the three
   loops, for any number of registrants and any schedule of start / lapse / tick /
   stop, across restarts and re-registrations, at most one registrant believes it
   holds the key with a live lease, and the key carries its lease *)
Theorem C26_etcd_loops_exclusive : forall mode obsf ttls ops s i j a b,
  s = fst (w_state mode obsf (run_skip estep esys_init (map GNew ttls), None) ops) ->
  nth_error (es_rs s) i = Some a -> nth_error (es_rs s) j = Some b ->
  e_holds s a = true -> e_holds s b = true ->
  i = j /\ e_owner_lease s = Some (g_lease a).
Proof. exact etcd_loops_exclusive. Qed.
Print Assumptions C26_etcd_loops_exclusive.

Theorem C26_ok_accepts_etcd_loops_bounded :
  forallb (fun ops => orb (negb (er_legal WRun e_obs2 (e_start, None) ops)) (ok_on_model BEtcdR (1%Z :: 1%Z :: nil) ops)) (schedules 5) = true /\
  forallb (fun ops => orb (negb (er_legal WService e_obs2 (e_start, None) ops)) (ok_on_model BEtcdS (1%Z :: 1%Z :: nil) ops)) (schedules 5) = true.
Proof. exact ok_sound_on_etcd_loops_bounded. Qed.
Print Assumptions C26_ok_accepts_etcd_loops_bounded.

(* unbounded: for schedules of any length over any number of registrants that the
   harness can produce (a registrant is (re)started only when it is not
   registered), the boolean reflection [Ephemeral.ok] is true on what the etcd
   model produces (plain StartEphemeral mode; for the client loops see the bounded
   sweeps C26_ok_accepts_etcd_loops_bounded and _bounded3) *)
Theorem C26_ok_accepts_etcd_model : forall ttls ops,
  e_legal (run_skip estep esys_init (map GNew ttls)) ops = true ->
  ok (mkCase BEtcd ttls ops (model_obs (mkCase BEtcd ttls ops nil))) = true.
Proof. exact ok_accepts_etcd_model. Qed.
Print Assumptions C26_ok_accepts_etcd_model.

Theorem C26_ok_accepts_etcd_loops_bounded3 :
  forallb (fun ops => orb (negb (ew_legal (e_start3, None) ops)) (ok_on_model BEtcdW (1%Z :: 1%Z :: 1%Z :: nil) ops)) (schedules3 4) = true /\
  forallb (fun ops => orb (negb (er_legal WRun e_obs2 (e_start3, None) ops)) (ok_on_model BEtcdR (1%Z :: 1%Z :: 1%Z :: nil) ops)) (schedules3 4) = true /\
  forallb (fun ops => orb (negb (er_legal WService e_obs2 (e_start3, None) ops)) (ok_on_model BEtcdS (1%Z :: 1%Z :: 1%Z :: nil) ops)) (schedules3 4) = true.
Proof. exact ok_sound_on_etcd_loops_bounded3. Qed.
Print Assumptions C26_ok_accepts_etcd_loops_bounded3.
