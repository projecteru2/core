(* C28 — a failed node's workloads are reported down.
   Only the property theorems; model in Selfmon/Selfmon.v (follows /repo after
   the fix 26913a3), proofs in Selfmon/SelfmonProofs.v; those about the harness
   check are in Selfmon/OkProofs.v (ok_reflects, ok_complete, agree_gen) and
   Selfmon/GenProofs.v (ok_gen).

   "Eventually" is: after the watcher's own steps (settle: open the watch, list,
   read statuses, deliver watch events, run handlers) with no other event in
   between; workloads created on the node afterwards are outside the statement. *)
From Coq Require Import List.
From Verif Require Import Selfmon.Selfmon Selfmon.SelfmonProofs Selfmon.OkProofs Selfmon.GenProofs.
Import ListNotations.

(* for every history: the status of n disappears while watcher k is active (in
   whatever stage of its start-up) => every workload recorded on n is then
   reported running=false, healthy=false *)
Theorem C28_down_lapse : forall evs k se n,
  let s := run init evs in
  phase s k = Active se -> memn n (alive s) = true ->
  let s1 := step s (ELapse n) in
  all_down s (settle (settle_bound s1 k) k s1) n.
Proof. exact down_on_lapse. Qed.
Print Assumptions C28_down_lapse.

(* for every history: watcher k takes the active lock while the status of n is absent => same *)
Theorem C28_down_activation : forall evs k n,
  let s := run init evs in
  phase s k = Waiting -> holder s = None ->
  memn n (nodes s) = true -> memn n (alive s) = false ->
  let s1 := step s (ERegister k) in
  all_down s (settle (settle_bound s1 k) k s1) n.
Proof. exact down_on_activation. Qed.
Print Assumptions C28_down_activation.

(* all interleavings: after the lapse ANY events may follow (environment, other
   watchers, k's own steps in any order) as long as k's session is not ended and
   none of its SetNode calls fails (ends k e: EStop k, EExpire k, EHandleFail k _;
   a failed handler is logged and not retried by the code -- injected store
   failures are outside the property's quantifier);
   once k has finished its own steps, a handler for n has run after the lapse
   and covered every workload that was recorded on n at the lapse *)
Theorem C28_down_interleaved : forall evs1 evs2 k se n,
  let s0 := run init evs1 in
  phase s0 k = Active se -> se_watch se = true -> memn n (alive s0) = true ->
  Forall (fun e => ~ ends k e) evs2 ->
  let s2 := run (step s0 (ELapse n)) evs2 in
  let s3 := settle (settle_bound s2 k) k s2 in
  exists new ws, trace s3 = new ++ trace s0 /\ In (THandled k n ws) new /\ incl (on_node n (wls s0)) ws.
Proof. exact down_interleaved. Qed.
Print Assumptions C28_down_interleaved.

(* all interleavings, second half: k takes the lock while n has no status;
   ANY events follow (k's session not ended); once k has finished its own
   steps, a handler for n has run and covered every workload recorded on n at
   that moment -- or n's status came back in between *)
Theorem C28_activation_interleaved : forall evs1 evs2 k n,
  let s0 := run init evs1 in
  phase s0 k = Waiting -> holder s0 = None -> memn n (nodes s0) = true ->
  Forall (fun e => ~ ends k e) evs2 ->
  let s1 := step s0 (ERegister k) in
  let s2 := run s1 evs2 in
  let s3 := settle (settle_bound s2 k) k s2 in
  handledP s0 s3 k n \/ revived evs2 s1 n.
Proof. exact activation_interleaved. Qed.
Print Assumptions C28_activation_interleaved.

(* in any state: whatever the active session owes for n (queued DELETE, pending
   handler, node its init pass has yet to examine and that has no status) is
   discharged by its own steps *)
Theorem C28_obligations : forall s k se n,
  phase s k = Active se -> owes s se n -> all_down s (settle (settle_bound s k) k s) n.
Proof. exact obligations_discharged. Qed.
Print Assumptions C28_obligations.

(* the handler step: SetNode{WorkloadsDown} marks every workload recorded on n at that step *)
Theorem C28_handler : forall s k se j n,
  phase s k = Active se -> nth_error (se_tasks se) j = Some n ->
  let s' := step s (EHandle k j) in
  all_down s s' n /\ trace s' = THandled k n (on_node n (wls s)) :: trace s.
Proof. exact handler_step. Qed.
Print Assumptions C28_handler.

(* withActiveLock.  In every history the key /selfmon/active, when it exists, is
   bound to the lease of a running session (so at most one session holds it) *)
Theorem C28_one_leased : forall evs k,
  let s := run init evs in holder s = Some k -> active s k.
Proof. exact one_leased. Qed.
Print Assumptions C28_one_leased.

(* two sessions run at the same time only while one of them has lost its lease
   and has not noticed yet (the window after a lease expiry/revoke; it exists:
   SelfmonProofs.double_active_window) *)
Theorem C28_one_active : forall evs k1 k2,
  let s := run init evs in
  active s k1 -> active s k2 -> k1 <> k2 -> stale s k1 \/ stale s k2.
Proof. exact one_active. Qed.
Print Assumptions C28_one_active.

(* hypothesis made explicit: in histories without lease losses at most one watcher is active *)
Theorem C28_one_active_no_loss : forall evs k1 k2 se1 se2,
  Forall (fun e => ~ lease_loss e) evs ->
  let s := run init evs in
  phase s k1 = Active se1 -> phase s k2 = Active se2 -> k1 = k2.
Proof. exact one_active_no_loss. Qed.
Print Assumptions C28_one_active_no_loss.

(* the defect repaired by 26913a3: with the init pass not waiting for the
   watch, a lapse between the two is missed for good (the session ends idle,
   node 0 has no status, its workload is still reported running and healthy) *)
Theorem C28_old_order_refuted :
  let s := old_run init old_witness in
  (exists se, phase s 0 = Active se /\ se_watch se = true /\ se_listed se = true /\
              se_init se = [] /\ se_queue se = [] /\ se_tasks se = []) /\
  memn 0 (alive s) = false /\ map w_st (wls s) = [Some (true, true)].
Proof. exact old_order_missed_lapse. Qed.
Print Assumptions C28_old_order_refuted.

(* the boolean check evaluated by the harness: ok c = true implies, slot by slot, the two clauses of the property as
   propositions over the observed statuses ... *)
Theorem C28_ok_reflects : forall c, ok c = true ->
  forall pre sl post, slots c = pre ++ sl :: post -> slot_clause (fold_left ok_step pre ok_init) sl.
Proof. exact ok_reflects. Qed.
Print Assumptions C28_ok_reflects.

(* ... and accepts every run all of whose slots satisfy them *)
Theorem C28_ok_complete : forall c,
  (forall pre sl post, slots c = pre ++ sl :: post -> slot_clause (fold_left ok_step pre ok_init) sl) ->
  ok c = true.
Proof. exact ok_complete. Qed.
Print Assumptions C28_ok_complete.

(* the model agrees with its own observations for every history *)
Theorem C28_agree_gen : forall acts, agree (gen_case acts) = true.
Proof. exact agree_gen. Qed.
Print Assumptions C28_agree_gen.

(* ok accepts the model's own observations for EVERY history (induction over the
   history with an invariant relating ok's bookkeeping to the model state) *)
Theorem C28_ok_gen : forall acts, ok (gen_case acts) = true.
Proof. exact ok_gen. Qed.
Print Assumptions C28_ok_gen.
