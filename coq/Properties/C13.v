(* C13 — deploy status counts are exact and in-progress markers are cleaned up. *)
From Coq Require Import List String ZArith.
From Verif Require Import Calcium.DeployStatus Calcium.DeployStatusProofs Calcium.DecrLoop Calcium.DecrLoopProofs.
From Verif Require Import Calcium.DeployMulti Calcium.DeployMultiProofs.
Local Open Scope Z_scope.

(* For both backends, every deployment (any plan with distinct nodes and
   non-negative counts, any fresh ident), every accepted sequence of store
   calls = every interleaving of the instance goroutines with every placement
   of injected failures of CreateProcessing / AddWorkload / RemoveWorkload /
   DeleteProcessing, and every prefix of it (the state a reader may observe
   between two calls): for each node, recorded <= status <= prior + planned.
   [0 <= marker_sum (markers st0) n]: the markers other deployments contribute
   on that node do not sum to a negative number. *)
Theorem C13_bounds : forall b ident plan st0 cs1 cs2 a st,
  wf_plan plan -> has_marker_of st0 ident = false ->
  run b ident plan (deployed st0) (start_acc plan, st0) (cs1 ++ cs2) = Some (a, st) ->
  exists a1 st1, run b ident plan (deployed st0) (start_acc plan, st0) cs1 = Some (a1, st1) /\
  forall n, 0 <= marker_sum (markers st0) n ->
  recorded st1 n <= status st1 n <= status st0 n + planned plan n.
Proof. exact C13_every_prefix. Qed.
Print Assumptions C13_bounds.

(* the same for the state reached by a whole accepted sequence *)
Theorem C13_bounds_reached : forall b ident plan st0 cs a st,
  wf_plan plan -> has_marker_of st0 ident = false ->
  run b ident plan (deployed st0) (start_acc plan, st0) cs = Some (a, st) ->
  forall n, 0 <= marker_sum (markers st0) n ->
  recorded st n <= status st n <= status st0 n + planned plan n.
Proof. exact C13_bounds_thm. Qed.
Print Assumptions C13_bounds_reached.

(* Once the deployment has returned (every planned node's DeleteProcessing
   succeeded): no marker of the deployment remains and the status of every node
   is the number of recorded workloads plus what other deployments' markers
   contributed before (0 when there is none). *)
Theorem C13_final : forall b ident plan st0 cs a st,
  wf_plan plan -> has_marker_of st0 ident = false ->
  run b ident plan (deployed st0) (start_acc plan, st0) cs = Some (a, st) ->
  returned a = true ->
  has_marker_of st ident = false /\
  forall n, status st n = recorded st n + (status st0 n - recorded st0 n).
Proof. exact C13_final_thm. Qed.
Print Assumptions C13_final.

(* ANY NUMBER of concurrent deployments of one (application, entrypoint).  The
   plan maps slots = (node, ident) to planned counts and is the union of the
   plans of all the deployments (plan_wf: distinct slots, non-negative counts,
   no marker of a plan slot exists beforehand).  The acceptor mstep orders the
   calls of each slot as create.go does (CreateProcessing, then its
   AddWorkloads/RemoveWorkloads, DeleteProcessing last) and does not relate
   the calls of different slots at all: every interleaving of all deployments
   and of their instance goroutines, with every placement of injected
   failures, is an accepted sequence.  After every prefix cs1 of every accepted
   sequence, on every node: recorded <= status <= prior + the sum of what all
   deployments planned there. *)
Theorem C13_multi_bounds : forall b plan st0 cs1 cs2 r a st n,
  plan_wf plan st0 -> recorded st0 n <= status st0 n ->
  mrun b plan (deployed st0) (mstart plan, st0) (cs1 ++ cs2) = Some r ->
  mrun b plan (deployed st0) (mstart plan, st0) cs1 = Some (a, st) ->
  recorded st n <= status st n <= status st0 n + planned_on plan n.
Proof. intros. eapply multi_bounds; eauto. Qed.
Print Assumptions C13_multi_bounds.

(* every prefix of an accepted sequence is itself accepted (so the hypothesis
   on cs1 above is no restriction) *)
Theorem C13_multi_prefix_accepted : forall b plan d0 cs1 cs2 s r,
  mrun b plan d0 s (cs1 ++ cs2) = Some r ->
  exists m, mrun b plan d0 s cs1 = Some m /\ mrun b plan d0 m cs2 = Some r.
Proof. exact mrun_app. Qed.
Print Assumptions C13_multi_prefix_accepted.

(* once all of them returned (every slot's DeleteProcessing succeeded): no
   marker of any plan slot remains and status = recorded (+ what markers
   outside the plan contributed before; 0 when there is none) *)
Theorem C13_multi_final : forall b plan st0 cs a st n,
  plan_wf plan st0 ->
  mrun b plan (deployed st0) (mstart plan, st0) cs = Some (a, st) -> mreturned a = true ->
  marker_of_plan_left plan st = false /\ status st n = recorded st n + (status st0 n - recorded st0 n).
Proof. exact multi_final. Qed.
Print Assumptions C13_multi_final.

(* GetDeployStatus is not one read but two (store/*/deploy.go): the deployed
   keys first, the markers second.  A reader whose first read sees state st1
   and whose second read sees a LATER state st2 - any number of store calls of
   any number of deployments in between - obtains torn_status st1 st2.  It
   stays within the bounds relative to what was recorded when the reader
   started, and it never exceeds prior + planned; against the later state it
   undercounts by exactly the records added in between (so it can be below
   recorded st2: the transient undercount).  The opposite read order breaks
   the upper bound (DeployMultiProofs.swapped_reads_overcount). *)
Theorem C13_multi_torn_read : forall b plan st0 cs1 cs2 a1 st1 a2 st2 n,
  plan_wf plan st0 -> recorded st0 n <= status st0 n ->
  mrun b plan (deployed st0) (mstart plan, st0) cs1 = Some (a1, st1) ->
  mrun b plan (deployed st0) (a1, st1) cs2 = Some (a2, st2) ->
  recorded st1 n <= torn_status st1 st2 n <= status st0 n + planned_on plan n
  /\ torn_status st1 st2 n = status st2 n - (recorded st2 n - recorded st1 n).
Proof. exact multi_torn_read. Qed.
Print Assumptions C13_multi_torn_read.

(* The etcd backend's "record + decrement" is a compare-value retry loop of
   several etcd requests (meta/etcd.go:BatchCreateAndDecr).  For any number n of
   concurrent callers on one marker holding k, any interleaving of their
   requests: when all are done the marker holds k - n and exactly n records were
   written (no lost or duplicated decrement) - so the loop may be treated as one
   atomic step, as C13_bounds does. *)
Theorem C13_etcd_decrement_exact : forall k n sched,
  let s := drun (dstart k n) sched in
  forallb is_done (DecrLoop.threads s) = true ->
  DecrLoop.marker s = k - Z.of_nat n /\ added s = Z.of_nat n.
Proof. exact decr_exact. Qed.
Print Assumptions C13_etcd_decrement_exact.

(* ... and the loop terminates under every schedule: at most n*(n+2) requests in total *)
Theorem C13_etcd_decrement_terminates : forall k n sched, (executed (dstart k n) sched <= n * (n + 2))%nat.
Proof. exact requests_bounded. Qed.
Print Assumptions C13_etcd_decrement_terminates.
