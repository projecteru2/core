(* C35 — RPC authentication accepts exactly matching credentials.

   [rpc k std us ps uc pc] is one call of kind k (unary / streaming) from a
   client configured with (uc, pc) to a server configured with (us, ps), through
   the modelled gRPC transport whose own headers are [std] (any list of protocol
   headers).  The client's credentials are arbitrary strings (in particular any
   pair valid as metadata, or no credentials at all: uc = ""). *)
From Coq Require Import String List.
From Verif Require Import Rpc.Auth Rpc.AuthProofs.

(* served iff the caller presents the configured user name (as gRPC metadata
   keys compare: up to ASCII case) with the configured password *)
Theorem C35_auth : forall k std us ps uc pc,
  std_only std = true -> valid_key us = true ->
  (rpc k std us ps uc pc = Accept <-> matching us ps uc pc).
Proof. exact auth_iff. Qed.
Print Assumptions C35_auth.

(* a client configured with the same credentials as the server is always accepted *)
Theorem C35_same_credentials : forall k std u p,
  std_only std = true -> valid_cred u p = true -> rpc k std u p u p = Accept.
Proof. exact same_credentials_accepted. Qed.
Print Assumptions C35_same_credentials.

(* right user, wrong password: refused with the password error *)
Theorem C35_wrong_password : forall k std us ps uc pc,
  std_only std = true -> valid_key us = true ->
  lower uc = lower us -> pc <> ps -> rpc k std us ps uc pc = RejPass.
Proof. exact reject_kind. Qed.
Print Assumptions C35_wrong_password.

(* core.go installs no interceptor when no user name is configured *)
Theorem C35_unconfigured : forall k std ps uc pc, rpc k std EmptyString ps uc pc = Accept.
Proof. exact unconfigured_serves_all. Qed.
Print Assumptions C35_unconfigured.

(* the boolean check evaluated on the implementation's answers is the property *)
Theorem C35_ok_spec : forall c, in_domain (c_us c) = true ->
  (ok c = true <->
   served_iff_match (c_us c) (c_ps c) (c_uc c) (c_pc c) (obs_unary c) /\
   served_iff_match (c_us c) (c_ps c) (c_uc c) (c_pc c) (obs_stream c)).
Proof. exact ok_spec. Qed.
Print Assumptions C35_ok_spec.

(* ... and it accepts the model on every input *)
Theorem C35_ok_on_model : forall std us ps uc pc md',
  std_only std = true ->
  ok (mkCase us ps uc pc md' (rpc Unary std us ps uc pc) (rpc Stream std us ps uc pc)) = true.
Proof. exact ok_on_model. Qed.
Print Assumptions C35_ok_on_model.

(* before the repair (meta[b.username] verbatim) the property was false:
   identical credentials "Admin"/"secret" on both sides were refused *)
Theorem C35_verbatim_lookup_refuted : exists std u p,
  std_only std = true /\ valid_cred u p = true /\
  rpc_verbatim Unary std u p u p = RejUser /\ rpc_verbatim Stream std u p u p = RejUser.
Proof. exact verbatim_refuted. Qed.
Print Assumptions C35_verbatim_lookup_refuted.
