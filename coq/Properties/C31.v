(* C31 — engine settings faithfully enforce allocated resources.
   This file contains only the property theorems.

   [create p] / [update n p]: the dockercontainer.Resources that
   VirtualizationCreate / VirtualizationUpdateResource (node of n cpus) hand to
   the Docker API for engine parameters p = (cpu limit, memory limit, cpu_map
   keys, NUMA node, remap flag).  quota_of true c = int64(math.Round(c * 100000)),
   shares_of c = int64(math.Round(1024 * frac c)) (1024 when frac c = 0),
   as binary64 computations. *)
From Coq Require Import ZArith List String.
From Flocq Require Import IEEE754.BinarySingleNaN IEEE754.Binary IEEE754.Bits.
From Coq Require Import Reals.
From Flocq Require Import Core.
From Verif Require Import Base.GoFloat Base.GoInt Engine.Docker Engine.DockerProofs Engine.DockerReal.
Import ListNotations.
Local Open Scope Z_scope.

(* bound workload, create path *)
Theorem C31_create_bound : forall p,
  mem_invalid (p_memory p) = false -> p_cores p <> [] ->
  let o := create p in
  o_outcome o = Ok /\ o_cpuset o = p_cores p /\ o_mems o = p_numa p /\ o_quota o = -1 /\
  o_shares o = shares_of (p_cpu p) /\ o_period o = period /\
  o_memory o = p_memory p /\ o_swap o = p_memory p /\ o_reservation o = reservation_spec (p_memory p).
Proof. exact (create_bound true). Qed.
Print Assumptions C31_create_bound.

(* unbound workload, create path *)
Theorem C31_create_unbound : forall p,
  mem_invalid (p_memory p) = false -> p_cores p = [] ->
  let o := create p in
  o_outcome o = Ok /\ o_cpuset o = [] /\ o_mems o = EmptyString /\
  o_quota o = quota_spec true (p_cpu p) /\ o_shares o = 1024 /\ o_period o = period /\
  o_memory o = p_memory p /\ o_swap o = p_memory p /\ o_reservation o = reservation_spec (p_memory p).
Proof. exact (create_unbound true). Qed.
Print Assumptions C31_create_unbound.

(* the same holds on update: a bound workload gets exactly what create computes *)
Theorem C31_update_bound : forall n p,
  mib4 <= p_memory p -> p_cores p <> [] -> p_remap p = false -> feq (p_cpu p) fzero = false ->
  update n p = create p.
Proof. exact update_same_as_create. Qed.
Print Assumptions C31_update_bound.

(* update of an unbound workload with a limit: quota of the limit, all cores, default shares *)
Theorem C31_update_unbound : forall n p,
  mem_invalid (p_memory p) = false -> p_cores p = [] -> flt fzero (p_cpu p) = true -> 0 < n ->
  let o := update n p in
  o_outcome o = Ok /\ o_cpuset o = seqZ 0 (Z.to_nat n) /\ o_mems o = p_numa p /\
  o_quota o = quota_of true (p_cpu p) /\ o_shares o = 1024 /\ o_period o = period /\
  o_memory o = update_memory (p_memory p) /\ o_swap o = update_memory (p_memory p).
Proof. exact (update_unbound true). Qed.
Print Assumptions C31_update_unbound.

(* update of a remapped workload (shared core set) with a limit *)
Theorem C31_update_remap : forall n p,
  mem_invalid (p_memory p) = false -> p_cores p <> [] -> p_remap p = true -> flt fzero (p_cpu p) = true ->
  let o := update n p in
  o_outcome o = Ok /\ o_cpuset o = p_cores p /\ o_mems o = p_numa p /\
  o_quota o = quota_of true (p_cpu p) /\ o_shares o = 1024 /\ o_period o = period.
Proof. exact (update_remap true true). Qed.
Print Assumptions C31_update_remap.

(* update without a cpu limit: unrestricted on all cores *)
Theorem C31_update_unlimited : forall n p,
  mem_invalid (p_memory p) = false -> feq (p_cpu p) fzero = true -> 0 < n ->
  let o := update n p in
  o_outcome o = Ok /\ o_cpuset o = seqZ 0 (Z.to_nat n) /\ o_mems o = EmptyString /\
  o_quota o = -1 /\ o_period o = period.
Proof. exact (update_unlimited true true). Qed.
Print Assumptions C31_update_unlimited.

(* memory and memory+swap = the limit on update *)
Theorem C31_update_memory : forall n p, mib4 <= p_memory p ->
  o_memory (update n p) = p_memory p /\ o_swap (update n p) = p_memory p.
Proof. exact (update_memory_limit true true). Qed.
Print Assumptions C31_update_memory.

(* the memory reservation is max(limit/2, 4 MiB) and never exceeds the limit *)
Theorem C31_reservation : forall memory, mib4 <= memory ->
  reservation_spec memory = Z.max (Z.quot memory 2) mib4 /\ reservation_spec memory <= memory.
Proof. exact reservation_bounds. Qed.
Print Assumptions C31_reservation.

(* memory below 4 MiB (or negative) is refused on both paths *)
Theorem C31_invalid_memory : forall n p, mem_invalid (p_memory p) = true ->
  o_outcome (create p) = ErrInvalidMemory /\ o_outcome (update n p) = ErrInvalidMemory.
Proof. exact (fun n p H => conj (create_invalid true p H) (update_invalid true true n p H)). Qed.
Print Assumptions C31_invalid_memory.

(* numeric accuracy on the 0.01 grid (bound in the statement; hundredth_exact holds up to
   k = 2^21): for every limit k/100 up to 64 cpus the quota is exactly k/100 x period and the
   shares of a bound workload are 1024 x fraction rounded to the nearest integer *)
Theorem C31_decimal_grid : forall k, 1 <= k <= 6400 ->
  quota_of true (hundredth k) = 1000 * k /\
  shares_of (hundredth k) = (let r := k mod 100 in if r =? 0 then 1024 else (2 * 1024 * r + 100) / 200).
Proof.
  intros k [H1 H2]. apply hundredth_exact. split; [now apply Z.le_trans with 1|now apply Z.le_trans with 6400].
Qed.
Print Assumptions C31_decimal_grid.

(* the conversion used for the quota and the shares, int64(math.Round(y)), yields an
   integer nearest to the exact value of the float y (pure integer arithmetic on
   mantissa and exponent, every finite y): |z * den - num| * 2 <= den for |y| = num/den *)
Theorem C31_round_is_nearest : forall s m e H,
  let a : f64 := B754_finite 53 1024 s m e H in
  let z := if s then - f_round_Z a else f_round_Z a in
  let '(num, den) := mag_frac (Zpos m) e in
  0 < den /\ 0 <= z /\ Z.abs (z * den - num) * 2 <= den.
Proof. exact round_nearest. Qed.
Print Assumptions C31_round_is_nearest.

(* one real-number bound for ALL binary64 cpu limits in range (0 <= limit x period <= 2^31,
   i.e. up to 21474 cpus): the quota differs from the real product limit x period by at most
   1/2 + 2^-22  (Flocq: the binary64 product is the rounding of the real product, half an ulp;
   then int64(math.Round(.)) is a nearest integer) *)
Theorem C31_quota_real_bound : forall cpu : f64,
  is_finite 53 1024 cpu = true ->
  (0 <= B2R 53 1024 cpu)%R ->
  (B2R 53 1024 cpu * 100000 <= bpow radix2 31)%R ->
  (Rabs (IZR (quota_of true cpu) - B2R 53 1024 cpu * 100000) <= / 2 + bpow radix2 (-22))%R.
Proof. exact quota_real_bound. Qed.
Print Assumptions C31_quota_real_bound.

(* before the repair: truncation gave 0.29 cpu a quota of 28999us *)
Theorem C31_truncating_quota_refuted : quota_of false f029 = 28999 /\ quota_of true f029 = 29000.
Proof. exact truncation_refuted. Qed.
Print Assumptions C31_truncating_quota_refuted.

(* before the repair: updating an unbound workload with limit 0.5 gave it quota -1 (unrestricted) *)
Theorem C31_update_unbound_refuted :
  let p := mkParams f05 67108864 [] EmptyString false in
  o_quota (update_with false true 4 p) = -1 /\ o_shares (update_with false true 4 p) = 512 /\
  o_quota (create p) = 50000 /\ o_quota (update 4 p) = 50000 /\ o_shares (update 4 p) = 1024.
Proof. exact update_unbound_refuted. Qed.
Print Assumptions C31_update_unbound_refuted.
