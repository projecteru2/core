(* C33 — re-allocating a bound workload without change keeps its cores.
   Model: Cobalt/Realloc.v (Plugin.CalculateRealloc over the GetCPUPlans of
   Cpumem/Schedule.v); proofs in Cobalt/ReallocProofs.v and Cobalt/AffinityProofs.v.
   This file contains only the property theorems.

   FULL STATEMENT (false of the faithful model, hence of the code):
     for every node whose cores have whole-core shares (with or without NUMA),
     every bound workload on it and every keep-cpu-bind request with zero cpu
     delta and any memory delta: if CalculateRealloc grants the request, the new
     resource has exactly the origin's cpu map and NUMA node.
   It is refuted (witnesses replayed on the real code by the harness corpus,
   see known_findings.d/C33.json):
     C33_fractional_refuted   a fractional bound workload gets its whole core and
                              its fragment core swapped;
     C33_numa_memory_refuted  a memory growth beyond the free memory of the
                              workload's NUMA node is granted across NUMA nodes
                              (NUMA node cleared) instead of being refused.
   A third refutation is history: before /repo 3d8e6c0 the first plan came from
   whichever NUMA node Go's map iteration visited first (C33_numa_refuted: the
   model still takes the order as an argument and the old witness fails for the
   order ["0";"1"]); the code now visits the origin's NUMA node first and the
   witness keeps its cores (C33_numa_witness_now). *)
From Coq Require Import String List ZArith.
From Verif Require Import Base.GoFloat Cpumem.Types Cpumem.Schedule Cobalt.Merge Cobalt.Realloc Cobalt.ReallocProofs.
Import ListNotations.
Local Open Scope string_scope.

Theorem C33_numa_refuted :
  match numa_run ["0"; "1"] with
  | Ok (inr (new, _)) => keeps_cores numa_origin new = false
  | _ => False
  end /\ In ["0"; "1"] (perms (numa_nodes numa_info)).
Proof. exact numa_witness. Qed.
Print Assumptions C33_numa_refuted.

Theorem C33_numa_order_dependent :
  match numa_run ["1"; "0"] with
  | Ok (inr (new, _)) => keeps_cores numa_origin new = true
  | _ => False
  end.
Proof. exact numa_witness_other_order. Qed.
Print Assumptions C33_numa_order_dependent.

Theorem C33_numa_witness_now :
  numa_visit_order (put_back numa_info numa_origin) (wr_cpumap numa_origin) = ["1"; "0"] /\
  match numa_run (numa_visit_order (put_back numa_info numa_origin) (wr_cpumap numa_origin)) with
  | Ok (inr (new, _)) => keeps_cores numa_origin new = true
  | _ => False
  end.
Proof. exact numa_witness_now. Qed.
Print Assumptions C33_numa_witness_now.

Theorem C33_numa_memory_refuted :
  match calculate_realloc numa_info 100 (-1) numa_origin grow_req
          (numa_visit_order (put_back numa_info numa_origin) (wr_cpumap numa_origin))
          (default_fuel (put_back numa_info numa_origin)) with
  | Ok (inr (new, _)) => keeps_cores numa_origin new = false /\ wr_numanode new = ""
  | _ => False
  end.
Proof. exact numa_memory_witness. Qed.
Print Assumptions C33_numa_memory_refuted.

Theorem C33_fractional_refuted :
  match frac_run with
  | Ok (inr (new, _)) => keeps_cores frac_origin new = false
  | _ => False
  end /\ numa_nodes frac_info = [].
Proof. exact frac_witness. Qed.
Print Assumptions C33_fractional_refuted.

(* C33_affinity (the part that holds; with NUMA: C33_affinity_numa): on a node WITHOUT
   NUMA, for a bound workload holding WHOLE cores (each at shareBase), a
   keep-cpu-bind request whose validated cpu amount is the same whole number of
   cores, any memory delta, any final sort of the planner and any fuel: if
   CalculateRealloc grants the request, the new resource has exactly the origin's
   cores (each at shareBase) and no NUMA node.  The two hypotheses on the
   available map say that after the origin is put back its cores are whole free
   cores (what the bookkeeping invariant of C08 gives on a node whose cores have
   whole-core shares). *)
Theorem C33_affinity : forall sortf (info : node_info) (base maxshare : Z) (origin : wres) (raw nr : wreq)
    (fuel : nat) (new d : wres),
  (0 < base)%Z ->
  nr_numa (ni_cap info) = [] ->
  rq_keep raw = true ->
  wr_cpumap origin <> [] -> NoDup (keys (wr_cpumap origin)) ->
  (forall c v, In (c, v) (wr_cpumap origin) -> v = base) ->
  NoDup (keys (nr_cpumap (get_available_nofloat (put_back info origin)))) ->
  (forall c, In c (keys (wr_cpumap origin)) ->
             lookup_opt (nr_cpumap (get_available_nofloat (put_back info origin))) c = Some base) ->
  wreq_validate (realloc_newreq origin raw) = inr nr ->
  pieces_request base (rq_cpu_req nr) = (base * Z.of_nat (List.length (wr_cpumap origin)))%Z ->
  Realloc.calculate_realloc_g sortf info base maxshare origin raw [] fuel = Ok (inr (new, d)) ->
  wr_numanode new = EmptyString /\ forall k, lookup_opt (wr_cpumap new) k = lookup_opt (wr_cpumap origin) k.
Proof. exact realloc_keeps_cores. Qed.
Print Assumptions C33_affinity.

(* the two hypotheses of C33_affinity on the available map hold on a node whose
   cores have whole-core shares when the origin is recorded on whole cores that
   it alone occupies (capacity = usage = origin = shareBase on those cores) *)
Theorem C33_available_after_put_back : forall (info : node_info) (origin : wres) (base : Z),
  NoDup (keys (nr_cpumap (ni_cap info))) ->
  NoDup (keys (nr_cpumap (ni_usage info))) ->
  NoDup (keys (wr_cpumap origin)) ->
  (forall c, In c (keys (nr_cpumap (ni_usage info))) -> In c (keys (nr_cpumap (ni_cap info)))) ->
  (forall c, In c (keys (wr_cpumap origin)) -> In c (keys (nr_cpumap (ni_usage info)))) ->
  (forall c, In c (keys (wr_cpumap origin)) ->
     Types.lookup 0%Z (nr_cpumap (ni_cap info)) c = base /\ Types.lookup 0%Z (nr_cpumap (ni_usage info)) c = base
     /\ Types.lookup 0%Z (wr_cpumap origin) c = base) ->
  let av := nr_cpumap (get_available_nofloat (put_back info origin)) in
  NoDup (keys av) /\ forall c, In c (keys (wr_cpumap origin)) -> lookup_opt av c = Some base.
Proof. exact avail_after_put_back. Qed.
Print Assumptions C33_available_after_put_back.

(* C33_affinity_numa: the NUMA case after /repo 3d8e6c0.  GetCPUPlans visits the
   NUMA node [nu] holding the origin's cores first (C33_visit_order_head), and for
   every such order: a granted keep-bind realloc for the same whole number of
   cores stays on exactly the origin's cores and on node [nu], with the node's
   memory record {nu: new memory}, UNLESS node [nu] itself yields no plan, i.e.
   its memory cannot hold the new request (the known finding
   C33-numa-memory-tight).  The two hypotheses on the per-node map say that the
   origin's cores are whole free cores of node [nu] after the put-back. *)
Theorem C33_affinity_numa : forall sortf (info : node_info) (base maxshare : Z) (origin : wres) (raw nr : wreq)
    (nu : string) (order : list string) (fuel : nat) (new d : wres),
  (0 < base)%Z ->
  rq_keep raw = true ->
  nu <> EmptyString ->
  wr_cpumap origin <> [] -> NoDup (keys (wr_cpumap origin)) ->
  (forall c v, In (c, v) (wr_cpumap origin) -> v = base) ->
  let info' := put_back info origin in
  let avail := get_available_nofloat info' in
  let numamap := numa_cpu_map (nr_numa (ni_cap info)) (nr_cpumap avail) nu in
  let numamem := Z.min (Types.lookup 0%Z (nr_numamem avail) nu) (nr_mem avail) in
  NoDup (keys numamap) ->
  (forall c, In c (keys (wr_cpumap origin)) -> lookup_opt numamap c = Some base) ->
  wreq_validate (realloc_newreq origin raw) = inr nr ->
  pieces_request base (rq_cpu_req nr) = (base * Z.of_nat (List.length (wr_cpumap origin)))%Z ->
  Realloc.calculate_realloc_g sortf info base maxshare origin raw (nu :: order) fuel = Ok (inr (new, d)) ->
  (wr_numanode new = nu /\ wr_numamem new = [(nu, rq_mem_req nr)] /\
   forall k, lookup_opt (wr_cpumap new) k = lookup_opt (wr_cpumap origin) k)
  \/ do_get_cpu_plans_g sortf (wr_cpumap origin) numamap numamem base maxshare (rq_cpu_req nr) (rq_mem_req nr) fuel = Ok [].
Proof. exact realloc_keeps_cores_numa. Qed.
Print Assumptions C33_affinity_numa.

From Verif Require Import Cobalt.AffinityProofs.
Theorem C33_visit_order_head : forall (info : node_info) (origin : smap Z) (nu : string),
  In nu (numa_nodes info) ->
  origin_on (nr_numa (ni_cap info)) origin nu = true ->
  (forall y, y <> nu -> origin_on (nr_numa (ni_cap info)) origin y = false) ->
  exists rest, numa_visit_order info origin = nu :: rest.
Proof. exact visit_order_head. Qed.
Print Assumptions C33_visit_order_head.
