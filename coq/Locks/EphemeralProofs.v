(* C26: inductive invariant of the etcd ephemeral
   registration system (exclusive, notified, owner-safe) and refutation of the
   same statements for the redis implementation. *)
From Coq Require Import List Bool ZArith Lia.
From Verif Require Import Base.KV Base.KVProofs Locks.Interleave Locks.InterleaveProofs Locks.Ephemeral Base.ListFacts.
Import ListNotations.
Local Open Scope Z_scope.

Local Notation live kv l := (e_lease_live kv l = true).
Local Notation dead kv l := (e_lease_live kv l = false).

Lemma ueq_eq : forall a b : unit, ueq a b = true <-> a = b.
Proof. intros [] []. unfold ueq. tauto. Qed.

Definition act (p : epc) : Prop := p = EGranted \/ p = EActive \/ p = ERevoking.
Definition bel (p : epc) : Prop := p = EActive \/ p = ERevoking.

Record est_ok (kv : estore) (rs : list ereg) : Prop := mkEstOk {
  eo_key : e_kvs kv = [] \/ exists x, e_kvs kv = [x] /\ live kv (ek_lease x);
  eo_live : forall id, live kv id -> 0 < id < e_next_lease kv;
  eo_next : 0 < e_next_lease kv;
  (* the leases the registrants carry, current or stale (0: none yet), are in range
     and pairwise distinct *)
  eo_range : forall g, In g rs -> 0 <= g_lease g < e_next_lease kv;
  eo_distinct : forall i j a b, nth_error rs i = Some a -> nth_error rs j = Some b ->
     g_lease a = g_lease b -> g_lease a <> 0 -> i = j;
  eo_current : forall g, In g rs -> act (g_pc g) -> g_lease g <> 0;
  eo_owner : forall g, In g rs -> bel (g_pc g) -> live kv (g_lease g) ->
     exists x, e_kvs kv = [x] /\ ek_lease x = g_lease g }.

Definition esys_ok (s : esys) : Prop := est_ok (es_kv s) (es_rs s).

Lemma esys_init_ok : esys_ok esys_init.
Proof.
  split; simpl; [auto|discriminate|lia|intros g []|intros [|i] j a b H; discriminate|intros g []|intros g []].
Qed.

(* the invariant reads the keys, which leases are live, and the lease counter *)
Record kv_same (kv kv' : estore) : Prop := mkKvSame {
  ks_kvs : e_kvs kv' = e_kvs kv;
  ks_live : forall x, e_lease_live kv' x = e_lease_live kv x;
  ks_next : e_next_lease kv' = e_next_lease kv }.

Lemma kv_same_refl : forall kv, kv_same kv kv.
Proof. intros; split; auto. Qed.
Lemma kv_same_trans : forall a b c, kv_same a b -> kv_same b c -> kv_same a c.
Proof. intros a b c [A1 A2 A3] [B1 B2 B3]. split; [congruence|intros; rewrite B2; auto|congruence]. Qed.

Lemma keepalive_same : forall (kv kv' : estore) id b, e_keepalive kv id = (b, kv') -> kv_same kv kv'.
Proof.
  intros kv kv' id b H. apply keepalive_shape in H. destruct H as (Hk & _ & Hn & Hl & _).
  split; auto. intros x. apply live_ids_eq; auto.
Qed.

Lemma est_kv_same : forall kv kv' rs, kv_same kv kv' -> est_ok kv rs -> est_ok kv' rs.
Proof.
  intros kv kv' rs [Hk Hl Hn] [K L N R D C O]. split; rewrite ?Hk, ?Hn; auto.
  - destruct K as [E|[x [E Lx]]]; auto. right. exists x. rewrite Hl. auto.
  - intros id. rewrite Hl. auto.
  - intros g Hg B. rewrite Hl. auto.
Qed.

Lemma est_detach : forall kv rs id, est_ok kv rs -> est_ok (e_detach kv id) rs.
Proof.
  intros kv rs id [K L N R D C O].
  destruct (detach_shape kv id) as (Hk & _ & _ & Hn).
  pose proof (detach_live kv id) as Hlive.
  split; rewrite ?Hn; auto.
  - destruct K as [E|[x [E Lx]]]; rewrite Hk, E; simpl; auto.
    destruct (Z.eqb (ek_lease x) id) eqn:Ex; simpl; auto.
    right. exists x. split; auto. rewrite Hlive, Lx, Ex. reflexivity.
  - intros x Lx. rewrite Hlive in Lx. apply andb_true_iff in Lx. apply L. tauto.
  - intros g Hg B Lg. rewrite Hlive in Lg. apply andb_true_iff in Lg. destruct Lg as [Lg Ne].
    destruct (O g Hg B Lg) as [x [E Ex]]. exists x. split; auto.
    rewrite Hk, E. simpl. rewrite Ex, Ne. reflexivity.
Qed.

Lemma est_revoke : forall kv rs id, est_ok kv rs -> est_ok (snd (e_revoke kv id)) rs.
Proof. intros. unfold e_revoke. destruct (e_lease_live kv id); simpl; auto. apply est_detach; auto. Qed.

Lemma est_detaches : forall ids kv rs, est_ok kv rs -> est_ok (fold_left e_detach ids kv) rs.
Proof. induction ids as [|id t IH]; intros; simpl; auto. apply IH. apply est_detach; auto. Qed.

Lemma est_tick : forall kv rs d, est_ok kv rs -> est_ok (e_tick kv d) rs.
Proof.
  intros kv rs d H. unfold e_tick. apply est_detaches.
  apply (est_kv_same kv); [split; reflexivity|exact H].
Qed.

Lemma est_new : forall kv rs ttl, est_ok kv rs -> est_ok kv (rs ++ [mkEreg EInit 0 ttl]).
Proof.
  intros kv rs ttl [K L N R D C O].
  assert (Hin : forall g, In g (rs ++ [mkEreg EInit 0 ttl]) -> In g rs \/ g = mkEreg EInit 0 ttl).
  { intros g Hg. apply in_app_or in Hg. destruct Hg as [Hg|[<-|[]]]; auto. }
  split; auto.
  - intros g Hg. destruct (Hin g Hg) as [Hg'| ->]; [auto|simpl; lia].
  - intros i j a b Ha Hb E Hnz. apply nth_error_app_new in Ha. apply nth_error_app_new in Hb.
    destruct Ha as [Ha|[_ ->]]; [|now elim Hnz].
    destruct Hb as [Hb|[_ ->]]; [|rewrite E in Hnz; now elim Hnz].
    eapply D; eauto.
  - intros g Hg A. destruct (Hin g Hg) as [Hg'| ->]; [auto|]. destruct A as [F|[F|F]]; discriminate.
  - intros g Hg B. destruct (Hin g Hg) as [Hg'| ->]; [auto|]. destruct B as [F|F]; discriminate.
Qed.

Lemma est_upd : forall kv rs i g g',
  est_ok kv rs -> nth_error rs i = Some g -> g_lease g' = g_lease g ->
  (act (g_pc g') -> act (g_pc g)) ->
  (bel (g_pc g') -> live kv (g_lease g) -> exists x, e_kvs kv = [x] /\ ek_lease x = g_lease g) ->
  est_ok kv (upd i g' rs).
Proof.
  intros kv rs i g g' [K L N R D C O] Hi El Ha Hb. pose proof (nth_error_In _ _ Hi) as Hin.
  split; auto.
  - intros y Hy. apply In_upd in Hy. destruct Hy as [->|Hy]; [rewrite El|]; auto.
  - intros a b x y Hx Hy E Hnz. apply nth_error_upd in Hx. apply nth_error_upd in Hy.
    destruct Hx as [[<- ->]|[_ Hx]]; destruct Hy as [[<- ->]|[_ Hy]]; auto.
    + apply (D i b g y); congruence.
    + apply (D a i x g); congruence.
    + apply (D a b x y); congruence.
  - intros y Hy A. apply In_upd in Hy. destruct Hy as [->|Hy]; [rewrite El|]; auto.
  - intros y Hy B Ly. apply In_upd in Hy. destruct Hy as [->|Hy]; [rewrite El in Ly |- *|]; auto.
Qed.

Lemma est_grant : forall kv rs i ttl,
  est_ok kv rs -> est_ok (snd (e_grant kv ttl)) (upd i (mkEreg EGranted (e_next_lease kv) ttl) rs).
Proof.
  intros kv rs i ttl [K L N R D C O].
  destruct (grant_shape kv (snd (e_grant kv ttl)) ttl (e_next_lease kv) eq_refl) as (_ & Hk & _ & Hl & Hn).
  assert (Hlive : forall x, live (snd (e_grant kv ttl)) x <-> x = e_next_lease kv \/ live kv x).
  { intros x. rewrite !live_iff, Hl. simpl. intuition. }
  split; rewrite ?Hk, ?Hn.
  - destruct K as [E|[x [E Lx]]]; auto. right. exists x. split; auto. apply Hlive; auto.
  - intros x Lx. apply Hlive in Lx. destruct Lx as [->|Lx]; [lia|]. apply L in Lx. lia.
  - lia.
  - intros y Hy. apply In_upd in Hy. destruct Hy as [->|Hy]; [simpl; lia|]. apply R in Hy. lia.
  - intros a b x y Hx Hy E Hnz. apply nth_error_upd in Hx. apply nth_error_upd in Hy.
    destruct Hx as [[<- ->]|[_ Hx]]; destruct Hy as [[<- ->]|[_ Hy]]; auto.
    + apply nth_error_In, R in Hy. simpl in E. lia.
    + apply nth_error_In, R in Hx. simpl in E. lia.
    + eapply D; eauto.
  - intros y Hy A. apply In_upd in Hy. destruct Hy as [->|Hy]; [simpl; lia|auto].
  - intros y Hy B Ly. apply In_upd in Hy. destruct Hy as [->|Hy]; [destruct B; discriminate|].
    apply Hlive in Ly. destruct Ly as [E|Ly]; [|auto]. apply R in Hy. lia.
Qed.

(* the put succeeds: the store was empty, so no other believer has a live lease *)
Lemma est_put : forall kv kv' rs i g,
  est_ok kv rs -> nth_error rs i = Some g -> g_pc g = EGranted ->
  e_get ueq kv tt = None -> e_put ueq kv tt tt (g_lease g) = Some kv' ->
  est_ok kv' (upd i (eset g EActive) rs).
Proof.
  intros kv kv' rs i g H Hi Hp Hget Hput. pose proof (nth_error_In _ _ Hi) as Hin.
  apply put_shape in Hput; auto. destruct Hput as (_ & Hk & Hl & Hn & Hlv).
  assert (Hempty : e_kvs kv = []).
  { destruct (eo_key _ _ H) as [E|[x [E _]]]; auto. exfalso.
    eapply (e_get_none ueq ueq_eq) in Hget; [|rewrite E; left; reflexivity]. destruct (ek_key x). auto. }
  rewrite Hempty in Hk. simpl in Hk.
  assert (Hlive : forall x, e_lease_live kv' x = e_lease_live kv x) by (intros; apply live_ids_eq; rewrite Hl; auto).
  destruct Hlv as [Hz|Hlv]; [exfalso; apply (eo_current _ _ H g Hin); [left; auto|auto]|].
  apply est_upd with (g := g); auto.
  - destruct H as [K L N R D C O]. split; rewrite ?Hn; auto.
    + right. eexists. split; [exact Hk|]. simpl. rewrite Hlive. exact Hlv.
    + intros id. rewrite Hlive. auto.
    + intros y Hy B Ly. rewrite Hlive in Ly. destruct (O y Hy B Ly) as [x [E _]]. congruence.
  - intros _. left. exact Hp.
  - intros _ _. eexists. split; [exact Hk|reflexivity].
Qed.

(* what a step of a registrant does to the store and to its own record *)
Inductive reg_step (kv : estore) (g : ereg) : estore -> ereg -> Prop :=
| RGrant : can_register (g_pc g) = true ->
    reg_step kv g (snd (e_grant kv (g_ttl g))) (mkEreg EGranted (e_next_lease kv) (g_ttl g))
| RPut kv' : g_pc g = EGranted -> e_get ueq kv tt = None -> e_put ueq kv tt tt (g_lease g) = Some kv' ->
    reg_step kv g kv' (eset g EActive)
| RRejected e : g_pc g = EGranted -> reg_step kv g kv (eset g (ERejected e))
| RKeepalive kv' : g_pc g = EActive -> e_keepalive kv (g_lease g) = (true, kv') -> reg_step kv g kv' g
| RQuit : g_pc g = EActive -> reg_step kv g kv (eset g ERevoking)
| RRevoke : g_pc g = ERevoking -> reg_step kv g (snd (e_revoke kv (g_lease g))) (eset g EClosed).

Definition own_step (i : nat) (l : elabel) : Prop :=
  l = GGrant i \/ l = GPut i \/ l = GTick i \/ l = GStop i \/ l = GRevokeOwn i.

Inductive own_spec (s : esys) (i : nat) : esys -> Prop :=
| OwnSpec g kv' g' : nth_error (es_rs s) i = Some g -> reg_step (es_kv s) g kv' g' ->
    own_spec s i (mkES kv' (upd i g' (es_rs s))).

Lemma own_step_inv : forall s l s' i, own_step i l -> estep s l = Some s' -> own_spec s i s'.
Proof.
  intros s l s' i Hown H.
  destruct Hown as [->|[->|[->|[->| ->]]]]; unfold estep, ewith in H; cbv zeta in H;
    destruct (nth_error (es_rs s) i) as [g|] eqn:Hg; try discriminate.
  - destruct (can_register (g_pc g)) eqn:C; inversion H. exact (OwnSpec _ _ _ _ _ Hg (RGrant _ _ C)).
  - destruct (g_pc g) eqn:P; try discriminate. unfold e_put_if_absent in H.
    destruct (e_get ueq (es_kv s) tt) eqn:G; [|destruct (e_put ueq (es_kv s) tt tt (g_lease g)) eqn:Pt];
      inversion H; eapply OwnSpec; eauto using reg_step.
  - destruct (g_pc g) eqn:P; try discriminate.
    destruct (e_keepalive (es_kv s) (g_lease g)) as [[|] kv'] eqn:K; inversion H; eapply OwnSpec; eauto using reg_step.
  - destruct (g_pc g) eqn:P; try discriminate. inversion H. eapply OwnSpec; eauto using reg_step.
  - destruct (g_pc g) eqn:P; try discriminate. inversion H. eapply OwnSpec; eauto using reg_step.
Qed.

Lemma reg_step_ok : forall kv rs i g kv' g',
  est_ok kv rs -> nth_error rs i = Some g -> reg_step kv g kv' g' -> est_ok kv' (upd i g' rs).
Proof.
  intros kv rs i g kv' g' H Hi St. pose proof (nth_error_In _ _ Hi) as Hin.
  destruct St as [C|kv' P G Pt|e P|kv' P K|P|P].
  - apply est_grant; auto.
  - eapply est_put; eauto.
  - apply est_upd with g; auto; simpl; [intros [F|[F|F]]|intros [F|F]]; discriminate.
  - rewrite upd_nth_same by exact Hi. eapply est_kv_same; [eapply keepalive_same|]; eauto.
  - apply est_upd with g; auto.
    + intros _. rewrite P. right; left; reflexivity.
    + intros _ L. apply (eo_owner _ _ H g); auto. rewrite P. left; reflexivity.
  - apply est_upd with g; auto using est_revoke; simpl; [intros [F|[F|F]]|intros [F|F]]; discriminate.
Qed.

Lemma estep_ok : forall s l s', esys_ok s -> estep s l = Some s' -> esys_ok s'.
Proof.
  intros s l s' Hok H. unfold esys_ok in *.
  assert (Hown : forall i, own_step i l -> est_ok (es_kv s') (es_rs s')).
  { intros i Ho. destruct (own_step_inv _ _ _ _ Ho H) as [g kv' g' Hg St]. eapply reg_step_ok; eauto. }
  destruct l; try (apply (Hown i); unfold own_step; auto 6); unfold estep in H.
  - inversion H. apply est_new; auto.
  - inversion H. apply est_revoke; auto.
  - destruct (Z.ltb d 0); inversion H. apply est_tick; auto.
Qed.

Theorem ereachable_ok : forall s, reachable estep esys_init s -> esys_ok s.
Proof. apply invariant_reachable; [exact esys_init_ok|]. intros; eapply estep_ok; eauto. Qed.

Lemma e_holds_spec : forall s g, e_holds s g = true <-> bel (g_pc g) /\ live (es_kv s) (g_lease g).
Proof.
  intros s g. unfold e_holds, e_believes, e_live. rewrite andb_true_iff. split; intros [A B]; split; auto.
  - destruct (g_pc g); try discriminate; [left|right]; auto.
  - destruct A as [A|A]; rewrite A; auto.
Qed.

Lemma holder_owns_key : forall s i a, esys_ok s -> nth_error (es_rs s) i = Some a -> e_holds s a = true ->
  exists x, e_kvs (es_kv s) = [x] /\ ek_lease x = g_lease a /\ g_lease a <> 0.
Proof.
  intros s i a Ok Ha Pa. apply e_holds_spec in Pa. destruct Pa as [Ba La].
  destruct (eo_owner _ _ Ok a (nth_error_In _ _ Ha) Ba La) as [x [Ex Ea]].
  exists x. repeat split; auto. apply (eo_live _ _ Ok) in La. lia.
Qed.

(* C26, exclusive: under every schedule (registrations, ticks, stops, third-party
   revocations, expiries) at most one registrant believes it holds the key with a live lease,
   and it is the registrant whose lease the key carries *)
Theorem etcd_exclusive : forall s i j a b,
  reachable estep esys_init s ->
  nth_error (es_rs s) i = Some a -> nth_error (es_rs s) j = Some b ->
  e_holds s a = true -> e_holds s b = true -> i = j.
Proof.
  intros s i j a b Hr Ha Hb Pa Pb. apply ereachable_ok in Hr.
  destruct (holder_owns_key s i a Hr Ha Pa) as (x & Ex & Ea & Hnz).
  destruct (holder_owns_key s j b Hr Hb Pb) as (y & Ey & Eb & _).
  eapply (eo_distinct _ _ Hr); eauto. congruence.
Qed.

Theorem etcd_holder_owns_key : forall s i a,
  reachable estep esys_init s -> nth_error (es_rs s) i = Some a -> e_holds s a = true ->
  e_owner_lease s = Some (g_lease a).
Proof.
  intros s i a Hr Ha Pa. apply ereachable_ok in Hr.
  destruct (holder_owns_key s i a Hr Ha Pa) as (x & Ex & Ea & _).
  unfold e_owner_lease, e_key, e_get. rewrite Ex. simpl. congruence.
Qed.

(* C26, notified: a lapsed registrant is closed at its next tick *)
Theorem etcd_notified : forall s i g,
  nth_error (es_rs s) i = Some g -> g_pc g = EActive -> dead (es_kv s) (g_lease g) ->
  exists s1 s2 g2, estep s (GTick i) = Some s1 /\ estep s1 (GRevokeOwn i) = Some s2 /\
                   nth_error (es_rs s2) i = Some g2 /\ g_pc g2 = EClosed.
Proof.
  intros s i g Hi Hpc Hd.
  assert (Hlen : (i < length (es_rs s))%nat) by (apply nth_error_Some; congruence).
  unfold estep at 1. rewrite Hi, Hpc.
  destruct (e_keepalive (es_kv s) (g_lease g)) as [alive kv'] eqn:Hka.
  apply keepalive_shape in Hka. destruct Hka as (_ & _ & _ & _ & Hb). rewrite Hd in Hb. subst alive.
  unfold ewith. eexists. eexists. eexists. split; [reflexivity|].
  unfold estep; cbn [es_rs es_kv]. rewrite nth_error_upd_same by auto. cbn [g_pc eset].
  unfold ewith. split; [reflexivity|]. cbn [es_rs].
  split; [apply nth_error_upd_same; rewrite length_upd; auto|reflexivity].
Qed.

(* C26, owner-safe: refresh / revoke / register touch only the own lease *)
Definition touches_only (L : Z) (kv kv' : estore) : Prop :=
  (forall x, In x (e_kvs kv) -> ek_lease x <> L -> In x (e_kvs kv')) /\
  (forall x, In x (e_kvs kv') -> In x (e_kvs kv) \/ ek_lease x = L) /\
  (forall id, id <> L -> e_find_lease kv' id = e_find_lease kv id).

Lemma touches_refl : forall L kv, touches_only L kv kv.
Proof. intros; repeat split; auto. Qed.

Lemma find_lease_filter : forall (kv : estore) id L,
  id <> L ->
  find (fun l => Z.eqb (l_id l) id) (filter (fun l => negb (Z.eqb (l_id l) L)) (e_leases kv))
  = find (fun l => Z.eqb (l_id l) id) (e_leases kv).
Proof.
  intros kv id L Hne. induction (e_leases kv) as [|a t IH]; simpl; auto.
  destruct (Z.eqb (l_id a) L) eqn:EL; simpl.
  - apply Z.eqb_eq in EL. destruct (Z.eqb (l_id a) id) eqn:Ei; auto. apply Z.eqb_eq in Ei. lia.
  - rewrite IH. reflexivity.
Qed.

Lemma find_lease_refresh : forall (ls : list lease) L now id,
  id <> L ->
  find (fun l => Z.eqb (l_id l) id)
       (map (fun l => if Z.eqb (l_id l) L then mkLease L (l_ttl l) (now + l_ttl l) else l) ls)
  = find (fun l => Z.eqb (l_id l) id) ls.
Proof.
  intros ls L now id Hne. induction ls as [|a t IH]; simpl; auto.
  destruct (Z.eqb (l_id a) L) eqn:Ea; simpl.
  - apply Z.eqb_eq in Ea. destruct (Z.eqb L id) eqn:E1; [apply Z.eqb_eq in E1; congruence|].
    destruct (Z.eqb (l_id a) id) eqn:E2; [apply Z.eqb_eq in E2; congruence|]. exact IH.
  - destruct (Z.eqb (l_id a) id); auto.
Qed.

Lemma touches_detach : forall (kv : estore) L, touches_only L kv (e_detach kv L).
Proof.
  intros kv L. destruct (detach_shape kv L) as (Hk & _ & Hl & _). repeat split.
  - intros x Hx Hne. rewrite Hk. apply filter_In. split; auto. apply negb_true_iff. apply Z.eqb_neq. auto.
  - intros x Hx. rewrite Hk in Hx. apply filter_In in Hx. tauto.
  - intros id Hne. unfold e_find_lease. rewrite Hl. apply find_lease_filter. auto.
Qed.

Lemma touches_revoke : forall (kv : estore) L, touches_only L kv (snd (e_revoke kv L)).
Proof. intros. unfold e_revoke. destruct (e_lease_live kv L); simpl; [apply touches_detach|apply touches_refl]. Qed.

Lemma reg_step_touches : forall kv g kv' g', reg_step kv g kv' g' -> touches_only (g_lease g') kv kv'.
Proof.
  intros kv g kv' g' St. destruct St as [C|kv' P G Pt|e P|kv' P K|P|P]; try apply touches_refl.
  - destruct (grant_shape kv (snd (e_grant kv (g_ttl g))) (g_ttl g) (e_next_lease kv) eq_refl) as (_ & Hk & _ & Hl & _).
    repeat split; try (rewrite Hk; auto).
    intros id Hne. unfold e_find_lease. rewrite Hl. cbn [find l_id g_lease] in *.
    destruct (Z.eqb (e_next_lease kv) id) eqn:E; auto. apply Z.eqb_eq in E. congruence.
  - apply put_shape in Pt; auto. destruct Pt as (_ & Hk & Hl & _). repeat split.
    + intros x Hx _. rewrite Hk. apply in_or_app; auto.
    + intros x Hx. rewrite Hk in Hx. apply in_app_or in Hx. destruct Hx as [Hx|[<-|[]]]; auto.
    + intros id _. unfold e_find_lease. rewrite Hl. reflexivity.
  - unfold e_keepalive in K. destruct (e_find_lease kv (g_lease g)); inversion K.
    repeat split; auto. intros id Hne. apply find_lease_refresh. auto.
  - apply touches_revoke.
Qed.

(* every step of registrant i leaves alone every key that does not carry i's
   lease and every lease other than i's (its lease after the step) *)
Theorem etcd_owner_safe : forall s l s' i g',
  own_step i l -> estep s l = Some s' -> nth_error (es_rs s') i = Some g' ->
  touches_only (g_lease g') (es_kv s) (es_kv s').
Proof.
  intros s l s' i g' Hown H Hg'.
  destruct (own_step_inv _ _ _ _ Hown H) as [g kv' g0 Hg St]. cbn [es_rs es_kv] in *.
  rewrite nth_error_upd_same in Hg' by (apply nth_error_Some; congruence).
  inversion Hg'; subst g0. apply (reg_step_touches _ _ _ _ St).
Qed.

Lemma reg_step_lease : forall kv g kv' g', reg_step kv g kv' g' ->
  g_lease g' = g_lease g \/ g_lease g' = e_next_lease kv.
Proof. intros kv g kv' g' St. destruct St; auto. Qed.

(* consequence: no own step of another registrant ends j's holding or changes
   the owner of the key *)
Theorem etcd_others_cannot_disturb : forall s l s' i j a,
  reachable estep esys_init s ->
  own_step i l -> i <> j -> estep s l = Some s' ->
  nth_error (es_rs s) j = Some a -> e_holds s a = true ->
  nth_error (es_rs s') j = Some a /\ e_holds s' a = true /\ e_owner_lease s' = Some (g_lease a).
Proof.
  intros s l s' i j a Hr Hown Hij H Ha Pa.
  assert (Hr' : reachable estep esys_init s') by (eapply reachable_step; eauto).
  pose proof (ereachable_ok _ Hr) as Ok.
  destruct (own_step_inv _ _ _ _ Hown H) as [g kv' g' Hg St].
  assert (Hj' : nth_error (upd i g' (es_rs s)) j = Some a) by (rewrite nth_error_upd_other; auto).
  split; [exact Hj'|].
  apply e_holds_spec in Pa. destruct Pa as [Ba La].
  pose proof (eo_live _ _ Ok _ La) as Hpos.
  assert (Hne : g_lease a <> g_lease g').
  { destruct (reg_step_lease _ _ _ _ St) as [El|El]; rewrite El; [|lia].
    intro E. apply Hij. symmetry. eapply (eo_distinct _ _ Ok); eauto. lia. }
  destruct (reg_step_touches _ _ _ _ St) as (_ & _ & T3).
  assert (Hh' : e_holds (mkES kv' (upd i g' (es_rs s))) a = true).
  { apply e_holds_spec. split; auto. cbn [es_kv]. unfold e_lease_live in *. rewrite T3; auto. }
  split; [exact Hh'|]. eapply etcd_holder_owns_key; eauto.
Qed.

(* what a step of registrant [i] does to the store and to its own record *)
Inductive sreg_step (kv : sstore) (i : nat) (g : sreg) : slabel -> sstore -> sreg -> Prop :=
| SRegOk : s_can_register (q_pc g) = true -> r_exists ueq kv tt = false ->
    sreg_step kv i g (QReg i) (r_set ueq kv tt i (Some (q_ttl g))) (mkSreg SActive (q_ttl g))
| SRegRej : s_can_register (q_pc g) = true -> r_exists ueq kv tt = true ->
    sreg_step kv i g (QReg i) kv (mkSreg SRejected (q_ttl g))
| SRefresh : q_pc g = SActive ->
    sreg_step kv i g (QTick i) (snd (r_expire ueq kv tt (refresh_ms (q_ttl g)))) g
| SDel : q_pc g = SActive ->
    sreg_step kv i g (QStop i) (snd (r_del ueq kv tt)) (mkSreg SClosed (q_ttl g)).

Inductive sstep_spec (s : ssys) : slabel -> ssys -> Prop :=
| SNew ttl : sstep_spec s (QNew ttl) (mkSS (ss_kv s) (ss_rs s ++ [mkSreg SInit ttl]))
| STime d : 0 <= d -> sstep_spec s (QTime d) (mkSS (r_tick (ss_kv s) d) (ss_rs s))
| SOwn i g l kv' g' : nth_error (ss_rs s) i = Some g -> sreg_step (ss_kv s) i g l kv' g' ->
    sstep_spec s l (mkSS kv' (upd i g' (ss_rs s))).

Lemma sstep_inv : forall s l s', sstep s l = Some s' -> sstep_spec s l s'.
Proof.
  intros s l s' H. destruct l; unfold sstep, swith in H; cbv zeta in H;
    try (destruct (nth_error (ss_rs s) i) as [g|] eqn:Hg; [|discriminate]).
  - inversion H. constructor.
  - destruct (s_can_register (q_pc g)) eqn:C; [|discriminate]. unfold r_setnx in H.
    destruct (r_exists ueq (ss_kv s) tt) eqn:X; inversion H; eapply SOwn; eauto; constructor; auto.
  - destruct (q_pc g) eqn:P; try discriminate. inversion H. eapply SOwn; eauto. constructor; auto.
  - destruct (q_pc g) eqn:P; try discriminate. inversion H. eapply SOwn; eauto. constructor; auto.
  - destruct (Z.ltb d 0) eqn:D; inversion H. constructor. apply Z.ltb_ge; auto.
Qed.

(* a registrant's belief ends only by its own stop: nothing ever notifies it *)
Theorem redis_never_notified : forall s l s' i g,
  sstep s l = Some s' -> nth_error (ss_rs s) i = Some g -> q_pc g = SActive -> l <> QStop i ->
  exists g', nth_error (ss_rs s') i = Some g' /\ q_pc g' = SActive.
Proof.
  intros s l s' i g H Hi Hpc Hne.
  assert (Hlen : (i < length (ss_rs s))%nat) by (apply nth_error_Some; congruence).
  destruct (sstep_inv _ _ _ H) as [ttl|d Hd|i0 g0 l kv' g' Hg0 St]; cbn [ss_rs].
  - exists g. rewrite nth_error_app1; auto.
  - eauto.
  - destruct (Nat.eq_dec i0 i) as [->|Hn]; [|exists g; rewrite nth_error_upd_other; auto].
    exists g'. split; [apply nth_error_upd_same; auto|].
    assert (g0 = g) by congruence. subst g0.
    destruct St as [C _|C _|_|_]; auto; try congruence; rewrite Hpc in C; discriminate.
Qed.

Fixpoint no_stop (i : nat) (ls : list slabel) : Prop :=
  match ls with
  | [] => True
  | l :: t => l <> QStop i /\ no_stop i t
  end.

Theorem redis_never_notified_run : forall ls s s' i g,
  run sstep s ls = Some s' -> nth_error (ss_rs s) i = Some g -> q_pc g = SActive -> no_stop i ls ->
  exists g', nth_error (ss_rs s') i = Some g' /\ q_pc g' = SActive.
Proof.
  induction ls as [|l t IH]; intros s s' i g Hr Hi Hpc Hn; simpl in Hr.
  - inversion Hr; subst. eauto.
  - destruct (sstep s l) as [s1|] eqn:E; [|discriminate]. destruct Hn as [Hn1 Hn2].
    destruct (redis_never_notified _ _ _ _ _ E Hi Hpc Hn1) as [g1 [Hg1 Hp1]].
    eapply IH; eauto.
Qed.

(* the witness: A (0) registers, its key lapses, B (1) registers; A's next tick
   refreshes B's key and A is not notified; A's stop deletes B's registration *)
Definition c26_prefix : list slabel :=
  [QNew 300; QNew 300; QReg 0; QTime 301; QReg 1; QTime 100].

Theorem redis_c26_refuted :
  exists s0 s1 s2 a0 b0 a1 b2,
    run sstep ssys_init c26_prefix = Some s0 /\
    (* both believe they hold; the key was created by B *)
    nth_error (ss_rs s0) 0 = Some a0 /\ nth_error (ss_rs s0) 1 = Some b0 /\
    s_believes a0 = true /\ s_believes b0 = true /\ s_owner s0 = Some 1%nat /\
    r_ttl ueq (ss_kv s0) tt = Some (Some 200) /\
    (* A's tick refreshes the registration created by B, and A still believes *)
    sstep s0 (QTick 0) = Some s1 /\
    s_owner s1 = Some 1%nat /\ r_ttl ueq (ss_kv s1) tt = Some (Some 1000) /\
    nth_error (ss_rs s1) 0 = Some a1 /\ s_believes a1 = true /\
    (* A's exit deletes the registration created by B, who still believes *)
    sstep s1 (QStop 0) = Some s2 /\
    s_owner s2 = None /\ nth_error (ss_rs s2) 1 = Some b2 /\ s_believes b2 = true.
Proof.
  do 7 eexists.
  split; [vm_compute; reflexivity|].
  split; [reflexivity|]. split; [reflexivity|].
  split; [reflexivity|]. split; [reflexivity|]. split; [vm_compute; reflexivity|].
  split; [vm_compute; reflexivity|].
  split; [vm_compute; reflexivity|].
  split; [vm_compute; reflexivity|]. split; [vm_compute; reflexivity|].
  split; [reflexivity|]. split; [reflexivity|].
  split; [vm_compute; reflexivity|].
  split; [vm_compute; reflexivity|]. split; reflexivity.
Qed.

(* the strongest true statement for redis is about runs without lapses, i.e. over
   steps that never let a registration lapse: positive heartbeats, and the clock
   never advances past the expiry of an existing key *)
Definition sstep_nl (s : ssys) (l : slabel) : option ssys :=
  match l with
  | QNew ttl => if Z.ltb 0 ttl then sstep s l else None
  | QTime d =>
      if Bool.eqb (r_exists ueq (r_tick (ss_kv s) d) tt) (r_exists ueq (ss_kv s) tt) then sstep s l else None
  | _ => sstep s l
  end.

Lemma s_absent : forall kv : sstore, r_exists ueq kv tt = false -> r_get ueq kv tt = None.
Proof. intros kv. unfold r_exists, r_get. destruct (r_find ueq kv tt); [discriminate|reflexivity]. Qed.

Lemma s_fresh : forall (kv : sstore) v e, r_kvs kv = [mkRkv tt v (Some e)] -> r_now kv < e ->
  kv1_ok kv /\ r_get ueq kv tt = Some v.
Proof.
  intros kv v e Hk Hl.
  assert (L : rkv_live (r_now kv) (mkRkv tt v (Some e)) = true) by (apply Z.ltb_lt; exact Hl).
  split; [right; eauto|]. apply (get_one ueq (fun _ _ => eq_refl) kv tt _ Hk L).
Qed.

Lemma s_set : forall (kv : sstore) i ttl, 0 < ttl ->
  kv1_ok (r_set ueq kv tt i (Some ttl)) /\ r_get ueq (r_set ueq kv tt i (Some ttl)) tt = Some i.
Proof.
  intros kv i ttl Ht. apply (s_fresh _ i (r_now kv + ttl)); [|simpl; lia].
  unfold r_set; simpl. rewrite remove_nil by reflexivity. apply Z.ltb_lt in Ht. rewrite Ht. reflexivity.
Qed.

Lemma s_expire : forall (kv : sstore) ttl, kv1_ok kv -> 0 < ttl ->
  kv1_ok (snd (r_expire ueq kv tt ttl)) /\ r_get ueq (snd (r_expire ueq kv tt ttl)) tt = r_get ueq kv tt.
Proof.
  intros kv ttl K Ht. unfold r_expire. destruct K as [E|[x [E Lx]]].
  - unfold r_find. rewrite E. simpl. split; [left|]; auto.
  - destruct (get_one ueq (fun _ _ => eq_refl) _ tt _ E Lx) as (G & F & _). rewrite F, G.
    assert (Z.leb ttl 0 = false) as -> by (apply Z.leb_gt; lia).
    apply (s_fresh _ _ (r_now kv + ttl)); simpl; [rewrite remove_nil by reflexivity; reflexivity|lia].
Qed.

Lemma s_del : forall kv : sstore, kv1_ok kv ->
  kv1_ok (snd (r_del ueq kv tt)) /\ r_get ueq (snd (r_del ueq kv tt)) tt = None.
Proof.
  intros kv K. unfold r_del. destruct (r_exists ueq kv tt) eqn:X; simpl.
  - split; [left; apply remove_nil; reflexivity|]. apply get_empty, remove_nil; reflexivity.
  - split; [exact K|apply s_absent; exact X].
Qed.

Lemma s_tick : forall (kv : sstore) d, kv1_ok kv ->
  r_exists ueq (r_tick kv d) tt = r_exists ueq kv tt ->
  kv1_ok (r_tick kv d) /\ r_get ueq (r_tick kv d) tt = r_get ueq kv tt.
Proof.
  intros kv d [E|[x [E Lx]]] Hpres.
  - assert (Hk : r_kvs (r_tick kv d) = []) by (unfold r_tick; simpl; rewrite E; reflexivity).
    rewrite !get_empty by assumption. split; [left|]; auto.
  - destruct (get_one ueq (fun _ _ => eq_refl) _ tt _ E Lx) as (G & _ & X). rewrite X in Hpres.
    (* the key is still there, so it has not expired at the new time *)
    assert (Lx' : rkv_live (r_now kv + d) x = true).
    { destruct (rkv_live (r_now kv + d) x) eqn:L'; auto. exfalso.
      unfold r_exists, r_find, r_tick in Hpres. cbn [r_kvs r_now] in Hpres. rewrite E in Hpres.
      simpl in Hpres. rewrite L' in Hpres. discriminate. }
    assert (Hk : r_kvs (r_tick kv d) = [x]) by (unfold r_tick; simpl; rewrite E; simpl; rewrite Lx'; auto).
    destruct (get_one ueq (fun _ _ => eq_refl) _ tt _ Hk Lx') as (G' & _ & _). split; [right; eauto|congruence].
Qed.

Lemma refresh_pos : forall ttl, 0 < ttl -> 0 < refresh_ms ttl.
Proof.
  intros ttl Ht. unfold refresh_ms. destruct (Z.ltb 0 ttl && Z.ltb ttl 1000) eqn:Eb; [lia|].
  apply andb_false_iff in Eb. destruct Eb as [Eb|Eb]; apply Z.ltb_ge in Eb; [lia|].
  assert (1 <= Z.quot ttl 1000) by (apply Z.quot_le_lower_bound; lia). lia.
Qed.

Definition s_active (rs : list sreg) (i : nat) : Prop :=
  exists g, nth_error rs i = Some g /\ q_pc g = SActive.

Lemma s_active_upd : forall rs i g g' j, nth_error rs i = Some g ->
  s_active (upd i g' rs) j <-> (j = i /\ q_pc g' = SActive) \/ (j <> i /\ s_active rs j).
Proof. intros rs i g g' j. apply (nth_upd_iff (fun y => q_pc y = SActive)). Qed.

(* the value of the key is the one registrant that believes it holds *)
Record ssys_ok (s : ssys) : Prop := mkSsysOk {
  so_kv : kv1_ok (ss_kv s);
  so_ttl : forall g, In g (ss_rs s) -> 0 < q_ttl g;
  so_owner : forall i, r_get ueq (ss_kv s) tt = Some i <-> s_active (ss_rs s) i }.

Lemma ssys_init_ok : ssys_ok ssys_init.
Proof.
  split; simpl; [left; reflexivity|intros g []|].
  intros i. split; [discriminate|]. intros (g & E & _). destruct i; discriminate.
Qed.

Lemma sstep_nl_ok : forall s l s', ssys_ok s -> sstep_nl s l = Some s' -> ssys_ok s'.
Proof.
  intros s l s' [K T O] H.
  assert (H' : sstep s l = Some s' /\
               match l with
               | QNew ttl => 0 < ttl
               | QTime d => r_exists ueq (r_tick (ss_kv s) d) tt = r_exists ueq (ss_kv s) tt
               | _ => True
               end).
  { destruct l; cbn [sstep_nl] in H; auto.
    - destruct (Z.ltb 0 ttl) eqn:Ht; [|discriminate]. apply Z.ltb_lt in Ht. auto.
    - destruct (Bool.eqb _ _) eqn:Hp; [|discriminate]. apply eqb_prop in Hp. auto. }
  destruct H' as [Hs Hl]. clear H.
  destruct (sstep_inv _ _ _ Hs) as [ttl|d Hd|i g l kv' g' Hg St].
  - split; cbn [ss_kv ss_rs]; auto.
    + intros y Hy. apply in_app_or in Hy. destruct Hy as [Hy|[<-|[]]]; auto.
    + intros j. rewrite O. unfold s_active. split; intros (y & E & P); exists y; split; auto.
      * rewrite nth_error_app1; auto. apply nth_error_Some. congruence.
      * apply nth_error_app_new in E. destruct E as [E|[_ ->]]; [exact E|discriminate].
  - destruct (s_tick _ d K Hl) as [K' G]. split; cbn [ss_kv ss_rs]; auto. intros j. rewrite G. apply O.
  - pose proof (T g (nth_error_In _ _ Hg)) as Tg. split; cbn [ss_kv ss_rs].
    + destruct St; auto; [apply s_set|apply s_expire|apply s_del]; auto using refresh_pos.
    + intros y Hy. apply In_upd in Hy. destruct Hy as [->|Hy]; auto. destruct St; auto.
    + intros j. rewrite (s_active_upd _ _ _ _ _ Hg). rewrite <- O.
      assert (Hi : q_pc g = SActive -> r_get ueq (ss_kv s) tt = Some i) by (intros P; apply O; exists g; auto).
      destruct St as [C X|C X|P|P]; cbn [q_pc].
      * destruct (s_set (ss_kv s) i _ Tg) as [_ ->]. rewrite (s_absent _ X).
        split; [intros E; inversion E; auto|intros [[-> _]|[_ F]]; [reflexivity|discriminate]].
      * split; [intros E; right; split; auto; intros ->|intros [[_ F]|[_ E]]; [discriminate|exact E]].
        apply O in E. destruct E as (y & Ey & Py). assert (y = g) by congruence. subst y.
        rewrite Py in C. discriminate.
      * destruct (s_expire (ss_kv s) _ K (refresh_pos _ Tg)) as [_ ->].
        split; [intros E|intros [[-> _]|[_ E]]; auto]. destruct (Nat.eq_dec j i); auto.
      * destruct (s_del (ss_kv s) K) as [_ ->].
        split; [discriminate|intros [[_ F]|[Hj E]]; [discriminate|]]. rewrite (Hi P) in E. congruence.
Qed.

Theorem sreachable_nl_ok : forall s, reachable sstep_nl ssys_init s -> ssys_ok s.
Proof. apply invariant_reachable; [exact ssys_init_ok|]. intros; eapply sstep_nl_ok; eauto. Qed.

(* without lapses the redis registrations are exclusive and the owner of the key
   is the one registrant that believes it holds *)
Theorem redis_exclusive_without_lapse : forall s i j a b,
  reachable sstep_nl ssys_init s ->
  nth_error (ss_rs s) i = Some a -> nth_error (ss_rs s) j = Some b ->
  s_believes a = true -> s_believes b = true -> i = j /\ s_owner s = Some i.
Proof.
  intros s i j a b Hr Ha Hb Pa Pb. apply sreachable_nl_ok in Hr.
  unfold s_believes in *.
  destruct (q_pc a) eqn:Ea; try discriminate. destruct (q_pc b) eqn:Eb; try discriminate.
  assert (Gi : r_get ueq (ss_kv s) tt = Some i) by (apply (so_owner _ Hr); exists a; auto).
  assert (Gj : r_get ueq (ss_kv s) tt = Some j) by (apply (so_owner _ Hr); exists b; auto).
  split; [congruence|exact Gi].
Qed.

(* the hypotheses are satisfiable: a reachable etcd state in which A's lease has
   been revoked (A still believes, not yet ticked) and B holds the key *)
Example etcd_c26_hyps_satisfiable :
  exists s a b, run estep esys_init
      [GNew 1; GNew 1; GGrant 0; GPut 0; GLapse 1; GGrant 1; GPut 1] = Some s /\
    nth_error (es_rs s) 0 = Some a /\ nth_error (es_rs s) 1 = Some b /\
    g_pc a = EActive /\ dead (es_kv s) (g_lease a) /\ e_holds s b = true /\ e_holds s a = false.
Proof.
  do 3 eexists. split; [vm_compute; reflexivity|].
  split; [reflexivity|]. split; [reflexivity|]. split; [reflexivity|].
  split; [vm_compute; reflexivity|]. split; vm_compute; reflexivity.
Qed.

(* The boolean reflection accepts the etcd model (bounded sweeps).
   All schedules of at most 5 macro operations over two registrants (6 operations:
   MReg 0/1, MLapse, MTickAll, MStop 0/1) through the client loops: [ok] evaluates to
   true on what the etcd model produces, i.e. the reflection raises no alarm on any
   behaviour of the verified model.  (StartEphemeral driven directly: for schedules
   of any length, EphemeralOkProofs.v.) *)
Definition mop_alphabet : list mop := [MReg 0; MReg 1; MLapse; MTickAll; MStop 0; MStop 1].

Fixpoint seqs (n : nat) : list (list mop) :=
  match n with
  | O => [[]]
  | S k => flat_map (fun t => map (fun m => m :: t) mop_alphabet) (seqs k)
  end.
Definition schedules (n : nat) : list (list mop) := flat_map seqs (seq 0 (S n)).

Definition ok_on_model (b : backend) (ttls : list Z) (ops : list mop) : bool :=
  ok (mkCase b ttls ops (model_obs (mkCase b ttls ops []))).

(* schedules the harness can produce: a registrant is (re)started only when it is
   not registered, and (watcher mode) only when no watcher is pending *)
Definition e_can_reg (s : esys) (i : nat) : bool :=
  match nth_error (es_rs s) i with Some g => can_register (g_pc g) | None => false end.

Fixpoint e_legal (s : esys) (ops : list mop) : bool :=
  match ops with
  | [] => true
  | m :: t => match m with MReg i => e_can_reg s i | _ => true end && e_legal (fst (e_mop s m)) t
  end.

Fixpoint ew_legal (st : esys * option nat) (ops : list mop) : bool :=
  match ops with
  | [] => true
  | m :: t =>
      match m with
      | MReg i => e_can_reg (fst st) i && match snd st with None => true | Some _ => false end
      | _ => true
      end && ew_legal (fst (w_mop WOnce e_mop e_obs st m)) t
  end.

Definition e_start : esys := run_skip estep esys_init (map GNew [1; 1]).

(* restart / re-registration modes: additionally at most one registrant at a time
   whose registration has lapsed without it having been notified yet, and
   (RegisterService) no new registrant is started while one is in that state *)
Definition e_lapsed (s : esys) : bool :=
  existsb (fun g => e_believes g && negb (e_lease_live (es_kv s) (g_lease g))) (es_rs s).

Fixpoint er_legal (mode : wmode) (obsf : esys -> mres -> bool -> obs) (st : esys * option nat) (ops : list mop) : bool :=
  match ops with
  | [] => true
  | m :: t =>
      match m with
      | MReg i => e_can_reg (fst st) i && match snd st with None => true | Some _ => false end
                  && match mode with WService => negb (e_lapsed (fst st)) | _ => true end
      | MLapse => negb (e_lapsed (fst st))
      | _ => true
      end && er_legal mode obsf (fst (w_mop mode e_mop obsf st m)) t
  end.

(* [ok_run], the runs and the legality predicates all walk a schedule from the
   front: schedules with a common prefix pass through the same states along it, and
   no extension of an illegal prefix is legal.  So one depth-first walk over the
   tree of legal schedules, carrying the model state and the view, checks every
   schedule of at most [n] operations. *)
Section Sweep.
  Context {St : Type}.
  Variables (step : St -> mop -> St * obs) (cond : St -> mop -> bool)
            (legal : St -> list mop -> bool) (run : St -> list mop -> list obs)
            (b : backend) (alphabet : list mop) (words : nat -> list (list mop)).
  Hypothesis legal_cons : forall st m t, legal st (m :: t) = cond st m && legal (fst (step st m)) t.
  Hypothesis run_nil : forall st, run st [] = [].
  Hypothesis run_cons : forall st m t, run st (m :: t) = let '(st', o) := step st m in o :: run st' t.
  Hypothesis words_0 : words 0 = [[]].
  Hypothesis words_S : forall k, words (S k) = flat_map (fun t => map (fun m => m :: t) alphabet) (words k).

  Fixpoint sweep (n : nat) (st : St) (v : view) : bool :=
    match n with
    | O => true
    | S k => forallb (fun m => negb (cond st m) ||
                                let '(st', o) := step st m in
                                let '(r, v') := ok_step b v m o in r && sweep k st' v') alphabet
    end.

  Lemma sweep_word : forall k n st v t, (k <= n)%nat -> sweep n st v = true -> In t (words k) ->
    negb (legal st t) || ok_run b v t (run st t) = true.
  Proof.
    induction k as [|k IH]; intros n st v t Hk Hs Ht.
    - rewrite words_0 in Ht. destruct Ht as [<-|[]]. rewrite run_nil. apply orb_true_r.
    - destruct n as [|n]; [lia|].
      rewrite words_S in Ht. apply in_flat_map in Ht. destruct Ht as (t' & Ht' & Ht).
      apply in_map_iff in Ht. destruct Ht as (m & <- & Hm).
      cbn [sweep] in Hs. rewrite forallb_forall in Hs. specialize (Hs m Hm).
      rewrite legal_cons, run_cons. destruct (cond st m); [|reflexivity].
      destruct (step st m) as [st' o]. cbn [ok_run fst]. destruct (ok_step b v m o) as [r v'].
      apply andb_true_iff in Hs. destruct Hs as [-> Hs].
      apply (IH n st' v' t'); [lia|exact Hs|exact Ht'].
  Qed.

  Lemma sweep_schedules : forall n st v, sweep n st v = true ->
    forallb (fun ops => negb (legal st ops) || ok_run b v ops (run st ops)) (flat_map words (seq 0 (S n))) = true.
  Proof.
    intros n st v Hs. apply forallb_forall. intros t Ht.
    apply in_flat_map in Ht. destruct Ht as (k & Hk & Ht). apply in_seq in Hk.
    apply (sweep_word k n); [lia|exact Hs|exact Ht].
  Qed.
End Sweep.

(* the test [ew_legal] / [er_legal] make on each operation *)
Definition ew_cond (st : esys * option nat) (m : mop) : bool :=
  match m with
  | MReg i => e_can_reg (fst st) i && match snd st with None => true | Some _ => false end
  | _ => true
  end.

Definition er_cond (mode : wmode) (st : esys * option nat) (m : mop) : bool :=
  match m with
  | MReg i => e_can_reg (fst st) i && match snd st with None => true | Some _ => false end
              && match mode with WService => negb (e_lapsed (fst st)) | _ => true end
  | MLapse => negb (e_lapsed (fst st))
  | _ => true
  end.

Lemma ok_sound_on_etcd_watchers_bounded :
  forallb (fun ops => negb (ew_legal (e_start, None) ops) || ok_on_model BEtcdW [1; 1] ops) (schedules 5) = true.
Proof.
  apply (sweep_schedules (w_mop WOnce e_mop e_obs) ew_cond ew_legal (w_run WOnce e_mop e_obs) BEtcdW
           mop_alphabet seqs); [reflexivity..|].
  vm_compute; reflexivity.
Qed.

Lemma ok_sound_on_etcd_loops_bounded :
  forallb (fun ops => negb (er_legal WRun e_obs2 (e_start, None) ops) || ok_on_model BEtcdR [1; 1] ops) (schedules 5) = true /\
  forallb (fun ops => negb (er_legal WService e_obs2 (e_start, None) ops) || ok_on_model BEtcdS [1; 1] ops) (schedules 5) = true.
Proof.
  split.
  - apply (sweep_schedules (w_mop WRun e_mop e_obs2) (er_cond WRun) (er_legal WRun e_obs2) (w_run WRun e_mop e_obs2)
             BEtcdR mop_alphabet seqs); [reflexivity..|].
    vm_compute; reflexivity.
  - apply (sweep_schedules (w_mop WService e_mop e_obs2) (er_cond WService) (er_legal WService e_obs2)
             (w_run WService e_mop e_obs2) BEtcdS mop_alphabet seqs); [reflexivity..|].
    vm_compute; reflexivity.
Qed.

(* the sweep is not vacuous: many schedules are legal *)
Lemma legal_schedules_counted :
  Nat.leb 1000 (length (filter (e_legal e_start) (schedules 5))) = true /\
  Nat.leb 1000 (length (filter (ew_legal (e_start, None)) (schedules 5))) = true /\
  Nat.leb 1000 (length (filter (er_legal WRun e_obs2 (e_start, None)) (schedules 5))) = true /\
  Nat.leb 1000 (length (filter (er_legal WService e_obs2 (e_start, None)) (schedules 5))) = true.
Proof. repeat split; vm_compute; reflexivity. Qed.

(* ... while on the redis model it does raise alarms (the witness is among them) *)
Lemma ok_rejects_redis_witness :
  ok_on_model BRedis [300; 300] [MReg 0; MLapse; MReg 1; MTickAll; MStop 0] = false.
Proof. vm_compute; reflexivity. Qed.

(* The client loops (withActiveLock, selfmon.run, RegisterService).
   Whatever the loops do — retry, restart after a lapse, register again at once —
   they only ever take steps of the registrant system, so every state they pass
   through is reachable and the exclusivity / notification / owner-safety theorems
   apply to it: across restarts and re-registrations at most one registrant
   believes it holds the key with a live lease. *)
Lemma try_step_reach : forall s l, reachable estep esys_init s -> reachable estep esys_init (try_step estep s l).
Proof.
  intros s l H. unfold try_step. destruct (estep s l) eqn:E; auto. eapply reachable_step; eauto.
Qed.

Lemma e_mop_reach : forall s m, reachable estep esys_init s -> reachable estep esys_init (fst (e_mop s m)).
Proof.
  intros s m H. destruct m; simpl.
  - repeat apply try_step_reach; auto.
  - destruct (e_owner_lease s); simpl; auto. apply try_step_reach; auto.
  - generalize (seq 0 (length (es_rs s))). intros l. revert s H.
    induction l as [|i t IH]; intros s H; simpl; auto. apply IH. repeat apply try_step_reach; auto.
  - repeat apply try_step_reach; auto.
Qed.

Lemma retry_reach : forall s p, reachable estep esys_init s ->
  reachable estep esys_init (fst (retry_pending e_mop s p)).
Proof.
  intros s p H. unfold retry_pending. destruct p as [j|]; [|exact H].
  pose proof (e_mop_reach s (MReg j) H) as H'. destruct (e_mop s (MReg j)) as [s' o]. cbn [fst] in H'.
  destruct (o_res o); exact H'.
Qed.

Lemma w_mid_reach : forall mode s1 p newly, reachable estep esys_init s1 ->
  reachable estep esys_init (fst (w_mid mode e_mop s1 p newly)).
Proof.
  intros mode s1 p newly H1. unfold w_mid.
  destruct mode; destruct newly as [j|]; try (apply retry_reach; exact H1).
  - pose proof (retry_reach s1 p H1) as Hx. destruct (retry_pending e_mop s1 p) as [sb pb]. exact Hx.
  - pose proof (e_mop_reach s1 (MReg j) H1) as Ha. destruct (e_mop s1 (MReg j)) as [sa o]. cbn [fst] in Ha.
    destruct (o_res o); try (apply retry_reach; exact Ha); destruct p; try exact Ha; apply retry_reach; exact Ha.
Qed.

Lemma w_mop_reach : forall mode obsf st m,
  reachable estep esys_init (fst st) ->
  reachable estep esys_init (fst (fst (w_mop mode e_mop obsf st m))).
Proof.
  intros mode obsf [s p] m H. cbn [fst] in H. pose proof (e_mop_reach s m H) as H'.
  destruct m; unfold w_mop; destruct (e_mop s _) as [s' o]; cbn [fst] in H'.
  - destruct (o_res o); exact H'.
  - exact H'.
  - set (newly := newly_closed _ _ _).
    pose proof (w_mid_reach mode s' p newly H') as H2.
    destruct (w_mid mode e_mop s' p newly) as [s2 p2]. cbn [fst] in H2.
    pose proof (e_mop_reach s2 MTickAll H2) as H3. destruct (e_mop s2 MTickAll) as [s3 o3]. exact H3.
  - destruct p as [j|]; [destruct (Nat.eqb i j); [exact H|]|]; exact H'.
Qed.

Fixpoint w_state (mode : wmode) (obsf : esys -> mres -> bool -> obs) (st : esys * option nat) (ms : list mop)
  : esys * option nat :=
  match ms with
  | [] => st
  | m :: t => w_state mode obsf (fst (w_mop mode e_mop obsf st m)) t
  end.

Lemma w_state_reach : forall mode obsf ms st,
  reachable estep esys_init (fst st) -> reachable estep esys_init (fst (w_state mode obsf st ms)).
Proof.
  induction ms as [|m t IH]; intros st H; simpl; auto. apply IH. apply w_mop_reach; auto.
Qed.

Lemma e_init_reach : forall ttls, reachable estep esys_init (run_skip estep esys_init (map GNew ttls)).
Proof.
  intros ttls. apply (run_skip_inv estep (reachable estep esys_init) (fun _ => True)).
  - intros s l s' R _ H. exact (reachable_step estep _ _ _ _ R H).
  - apply Forall_forall. auto.
  - apply reachable_refl.
Qed.

(* across restarts and re-registrations, in any of the three client loops, for any
   number of registrants and any schedule of start / lapse / tick / stop: at most
   one registrant believes it holds the key with a live lease, and the key carries
   its lease *)
Theorem etcd_loops_exclusive : forall mode obsf ttls ops s i j a b,
  s = fst (w_state mode obsf (run_skip estep esys_init (map GNew ttls), None) ops) ->
  nth_error (es_rs s) i = Some a -> nth_error (es_rs s) j = Some b ->
  e_holds s a = true -> e_holds s b = true ->
  i = j /\ e_owner_lease s = Some (g_lease a).
Proof.
  intros mode obsf ttls ops s i j a b -> Ha Hb Pa Pb.
  assert (R : reachable estep esys_init
                (fst (w_state mode obsf (run_skip estep esys_init (map GNew ttls), None) ops))).
  { apply w_state_reach. simpl. apply e_init_reach. }
  split; [eapply etcd_exclusive; eauto|eapply etcd_holder_owns_key; eauto].
Qed.

(* the same sweeps over three registrants (8 operations), schedules of at most 4 operations *)
Definition mop_alphabet3 : list mop := [MReg 0; MReg 1; MReg 2; MLapse; MTickAll; MStop 0; MStop 1; MStop 2].
Fixpoint seqs3 (n : nat) : list (list mop) :=
  match n with
  | O => [[]]
  | S k => flat_map (fun t => map (fun m => m :: t) mop_alphabet3) (seqs3 k)
  end.
Definition schedules3 (n : nat) : list (list mop) := flat_map seqs3 (seq 0 (S n)).
Definition e_start3 : esys := run_skip estep esys_init (map GNew [1; 1; 1]).

Lemma ok_sound_on_etcd_loops_bounded3 :
  forallb (fun ops => negb (ew_legal (e_start3, None) ops) || ok_on_model BEtcdW [1; 1; 1] ops) (schedules3 4) = true /\
  forallb (fun ops => negb (er_legal WRun e_obs2 (e_start3, None) ops) || ok_on_model BEtcdR [1; 1; 1] ops) (schedules3 4) = true /\
  forallb (fun ops => negb (er_legal WService e_obs2 (e_start3, None) ops) || ok_on_model BEtcdS [1; 1; 1] ops) (schedules3 4) = true.
Proof.
  split; [|split].
  - apply (sweep_schedules (w_mop WOnce e_mop e_obs) ew_cond ew_legal (w_run WOnce e_mop e_obs) BEtcdW
             mop_alphabet3 seqs3); [reflexivity..|].
    vm_compute; reflexivity.
  - apply (sweep_schedules (w_mop WRun e_mop e_obs2) (er_cond WRun) (er_legal WRun e_obs2) (w_run WRun e_mop e_obs2)
             BEtcdR mop_alphabet3 seqs3); [reflexivity..|].
    vm_compute; reflexivity.
  - apply (sweep_schedules (w_mop WService e_mop e_obs2) (er_cond WService) (er_legal WService e_obs2)
             (w_run WService e_mop e_obs2) BEtcdS mop_alphabet3 seqs3); [reflexivity..|].
    vm_compute; reflexivity.
Qed.
