(* The boolean reflection of C26 accepts every behaviour
   of the etcd registrant model, for schedules of ANY length over ANY number of
   registrants (plain StartEphemeral mode): [ok] raises no alarm on the verified
   model, so an alarm on the implementation's observations is a disagreement with
   the model or a genuine violation. *)
From Coq Require Import List Bool ZArith Lia.
From Verif Require Import Base.KV Base.KVProofs Locks.Interleave Locks.InterleaveProofs
  Locks.Ephemeral Locks.EphemeralProofs.
Import ListNotations.
Local Open Scope Z_scope.

Local Notation live kv l := (e_lease_live kv l = true).

Definition find_idx (l : Z) :=
  fix go (rs : list ereg) (k : nat) : option nat :=
    match rs with
    | [] => None
    | g :: t => if Z.eqb (g_lease g) l then Some k else go t (S k)
    end.

Lemma owner_idx_unfold : forall s,
  e_owner_idx s = match e_owner_lease s with None => None | Some l => find_idx l (es_rs s) O end.
Proof. reflexivity. Qed.

Lemma find_idx_spec : forall l rs k i g,
  nth_error rs i = Some g -> g_lease g = l ->
  (forall j b, nth_error rs j = Some b -> g_lease b = l -> j = i) ->
  find_idx l rs k = Some (k + i)%nat.
Proof.
  intros l rs. induction rs as [|a t IH]; intros k i g Hi El Hu; [destruct i; discriminate|].
  simpl. destruct (Z.eqb (g_lease a) l) eqn:E.
  - apply Z.eqb_eq in E. specialize (Hu O a eq_refl E). subst i. f_equal. lia.
  - destruct i as [|i]; [simpl in Hi; inversion Hi; subst a; rewrite El, Z.eqb_refl in E; discriminate|].
    simpl in Hi. rewrite (IH (S k) i g Hi El).
    + f_equal. lia.
    + intros j b Hj Eb. specialize (Hu (S j) b Hj Eb). lia.
Qed.

Lemma find_idx_none : forall l rs k, (forall g, In g rs -> g_lease g <> l) -> find_idx l rs k = None.
Proof.
  intros l rs. induction rs as [|a t IH]; intros k H; simpl; auto.
  destruct (Z.eqb (g_lease a) l) eqn:E.
  - apply Z.eqb_eq in E. exfalso. eapply H; eauto. left; auto.
  - apply IH. intros g Hg. apply H. right; auto.
Qed.

(* states between two macro operations *)
Definition stable_pc (p : epc) : Prop :=
  p = EInit \/ p = EActive \/ p = EClosed \/ exists e, p = ERejected e.
Definition active_at (s : esys) (i : nat) : Prop :=
  exists g, nth_error (es_rs s) i = Some g /\ g_pc g = EActive.
Definition key_present (s : esys) : bool := match e_key s with Some _ => true | None => false end.

Record ms (s : esys) : Prop := mkMs {
  ms_reach : reachable estep esys_init s;
  ms_stable : forall g, In g (es_rs s) -> stable_pc (g_pc g);
  ms_owner : forall x, e_kvs (es_kv s) = [x] ->
             exists c g, nth_error (es_rs s) c = Some g /\ g_pc g = EActive /\ g_lease g = ek_lease x }.

Record vr (v : view) (s : esys) : Prop := mkVr {
  vr_key : v_key v = key_present s;
  vr_owner : v_owner v = e_owner_idx s;
  vr_active : forall i, In i (v_active v) <-> active_at s i }.

Lemma kvs_cases : forall s, reachable estep esys_init s ->
  e_kvs (es_kv s) = [] \/ exists x, e_kvs (es_kv s) = [x] /\ live (es_kv s) (ek_lease x).
Proof. intros s H. exact (eo_key _ _ (ereachable_ok s H)). Qed.

Lemma key_empty : forall s, e_kvs (es_kv s) = [] -> e_key s = None /\ key_present s = false /\ e_owner_idx s = None.
Proof.
  intros s E. unfold key_present, e_owner_idx, e_owner_lease, e_key, e_get. rewrite E. simpl. auto.
Qed.

Lemma key_one : forall s x, e_kvs (es_kv s) = [x] ->
  e_key s = Some x /\ key_present s = true /\ e_owner_lease s = Some (ek_lease x).
Proof.
  intros s x E. unfold key_present, e_owner_lease, e_key, e_get. rewrite E. simpl. auto.
Qed.

Lemma owner_idx_of : forall s x c g,
  esys_ok s -> e_kvs (es_kv s) = [x] -> nth_error (es_rs s) c = Some g -> g_lease g = ek_lease x ->
  ek_lease x <> 0 -> e_owner_idx s = Some c.
Proof.
  intros s x c g Ok E Hc El Hnz. rewrite owner_idx_unfold.
  destruct (key_one s x E) as (_ & _ & ->).
  rewrite (find_idx_spec (ek_lease x) (es_rs s) O c g Hc El); auto.
  intros j b Hj Eb. eapply (eo_distinct _ _ Ok); eauto; congruence.
Qed.

Lemma active_lease_pos : forall s i g, reachable estep esys_init s ->
  nth_error (es_rs s) i = Some g -> g_pc g = EActive -> 0 < g_lease g.
Proof.
  intros s i g H Hi Hp. apply ereachable_ok in H. apply nth_error_In in Hi.
  pose proof (eo_range _ _ H g Hi). assert (g_lease g <> 0); [|lia].
  apply (eo_current _ _ H g Hi). right; left; auto.
Qed.

(* an active registrant that carries the lease of the key is its owner *)
Lemma owner_is : forall s x i g, ms s -> e_kvs (es_kv s) = [x] ->
  nth_error (es_rs s) i = Some g -> g_pc g = EActive -> g_lease g = ek_lease x -> e_owner_idx s = Some i.
Proof.
  intros s x i g M E Hi Hp El. eapply owner_idx_of; eauto.
  - apply ereachable_ok. apply M.
  - rewrite <- El. pose proof (active_lease_pos s i g (ms_reach s M) Hi Hp). lia.
Qed.

Lemma ms_owner_idx : forall s x, ms s -> e_kvs (es_kv s) = [x] ->
  exists c g, nth_error (es_rs s) c = Some g /\ g_pc g = EActive /\ g_lease g = ek_lease x /\ e_owner_idx s = Some c.
Proof.
  intros s x M E. destruct (ms_owner s M x E) as (c & g & Hc & Hp & El).
  exists c, g. repeat split; auto. eapply owner_is; eauto.
Qed.

Definition step_ok_for (v : view) (s : esys) (m : mop) : Prop :=
  let '(s', o) := e_mop s m in
  let '(r, v') := ok_step BEtcd v m o in
  r = true /\ ms s' /\ vr v' s'.

Lemma ms_reach_mop : forall s m, ms s -> reachable estep esys_init (fst (e_mop s m)).
Proof. intros s m M. apply e_mop_reach. apply M. Qed.

(* a state without key: nobody owns it, and the view only has to know who is active *)
Lemma no_key_ok : forall s act, reachable estep esys_init s ->
  (forall g, In g (es_rs s) -> stable_pc (g_pc g)) -> e_kvs (es_kv s) = [] ->
  (forall j, In j act <-> active_at s j) ->
  key_present s = false /\ ms s /\ forall p, vr (mkView act None false p) s.
Proof.
  intros s act R St E Ha. destruct (key_empty s E) as (_ & K2 & K3). split; auto. split.
  - split; auto. intros y Ey. rewrite E in Ey. discriminate.
  - split; cbn [v_key v_owner v_active]; auto.
Qed.

Lemma revoke_kvs : forall (kv : estore) l,
  e_kvs (snd (e_revoke kv l)) =
  if e_lease_live kv l then filter (fun x => negb (Z.eqb (ek_lease x) l)) (e_kvs kv) else e_kvs kv.
Proof. intros. unfold e_revoke. destruct (e_lease_live kv l); [apply detach_shape|reflexivity]. Qed.

Lemma revoke_kvs_empty : forall (kv : estore) l, e_kvs kv = [] -> e_kvs (snd (e_revoke kv l)) = [].
Proof. intros kv l E. rewrite revoke_kvs, E. destruct (e_lease_live kv l); reflexivity. Qed.

Lemma revoke_kvs_own : forall (kv : estore) x,
  e_kvs kv = [x] -> live kv (ek_lease x) -> e_kvs (snd (e_revoke kv (ek_lease x))) = [].
Proof. intros kv x E L. rewrite revoke_kvs, L, E. simpl. rewrite Z.eqb_refl. reflexivity. Qed.

Lemma revoke_kvs_other : forall (kv : estore) x l,
  e_kvs kv = [x] -> ek_lease x <> l -> e_kvs (snd (e_revoke kv l)) = [x].
Proof.
  intros kv x l E Hne. rewrite revoke_kvs, E. apply Z.eqb_neq in Hne.
  destruct (e_lease_live kv l); simpl; rewrite ?Hne; reflexivity.
Qed.

Lemma lapse_ok : forall v s, ms s -> vr v s -> step_ok_for v s MLapse.
Proof.
  intros v s M V. unfold step_ok_for.
  pose proof (ms_reach_mop s MLapse M) as R'.
  destruct (kvs_cases s (ms_reach s M)) as [E|[x [E Lx]]].
  - (* no key: nothing happens *)
    destruct (key_empty s E) as (K1 & _ & _).
    assert (Hm : e_mop s MLapse = (s, e_obs s ResNone false)).
    { unfold e_mop, e_owner_lease. rewrite K1. reflexivity. }
    destruct (no_key_ok s (v_active v) (ms_reach s M) (ms_stable s M) E (vr_active v s V)) as (K2 & _ & V1).
    rewrite Hm. cbn [ok_step e_obs o_key o_closed]. fold (key_present s). rewrite K2. auto.
  - destruct (key_one s x E) as (K1 & K2 & K3).
    set (s1 := mkES (snd (e_revoke (es_kv s) (ek_lease x))) (es_rs s)).
    assert (Hm : e_mop s MLapse = (s1, e_obs s1 ResNone false)).
    { unfold e_mop. rewrite K3. reflexivity. }
    rewrite Hm in *. cbn [fst] in R'.
    assert (E1 : e_kvs (es_kv s1) = []) by (apply revoke_kvs_own; auto).
    destruct (no_key_ok s1 (v_active v) R' (ms_stable s M) E1 (vr_active v s V)) as (K2' & M1 & V1).
    cbn [ok_step e_obs o_key o_closed]. fold (key_present s1). rewrite K2'. auto.
Qed.

Lemma upd_upd {A} : forall (l : list A) i a b, upd i a (upd i b l) = upd i a l.
Proof. induction l as [|x t IH]; intros [|i] a b; simpl; auto. f_equal. auto. Qed.

Lemma find_idx_ext : forall l rs rs' k, map g_lease rs = map g_lease rs' -> find_idx l rs k = find_idx l rs' k.
Proof.
  intros l rs. induction rs as [|a t IH]; intros [|b u] k H; simpl in *; try discriminate; auto.
  inversion H. rewrite H1. destruct (Z.eqb (g_lease b) l); auto.
Qed.

Lemma owner_idx_ext : forall s s', e_kvs (es_kv s') = e_kvs (es_kv s) ->
  map g_lease (es_rs s') = map g_lease (es_rs s) -> e_owner_idx s' = e_owner_idx s.
Proof.
  intros s s' Hk Hl. rewrite !owner_idx_unfold. unfold e_owner_lease, e_key, e_get. rewrite Hk.
  destruct (find _ (e_kvs (es_kv s))); auto. apply find_idx_ext; auto.
Qed.

Lemma key_present_ext : forall s s', e_kvs (es_kv s') = e_kvs (es_kv s) -> key_present s' = key_present s.
Proof. intros s s' Hk. unfold key_present, e_key, e_get. rewrite Hk. reflexivity. Qed.

Definition is_closed (g : ereg) : bool := match g_pc g with EClosed => true | _ => false end.

Lemma closed_at_obs : forall s r j,
  closed_at (e_obs s r true) j = match nth_error (es_rs s) j with Some g => is_closed g | None => false end.
Proof.
  intros s r j. unfold closed_at, e_obs, e_closed_flags; cbn [o_closed].
  destruct (nth_error (es_rs s) j) as [g|] eqn:E.
  - change (nth j (map is_closed (es_rs s)) false = is_closed g).
    rewrite nth_indep with (d' := is_closed g) by (rewrite map_length; apply nth_error_Some; congruence).
    rewrite (map_nth is_closed). rewrite (nth_error_nth _ _ g E). reflexivity.
  - change (nth j (map is_closed (es_rs s)) false = false).
    apply nth_overflow. rewrite map_length. apply nth_error_None. auto.
Qed.

Lemma filter_ext_in_iff {A} (f : A -> bool) (l : list A) (P : A -> Prop) :
  (forall x, In x l -> (f x = true <-> P x)) -> forall x, In x (filter f l) <-> In x l /\ P x.
Proof.
  intros H x. rewrite filter_In. split; intros [A1 A2]; split; auto; apply (H x A1); auto.
Qed.

Lemma in_remove_nat : forall i j l, In j (remove_nat i l) <-> In j l /\ j <> i.
Proof.
  intros i j l. unfold remove_nat. rewrite filter_In. split; intros [A B]; split; auto.
  - apply negb_true_iff in B. apply Nat.eqb_neq in B. auto.
  - apply negb_true_iff. apply Nat.eqb_neq. auto.
Qed.

Lemma stable_not_transient : forall p, stable_pc p -> p <> ERevoking /\ p <> EGranted.
Proof. intros p [H|[H|[H|[e H]]]]; subst; split; discriminate. Qed.

Lemma stable_upd : forall rs i g', (forall g, In g rs -> stable_pc (g_pc g)) -> stable_pc (g_pc g') ->
  forall g, In g (upd i g' rs) -> stable_pc (g_pc g).
Proof. intros rs i g' H Hg' g Hg. apply In_upd in Hg. destruct Hg as [->|Hg]; auto. Qed.

Lemma active_at_upd : forall s kv' i g g' j, nth_error (es_rs s) i = Some g ->
  active_at (mkES kv' (upd i g' (es_rs s))) j <-> (j = i /\ g_pc g' = EActive) \/ (j <> i /\ active_at s j).
Proof. intros s kv' i g g' j. apply (nth_upd_iff (fun y => g_pc y = EActive)). Qed.

Lemma owner0_none : forall s, key_present s = false -> e_owner_idx s = None.
Proof.
  intros s H. unfold key_present in H. rewrite owner_idx_unfold. unfold e_owner_lease.
  destruct (e_key s); [discriminate|reflexivity].
Qed.

Lemma owner0_eq : forall s, (if key_present s then e_owner_idx s else None) = e_owner_idx s.
Proof. intros s. destruct (key_present s) eqn:K; auto. symmetry. apply owner0_none; auto. Qed.

Lemma owner_active : forall s c, ms s -> e_owner_idx s = Some c -> active_at s c.
Proof.
  intros s c M Ho. destruct (kvs_cases s (ms_reach s M)) as [E|[x [E _]]].
  - destruct (key_empty s E) as (_ & _ & K). congruence.
  - destruct (ms_owner_idx s x M E) as (c' & g & Hc & Hp & _ & Ho'). exists g. split; congruence.
Qed.

Lemma idle_noop : forall s i l,
  (forall g, nth_error (es_rs s) i = Some g -> stable_pc (g_pc g)) -> ~ active_at s i ->
  l = GTick i \/ l = GStop i \/ l = GRevokeOwn i -> try_step estep s l = s.
Proof.
  intros s i l Hst Hn Hl. unfold active_at in Hn.
  destruct Hl as [->|[->| ->]]; unfold try_step, estep;
    (destruct (nth_error (es_rs s) i) as [g|]; [|reflexivity]);
    destruct (stable_not_transient _ (Hst g eq_refl)) as [Nr _];
    assert (Na : g_pc g <> EActive) by (intros P; apply Hn; eauto);
    destruct (g_pc g); try reflexivity; congruence.
Qed.

Lemma stop_noop : forall s i, ms s -> ~ active_at s i -> e_mop s (MStop i) = (s, e_obs s ResNone true).
Proof.
  intros s i M Hn.
  assert (Hst : forall g, nth_error (es_rs s) i = Some g -> stable_pc (g_pc g))
    by (intros g Hg; apply (ms_stable s M); eapply nth_error_In; eauto).
  unfold e_mop. rewrite !(idle_noop s i); auto.
Qed.

(* what a stop of [i] leaves of the active set *)
Lemma act_filter_stop : forall v s s1 i,
  vr v s -> (forall j, active_at s1 j <-> active_at s j /\ j <> i) ->
  forall j, In j (filter (fun j => negb (closed_at (e_obs s1 ResNone true) j)) (remove_nat i (v_active v)))
            <-> active_at s1 j.
Proof.
  intros v s s1 i V H1 j. rewrite filter_In, in_remove_nat, closed_at_obs, (vr_active v s V). split.
  - intros [A _]. apply H1. exact A.
  - intros Ha. split; [apply H1; exact Ha|]. destruct Ha as (g & Hg & Hp).
    rewrite Hg. unfold is_closed. rewrite Hp. reflexivity.
Qed.

Lemma stop_idle : forall v s i, ms s -> vr v s -> ~ active_at s i -> step_ok_for v s (MStop i).
Proof.
  intros v s i M V Hn. unfold step_ok_for. rewrite (stop_noop s i M Hn). cbn [ok_step].
  pose proof V as [Vk Vo Va].
  assert (Hnm : onat_eqb (v_owner v) (Some i) = false).
  { rewrite Vo. destruct (e_owner_idx s) as [c|] eqn:Eo; auto. simpl. apply Nat.eqb_neq.
    intros ->. apply Hn. apply owner_active; auto. }
  rewrite Hnm. cbn [e_obs o_key]. fold (key_present s). rewrite Vk, eqb_reflx.
  split; auto. split; auto. split; cbn [v_key v_owner v_active]; auto.
  - rewrite Vo. apply owner0_eq.
  - apply (act_filter_stop v s s i V). intros j. split; [intros A; split; auto; intros ->; auto|tauto].
Qed.

Lemma stop_ok : forall v s i, ms s -> vr v s -> step_ok_for v s (MStop i).
Proof.
  intros v s i M V.
  destruct (nth_error (es_rs s) i) as [g|] eqn:Hg;
    [|apply stop_idle; auto; intros (g & E & _); congruence].
  destruct (ms_stable s M g (nth_error_In _ _ Hg)) as [Hp|[Hp|[Hp|[e Hp]]]].
  1,3,4: apply stop_idle; auto; intros (g0 & E & P); congruence.
  (* active: stop, revoke own lease, closed *)
  unfold step_ok_for.
  pose proof (ms_reach_mop s (MStop i) M) as R'.
  pose proof V as [Vk Vo Va].
  assert (Hlen : (i < length (es_rs s))%nat) by (apply nth_error_Some; congruence).
  set (gc := eset (eset g ERevoking) EClosed).
  set (s1 := mkES (snd (e_revoke (es_kv s) (g_lease g))) (upd i gc (es_rs s))).
  assert (Hm : e_mop s (MStop i) = (s1, e_obs s1 ResNone true)).
  { assert (H1 : try_step estep s (GStop i) = mkES (es_kv s) (upd i (eset g ERevoking) (es_rs s)))
      by (unfold try_step, estep; rewrite Hg, Hp; reflexivity).
    unfold e_mop. rewrite H1. unfold try_step, estep. cbn [es_rs es_kv].
    rewrite nth_error_upd_same by auto. cbn [g_pc eset].
    unfold ewith. cbn [es_rs es_kv g_lease eset]. rewrite upd_upd. reflexivity. }
  rewrite Hm in *. cbn [fst] in R'. cbn [ok_step].
  assert (Hact1 : forall j, active_at s1 j <-> active_at s j /\ j <> i).
  { intros j. unfold s1. rewrite (active_at_upd s _ i g gc j Hg). simpl.
    split; [intros [[_ F]|[Hj A]]; [discriminate|auto]|intros [A Hj]; auto]. }
  assert (Hstable1 : forall g0, In g0 (es_rs s1) -> stable_pc (g_pc g0))
    by (apply stable_upd; [apply M|right; right; left; reflexivity]).
  pose proof (act_filter_stop v s s1 i V Hact1) as Hfilter.
  (* the key, if any, goes exactly when it carries the lease of [i] *)
  pose proof (fun E1 => no_key_ok s1 _ R' Hstable1 E1 Hfilter) as Hgone.
  destruct (kvs_cases s (ms_reach s M)) as [E|[x [E Lx]]].
  - destruct (key_empty s E) as (_ & K2 & K3).
    destruct (Hgone (revoke_kvs_empty _ _ E)) as (K2' & M1 & V1).
    rewrite Vo, K3. cbn [onat_eqb e_obs o_key]. fold (key_present s1). rewrite K2', Vk, K2. auto.
  - destruct (ms_owner_idx s x M E) as (c & gown & Hc & Hpc & Elc & Ho).
    destruct (key_one s x E) as (_ & K2 & _).
    rewrite Vo, Ho. cbn [onat_eqb e_obs o_key]. fold (key_present s1).
    destruct (Nat.eq_dec c i) as [->|Hci].
    + (* i owns the key: it disappears with the lease *)
      assert (gown = g) by congruence. subst gown.
      assert (E1 : e_kvs (es_kv s1) = []) by (unfold s1; cbn [es_kv]; rewrite Elc; apply revoke_kvs_own; auto).
      destruct (Hgone E1) as (K2' & M1 & V1). rewrite Nat.eqb_refl, K2'. auto.
    + (* somebody else owns the key: untouched *)
      assert (Hne : ek_lease x <> g_lease g).
      { intro El. pose proof (owner_is s x i g M E Hg Hp (eq_sym El)). congruence. }
      assert (E1 : e_kvs (es_kv s1) = e_kvs (es_kv s))
        by (unfold s1; cbn [es_kv]; rewrite E; apply revoke_kvs_other; auto).
      assert (Hl1 : map g_lease (es_rs s1) = map g_lease (es_rs s))
        by (unfold s1; cbn [es_rs]; eapply map_upd_same; eauto).
      rewrite (proj2 (Nat.eqb_neq c i) Hci), (key_present_ext s s1 E1), Vk, K2. cbn [Bool.eqb].
      split; auto. split; split; cbn [v_key v_owner v_active]; auto.
      * intros y Ey. rewrite E1, E in Ey. inversion Ey; subst y.
        exists c, gown. unfold s1; cbn [es_rs]. rewrite nth_error_upd_other; auto.
      * rewrite (key_present_ext s s1 E1). auto.
      * rewrite (owner_idx_ext s s1 E1 Hl1). congruence.
Qed.

Lemma mreg_eq : forall s i g, nth_error (es_rs s) i = Some g -> can_register (g_pc g) = true ->
  let id := e_next_lease (es_kv s) in
  let kv1 := snd (e_grant (es_kv s) (g_ttl g)) in
  let after p r kv := let s2 := mkES kv (upd i (mkEreg p id (g_ttl g)) (es_rs s)) in (s2, e_obs s2 r false) in
  e_mop s (MReg i) =
    match e_put_if_absent ueq kv1 tt tt id with
    | Some (true, kv2) => after EActive ResOk kv2
    | Some (false, _) => after (ERejected KeyExists) ResExists kv1
    | None => after (ERejected OtherErr) ResOther kv1
    end.
Proof.
  intros s i g Hg Hc id kv1 after.
  assert (Hlen : (i < length (es_rs s))%nat) by (apply nth_error_Some; congruence).
  assert (H1 : try_step estep s (GGrant i) = mkES kv1 (upd i (mkEreg EGranted id (g_ttl g)) (es_rs s)))
    by (unfold try_step, estep; rewrite Hg, Hc; reflexivity).
  unfold e_mop. rewrite H1. unfold try_step, estep. cbn [es_rs es_kv]. rewrite nth_error_upd_same by auto.
  cbn [g_pc g_lease]. unfold after.
  destruct (e_put_if_absent ueq kv1 tt tt id) as [[[|] kv2]|]; unfold ewith, eset; cbn [es_rs g_lease g_ttl];
    rewrite upd_upd, nth_error_upd_same by auto; reflexivity.
Qed.

Lemma reg_ok : forall v s i, ms s -> vr v s -> e_can_reg s i = true -> step_ok_for v s (MReg i).
Proof.
  intros v s i M V Hcan. unfold step_ok_for.
  pose proof (ms_reach_mop s (MReg i) M) as R'.
  pose proof V as [Vk Vo Va].
  unfold e_can_reg in Hcan. destruct (nth_error (es_rs s) i) as [g|] eqn:Hg; [|discriminate].
  assert (Hlen : (i < length (es_rs s))%nat) by (apply nth_error_Some; congruence).
  assert (Hna : ~ active_at s i).
  { intros (g0 & E0 & P0). assert (g0 = g) by congruence. subst g0. rewrite P0 in Hcan. discriminate. }
  pose proof (mreg_eq s i g Hg Hcan) as Hm. cbv zeta in Hm.
  set (id := e_next_lease (es_kv s)) in *. set (kv1 := snd (e_grant (es_kv s) (g_ttl g))) in *.
  destruct (grant_shape (es_kv s) kv1 (g_ttl g) id eq_refl) as (_ & Hk1 & _ & Hl1 & _).
  assert (Hlive1 : live kv1 id) by (apply live_iff; rewrite Hl1; left; reflexivity).
  assert (Hget1 : e_get ueq kv1 tt = e_key s) by (unfold e_key, e_get; rewrite Hk1; reflexivity).
  unfold e_put_if_absent in Hm. rewrite Hget1 in Hm.
  destruct (kvs_cases s (ms_reach s M)) as [E|[x [E Lx]]].
  - (* key absent: the registration succeeds *)
    destruct (key_empty s E) as (K1 & K2 & K3). rewrite K1 in Hm, Hget1.
    destruct (e_put ueq kv1 tt tt id) as [kv2|] eqn:Hp;
      [|apply (put_none ueq) in Hp; destruct Hp as [_ Hp]; congruence].
    pose proof (put_shape ueq _ _ _ _ _ Hget1 Hp) as (_ & Hk2 & _).
    set (ga := mkEreg EActive id (g_ttl g)) in *.
    set (s2 := mkES kv2 (upd i ga (es_rs s))) in *.
    rewrite Hm in *. cbn [fst] in R'.
    assert (Hi2 : nth_error (es_rs s2) i = Some ga) by (apply nth_error_upd_same; auto).
    set (nk := mkEkv tt tt (e_rev kv1 + 1) (e_rev kv1 + 1) 1 id) in *.
    assert (E2 : e_kvs (es_kv s2) = [nk]) by (unfold s2; cbn [es_kv]; rewrite Hk2, Hk1, E; reflexivity).
    destruct (key_one s2 nk E2) as (_ & K2' & _).
    assert (M2 : ms s2).
    { split; auto.
      - apply stable_upd; [apply M|right; left; reflexivity].
      - intros y Ey. rewrite E2 in Ey. inversion Ey; subst y. exists i, ga. auto. }
    pose proof (owner_is s2 nk i ga M2 E2 Hi2 eq_refl eq_refl) as Ho2.
    cbn [ok_step e_obs o_res o_key o_owner is_etcd]. fold (key_present s2). rewrite K2', Ho2, Vk, K2.
    cbn [negb andb onat_eqb]. rewrite Nat.eqb_refl.
    split; auto. split; auto. split; cbn [v_key v_owner v_active]; auto.
    intros j. unfold s2. rewrite (active_at_upd s kv2 i g ga j Hg). simpl. rewrite in_remove_nat, Va.
    split; [intros [<-|[A Hj]]; [left|right]; auto|intros [[-> _]|[Hj A]]; [left|right]; auto].
  - (* key present: rejected *)
    destruct (key_one s x E) as (K1 & K2 & K3). rewrite K1 in Hm.
    destruct (ms_owner_idx s x M E) as (c & gown & Hc & Hpc & Elc & Ho).
    assert (Hci : c <> i) by (intros ->; apply Hna; exists gown; auto).
    set (gr := mkEreg (ERejected KeyExists) id (g_ttl g)) in *.
    set (s2 := mkES kv1 (upd i gr (es_rs s))) in *.
    rewrite Hm in *. cbn [fst] in R'.
    assert (E2 : e_kvs (es_kv s2) = [x]) by (unfold s2; cbn [es_kv]; rewrite Hk1; exact E).
    destruct (key_one s2 x E2) as (_ & K2' & _).
    assert (Hc2 : nth_error (es_rs s2) c = Some gown) by (unfold s2; cbn [es_rs]; rewrite nth_error_upd_other; auto).
    assert (M2 : ms s2).
    { split; auto.
      - apply stable_upd; [apply M|right; right; right; eexists; reflexivity].
      - intros y Ey. rewrite E2 in Ey. inversion Ey; subst y. exists c, gown. auto. }
    pose proof (owner_is s2 x c gown M2 E2 Hc2 Hpc Elc) as Ho2.
    cbn [ok_step e_obs o_res o_key is_w]. fold (key_present s2). rewrite K2'.
    split; auto. split; auto. split; cbn [v_key v_owner v_active]; auto; try congruence.
    intros j. unfold s2. rewrite (active_at_upd s kv1 i g gr j Hg), Va. simpl.
    split; [intros A; right; split; auto; intros ->; auto|intros [[_ F]|[_ A]]; [discriminate|exact A]].
Qed.

Definition tick_reg (lv : Z -> bool) (g : ereg) : ereg :=
  match g_pc g with
  | EActive => if lv (g_lease g) then g else eset (eset g ERevoking) EClosed
  | _ => g
  end.

Definition tick_step (st : esys) (i : nat) : esys :=
  try_step estep (try_step estep st (GTick i)) (GRevokeOwn i).

Lemma tick_one : forall s i,
  (forall g, nth_error (es_rs s) i = Some g -> stable_pc (g_pc g)) ->
  kv_same (es_kv s) (es_kv (tick_step s i)) /\
  es_rs (tick_step s i) =
    match nth_error (es_rs s) i with
    | Some g => upd i (tick_reg (e_lease_live (es_kv s)) g) (es_rs s)
    | None => es_rs s
    end.
Proof.
  intros s i Hst. unfold tick_step.
  assert (Hidle : ~ active_at s i -> try_step estep (try_step estep s (GTick i)) (GRevokeOwn i) = s)
    by (intros Hn; rewrite !(idle_noop s i); auto).
  destruct (nth_error (es_rs s) i) as [g|] eqn:Hg;
    [|rewrite Hidle; [split; [apply kv_same_refl|reflexivity]|intros (g & E & _); congruence]].
  assert (Hlen : (i < length (es_rs s))%nat) by (apply nth_error_Some; congruence).
  destruct (Hst g eq_refl) as [Hp|[Hp|[Hp|[e Hp]]]].
  1,3,4: rewrite Hidle by (intros (g0 & E & P); congruence);
         split; [apply kv_same_refl|]; unfold tick_reg; rewrite Hp; symmetry; apply upd_nth_same; auto.
  (* active *)
  destruct (e_keepalive (es_kv s) (g_lease g)) as [alive kv1] eqn:Hka.
  pose proof (keepalive_shape _ _ _ _ Hka) as (_ & _ & _ & _ & Hb).
  unfold tick_reg. rewrite Hp, <- Hb.
  destruct alive.
  - assert (H1 : try_step estep s (GTick i) = mkES kv1 (es_rs s)).
    { unfold try_step, estep. rewrite Hg, Hp, Hka. unfold ewith. rewrite upd_nth_same; auto. }
    assert (H2 : try_step estep (mkES kv1 (es_rs s)) (GRevokeOwn i) = mkES kv1 (es_rs s)).
    { unfold try_step, estep. cbn [es_rs]. rewrite Hg, Hp. reflexivity. }
    rewrite H1, H2. cbn [es_kv es_rs]. split.
    + eapply keepalive_same; eauto.
    + symmetry. apply upd_nth_same; auto.
  - assert (H1 : try_step estep s (GTick i) = mkES (es_kv s) (upd i (eset g ERevoking) (es_rs s))).
    { unfold try_step, estep. rewrite Hg, Hp, Hka. reflexivity. }
    rewrite H1. unfold try_step, estep. cbn [es_rs es_kv]. rewrite nth_error_upd_same by auto. cbn [g_pc eset g_lease].
    unfold ewith. cbn [es_rs es_kv]. rewrite upd_upd.
    assert (Hrev : snd (e_revoke (es_kv s) (g_lease g)) = es_kv s).
    { unfold e_revoke. rewrite <- Hb. reflexivity. }
    rewrite Hrev. split; [apply kv_same_refl|reflexivity].
Qed.

Lemma tick_reg_stable : forall lv g, stable_pc (g_pc g) -> stable_pc (g_pc (tick_reg lv g)).
Proof.
  intros lv g H. unfold tick_reg. destruct (g_pc g) eqn:E; try (rewrite E; exact H).
  destruct (lv (g_lease g)); [rewrite E; exact H|]. right; right; left; reflexivity.
Qed.

Lemma tick_reg_idem : forall lv g, tick_reg lv (tick_reg lv g) = tick_reg lv g.
Proof.
  intros lv g. remember (tick_reg lv g) as h eqn:Hh. unfold tick_reg in Hh.
  destruct (g_pc g) eqn:E; subst h; try (unfold tick_reg; rewrite E; reflexivity).
  destruct (lv (g_lease g)) eqn:L.
  - unfold tick_reg. rewrite E, L. reflexivity.
  - reflexivity.
Qed.

Lemma tick_reg_lease : forall lv g, g_lease (tick_reg lv g) = g_lease g.
Proof. intros lv g. unfold tick_reg. destruct (g_pc g); auto. destruct (lv (g_lease g)); auto. Qed.

Lemma tick_fold : forall l s,
  (forall g, In g (es_rs s) -> stable_pc (g_pc g)) ->
  let s' := fold_left tick_step l s in
  kv_same (es_kv s) (es_kv s') /\
  (forall g, In g (es_rs s') -> stable_pc (g_pc g)) /\
  (forall j, nth_error (es_rs s') j =
     match nth_error (es_rs s) j with
     | Some g => Some (if existsb (Nat.eqb j) l then tick_reg (e_lease_live (es_kv s)) g else g)
     | None => None
     end).
Proof.
  induction l as [|i t IH]; intros s Hst; simpl.
  - split; [apply kv_same_refl|]. split; auto. intros j. destruct (nth_error (es_rs s) j); auto.
  - destruct (tick_one s i) as [Hkv Hrs]; [intros g Hg; apply Hst; eapply nth_error_In; eauto|].
    set (s1 := tick_step s i) in *.
    assert (Hst1 : forall g, In g (es_rs s1) -> stable_pc (g_pc g)).
    { rewrite Hrs. destruct (nth_error (es_rs s) i) as [gi|] eqn:Hi; auto.
      apply stable_upd; auto. apply tick_reg_stable. apply Hst. eapply nth_error_In; eauto. }
    destruct (IH s1 Hst1) as (Hkv' & Hst' & Hnth').
    split; [eapply kv_same_trans; eauto|]. split; auto.
    intros j. rewrite Hnth'.
    assert (Hlv : forall g, tick_reg (e_lease_live (es_kv s1)) g = tick_reg (e_lease_live (es_kv s)) g).
    { intros g. unfold tick_reg. destruct (g_pc g); auto. rewrite (ks_live _ _ Hkv). reflexivity. }
    rewrite Hrs. destruct (nth_error (es_rs s) i) as [gi|] eqn:Hi.
    + destruct (Nat.eq_dec j i) as [->|Hj].
      * rewrite nth_error_upd_same by (apply nth_error_Some; congruence). rewrite Hi, Nat.eqb_refl. cbn [orb].
        destruct (existsb (Nat.eqb i) t); rewrite ?Hlv, ?tick_reg_idem; reflexivity.
      * rewrite nth_error_upd_other by auto.
        assert (Nat.eqb j i = false) as -> by (apply Nat.eqb_neq; auto). cbn [orb].
        destruct (nth_error (es_rs s) j); auto. rewrite Hlv. reflexivity.
    + destruct (nth_error (es_rs s) j) as [gj|] eqn:Hjn; auto.
      assert (Nat.eqb j i = false) as -> by (apply Nat.eqb_neq; intro; subst; congruence). cbn [orb].
      rewrite Hlv. reflexivity.
Qed.

Lemma existsb_seq : forall j n, (j < n)%nat -> existsb (Nat.eqb j) (seq 0 n) = true.
Proof.
  intros j n H. apply existsb_exists. exists j. split; [apply in_seq; lia|apply Nat.eqb_refl].
Qed.

Lemma tick_all_shape : forall s,
  (forall g, In g (es_rs s) -> stable_pc (g_pc g)) ->
  let s' := fst (e_mop s MTickAll) in
  kv_same (es_kv s) (es_kv s') /\
  (forall g, In g (es_rs s') -> stable_pc (g_pc g)) /\
  (forall j, nth_error (es_rs s') j = option_map (tick_reg (e_lease_live (es_kv s))) (nth_error (es_rs s) j)).
Proof.
  intros s Hst. cbn [e_mop fst].
  change (fold_left (fun st i => try_step estep (try_step estep st (GTick i)) (GRevokeOwn i))
                    (seq 0 (length (es_rs s))) s)
    with (fold_left tick_step (seq 0 (length (es_rs s))) s).
  destruct (tick_fold (seq 0 (length (es_rs s))) s Hst) as (A & B & C).
  split; auto. split; auto. intros j. rewrite C.
  destruct (nth_error (es_rs s) j) as [g|] eqn:E; auto. simpl.
  rewrite existsb_seq; auto. apply nth_error_Some. congruence.
Qed.

Lemma list_eq_nth_error {A} : forall (l l' : list A), (forall j, nth_error l j = nth_error l' j) -> l = l'.
Proof.
  induction l as [|a t IH]; intros [|b u] H; auto.
  - specialize (H O). discriminate.
  - specialize (H O). discriminate.
  - pose proof (H O) as H0. simpl in H0. inversion H0; subst. f_equal. apply IH. intros j. apply (H (S j)).
Qed.

Lemma tick_ok : forall v s, ms s -> vr v s -> step_ok_for v s MTickAll.
Proof.
  intros v s M V. unfold step_ok_for.
  pose proof (ms_reach_mop s MTickAll M) as R'.
  pose proof (ereachable_ok s (ms_reach s M)) as LK.
  pose proof V as [Vk Vo Va].
  destruct (tick_all_shape s (ms_stable s M)) as (Hkv & Hst1 & Hnth).
  set (s1 := fst (e_mop s MTickAll)) in *.
  assert (Hm : e_mop s MTickAll = (s1, e_obs s1 ResNone true)) by reflexivity.
  rewrite Hm. clear Hm.
  set (lv := e_lease_live (es_kv s)) in *.
  assert (Hleases : map g_lease (es_rs s1) = map g_lease (es_rs s)).
  { apply list_eq_nth_error. intros j. rewrite !nth_error_map, Hnth.
    destruct (nth_error (es_rs s) j); simpl; auto. rewrite tick_reg_lease. reflexivity. }
  assert (Hkp : key_present s1 = key_present s) by (apply key_present_ext; apply (ks_kvs _ _ Hkv)).
  assert (Hoi : e_owner_idx s1 = e_owner_idx s) by (apply owner_idx_ext; [apply (ks_kvs _ _ Hkv)|exact Hleases]).
  assert (Hact1 : forall j, active_at s1 j <-> exists g, nth_error (es_rs s) j = Some g /\ g_pc g = EActive /\ lv (g_lease g) = true).
  { intros j. unfold active_at. rewrite Hnth. split.
    - intros (g1 & E1 & P1). destruct (nth_error (es_rs s) j) as [g|] eqn:Eg; [|discriminate].
      simpl in E1. inversion E1; subst g1. exists g. split; auto.
      unfold tick_reg in P1. destruct (g_pc g) eqn:Pg; try congruence.
      destruct (lv (g_lease g)) eqn:L; auto. simpl in P1. discriminate.
    - intros (g & Eg & Pg & L). rewrite Eg. simpl. eexists. split; [reflexivity|].
      unfold tick_reg. rewrite Pg, L. exact Pg. }
  assert (Hclosed : forall j g, nth_error (es_rs s) j = Some g -> g_pc g = EActive ->
                    closed_at (e_obs s1 ResNone true) j = negb (lv (g_lease g))).
  { intros j g Eg Pg. rewrite closed_at_obs, Hnth, Eg. simpl. unfold tick_reg. rewrite Pg.
    destruct (lv (g_lease g)); unfold is_closed; [rewrite Pg|]; reflexivity. }
  assert (Hfilter : forall j, In j (filter (fun i => negb (closed_at (e_obs s1 ResNone true) i)) (v_active v))
                              <-> active_at s1 j).
  { intros j. rewrite filter_In, Hact1. split.
    - intros [Hin Hc]. apply Va in Hin. destruct Hin as (g & Eg & Pg). exists g. split; auto. split; auto.
      rewrite (Hclosed j g Eg Pg) in Hc. rewrite negb_involutive in Hc. exact Hc.
    - intros (g & Eg & Pg & L). split; [apply Va; exists g; auto|].
      rewrite (Hclosed j g Eg Pg), L. reflexivity. }
  cbn [ok_step is_w is_etcd mode_of andb negb orb].
  cbn [e_obs o_key]. fold (key_present s1). rewrite Hkp.
  set (act := filter (fun i => negb (closed_at (e_obs s1 ResNone true) i)) (v_active v)) in *.
  assert (Hcheck : forallb (fun i => key_present s &&
             onat_eqb (if key_present s then (if key_present s then v_owner v else None) else None) (Some i)) act = true).
  { apply forallb_forall. intros j Hj. apply Hfilter in Hj. apply Hact1 in Hj. destruct Hj as (g & Eg & Pg & L).
    destruct (eo_owner _ _ LK g (nth_error_In _ _ Eg)) as [x [E Ex]]; [left; auto|exact L|].
    destruct (key_one s x E) as (_ & K2 & _). rewrite K2. cbn [andb].
    rewrite Vo, (owner_is s x j g M E Eg Pg (eq_sym Ex)). simpl. apply Nat.eqb_refl. }
  rewrite Hcheck. split; auto. split; split; cbn [v_key v_owner v_active]; auto.
  - intros x Ex. rewrite (ks_kvs _ _ Hkv) in Ex.
    destruct (ms_owner_idx s x M Ex) as (c & gown & Hc & Hpc & Elc & _).
    destruct (kvs_cases s (ms_reach s M)) as [E0|[x0 [E0 Lx0]]]; [congruence|].
    assert (x0 = x) by congruence. subst x0.
    assert (active_at s1 c) as (g1 & E1 & P1).
    { apply Hact1. exists gown. split; auto. split; auto. unfold lv. rewrite Elc. exact Lx0. }
    exists c, g1. split; auto. split; auto.
    rewrite Hnth, Hc in E1. simpl in E1. inversion E1. rewrite tick_reg_lease. exact Elc.
  - rewrite Vo, Hoi, !owner0_eq. reflexivity.
Qed.

Lemma op_ok : forall v s m, ms s -> vr v s ->
  match m with MReg i => e_can_reg s i = true | _ => True end -> step_ok_for v s m.
Proof.
  intros v s m M V L. destruct m.
  - apply reg_ok; auto.
  - apply lapse_ok; auto.
  - apply tick_ok; auto.
  - apply stop_ok; auto.
Qed.

Lemma ok_run_model : forall ops v s, ms s -> vr v s -> e_legal s ops = true ->
  ok_run BEtcd v ops (e_run s ops) = true.
Proof.
  induction ops as [|m t IH]; intros v s M V L; [reflexivity|].
  cbn [e_legal] in L. apply andb_true_iff in L. destruct L as [L1 L2].
  assert (Hop : step_ok_for v s m).
  { apply op_ok; auto. destruct m; auto. }
  unfold step_ok_for in Hop. cbn [e_run].
  destruct (e_mop s m) as [s' o] eqn:Em. cbn [ok_run].
  destruct (ok_step BEtcd v m o) as [r v'] eqn:Eo.
  destruct Hop as (Hr & M' & V'). rewrite Hr. cbn [andb].
  apply IH; auto.
Qed.

Lemma init_regs : forall l kv rs,
  run_skip estep (mkES kv rs) (map GNew l) = mkES kv (rs ++ map (fun ttl => mkEreg EInit 0 ttl) l).
Proof.
  induction l as [|a t IH]; intros kv rs; simpl.
  - rewrite app_nil_r. reflexivity.
  - rewrite IH. rewrite <- app_assoc. reflexivity.
Qed.

Lemma init_ms_vr : forall ttls,
  let s0 := run_skip estep esys_init (map GNew ttls) in
  ms s0 /\ vr (mkView [] None false None) s0.
Proof.
  intros ttls s0.
  assert (Hs0 : s0 = mkES etcd_init (map (fun ttl => mkEreg EInit 0 ttl) ttls)).
  { unfold s0, esys_init. rewrite init_regs. reflexivity. }
  assert (Hinit : forall g, In g (es_rs s0) -> g_pc g = EInit).
  { intros g Hg. rewrite Hs0 in Hg. cbn [es_rs] in Hg. apply in_map_iff in Hg. destruct Hg as [t [<- _]]. reflexivity. }
  assert (E : e_kvs (es_kv s0) = []) by (rewrite Hs0; reflexivity).
  destruct (no_key_ok s0 []) as (_ & M0 & V0); auto.
  - apply e_init_reach.
  - intros g Hg. left. auto.
  - intros i. split; [intros []|]. intros (g & Hg & Hp).
    rewrite (Hinit g (nth_error_In _ _ Hg)) in Hp. discriminate.
Qed.

(* the boolean reflection of C26 is true on what the etcd model produces, for every
   schedule the harness can produce (a registrant is (re)started only when it is
   not registered), of any length, over any number of registrants *)
Theorem ok_accepts_etcd_model : forall ttls ops,
  e_legal (run_skip estep esys_init (map GNew ttls)) ops = true ->
  ok (mkCase BEtcd ttls ops (model_obs (mkCase BEtcd ttls ops []))) = true.
Proof.
  intros ttls ops L. unfold ok, model_obs. cbn [k_backend k_ttls k_ops k_obs].
  destruct (init_ms_vr ttls) as [M V]. apply ok_run_model; auto.
Qed.

(* in particular on the schedules of the bounded sweeps *)
Lemma ok_sound_on_etcd_model_bounded :
  forallb (fun ops => negb (e_legal e_start ops) || ok_on_model BEtcd [1; 1] ops) (schedules 5) = true /\
  forallb (fun ops => negb (ew_legal (e_start, None) ops) || ok_on_model BEtcdW [1; 1] ops) (schedules 5) = true.
Proof.
  split; [|exact ok_sound_on_etcd_watchers_bounded].
  apply forallb_forall. intros ops _. destruct (e_legal e_start ops) eqn:L; [|reflexivity].
  apply ok_accepts_etcd_model. exact L.
Qed.
