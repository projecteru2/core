(* Bounded response of etcd lock waiters: nobody overtakes
   a waiter.  The number of keys ahead of a waiting contender (smaller create
   revision) never increases under any step of anybody, so after the finitely
   many contenders ahead of it have released / failed / lost their leases the
   waiter has nobody ahead and acquires in its next two own steps
   (EtcdLockProofs.etcd_wait_acquires). *)
From Coq Require Import List ZArith Lia.
From Verif Require Import Base.KV Locks.Interleave Locks.EtcdLock Locks.EtcdLockProofs.
Import ListNotations.
Local Open Scope Z_scope.

Local Notation live kv l := (e_lease_live kv l = true).

Lemma step_ext : forall s l s', sys_ok s -> step s l = Some s' -> exists R, ext R (s_kv s) (s_kv s').
Proof.
  intros s l s' (Hkv & _ & Hrange & _) H. apply step_sstep in H. destruct H; simpl.
  - destruct (grant_ok _ _ _ _ Hkv Hg) as (_ & Hext & _). eauto.
  - destruct (revoke_ok (s_kv s) lid Hkv) as (_ & Hext & _). eauto.
  - destruct (tick_ok (s_kv s) d Hkv) as [_ Hext]. eauto.
  - destruct (Hrange c (nth_error_In _ _ Hi)) as [Hpos _].
    destruct (cstep_store_ok _ _ _ _ _ _ Hkv Hpos Hst) as [_ Hext]. eauto.
Qed.

Lemma cstep_rev : forall i kv c l kv' c',
  cstep i kv c l kv' c' -> c_pc c = Waiting -> c_pc c' = Waiting -> c_rev c' = c_rev c.
Proof. destruct 1; simpl; intuition congruence. Qed.

(* nobody overtakes a waiter with a live lease *)
Theorem etcd_ahead_mono : forall s l s' i c c',
  reachable step sys_init s -> step s l = Some s' ->
  nth_error (s_cs s) i = Some c -> nth_error (s_cs s') i = Some c' ->
  c_pc c = Waiting -> c_pc c' = Waiting -> live (s_kv s) (c_lease c) ->
  (ahead s' c' <= ahead s c)%nat.
Proof.
  intros s l s' i c c' Hr H Hi Hi' Hp Hp' Hl.
  pose proof (reachable_ok _ Hr) as Hok. pose proof Hok as (Hkv & Hnd & Hrange & Hcs).
  assert (Hrev : c_rev c' = c_rev c).
  { destruct (sstep_at _ _ _ i c (step_sstep _ _ _ H) Hi) as (c1 & Hc1 & [->|Hst]); [congruence|].
    replace c1 with c' in Hst by congruence. eapply cstep_rev; eauto. }
  destruct (step_ext _ _ _ Hok H) as [R (_ & _ & _ & D & _)].
  destruct (Hcs c (nth_error_In _ _ Hi)) as [Cc _]. destruct (Cc Hl) as [H1 _].
  destruct H1 as [x0 [Hx0 [_ Ec]]]; [rewrite Hp; exact I|].
  assert (Hle : c_rev c <= e_rev (s_kv s)).
  { destruct Hkv as (_ & K1 & _). apply K1 in Hx0. lia. }
  assert (Hok' : sys_ok s') by (eapply step_ok; eauto). destruct Hok' as (Hkv' & _).
  unfold ahead, countb. rewrite Hrev.
  apply NoDup_incl_length.
  - apply NoDup_filter. destruct Hkv' as (_ & _ & K2 & _). eapply NoDup_map_inv; eauto.
  - intros x Hx. apply filter_In in Hx. destruct Hx as [Hx Hlt]. apply Z.ltb_lt in Hlt.
    apply filter_In. split; [|apply Z.ltb_lt; auto].
    destruct (D x Hx); auto. lia.
Qed.
