(* Soundness of the etcd trace acceptor with respect to
   the transition system, and the consequence that ties the three parts of C18
   together: a log (without injected losses) that the model can explain has no
   overlapping critical sections.  Hence an implementation run that violates
   mutual exclusion is necessarily also a model disagreement. *)
From Coq Require Import List Bool ZArith Lia.
From Verif Require Import Base.KV Base.KVProofs Locks.Interleave Locks.InterleaveProofs
  Locks.LockLog Locks.EtcdLock Locks.EtcdLockProofs Base.ListFacts.
Import ListNotations.
Local Open Scope Z_scope.

Local Notation live kv l := (e_lease_live kv l = true).

(* labels the acceptor uses when no loss is injected; [ins] = contenders inside *)
Definition okl (ins : list nat) (l : label) : Prop :=
  match l with
  | LRevoke _ | LTick _ => False
  | LExit i => ~ In i ins
  | _ => True
  end.

Inductive path (ins : list nat) : sys -> sys -> Prop :=
| path_refl : forall s, path ins s s
| path_step : forall s l s1 s2, step s l = Some s1 -> okl ins l -> path ins s1 s2 -> path ins s s2.

Lemma path_one : forall ins s l s', step s l = Some s' -> okl ins l -> path ins s s'.
Proof. intros. eapply path_step; eauto. constructor. Qed.

Lemma path_trans : forall ins s1 s2 s3, path ins s1 s2 -> path ins s2 s3 -> path ins s1 s3.
Proof. intros ins s1 s2 s3 H. induction H; auto. intros. eapply path_step; eauto. Qed.

Lemma path_reachable : forall ins s s', path ins s s' -> reachable step sys_init s -> reachable step sys_init s'.
Proof. intros ins s s' H. induction H; auto. intros. apply IHpath. eapply reachable_step; eauto. Qed.

Definition all_live (s : sys) : Prop :=
  forall c, In c (s_cs s) -> c_pc c <> Done -> live (s_kv s) (c_lease c).
Definition held_in (ins : list nat) (s : sys) : Prop :=
  forall i, In i ins -> pc_at s i = Some Held.

Lemma revoke_live_other : forall (kv : store) id x,
  x <> id -> e_lease_live (snd (e_revoke kv id)) x = e_lease_live kv x.
Proof.
  intros kv id x H. unfold e_revoke. destruct (e_lease_live kv id); simpl; auto.
  rewrite detach_live. apply Z.eqb_neq in H. rewrite H. apply andb_true_r.
Qed.

Lemma cstep_done : forall i kv c l kv' c', cstep i kv c l kv' c' -> c_pc c = Done -> c_pc c' = Done.
Proof. destruct 1; simpl; intuition congruence. Qed.

(* without revocations and expiries a lease goes only when its owner closes its session *)
Lemma step_all_live : forall s l s',
  sys_ok s -> all_live s -> step s l = Some s' ->
  (forall x, l <> LRevoke x) -> (forall d, l <> LTick d) -> all_live s'.
Proof.
  intros s l s' (Hkv & Hnd & Hrange & _) Hal H Hnr Hnt. apply step_sstep in H.
  destruct H; [|destruct (Hnr lid eq_refl)|destruct (Hnt d eq_refl)|]; intros y Hy Hp; simpl in *.
  - destruct (grant_ok _ _ _ _ Hkv Hg) as (_ & _ & _ & _ & Hlv). apply Hlv.
    apply in_app_or in Hy. destruct Hy as [Hy|[<-|[]]]; auto.
  - apply In_nth_error in Hy. destruct Hy as [j Hj]. apply nth_error_upd in Hj.
    destruct (Hrange c (nth_error_In _ _ Hi)) as [Hpos _].
    destruct (cstep_eff _ _ _ _ _ _ Hst) as [El [Heff|[-> Hd]]].
    + destruct (kv_eff_ok _ _ _ Hkv Hpos Heff) as (_ & _ & ->).
      destruct Hj as [[_ ->]|[_ Hj]]; [|eauto using nth_error_In].
      rewrite El. apply Hal; [eauto using nth_error_In|]. intro E. apply Hp. eapply cstep_done; eauto.
    + destruct Hj as [[_ ->]|[Hne Hj]]; [contradiction|].
      rewrite revoke_live_other; [eauto using nth_error_In|].
      intro E. apply Hne. eapply NoDup_map_nth; eauto.
Qed.

Lemma cstep_held : forall i kv c l kv' c',
  cstep i kv c l kv' c' -> c_pc c = Held -> l <> LExit i -> c_pc c' = Held.
Proof. destruct 1; simpl; intuition congruence. Qed.

Lemma held_stable : forall s l s' i,
  step s l = Some s' -> pc_at s i = Some Held -> l <> LExit i -> pc_at s' i = Some Held.
Proof.
  intros s l s' i H Hh Hne. unfold pc_at in *.
  destruct (nth_error (s_cs s) i) as [c|] eqn:Hc; [|discriminate].
  destruct (sstep_at _ _ _ _ _ (step_sstep _ _ _ H) Hc) as (c' & -> & [->|Hst]); [exact Hh|].
  f_equal. eapply cstep_held; eauto. congruence.
Qed.

Lemma okl_not_exit : forall ins l i, okl ins l -> In i ins -> l <> LExit i.
Proof. intros ins l i H Hi E. subst l. simpl in H. auto. Qed.

Record pinv (ins : list nat) (s : sys) : Prop := mkPinv {
  p_reach : reachable step sys_init s;
  p_live : all_live s;
  p_held : held_in ins s }.

Lemma path_pinv : forall ins s s', path ins s s' -> pinv ins s -> pinv ins s'.
Proof.
  intros ins s s' H. induction H; auto. intros [R L Hd]. apply IHpath.
  assert (Hok : sys_ok s) by (apply reachable_ok; auto).
  split.
  - eapply reachable_step; eauto.
  - eapply step_all_live; eauto; intros x E; subst l; simpl in H0; auto.
  - intros i Hi. eapply held_stable; eauto. eapply okl_not_exit; eauto.
Qed.

Lemma pinv_inside_le_one : forall ins s, pinv ins s -> NoDup ins -> (length ins <= 1)%nat.
Proof.
  intros ins s [R L Hd] Hnd. apply length_le_one; auto. intros i j Hi Hj.
  apply Hd in Hi. apply Hd in Hj. unfold pc_at in *.
  destruct (nth_error (s_cs s) i) as [a|] eqn:Ea; [|discriminate].
  destruct (nth_error (s_cs s) j) as [b|] eqn:Eb; [|discriminate].
  apply (etcd_mutex s i j a b R Ea Eb); apply holds_spec; split; try congruence;
    apply L; eauto using nth_error_In; congruence.
Qed.

(* the acceptor only ever moves along paths of the transition system *)
Record ainv (a : acc) : Prop := mkAinv {
  ai_p : pinv (a_in a) (a_sys a);
  ai_lose : a_lose a = [];
  ai_nd : NoDup (a_in a) }.

(* case analysis on every test the acceptor made on the way to [H : ... = Some _] *)
Ltac crack H :=
  repeat match type of H with
  | match ?x with _ => _ end = Some _ => let E := fresh "E" in destruct x eqn:E; try discriminate
  | (if ?b then _ else _) = Some _ => let E := fresh "E" in destruct b eqn:E; try discriminate
  | opt_bind ?o _ = Some _ => let E := fresh "E" in destruct o eqn:E; cbn [opt_bind] in H; try discriminate
  end.

Lemma okl_plain : forall ins l,
  match l with LRevoke _ | LTick _ | LExit _ => False | _ => True end -> okl ins l.
Proof. intros ins l H. destruct l; simpl in *; auto; contradiction. Qed.

(* a path made of the steps in the context, none of them LRevoke, LTick or LExit *)
Ltac solve_path :=
  first [ apply path_refl
        | eapply path_one; [eassumption|simpl; auto]
        | eapply path_step; [eassumption|simpl; auto|solve_path] ].

Lemma failed_not_inside : forall a i e, ainv a -> pc_at (a_sys a) i = Some (Failed e) -> ~ In i (a_in a).
Proof.
  intros a i e [P _ _] Hp Hi. destruct P as [_ _ Hd]. rewrite (Hd i Hi) in Hp. discriminate.
Qed.

Lemma ainv_path : forall a s', ainv a -> path (a_in a) (a_sys a) s' -> ainv (mkAcc s' [] (a_in a)).
Proof. intros a s' [P Lo Nd] Hp. split; cbn [a_sys a_lose a_in]; auto. eapply path_pinv; eauto. Qed.

Lemma try_mut_ainv : forall a m l a', try_mut a m l = Some a' -> ainv a -> ainv a' /\ a_in a' = a_in a.
Proof.
  intros a m l a' H Hinv. unfold try_mut in H. rewrite (ai_lose a Hinv) in H. cbn [existsb] in H.
  destruct m; crack H; inversion H; subst a'; (split; [|reflexivity]); apply (ainv_path a _ Hinv); try solve_path.
  (* the clean-up of a key left by a lost reply: LExit of a failed contender *)
  eapply failed_not_inside; eauto.
Qed.

Lemma try_mut_lost_ainv : forall a m l a', try_mut_lost a m l = Some a' -> ainv a -> ainv a' /\ a_in a' = a_in a.
Proof.
  intros a m l a' H Hinv. unfold try_mut_lost in H. rewrite (ai_lose a Hinv) in H.
  destruct m; crack H; inversion H; subst a'; (split; [|reflexivity]); apply (ainv_path a _ Hinv); solve_path.
Qed.

Lemma settle_ret_path : forall ins s i s', settle_ret s i = Some s' -> path ins s s'.
Proof.
  intros ins s i s' H. unfold settle_ret in H. crack H; try (inversion H; subst; constructor).
  - eapply path_step; [eauto|simpl; auto|]. eapply path_one; eauto. simpl; auto.
  - eapply path_one; eauto. simpl; auto.
Qed.

Lemma try_step_path : forall ins s l,
  okl ins l -> path ins s (match step s l with Some x => x | None => s end).
Proof. intros ins s l H. destruct (step s l) eqn:E; [eapply path_one; eauto|constructor]. Qed.

Lemma settle_ctx_path : forall ins s i, path ins s (settle_ctx s i).
Proof.
  intros ins s i. unfold settle_ctx.
  eapply path_trans; [apply (try_step_path ins s (LKeepAlive i)); simpl; auto|].
  eapply path_trans; [apply (try_step_path ins _ (LWatch i)); simpl; auto|].
  apply (try_step_path ins _ (LCancel i)); simpl; auto.
Qed.

Lemma pinv_weaken : forall ins ins' s, (forall i, In i ins' -> In i ins) -> pinv ins s -> pinv ins' s.
Proof. intros ins ins' s H [R L Hd]. split; auto. intros i Hi. apply Hd. auto. Qed.

Definition not_lose (e : cev) : Prop := match e with ELose _ _ => False | _ => True end.

Definition next_in (ins : list nat) (e : cev) : list nat :=
  match e with
  | EEnter i => i :: ins
  | EExit i => filter (fun j => negb (Nat.eqb i j)) ins
  | _ => ins
  end.

Lemma In_remove : forall i j l, In j (filter (fun j => negb (Nat.eqb i j)) l) <-> In j l /\ i <> j.
Proof. intros. rewrite filter_In, negb_true_iff, Nat.eqb_neq. tauto. Qed.

Lemma do_ev_ainv : forall a e a', do_ev a e = Some a' -> not_lose e -> ainv a ->
  ainv a' /\ a_in a' = next_in (a_in a) e.
Proof.
  intros a e a' H Hnl Hinv. pose proof Hinv as [P Lo Nd].
  destruct e; simpl in Hnl; try contradiction; unfold do_ev in H; rewrite ?Lo in H; cbn [next_in].
  - (* ECall *)
    crack H. inversion H; subst a'. split; [|reflexivity]. apply (ainv_path a _ Hinv). solve_path.
  - (* EEnter *)
    crack H. inversion H; subst a'. split; [|reflexivity].
    assert (P' : pinv (a_in a) s) by (eapply path_pinv; [eapply settle_ret_path; eauto|exact P]).
    split; cbn [a_sys a_lose a_in]; auto.
    + destruct P' as [R L Hd]. split; auto. intros j [<-|Hj]; auto.
    + constructor; auto. apply existsb_eqb_In; auto.
  - (* EFail: an abort of the pending call, or the call settles *)
    crack H. inversion H; subst a'. split; [|reflexivity]. apply (ainv_path a _ Hinv).
    match goal with E : match pc_at _ _ with _ => _ end = Some _ |- _ =>
      destruct (pc_at (a_sys a) i) as [[]|] in E; first [ solve_path | eapply settle_ret_path; exact E ]
    end.
  - (* EExit *)
    crack H. inversion H; subst a'. split; [|reflexivity].
    split; cbn [a_sys a_lose a_in]; auto.
    + eapply path_pinv; [|eapply pinv_weaken; [intros j Hj; apply In_remove in Hj; apply Hj|exact P]].
      eapply path_one; [eassumption|]. simpl. rewrite In_remove. tauto.
    + apply NoDup_filter. auto.
  - (* EURet: the unlock txn, if still due, then the close *)
    crack H; inversion H; subst a'; (split; [|reflexivity]); apply (ainv_path a _ Hinv).
    all: match goal with E : match pc_at _ _ with _ => _ end = Some _ |- _ => crack E; inversion E; subst end; solve_path.
  - (* ELost *)
    inversion H; subst a'. auto.
  - (* ECtx *)
    crack H. inversion H; subst a'. split; [|reflexivity]. apply (ainv_path a _ Hinv). apply settle_ctx_path.
Qed.

Fixpoint no_lose (l : log) : Prop :=
  match l with
  | [] => True
  | (_, e) :: r => not_lose e /\ no_lose r
  end.

(* while at most one contender is inside, [mutex_scan] just follows the inside list *)
Lemma mutex_scan_next : forall t e r ins,
  (length (next_in ins e) <= 1)%nat -> mutex_scan ((t, e) :: r) ins = mutex_scan r (next_in ins e).
Proof. intros t e r ins H. destruct e; simpl; auto. destruct ins; [reflexivity|simpl in H; lia]. Qed.

(* a log (without injected losses) explained by the model has no two overlapping
   critical sections *)
Theorem accept_mutex : forall fuel a muts (l : log),
  accept fuel a muts (map snd l) = true -> ainv a -> no_lose l -> mutex_scan l (a_in a) = true.
Proof.
  induction fuel as [|f IH]; intros a muts l H Hinv Hnl; simpl in H; [discriminate|].
  assert (Hev : forall e r (l0 : log) muts0, l = e :: l0 -> r = map snd l0 ->
            forall a', do_ev a (snd e) = Some a' -> accept f a' muts0 r = true ->
            mutex_scan l (a_in a) = true).
  { intros [t e] r l0 muts0 -> -> a' Hd Hacc. destruct Hnl as [Hn1 Hn2]. simpl in Hd.
    destruct (do_ev_ainv _ _ _ Hd Hn1 Hinv) as [Hinv' Hin'].
    rewrite mutex_scan_next.
    - rewrite <- Hin'. eapply IH; eauto.
    - rewrite <- Hin'. destruct Hinv' as [P' _ Nd']. eapply pinv_inside_le_one; eauto. }
  destruct muts as [|m muts'].
  - destruct l as [|e l0]; [reflexivity|]. simpl in H.
    destruct (do_ev a (snd e)) as [a'|] eqn:Hd; [|discriminate]. eapply Hev; eauto.
  - destruct (try_mut a m (map snd l)) as [a1|] eqn:Hm.
    + apply orb_true_iff in H. destruct H as [H|H].
      * destruct (try_mut_ainv _ _ _ _ Hm Hinv) as [Hinv1 Hin1]. rewrite <- Hin1. eapply IH; eauto.
      * destruct (try_mut_lost a m (map snd l)) as [a2|] eqn:Hm2; [|discriminate].
        destruct (try_mut_lost_ainv _ _ _ _ Hm2 Hinv) as [Hinv2 Hin2]. rewrite <- Hin2. eapply IH; eauto.
    + destruct l as [|e l0]; [discriminate|]. simpl in H.
      destruct (do_ev a (snd e)) as [a'|] eqn:Hd; [|discriminate]. eapply Hev; eauto.
Qed.

Lemma init_ainv : forall ttls, ainv (mkAcc (sys_of ttls) [] []).
Proof.
  intros ttls. split; cbn [a_sys a_lose a_in]; auto; [|constructor].
  unfold sys_of. apply (run_skip_inv step (pinv []) (okl [])).
  - intros s l s' P Hok Hs. eapply path_pinv; [eapply path_one; eauto|exact P].
  - apply Forall_forall. intros l Hl. apply in_map_iff in Hl. destruct Hl as [x [<- _]]. exact I.
  - split; [apply reachable_refl|intros c []|intros i []].
Qed.

(* the tie: agreement with the model implies the mutual-exclusion clause of [c18_ok] *)
Theorem etcd_agree_implies_mutex_ok : forall c,
  agree c = true -> no_lose (k_log c) -> mutex_ok (k_log c) = true.
Proof.
  intros c H Hnl. unfold agree in H. unfold mutex_ok.
  apply (accept_mutex _ _ _ _ H (init_ainv (k_ttl c)) Hnl).
Qed.
