(* Soundness of the redis state-set acceptor: every
   state it keeps is reachable in the transition system, and a log (without
   injected TTL loss) that it accepts has no overlapping critical sections. *)
From Coq Require Import List ZArith Lia.
From Verif Require Import Base.KV Locks.Interleave Locks.InterleaveProofs
  Locks.LockLog Locks.RedisLock Locks.RedisLockProofs Locks.EtcdAcceptProofs.
Import ListNotations.
Local Open Scope Z_scope.

Definition rokl (ins : list nat) (l : rlabel) : Prop :=
  match l with
  | RTick _ => False
  | RExit i => ~ In i ins
  | _ => True
  end.

Definition inside_at (s : rsys) (i : nat) : Prop :=
  exists c, nth_error (rs_cs s) i = Some c /\ r_pc c = RHeld /\ r_in c = true.

Record rpinv (ins : list nat) (s : rsys) : Prop := mkRpinv {
  rp_reach : reachable rstep rsys_init s;
  rp_now : r_now (rs_kv s) = 0;
  rp_until : forall c t, In c (rs_cs s) -> r_until c = Some t -> 0 < t;
  rp_in : forall i, In i ins -> inside_at s i }.

Lemma inside_upd_other : forall s kv' j c' i,
  i <> j -> inside_at s i -> inside_at (mkRS kv' (upd j c' (rs_cs s))) i.
Proof.
  intros s kv' j c' i Hne (c & Hc & Hp & Hi). exists c. simpl. rewrite nth_error_upd_other; auto.
Qed.

Lemma rcstep_until : forall i kv c l kv' c', rcstep i kv c l kv' c' ->
  forall t, r_until c' = Some t -> r_until c = Some t \/ r_now kv < t.
Proof.
  destruct 1; simpl; auto; unfold lease_end; intros t E;
    destruct (Z.ltb_spec 0 (r_ttl c)); inversion E; right; lia.
Qed.

Lemma rcstep_inside : forall i kv c l kv' c', rcstep i kv c l kv' c' ->
  r_pc c = RHeld -> r_in c = true -> l <> RExit i -> r_pc c' = RHeld /\ r_in c' = true.
Proof. destruct 1; simpl; intros; try congruence; unfold trying in *; intuition congruence. Qed.

Lemma rret_inside : forall s i s', rstep s (RRet i) = Some s' -> inside_at s' i /\ ~ inside_at s i.
Proof.
  intros s i s' H. apply rstep_rsstep in H.
  inversion H as [| |j c l kv' c' Hj Hst]; subst. inversion Hst; subst. split.
  - eexists. simpl. rewrite nth_error_upd_same by (apply nth_error_Some; congruence). eauto.
  - intros (c0 & Hc0 & _ & Hi0). congruence.
Qed.

Lemma rstep_rpinv : forall ins s l s', rstep s l = Some s' -> rokl ins l -> rpinv ins s -> rpinv ins s'.
Proof.
  intros ins s l s' H Hok [R N U I].
  assert (R' : reachable rstep rsys_init s') by (eapply reachable_step; eauto).
  apply rstep_rsstep in H. destruct H; simpl in Hok; try contradiction.
  - split; auto; cbn [rs_kv rs_cs].
    + intros c t Hc Ht. apply in_app_or in Hc. destruct Hc as [Hc|[<-|[]]]; eauto. discriminate.
    + intros i Hi. destruct (I i Hi) as (c & Hc & Hp). exists c. cbn [rs_cs]. split; auto.
      rewrite nth_error_app1; auto. apply nth_error_Some. congruence.
  - destruct (rreachable_ok _ R) as (Hkv & _).
    destruct (rcstep_eff _ _ _ _ _ _ Hst) as [_ Heff].
    destruct (rkv_eff_ok _ _ _ Hkv Heff) as (_ & Hn & _).
    split; auto; cbn [rs_kv rs_cs].
    + congruence.
    + intros y t Hy Ht. apply In_upd in Hy. destruct Hy as [->|Hy]; eauto.
      destruct (rcstep_until _ _ _ _ _ _ Hst t Ht) as [E|E]; [eauto using nth_error_In|lia].
    + intros j Hj. destruct (Nat.eq_dec j i) as [->|Hne]; [|apply inside_upd_other; auto].
      destruct (I i Hj) as (y & Hy & Hp & Hin). replace y with c in * by congruence.
      exists c'. cbn [rs_cs]. rewrite nth_error_upd_same by (apply nth_error_Some; congruence).
      split; auto. apply (rcstep_inside _ _ _ _ _ _ Hst); auto.
      intro E. subst l. simpl in Hok. contradiction.
Qed.

Lemma rpinv_weaken : forall ins ins' s, (forall i, In i ins' -> In i ins) -> rpinv ins s -> rpinv ins' s.
Proof. intros ins ins' s H [R N U I]. split; auto. Qed.

Lemma rpinv_inside_le_one : forall ins s, rpinv ins s -> NoDup ins -> (length ins <= 1)%nat.
Proof.
  intros ins s [R N U I] Hnd. apply length_le_one; auto. intros i j Hi Hj.
  destruct (I i Hi) as (a & Ha & Pa & _). destruct (I j Hj) as (b & Hb & Pb & _).
  assert (Hw : forall c, In c (rs_cs s) -> within_lease s c = true).
  { intros c Hc. unfold within_lease. destruct (r_until c) eqn:E; auto. apply Z.ltb_lt. rewrite N. eauto. }
  apply (redis_mutex s i j a b R Ha Hb); unfold rholds, is_held; [rewrite Pa|rewrite Pb]; simpl;
    apply Hw; eapply nth_error_In; eauto.
Qed.

Definition all_inv (ins : list nat) (l : list rsys) : Prop := forall s, In s l -> rpinv ins s.

Lemma internal_succ_inv : forall ins s x, rpinv ins s -> In x (internal_succ s) -> rpinv ins x.
Proof.
  intros ins s x P Hx. unfold internal_succ in Hx. apply in_flat_map in Hx. destruct Hx as [i [_ Hx]].
  destruct (nth_error (rs_cs s) i) as [c|]; [|destruct Hx].
  destruct (r_pc c); try (simpl in Hx; contradiction).
  - destruct (rstep s (RTry i)) as [s'|] eqn:E; [|destruct Hx].
    destruct (rsys_eqb s s'); [destruct Hx|]. destruct Hx as [<-|[]]. eapply rstep_rpinv; eauto; simpl; auto.
  - destruct (rstep s (RTry i)) as [s'|] eqn:E; [|destruct Hx].
    destruct (rsys_eqb s s'); [destruct Hx|]. destruct Hx as [<-|[]]. eapply rstep_rpinv; eauto; simpl; auto.
  - destruct (rstep s (RRelease i)) as [s'|] eqn:E; [|destruct Hx]. destruct Hx as [<-|[]].
    eapply rstep_rpinv; eauto; simpl; auto.
Qed.

Lemma fold_append_subset {A} (skip : A -> list A -> bool) : forall l acc x,
  In x (fold_left (fun acc y => if skip y acc then acc else acc ++ [y]) l acc) -> In x acc \/ In x l.
Proof.
  induction l as [|y t IH]; intros acc x Hx; simpl in *; auto.
  apply IH in Hx. destruct (skip y acc).
  - destruct Hx; auto.
  - destruct Hx as [Hx|Hx]; auto. apply in_app_or in Hx. destruct Hx as [Hx|[<-|[]]]; auto.
Qed.

Lemma fresh_subset : forall seen l x, In x (fresh seen l) -> In x l.
Proof.
  intros seen l x Hx.
  apply (fold_append_subset (fun y acc => existsb (rsys_eqb y) (seen ++ acc))) in Hx.
  destruct Hx as [[]|Hx]; exact Hx.
Qed.

Lemma close_inv : forall ins fuel todo seen,
  all_inv ins todo -> all_inv ins seen -> all_inv ins (close fuel todo seen).
Proof.
  intros ins. induction fuel as [|f IH]; intros todo seen Ht Hs; simpl; auto.
  destruct todo as [|x rest]; auto.
  assert (Hnew : all_inv ins (fresh seen (internal_succ x))).
  { intros y Hy. apply fresh_subset in Hy. eapply internal_succ_inv; eauto. apply Ht. left; auto. }
  apply IH.
  - intros y Hy. apply in_app_or in Hy. destruct Hy; auto. apply Ht. right; auto.
  - intros y Hy. apply in_app_or in Hy. destruct Hy; auto.
Qed.

Lemma dedup_subset : forall l x, In x (dedup l) -> In x l.
Proof.
  intros l x Hx. apply (fold_append_subset (fun y acc => existsb (rsys_eqb y) acc)) in Hx.
  destruct Hx as [[]|Hx]; exact Hx.
Qed.

Lemma fold_add_nonempty : forall (l acc : list rsys),
  acc <> [] -> fold_left (fun acc y => add_state y acc) l acc <> [].
Proof.
  induction l as [|z u IH]; intros acc Ha; simpl; auto. apply IH. unfold add_state.
  destruct (existsb (rsys_eqb z) acc); auto. destruct acc; simpl; congruence.
Qed.

Lemma dedup_nonempty : forall l, l <> [] -> dedup l <> [].
Proof.
  intros l H. destruct l as [|y t]; [congruence|]. unfold dedup. simpl.
  apply fold_add_nonempty. unfold add_state. simpl. congruence.
Qed.

Lemma rdo_ev_inv : forall ins s e s', rdo_ev s e = Some s' -> not_lose e -> rpinv ins s -> NoDup ins ->
  rpinv (next_in ins e) s' /\ NoDup (next_in ins e).
Proof.
  intros ins s e s' H Hnl P Hnd. destruct e; simpl in Hnl; try contradiction; unfold rdo_ev in H; cbn [next_in].
  - split; auto. eapply rstep_rpinv; eauto; simpl; auto.
  - (* EEnter: RRet i *)
    assert (P' : rpinv ins s') by (eapply rstep_rpinv; eauto; simpl; auto).
    destruct (rret_inside _ _ _ H) as [Hin Hout]. split.
    + destruct P' as [R N U I]. split; auto. intros j [<-|Hj]; auto.
    + constructor; auto. intro Hi. destruct P as [_ _ _ I]. auto.
  - (* EFail *)
    split; auto.
    destruct (rpc_at s i) as [[| | | | | |[]]|]; try discriminate.
    + destruct o; try discriminate. destruct (ferr_eqb e FTimeout); [|discriminate].
      destruct (rstep s (RTimeout i)) as [s1|] eqn:E1; [|discriminate].
      eapply rstep_rpinv; [exact H|simpl; auto|]. eapply rstep_rpinv; eauto; simpl; auto.
    + destruct (ferr_eqb e FTimeout); [|discriminate].
      destruct (rstep s (RTimeout i)) as [s1|] eqn:E1; [|discriminate].
      eapply rstep_rpinv; [exact H|simpl; auto|]. eapply rstep_rpinv; eauto; simpl; auto.
    + destruct (ferr_eqb e FBusy); inversion H; subst; auto.
  - (* EExit *)
    destruct (rpc_at s i) as [[]|]; try discriminate.
    split; [|apply NoDup_filter; auto].
    eapply rstep_rpinv; [exact H|simpl; rewrite In_remove; tauto|].
    eapply rpinv_weaken; [|exact P]. intros j Hj. apply In_remove in Hj. apply Hj.
  - (* EURet *)
    destruct (rpc_at s i) as [[]|]; try discriminate. inversion H; subst; auto.
  - (* ELost *)
    inversion H; subst; auto.
  - (* ECtx *)
    destruct (nth_error (rs_cs s) i); [|discriminate]. destruct (cerr_eqb (r_ctx r) c); inversion H; subst; auto.
Qed.

Theorem raccept_mutex : forall (l : log) states ins,
  raccept states (map snd l) = true -> all_inv ins states -> NoDup ins -> no_lose l ->
  mutex_scan l ins = true.
Proof.
  induction l as [|[t e] r IH]; intros states ins H Hinv Hnd Hnl; [reflexivity|].
  destruct Hnl as [Hn1 Hn2].
  destruct states as [|s0 rest]; [discriminate|].
  cbn [map snd raccept] in H.
  (* keep the closure (and its fuel) out of the context *)
  pose proof (close_inv ins 4096 _ _ Hinv Hinv) as Hcl. revert H Hcl.
  generalize (close 4096 (s0 :: rest) (s0 :: rest)). intros cl H Hcl.
  set (next := flat_map (fun s => match rdo_ev s e with Some s' => [s'] | None => [] end) cl) in *.
  assert (Hnext : forall s', In s' next -> rpinv (next_in ins e) s' /\ NoDup (next_in ins e)).
  { intros s' Hs'. apply in_flat_map in Hs'. destruct Hs' as [s [Hs Hd]].
    destruct (rdo_ev s e) as [s1|] eqn:E; [|destruct Hd]. destruct Hd as [<-|[]].
    eapply rdo_ev_inv; eauto. }
  assert (Hne : dedup next <> []).
  { intro E. rewrite E in H. destruct r; discriminate. }
  assert (Hex : exists s', In s' next).
  { destruct next as [|x u]; [exfalso; apply Hne; reflexivity|]. exists x; left; auto. }
  destruct Hex as [s' Hs']. destruct (Hnext s' Hs') as [P' Nd'].
  rewrite mutex_scan_next.
  - eapply IH; eauto. intros x Hx. apply dedup_subset in Hx. apply Hnext; auto.
  - eapply rpinv_inside_le_one; eauto.
Qed.

(* the tie for redis: agreement with the model implies the mutual-exclusion clause of [c18_ok] *)
Theorem redis_agree_implies_mutex_ok : forall c,
  ragree c = true -> no_lose (rk_log c) -> mutex_ok (rk_log c) = true.
Proof.
  intros c H Hnl. unfold ragree in H. unfold mutex_ok.
  eapply raccept_mutex; eauto; [|constructor].
  intros s [<-|[]]. unfold rsys_of. apply (run_skip_inv rstep (rpinv []) (rokl [])).
  - intros s l s' P Hok Hs. eapply rstep_rpinv; eauto.
  - apply Forall_forall. intros l Hl. apply in_map_iff in Hl. destruct Hl as [x [<- _]]. exact I.
  - split; [apply reachable_refl|reflexivity|intros c0 t []|intros i []].
Qed.
