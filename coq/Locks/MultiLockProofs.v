(* The chain of lock contexts of the multi-lock helpers:
   if any of the locks is lost (its own context ends up cancelled with
   ErrLockSessionDone, EtcdLockProofs.etcd_notify), the context the critical
   section runs under is cancelled. *)
From Coq Require Import List Bool.
From Verif Require Import Locks.LockLog Locks.MultiLock.
Import ListNotations.

Definition own_state (c : cerr) : Prop := c = CtxLive \/ c = CtxSessionDone \/ c = CtxErrOpen.

Lemma chain_length : forall own pd, length (chain pd own) = length own.
Proof. induction own as [|c t IH]; intros pd; simpl; auto. Qed.

Lemma chain_done_all : forall own, Forall own_state own -> forall e, In e (chain true own) -> is_done e = true.
Proof.
  induction own as [|c t IH]; intros Hf e He; simpl in He; [destruct He|].
  inversion Hf; subst. destruct He as [<-|He].
  - destruct H1 as [->|[->| ->]]; reflexivity.
  - apply IH; auto.
Qed.

Lemma last_in {A} : forall (l : list A) d, l <> [] -> In (last l d) l.
Proof.
  induction l as [|a t IH]; intros d H; [congruence|]. destruct t as [|b u]; [left; reflexivity|].
  right. apply IH. discriminate.
Qed.

Lemma last_cons {A} : forall (x : A) l d, l <> [] -> last (x :: l) d = last l d.
Proof. intros x l d H. destruct l; [congruence|reflexivity]. Qed.

Lemma chain_nonempty : forall pd own, own <> [] -> chain pd own <> [].
Proof. intros pd own H E. apply H. apply length_zero_iff_nil. rewrite <- (chain_length own pd), E. reflexivity. Qed.

(* the critical section's context (the last of the chain) is cancelled as soon as
   the own context of any key is cancelled with the session-done error *)
Theorem chain_cancelled : forall own,
  Forall own_state own -> In CtxSessionDone own -> is_done (last (chain false own) CtxLive) = true.
Proof.
  intros own. generalize false as pd.
  induction own as [|c t IH]; intros pd Hf Hin; [destruct Hin|].
  inversion Hf; subst. cbn [chain].
  set (e := match c with CtxLive => if pd then CtxCanceled else CtxLive
                        | CtxErrOpen => if pd then CtxSessionDone else CtxErrOpen | x => x end).
  destruct t as [|c2 u].
  - destruct Hin as [->|[]]. reflexivity.
  - rewrite last_cons by (apply chain_nonempty; discriminate).
    destruct Hin as [->|Hin].
    + subst e. cbn [is_done]. rewrite orb_true_r.
      apply (chain_done_all (c2 :: u)); auto. apply last_in. apply chain_nonempty. discriminate.
    + apply IH; auto.
Qed.
