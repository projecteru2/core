From Coq Require Import List Arith Lia.
From Verif Require Import Locks.Interleave.
Import ListNotations.

Section TS.
  Context {S L : Type}.
  Variable step : S -> L -> option S.

  Lemma invariant_run (Inv : S -> Prop) :
    (forall s l s', Inv s -> step s l = Some s' -> Inv s') ->
    forall ls s s', Inv s -> run step s ls = Some s' -> Inv s'.
  Proof.
    intros Hstep ls. induction ls as [|l t IH]; intros s s' Hi Hr; simpl in Hr.
    - inversion Hr; subst; exact Hi.
    - destruct (step s l) eqn:E; [|discriminate]. eapply IH; [|exact Hr]. eapply Hstep; eauto.
  Qed.

  Lemma invariant_reachable (Inv : S -> Prop) (init : S) :
    Inv init ->
    (forall s l s', Inv s -> step s l = Some s' -> Inv s') ->
    forall s, reachable step init s -> Inv s.
  Proof. intros Hi Hs s [ls Hr]. eapply invariant_run; eauto. Qed.

  Lemma run_app : forall l1 l2 s,
    run step s (l1 ++ l2) = match run step s l1 with Some s' => run step s' l2 | None => None end.
  Proof.
    induction l1 as [|a t IH]; intros; simpl; [reflexivity|].
    destruct (step s a); [apply IH|reflexivity].
  Qed.

  Lemma reachable_step : forall init s l s',
    reachable step init s -> step s l = Some s' -> reachable step init s'.
  Proof.
    intros init s l s' [ls Hr] Hs. exists (ls ++ [l]). rewrite run_app, Hr. simpl. rewrite Hs. reflexivity.
  Qed.

  Lemma reachable_run : forall init s ls s',
    reachable step init s -> run step s ls = Some s' -> reachable step init s'.
  Proof.
    intros init s ls s' [l0 Hr] Hs. exists (l0 ++ ls). rewrite run_app, Hr. exact Hs.
  Qed.

  Lemma reachable_refl : forall init, reachable step init init.
  Proof. intros; exists []; reflexivity. Qed.

  Lemma run_skip_inv (Inv : S -> Prop) (ok : L -> Prop) :
    (forall s l s', Inv s -> ok l -> step s l = Some s' -> Inv s') ->
    forall ls s, Forall ok ls -> Inv s -> Inv (run_skip step s ls).
  Proof.
    intros Hstep ls. induction ls as [|l t IH]; intros s Hok Hi; simpl; [exact Hi|].
    inversion Hok; subst. destruct (step s l) eqn:E; eauto.
  Qed.
End TS.

Lemma length_upd {A} : forall i (x : A) l, length (upd i x l) = length l.
Proof. induction i; destruct l; simpl; auto. Qed.

Lemma nth_error_upd_same {A} : forall i (x : A) l, i < length l -> nth_error (upd i x l) i = Some x.
Proof. induction i; destruct l; simpl; intros; try lia; auto. apply IHi; lia. Qed.

Lemma nth_error_upd_hit {A} : forall i (x y : A) l, nth_error l i = Some y -> nth_error (upd i x l) i = Some x.
Proof. intros. apply nth_error_upd_same, nth_error_Some. congruence. Qed.

Lemma nth_error_upd_other {A} : forall i j (x : A) l, i <> j -> nth_error (upd i x l) j = nth_error l j.
Proof.
  induction i; destruct l; destruct j; simpl; intros; try congruence; auto.
Qed.

Lemma upd_nth_same {A} : forall i (x : A) l, nth_error l i = Some x -> upd i x l = l.
Proof. induction i; destruct l; simpl; intros; try discriminate; [congruence|f_equal; auto]. Qed.

Lemma nth_error_upd {A} : forall i j (x y : A) l,
  nth_error (upd i x l) j = Some y -> (i = j /\ y = x) \/ (i <> j /\ nth_error l j = Some y).
Proof.
  intros. destruct (Nat.eq_dec i j).
  - subst. left. split; auto.
    destruct (lt_dec j (length l)).
    + rewrite nth_error_upd_same in H by auto. congruence.
    + assert (nth_error (upd j x l) j = None) by (apply nth_error_None; rewrite length_upd; lia).
      congruence.
  - right. split; auto. rewrite nth_error_upd_other in H; auto.
Qed.

Lemma nth_upd_iff {A} (P : A -> Prop) : forall (l : list A) i x x' j, nth_error l i = Some x ->
  (exists y, nth_error (upd i x' l) j = Some y /\ P y) <->
  (j = i /\ P x') \/ (j <> i /\ exists y, nth_error l j = Some y /\ P y).
Proof.
  intros l i x x' j Hi.
  destruct (Nat.eq_dec j i) as [->|Hj].
  - rewrite (nth_error_upd_hit _ _ _ _ Hi). split.
    + intros (y & E & Py). inversion E; subst y. auto.
    + intros [[_ Px]|[F _]]; [eauto|contradiction].
  - rewrite nth_error_upd_other by auto. split; [auto|intros [[F _]|[_ H]]; [contradiction|exact H]].
Qed.

Lemma In_upd {A} : forall i (x y : A) l, In y (upd i x l) -> y = x \/ In y l.
Proof.
  induction i; destruct l; simpl; intros; auto.
  - destruct H; auto.
  - destruct H; auto. apply IHi in H. destruct H; auto.
Qed.

Lemma In_upd_other {A} : forall i (x c y : A) l,
  nth_error l i = Some c -> In y (upd i x l) -> y = x \/ (In y l).
Proof. intros. eapply In_upd; eauto. Qed.

Lemma map_upd_same {A B} (f : A -> B) : forall i x c l,
  nth_error l i = Some c -> f x = f c -> map f (upd i x l) = map f l.
Proof.
  induction i; destruct l; simpl; intros; try discriminate; auto.
  - inversion H; subst. rewrite H0. reflexivity.
  - f_equal. eapply IHi; eauto.
Qed.

Lemma nth_error_app_new {A} : forall (l : list A) x j y,
  nth_error (l ++ [x]) j = Some y -> nth_error l j = Some y \/ (j = length l /\ y = x).
Proof.
  intros. destruct (lt_dec j (length l)).
  - rewrite nth_error_app1 in H by auto. auto.
  - rewrite nth_error_app2 in H by lia. right.
    destruct (j - length l) eqn:E; simpl in H.
    + inversion H. split; auto. lia.
    + destruct n0; discriminate.
Qed.

Lemma nth_error_In' {A} : forall (l : list A) i x, nth_error l i = Some x -> In x l.
Proof. intros; eapply nth_error_In; eauto. Qed.

Lemma NoDup_map_nth {A B} (f : A -> B) : forall l i j a b,
  NoDup (map f l) -> nth_error l i = Some a -> nth_error l j = Some b -> f a = f b -> i = j.
Proof.
  intros l i j a b Hnd Ha Hb E.
  rewrite NoDup_nth_error in Hnd. apply Hnd.
  - rewrite map_length. apply nth_error_Some. congruence.
  - rewrite (map_nth_error f _ _ Ha), (map_nth_error f _ _ Hb). congruence.
Qed.

Lemma length_le_one {A} : forall l : list A,
  NoDup l -> (forall x y, In x l -> In y l -> x = y) -> length l <= 1.
Proof.
  intros [|x [|y t]] Hnd H; simpl; try lia. exfalso.
  inversion Hnd as [|? ? Hx _]. apply Hx. left. apply H; simpl; auto.
Qed.

Lemma countb_le_one {A} (p : A -> bool) : forall l,
  (forall i j a b, nth_error l i = Some a -> nth_error l j = Some b -> p a = true -> p b = true -> i = j) ->
  countb p l <= 1.
Proof.
  unfold countb. induction l as [|x t IH]; intros H; simpl; [lia|].
  destruct (p x) eqn:E.
  - simpl. assert (filter p t = []) as ->; [|simpl; lia].
    destruct (filter p t) eqn:F; auto.
    assert (In a (filter p t)) by (rewrite F; left; auto).
    apply filter_In in H0. destruct H0 as [Hin Hp].
    apply In_nth_error in Hin. destruct Hin as [n Hn].
    specialize (H 0 (Datatypes.S n) x a eq_refl Hn E Hp). discriminate.
  - apply IH. intros i j a b Ha Hb Pa Pb.
    specialize (H (Datatypes.S i) (Datatypes.S j) a b Ha Hb Pa Pb). lia.
Qed.
