(* Inductive invariant of the redis lock transition
   system; C18 for the redis backend; C19 refuted for the redis backend. *)
From Coq Require Import List Bool ZArith Lia.
From Verif Require Import Base.KV Base.KVProofs Locks.Interleave Locks.InterleaveProofs
  Locks.LockLog Locks.RedisLock Base.ListFacts.
Import ListNotations.
Local Open Scope Z_scope.

(* the call of c is in Obtain's loop, invoked as o *)
Definition trying (p : rpc) (o : lop) : Prop := p = RCalled o \/ p = RRetrying /\ o = OpLock.

Definition lease_end (kv : rstore) (c : rcont) : option Z :=
  if Z.ltb 0 (r_ttl c) then Some (r_now kv + r_ttl c) else None.

Inductive rcstep (i : nat) (kv : rstore) (c : rcont) : rlabel -> rstore -> rcont -> Prop :=
| rc_call o (Hpc : r_pc c = RIdle) : rcstep i kv c (RCall i o) kv (rset_pc c (RCalled o))
| rc_try_late o (Hpc : trying (r_pc c) o) (Hd : r_dead c = true) :
    rcstep i kv c (RTry i) kv (rset_pc c (RFailed RDeadline))
| rc_try_set o (Hpc : trying (r_pc c) o) (Hd : r_dead c = false) (Hfree : r_exists ueqb kv tt = false) :
    rcstep i kv c (RTry i) (r_set ueqb kv tt (r_tok c) (Some (r_ttl c)))
           (mkR RHeld (r_tok c) (r_ttl c) false (lease_end kv c) false CtxLive)
| rc_try_busy o (Hpc : trying (r_pc c) o) (Hd : r_dead c = false) (Hbusy : r_exists ueqb kv tt = true) :
    rcstep i kv c (RTry i) kv
           (rset_pc c (match o with OpTry => RFailed RNotObtained | OpLock => RRetrying end))
| rc_timeout (Hpc : r_pc c = RCalled OpLock \/ r_pc c = RRetrying) :
    rcstep i kv c (RTimeout i) kv (mkR (r_pc c) (r_tok c) (r_ttl c) true (r_until c) (r_in c) (r_ctx c))
| rc_ret (Hpc : r_pc c = RHeld) (Hin : r_in c = false) :
    rcstep i kv c (RRet i) kv (mkR RHeld (r_tok c) (r_ttl c) (r_dead c) (r_until c) true (r_ctx c))
| rc_exit_held (Hpc : r_pc c = RHeld) (Hin : r_in c = true) :
    rcstep i kv c (RExit i) kv (rset_pc c RReleasing)
| rc_exit_failed e (Hpc : r_pc c = RFailed e) : rcstep i kv c (RExit i) kv (rset_pc c (RDone false))
| rc_release b kv' (Hpc : r_pc c = RReleasing) (Hcad : r_cad ueqb Z.eqb kv tt (r_tok c) = (b, kv')) :
    rcstep i kv c (RRelease i) kv' (rset_pc c (RDone b))
| rc_trylost_set o (Hpc : trying (r_pc c) o) (Hfree : r_exists ueqb kv tt = false) :
    rcstep i kv c (RTryLost i) (r_set ueqb kv tt (r_tok c) (Some (r_ttl c)))
           (mkR (RFailed RDeadline) (r_tok c) (r_ttl c) (r_dead c) (lease_end kv c) false (r_ctx c))
| rc_trylost_busy o (Hpc : trying (r_pc c) o) (Hbusy : r_exists ueqb kv tt = true) :
    rcstep i kv c (RTryLost i) kv
           (mkR (RFailed RDeadline) (r_tok c) (r_ttl c) (r_dead c) (r_until c) false (r_ctx c)).

Inductive rsstep (s : rsys) : rlabel -> rsys -> Prop :=
| rs_new ttl :
    rsstep s (RNew ttl)
           (mkRS (rs_kv s) (rs_cs s ++ [mkR RIdle (Z.of_nat (length (rs_cs s))) ttl false None false CtxLive]))
| rs_tick d (Hd : 0 <= d) : rsstep s (RTick d) (mkRS (r_tick (rs_kv s) d) (rs_cs s))
| rs_cont i c l kv' c' (Hi : nth_error (rs_cs s) i = Some c) (Hst : rcstep i (rs_kv s) c l kv' c') :
    rsstep s l (mkRS kv' (upd i c' (rs_cs s))).

(* [H : rwith s i kv' c' = Some s']: the goal is the step of contender i to kv', c' *)
Local Ltac step_of H Hc := unfold rwith in H; injection H as <-; eapply rs_cont; [exact Hc|].

Lemma rtry_rcstep : forall s i c o s',
  nth_error (rs_cs s) i = Some c -> trying (r_pc c) o -> rtry s i c o = Some s' -> rsstep s (RTry i) s'.
Proof.
  intros s i c o s' Hc Hpc H. unfold rtry, r_setnx in H.
  destruct (r_dead c) eqn:Hd; [step_of H Hc; eapply rc_try_late; eauto|].
  destruct (r_exists ueqb (rs_kv s) tt) eqn:He.
  - destruct o; step_of H Hc; apply (rc_try_busy _ _ _ _ Hpc Hd He).
  - step_of H Hc. eapply rc_try_set; eauto.
Qed.

Lemma rstep_rsstep : forall s l s', rstep s l = Some s' -> rsstep s l s'.
Proof.
  intros s l s' H.
  destruct l as [ttl|i o|i|i|i|i|i|d|i]; unfold rstep in H; cbv zeta in H;
    try (destruct (nth_error (rs_cs s) i) as [c|] eqn:Hc; [|discriminate]).
  - injection H as <-. apply rs_new.
  - destruct (r_pc c) eqn:Hpc; try discriminate. step_of H Hc. apply rc_call; auto.
  - destruct (r_pc c) eqn:Hpc; try discriminate; eapply rtry_rcstep; eauto; unfold trying; auto.
  - (* the result mentions [r_pc c]: put it back after the case analysis *)
    destruct (r_pc c) as [|[]| | | | |] eqn:Hpc; try discriminate; step_of H Hc; rewrite <- Hpc;
      apply rc_timeout; auto.
  - destruct (r_pc c) eqn:Hpc; try discriminate. destruct (r_in c) eqn:Hin; [discriminate|].
    step_of H Hc. apply rc_ret; auto.
  - destruct (r_pc c) eqn:Hpc; try discriminate.
    + destruct (r_in c) eqn:Hin; [|discriminate]. step_of H Hc. apply rc_exit_held; auto.
    + step_of H Hc. eapply rc_exit_failed; eauto.
  - destruct (r_pc c) eqn:Hpc; try discriminate.
    destruct (r_cad ueqb Z.eqb (rs_kv s) tt (r_tok c)) as [b kv'] eqn:Hcad.
    step_of H Hc. apply rc_release; auto.
  - destruct (Z.ltb_spec d 0); [discriminate|]. injection H as <-. apply rs_tick; auto.
  - destruct (r_pc c) eqn:Hpc; try discriminate; unfold r_setnx in H;
      (destruct (r_exists ueqb (rs_kv s) tt) eqn:He; step_of H Hc;
       [eapply rc_trylost_busy|eapply rc_trylost_set]; eauto; unfold trying; eauto).
Qed.

Lemma free_empty : forall kv : rstore, kv1_ok kv -> r_exists ueqb kv tt = false -> r_kvs kv = [].
Proof.
  intros kv [E|[x [E L]]] H; auto. destruct (get_one ueqb (fun _ _ => eq_refl) _ tt _ E L) as (_ & F & _).
  unfold r_exists in H. rewrite F in H. discriminate.
Qed.

Lemma set_spec : forall (kv : rstore) v ttl,
  r_set ueqb kv tt v (Some ttl) =
  mkRedis (r_now kv) [mkRkv tt v (if Z.ltb 0 ttl then Some (r_now kv + ttl) else None)].
Proof. intros. unfold r_set. rewrite remove_nil by reflexivity. reflexivity. Qed.

Lemma set_live : forall (kv : rstore) v ttl,
  rkv_live (r_now kv) (mkRkv tt (v : Z) (if Z.ltb 0 ttl then Some (r_now kv + ttl) else None)) = true.
Proof.
  intros. unfold rkv_live; simpl. destruct (Z.ltb_spec 0 ttl); auto. apply Z.ltb_lt. lia.
Qed.

(* the Lua compare-and-delete: the key goes iff it holds the token *)
Lemma cad_spec : forall (kv : rstore) tok b kv',
  r_cad ueqb Z.eqb kv tt tok = (b, kv') ->
  b = true /\ r_get ueqb kv tt = Some tok /\ kv' = mkRedis (r_now kv) [] \/
  b = false /\ kv' = kv /\ r_get ueqb kv tt <> Some tok.
Proof.
  intros kv tok b kv' H. unfold r_cad in H. destruct (r_get ueqb kv tt) as [v|] eqn:Hg.
  - destruct (Z.eqb_spec v tok) as [->|Hne]; injection H as <- <-.
    + left. split; auto. split; auto. unfold r_del, r_exists. unfold r_get in Hg.
      destruct (r_find ueqb kv tt); [|discriminate]. simpl. rewrite remove_nil by reflexivity. reflexivity.
    + right. split; auto. split; auto. congruence.
  - injection H as <- <-. right. split; auto. split; auto. discriminate.
Qed.

(* what a contender's step does to the store: nothing, SET NX of its token on the
   free key, or the compare-and-delete of its token *)
Inductive rkv_eff (tok : Z) (kv : rstore) : rstore -> Prop :=
| reff_none : rkv_eff tok kv kv
| reff_set ttl (Hfree : r_exists ueqb kv tt = false) : rkv_eff tok kv (r_set ueqb kv tt tok (Some ttl))
| reff_cad b kv' (Hcad : r_cad ueqb Z.eqb kv tt tok = (b, kv')) : rkv_eff tok kv kv'.

Lemma rcstep_eff : forall i kv c l kv' c',
  rcstep i kv c l kv' c' -> r_tok c' = r_tok c /\ rkv_eff (r_tok c) kv kv'.
Proof.
  destruct 1; (split; [reflexivity|]); try apply reff_none;
    [apply reff_set|eapply reff_cad|apply reff_set]; eauto.
Qed.

Lemma rkv_eff_ok : forall tok kv kv', kv1_ok kv -> rkv_eff tok kv kv' ->
  kv1_ok kv' /\ r_now kv' = r_now kv /\
  (forall x, In x (r_kvs kv') -> In x (r_kvs kv) \/ rk_val x = tok) /\
  (forall v, r_get ueqb kv tt = Some v -> v <> tok -> r_get ueqb kv' tt = Some v).
Proof.
  intros tok kv kv' Hkv [ |ttl Hfree|b kv1 Hcad].
  - auto.
  - rewrite set_spec. simpl. split; [|split; [reflexivity|split]].
    + right. eexists. split; [reflexivity|]. exact (set_live kv tok ttl).
    + intros x [<-|[]]. right. reflexivity.
    + intros v Hg. rewrite get_empty in Hg by (apply free_empty; auto). discriminate.
  - destruct (cad_spec _ _ _ _ Hcad) as [(_ & Hg & ->)|(_ & -> & _)]; [|auto]. simpl.
    split; [left; reflexivity|]. split; [reflexivity|]. split; [intros x []|]. congruence.
Qed.

Definition owning (p : rpc) : Prop := p = RHeld \/ p = RReleasing.

Definition within (now : Z) (c : rcont) : Prop :=
  match r_until c with None => True | Some t => now < t end.

(* a contender whose SET NX reply was lost may have left its token in the key *)
Definition ghostable (p : rpc) : Prop := p = RFailed RDeadline \/ p = RDone false.

Definition rcont_ok (kv : rstore) (c : rcont) : Prop :=
  (owning (r_pc c) -> within (r_now kv) c -> r_get ueqb kv tt = Some (r_tok c)) /\
  (forall x, In x (r_kvs kv) -> rk_val x = r_tok c ->
     (owning (r_pc c) \/ ghostable (r_pc c)) /\ rk_exp x = r_until c) /\
  r_ctx c = CtxLive.

Definition rsys_ok (s : rsys) : Prop :=
  kv1_ok (rs_kv s) /\
  (forall i c, nth_error (rs_cs s) i = Some c -> r_tok c = Z.of_nat i) /\
  (forall x, In x (r_kvs (rs_kv s)) -> exists i c, nth_error (rs_cs s) i = Some c /\ rk_val x = r_tok c) /\
  (forall c, In c (rs_cs s) -> rcont_ok (rs_kv s) c).

Lemma rsys_init_ok : rsys_ok rsys_init.
Proof.
  unfold rsys_ok, rsys_init; simpl. split; [left; reflexivity|]. split; [|split].
  - intros i c H. destruct i; discriminate.
  - intros x [].
  - intros c [].
Qed.

Lemma within_spec : forall s c, within_lease s c = true <-> within (r_now (rs_kv s)) c.
Proof.
  intros s c. unfold within_lease, within. destruct (r_until c); [apply Z.ltb_lt|tauto].
Qed.

Lemma tok_inj : forall s i j a b,
  rsys_ok s -> nth_error (rs_cs s) i = Some a -> nth_error (rs_cs s) j = Some b ->
  r_tok a = r_tok b -> i = j.
Proof.
  intros s i j a b (_ & Htok & _ & _) Ha Hb E. apply Htok in Ha. apply Htok in Hb. lia.
Qed.

(* decides side conditions on program counters *)
Ltac by_pc := unfold trying, owning, ghostable in *; simpl; intuition congruence.

(* over the same store, a contender may move as long as it does not come to own the key
   and does not forget that its token may be in it *)
Lemma rcont_ok_pc : forall kv c c',
  rcont_ok kv c -> r_tok c' = r_tok c -> r_until c' = r_until c -> r_ctx c' = r_ctx c ->
  (owning (r_pc c') -> owning (r_pc c)) ->
  (owning (r_pc c) \/ ghostable (r_pc c) -> owning (r_pc c') \/ ghostable (r_pc c')) ->
  rcont_ok kv c'.
Proof.
  unfold rcont_ok, within. intros kv c c' (C1 & C2 & C3) -> -> -> Ho Hg. split; [|split]; auto.
  intros x Hx E. destruct (C2 x Hx E). auto.
Qed.

Lemma rcont_ok_no_key : forall kv c,
  (forall x, In x (r_kvs kv) -> rk_val x <> r_tok c) -> ~ owning (r_pc c) -> r_ctx c = CtxLive ->
  rcont_ok kv c.
Proof.
  intros kv c Hn Ho Hc. split; [intros O; contradiction|]. split; auto.
  intros x Hx E. destruct (Hn x Hx E).
Qed.

Lemma rcont_ok_frame : forall kv kv' y,
  r_now kv' = r_now kv ->
  (forall x, In x (r_kvs kv') -> rk_val x = r_tok y -> In x (r_kvs kv)) ->
  (r_get ueqb kv tt = Some (r_tok y) -> r_get ueqb kv' tt = Some (r_tok y)) ->
  rcont_ok kv y -> rcont_ok kv' y.
Proof.
  intros kv kv' y Hn Hnew Hkeep (Y1 & Y2 & Y3). unfold rcont_ok. rewrite Hn. split; [|split]; auto.
Qed.

Lemma rcstep_cont_ok : forall i kv c l kv' c',
  kv1_ok kv -> rcont_ok kv c -> rcstep i kv c l kv' c' -> rcont_ok kv' c'.
Proof.
  intros i kv c l kv' c' Hkv Cc Hst. pose proof Cc as (_ & _ & C3).
  destruct Hst;
    try (apply (rcont_ok_pc kv c _ Cc); by_pc).      (* the outcomes that leave the store alone *)
  - (* SET NX succeeded *)
    rewrite set_spec. split; [|split; [|reflexivity]]; simpl.
    + intros _ _. unfold r_get, r_find; simpl. rewrite set_live. reflexivity.
    + intros x [<-|[]] _. split; [left; left|]; reflexivity.
  - destruct o; apply (rcont_ok_pc kv c _ Cc); by_pc.
  - (* Release: the key goes iff it still holds the token *)
    destruct (cad_spec _ _ _ _ Hcad) as [(-> & Hg & ->)|(-> & -> & Hne)];
      (apply rcont_ok_no_key; [|by_pc|exact C3]); [intros x []|].
    intros x Hx E. apply Hne. destruct Hkv as [E0|[x1 [E0 L]]]; rewrite E0 in Hx; [destruct Hx|].
    destruct Hx as [<-|[]]. destruct (get_one ueqb (fun _ _ => eq_refl) _ tt _ E0 L) as [G _]. rewrite G, E. reflexivity.
  - (* the reply is lost but the key is set *)
    rewrite set_spec. split; [by_pc|split; [|exact C3]]; simpl.
    intros x [<-|[]] _. split; [right; left|]; reflexivity.
Qed.

Lemma rsys_ok_upd : forall s i c c' kv',
  rsys_ok s -> nth_error (rs_cs s) i = Some c -> r_tok c' = r_tok c ->
  rkv_eff (r_tok c) (rs_kv s) kv' -> rcont_ok kv' c' ->
  rsys_ok (mkRS kv' (upd i c' (rs_cs s))).
Proof.
  intros s i c c' kv' Hok Hi Et Heff Hc'. pose proof Hok as (Hkv & Htok & HT & Hcs).
  destruct (rkv_eff_ok _ _ _ Hkv Heff) as (Hkv' & Hn & Hnew & Hkeep).
  unfold rsys_ok; simpl. split; auto. split; [|split].
  - intros j y Hj. apply nth_error_upd in Hj. destruct Hj as [[<- ->]|[_ Hj]]; auto.
    rewrite Et. auto.
  - intros x Hx.
    assert (exists j y, nth_error (rs_cs s) j = Some y /\ rk_val x = r_tok y) as (j & y & Hj & Ey)
      by (destruct (Hnew x Hx); eauto).
    destruct (Nat.eq_dec i j) as [<-|Hne].
    + exists i, c'. split; [eapply nth_error_upd_hit, Hi|]. congruence.
    + exists j, y. split; [rewrite nth_error_upd_other; auto|auto].
  - intros y Hy. apply In_nth_error in Hy. destruct Hy as [j Hj]. apply nth_error_upd in Hj.
    destruct Hj as [[_ ->]|[Hne Hj]]; auto.
    assert (Hty : r_tok y <> r_tok c) by (intro E; apply Hne; symmetry; eapply tok_inj; eauto).
    apply (rcont_ok_frame (rs_kv s)); eauto using nth_error_In.
    intros x Hx Ex. destruct (Hnew x Hx); [auto|congruence].
Qed.

Lemma rstep_ok : forall s l s', rsys_ok s -> rstep s l = Some s' -> rsys_ok s'.
Proof.
  intros s l s' Hok H. apply rstep_rsstep in H.
  pose proof Hok as (Hkv & Htok & HT & Hcs). destruct H.
  - (* RNew: the new token is the next index *)
    unfold rsys_ok; cbn [rs_kv rs_cs]. split; auto. split; [|split].
    + intros i c Hi. apply nth_error_app_new in Hi. destruct Hi as [Hi|[-> ->]]; auto.
    + intros x Hx. destruct (HT x Hx) as (j & y & Hj & Ey). exists j, y. split; auto.
      rewrite nth_error_app1; auto. apply nth_error_Some. congruence.
    + intros c Hc. apply in_app_or in Hc. destruct Hc as [Hc|[<-|[]]]; auto.
      apply rcont_ok_no_key; [|by_pc|reflexivity].
      intros x Hx Ex. destruct (HT x Hx) as (j & y & Hj & Ey).
      assert (j < length (rs_cs s))%nat by (apply nth_error_Some; congruence).
      apply Htok in Hj. simpl in Ex. lia.
  - (* RTick: a key past its expiry goes, and its owner is then past its lease *)
    unfold rsys_ok; cbn [rs_kv rs_cs]. unfold r_tick.
    set (now' := r_now (rs_kv s) + d).
    split; [|split; [|split]]; auto.
    + destruct Hkv as [E|[x [E L]]]; unfold kv1_ok; cbn [r_kvs r_now]; rewrite E; simpl; auto.
      destruct (rkv_live now' x) eqn:L'; auto. right. exists x. auto.
    + cbn [r_kvs]. intros x Hx. apply filter_In in Hx. destruct Hx as [Hx _]. auto.
    + intros y Hy. destruct (Hcs y Hy) as (Y1 & Y2 & Y3).
      unfold rcont_ok; cbn [r_kvs r_now]. split; [|split; auto].
      * intros O W.
        assert (W0 : within (r_now (rs_kv s)) y).
        { unfold within in *. destruct (r_until y); auto. unfold now' in W. lia. }
        specialize (Y1 O W0).
        destruct Hkv as [E|[x [E L]]]; [rewrite get_empty in Y1 by auto; discriminate|].
        destruct (get_one ueqb (fun _ _ => eq_refl) _ tt _ E L) as [G _]. rewrite G in Y1. inversion Y1 as [Ev].
        destruct (Y2 x) as [_ Ee]; [rewrite E; left; auto|auto|].
        assert (L' : rkv_live now' x = true).
        { unfold rkv_live. rewrite Ee. unfold within in W. destruct (r_until y); auto. apply Z.ltb_lt; auto. }
        unfold r_get, r_find; cbn [r_kvs r_now]. rewrite E. simpl. rewrite L'. simpl. rewrite L'. simpl. congruence.
      * intros x Hx Ex. apply filter_In in Hx. destruct Hx as [Hx _]. auto.
  - destruct (rcstep_eff _ _ _ _ _ _ Hst) as [Et Heff].
    apply (rsys_ok_upd s i c); auto.
    eapply rcstep_cont_ok; eauto using nth_error_In.
Qed.

Theorem rreachable_ok : forall s, reachable rstep rsys_init s -> rsys_ok s.
Proof. apply invariant_reachable; [exact rsys_init_ok|]. intros; eapply rstep_ok; eauto. Qed.

Lemma rholds_spec : forall s c, rholds s c = true <-> r_pc c = RHeld /\ within (r_now (rs_kv s)) c.
Proof.
  intros s c. unfold rholds, is_held. rewrite andb_true_iff, within_spec.
  split; intros [A B]; split; auto.
  - destruct (r_pc c); try discriminate; auto.
  - rewrite A; auto.
Qed.

(* C18, mutual exclusion: in every reachable state (any number of contenders, any
   schedule, any advance of the clock) at most one contender is in its critical
   section within the TTL of the key it set *)
Theorem redis_mutex : forall s i j a b,
  reachable rstep rsys_init s ->
  nth_error (rs_cs s) i = Some a -> nth_error (rs_cs s) j = Some b ->
  rholds s a = true -> rholds s b = true -> i = j.
Proof.
  intros s i j a b Hr Ha Hb Pa Pb.
  apply rreachable_ok in Hr. pose proof Hr as (Hkv & Htok & HT & Hcs).
  apply rholds_spec in Pa. apply rholds_spec in Pb. destruct Pa as [Pa Wa]. destruct Pb as [Pb Wb].
  destruct (Hcs a (nth_error_In _ _ Ha)) as (A1 & _). destruct (Hcs b (nth_error_In _ _ Hb)) as (B1 & _).
  assert (Ga : r_get ueqb (rs_kv s) tt = Some (r_tok a)) by (apply A1; auto; left; auto).
  assert (Gb : r_get ueqb (rs_kv s) tt = Some (r_tok b)) by (apply B1; auto; left; auto).
  eapply tok_inj; eauto. congruence.
Qed.

Theorem redis_holders_le_one : forall s, reachable rstep rsys_init s -> (rholders s <= 1)%nat.
Proof.
  intros s Hr. unfold rholders. apply countb_le_one.
  intros i j a b. exact (redis_mutex s i j a b Hr).
Qed.

(* a try-lock step taken while another contender holds (within its TTL) fails in
   that very step *)
Theorem redis_trylock_fails : forall s s' i j c h,
  reachable rstep rsys_init s ->
  nth_error (rs_cs s) j = Some h -> rholds s h = true -> i <> j ->
  nth_error (rs_cs s) i = Some c -> r_pc c = RCalled OpTry ->
  rstep s (RTry i) = Some s' ->
  exists c' e, nth_error (rs_cs s') i = Some c' /\ r_pc c' = RFailed e /\ rs_kv s' = rs_kv s.
Proof.
  intros s s' i j c h Hr Hj Hh Hij Hi Hpc Hstep.
  apply rreachable_ok in Hr. pose proof Hr as (Hkv & Htok & HT & Hcs).
  apply rholds_spec in Hh. destruct Hh as [Ph Wh].
  destruct (Hcs h (nth_error_In _ _ Hj)) as (H1 & _).
  assert (G : r_get ueqb (rs_kv s) tt = Some (r_tok h)) by (apply H1; auto; left; auto).
  assert (Hbusy : r_exists ueqb (rs_kv s) tt = true).
  { unfold r_exists. unfold r_get in G. destruct (r_find ueqb (rs_kv s) tt); [reflexivity|discriminate]. }
  unfold rstep in Hstep. rewrite Hi, Hpc in Hstep. unfold rtry, r_setnx in Hstep. rewrite Hbusy in Hstep.
  (* past its deadline or not, the caller fails and the store stays *)
  destruct (r_dead c); unfold rwith in Hstep; inversion Hstep; subst s'; simpl;
    (eexists; eexists; split; [eapply nth_error_upd_hit, Hi|split; reflexivity]).
Qed.

Definition waiting_pc (p : rpc) : Prop := p = RCalled OpLock \/ p = RRetrying.

(* a waiter's retry taken when the key is free (released or expired) acquires *)
Theorem redis_wait_acquires : forall s i c,
  nth_error (rs_cs s) i = Some c -> waiting_pc (r_pc c) -> r_dead c = false -> key_free s = true ->
  exists s' c', rstep s (RTry i) = Some s' /\ nth_error (rs_cs s') i = Some c' /\ r_pc c' = RHeld.
Proof.
  intros s i c Hi Hpc Hd Hf.
  unfold key_free in Hf. apply negb_true_iff in Hf.
  unfold rstep. rewrite Hi.
  destruct Hpc as [Hpc|Hpc]; rewrite Hpc; unfold rtry; rewrite Hd; unfold r_setnx; rewrite Hf;
    unfold rwith; eexists; eexists; (split; [reflexivity|]); simpl;
    (split; [eapply nth_error_upd_hit, Hi|reflexivity]).
Qed.

(* while the key is taken the retry leaves the waiter waiting *)
Theorem redis_wait_blocked : forall s i c,
  nth_error (rs_cs s) i = Some c -> waiting_pc (r_pc c) -> r_dead c = false -> key_free s = false ->
  exists s' c', rstep s (RTry i) = Some s' /\ nth_error (rs_cs s') i = Some c' /\ r_pc c' = RRetrying
                /\ rs_kv s' = rs_kv s.
Proof.
  intros s i c Hi Hpc Hd Hf.
  unfold key_free in Hf. apply negb_false_iff in Hf.
  unfold rstep. rewrite Hi.
  destruct Hpc as [Hpc|Hpc]; rewrite Hpc; unfold rtry; rewrite Hd; unfold r_setnx; rewrite Hf;
    unfold rwith; eexists; eexists; (split; [reflexivity|]); simpl;
    (split; [eapply nth_error_upd_hit, Hi|split; reflexivity]).
Qed.

(* a waiter whose deadline has passed fails at its next retry; both steps are enabled *)
Theorem redis_wait_timeout : forall s i c,
  nth_error (rs_cs s) i = Some c -> waiting_pc (r_pc c) ->
  exists s1 s2 c2, rstep s (RTimeout i) = Some s1 /\ rstep s1 (RTry i) = Some s2 /\
                   nth_error (rs_cs s2) i = Some c2 /\ r_pc c2 = RFailed RDeadline /\ rs_kv s2 = rs_kv s.
Proof.
  intros s i c Hi Hpc.
  unfold rstep at 1. rewrite Hi.
  destruct Hpc as [Hpc|Hpc]; rewrite Hpc; unfold rwith;
    eexists; eexists; eexists; (split; [reflexivity|]);
    unfold rstep; cbn [rs_cs rs_kv]; erewrite nth_error_upd_hit by eassumption; cbn [r_pc];
    unfold rtry; cbn [r_dead]; unfold rwith; (split; [reflexivity|]); cbn [rs_cs rs_kv];
    (split; [eapply nth_error_upd_hit, nth_error_upd_hit, Hi|split; reflexivity]).
Qed.

(* C19 is refuted for redis: the context returned by the redis lock is never cancelled, under any schedule *)
Theorem redis_ctx_never_cancelled : forall s c,
  reachable rstep rsys_init s -> In c (rs_cs s) -> r_ctx c = CtxLive.
Proof.
  intros s c Hr Hc. apply rreachable_ok in Hr. destruct Hr as (_ & _ & _ & Hcs).
  destruct (Hcs c Hc) as (_ & _ & C3). exact C3.
Qed.

(* witness: A (0) locks, B (1) waits, A's TTL elapses, B's retry acquires *)
Definition c19_witness : list rlabel :=
  [RNew 1000; RNew 1000; RCall 0 OpLock; RTry 0; RRet 0; RCall 1 OpLock; RTry 1;
   RTick 1001; RTry 1; RRet 1].

Definition in_cs (c : rcont) : bool := is_held c && r_in c.

Theorem redis_c19_refuted :
  exists s a b,
    run rstep rsys_init c19_witness = Some s /\
    nth_error (rs_cs s) 0 = Some a /\ nth_error (rs_cs s) 1 = Some b /\
    (* both are in their critical sections, B legitimately (within its TTL) *)
    in_cs a = true /\ in_cs b = true /\ rholds s b = true /\
    (* A lost its lock (its TTL elapsed) ... *)
    within_lease s a = false /\
    (* ... and is never told: its context stays live under every continuation *)
    (forall ls s' a', run rstep s ls = Some s' -> nth_error (rs_cs s') 0 = Some a' -> r_ctx a' = CtxLive).
Proof.
  destruct (run rstep rsys_init c19_witness) as [s|] eqn:E; [|vm_compute in E; discriminate].
  assert (Hr : reachable rstep rsys_init s) by (exists c19_witness; exact E).
  vm_compute in E. inversion E as [Es].
  eexists. eexists. eexists. split; [reflexivity|].
  split; [reflexivity|]. split; [reflexivity|].
  split; [vm_compute; reflexivity|]. split; [vm_compute; reflexivity|].
  split; [vm_compute; reflexivity|]. split; [vm_compute; reflexivity|].
  intros ls s' a' Hrun Hn. rewrite Es in Hrun.
  eapply redis_ctx_never_cancelled; [eapply reachable_run; eauto|eapply nth_error_In; eauto].
Qed.

(* the strongest true statement about overlap on redis: two contenders can be in
   their critical sections together only if one of them is past the TTL of its key *)
Theorem redis_overlap_only_after_ttl : forall s i j a b,
  reachable rstep rsys_init s ->
  nth_error (rs_cs s) i = Some a -> nth_error (rs_cs s) j = Some b -> i <> j ->
  r_pc a = RHeld -> r_pc b = RHeld ->
  within_lease s a = false \/ within_lease s b = false.
Proof.
  intros s i j a b Hr Ha Hb Hij Pa Pb.
  destruct (within_lease s a) eqn:Wa; auto. destruct (within_lease s b) eqn:Wb; auto.
  exfalso. apply Hij. apply (redis_mutex s i j a b Hr Ha Hb); unfold rholds, is_held.
  - rewrite Pa, Wa. reflexivity.
  - rewrite Pb, Wb. reflexivity.
Qed.

(* the hypotheses of the statements above are satisfiable: a reachable state with
   a holder within its TTL, a try-locker about to try, and a waiter *)
Example redis_hyps_satisfiable :
  exists s h c w, run rstep rsys_init
      [RNew 1000; RNew 1000; RNew 1000; RCall 0 OpLock; RTry 0; RRet 0; RCall 1 OpTry; RCall 2 OpLock; RTry 2] = Some s /\
    nth_error (rs_cs s) 0 = Some h /\ rholds s h = true /\
    nth_error (rs_cs s) 1 = Some c /\ r_pc c = RCalled OpTry /\
    nth_error (rs_cs s) 2 = Some w /\ waiting_pc (r_pc w) /\ r_dead w = false /\ key_free s = false.
Proof.
  eexists. eexists. eexists. eexists. split; [vm_compute; reflexivity|].
  split; [reflexivity|]. split; [vm_compute; reflexivity|]. split; [reflexivity|].
  split; [reflexivity|]. split; [reflexivity|]. split; [right; reflexivity|]. split; reflexivity.
Qed.
