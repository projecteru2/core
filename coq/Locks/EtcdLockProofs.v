(* The inductive invariant of the etcd lock transition
   system and the statements of C18 / C19 for the etcd backend. *)
From Coq Require Import List Bool ZArith Lia.
From Verif Require Import Base.KV Base.KVProofs Locks.Interleave Locks.InterleaveProofs
  Locks.LockLog Locks.EtcdLock Base.ListFacts.
Import ListNotations.
Local Open Scope Z_scope.

Local Notation live kv l := (e_lease_live kv l = true).
Local Notation dead kv l := (e_lease_live kv l = false).

Definition kv_ok (kv : store) : Prop :=
  0 < e_rev kv /\
  (forall x, In x (e_kvs kv) -> 0 < ek_create x <= e_rev kv) /\
  NoDup (map ek_key (e_kvs kv)) /\
  NoDup (map ek_create (e_kvs kv)) /\
  (forall x, In x (e_kvs kv) -> ek_lease x = ek_key x /\ live kv (ek_key x)) /\
  (forall id, In id (map l_id (e_leases kv)) -> 0 < id < e_next_lease kv) /\
  0 < e_next_lease kv.

(* kv' extends kv: leases are never revived, new keys get larger revisions, and
   only keys in R may have disappeared *)
Definition ext (R : Z -> Prop) (kv kv' : store) : Prop :=
  (forall id, id < e_next_lease kv -> live kv' id -> live kv id) /\
  e_next_lease kv <= e_next_lease kv' /\
  e_rev kv <= e_rev kv' /\
  (forall x, In x (e_kvs kv') -> In x (e_kvs kv) \/ e_rev kv < ek_create x) /\
  (forall x, In x (e_kvs kv) -> In x (e_kvs kv') \/ R (ek_key x)).

Definition none_removed : Z -> Prop := fun _ => False.

Lemma ext_refl : forall R kv, ext R kv kv.
Proof. intros R kv. repeat split; auto; lia. Qed.

Lemma ext_weaken : forall (R R' : Z -> Prop) kv kv', (forall k, R k -> R' k) -> ext R kv kv' -> ext R' kv kv'.
Proof.
  intros R R' kv kv' H (A & B & C & D & E). repeat split; auto.
  intros x Hx. destruct (E x Hx); auto.
Qed.

Lemma live_lt_next : forall kv id, kv_ok kv -> live kv id -> 0 < id < e_next_lease kv.
Proof. intros kv id (_ & _ & _ & _ & _ & H & _) L. apply H. apply live_iff. exact L. Qed.

Lemma key_live : forall kv x, kv_ok kv -> In x (e_kvs kv) -> live kv (ek_key x).
Proof. intros kv x (_ & _ & _ & _ & K4 & _) Hx. apply K4; exact Hx. Qed.

Lemma ext_none : forall R kv kv', ext none_removed kv kv' -> ext R kv kv'.
Proof. intros R kv kv'. apply ext_weaken. intros k []. Qed.

Lemma kv_ok_filter : forall (R : Z -> Prop) (kv kv' : store) f,
  kv_ok kv ->
  e_kvs kv' = filter f (e_kvs kv) -> e_rev kv <= e_rev kv' -> e_next_lease kv <= e_next_lease kv' ->
  (forall id, live kv' id -> live kv id \/ e_next_lease kv <= id < e_next_lease kv') ->
  (forall x, In x (e_kvs kv) -> f x = true -> live kv' (ek_key x)) ->
  (forall x, In x (e_kvs kv) -> f x = false -> R (ek_key x)) ->
  kv_ok kv' /\ ext R kv kv'.
Proof.
  intros R kv kv' f Hkv Hk Hr Hn Hl Hlk HR. pose proof Hkv as (K0 & K1 & K2 & K3 & K4 & K5 & K6).
  assert (Hin : forall x, In x (e_kvs kv') <-> In x (e_kvs kv) /\ f x = true)
    by (intro; rewrite Hk; apply filter_In).
  split.
  - unfold kv_ok. rewrite Hk. split; [lia|]. split; [|split; [|split; [|split; [|split]]]];
      auto using NoDup_map_filter; try lia.
    + intros x Hx. apply filter_In in Hx. destruct Hx as [Hx _]. apply K1 in Hx. lia.
    + intros x Hx. apply filter_In in Hx. destruct Hx as [Hx Hf]. split; [apply K4; auto|auto].
    + intros id Hi. apply live_iff in Hi. destruct (Hl id Hi) as [L|L]; [|lia].
      apply (live_lt_next kv) in L; auto. lia.
  - unfold ext. split; [|split; [exact Hn|split; [exact Hr|split]]].
    + intros id Hid L. destruct (Hl id L); [auto|lia].
    + intros x Hx. left. apply Hin in Hx. tauto.
    + intros x Hx. destruct (f x) eqn:Hf; [left; apply Hin|right]; auto.
Qed.

Lemma grant_ok : forall kv ttl id kv',
  kv_ok kv -> e_grant kv ttl = (id, kv') ->
  kv_ok kv' /\ ext none_removed kv kv' /\ id = e_next_lease kv /\ e_next_lease kv' = id + 1 /\
  (forall x, live kv' x <-> x = id \/ live kv x).
Proof.
  intros kv ttl id kv' Hkv H.
  apply grant_shape in H. destruct H as (Hid & Hk & Hr & Hl & Hn).
  assert (Hlive : forall x, live kv' x <-> x = id \/ live kv x).
  { intros x. rewrite !live_iff, Hl. simpl. intuition. }
  destruct (kv_ok_filter none_removed kv kv' (fun _ => true) Hkv) as [A B]; try lia.
  - rewrite filter_all; auto.
  - intros x L. apply Hlive in L. destruct L; [right; lia|auto].
  - intros x Hx _. apply Hlive. right. apply key_live; auto.
  - auto.
Qed.

Lemma keepalive_ok : forall kv id b kv',
  kv_ok kv -> e_keepalive kv id = (b, kv') ->
  kv_ok kv' /\ ext none_removed kv kv' /\
  (forall x, e_lease_live kv' x = e_lease_live kv x) /\ b = e_lease_live kv id.
Proof.
  intros kv id b kv' Hkv H.
  apply keepalive_shape in H. destruct H as (Hk & Hr & Hn & Hl & Hb).
  assert (Hlive : forall x, e_lease_live kv' x = e_lease_live kv x) by (intros; apply live_ids_eq; auto).
  destruct (kv_ok_filter none_removed kv kv' (fun _ => true) Hkv) as [A B]; try lia.
  - rewrite filter_all; auto.
  - intros x. rewrite Hlive. auto.
  - intros x Hx _. rewrite Hlive. apply key_live; auto.
  - auto.
Qed.

Lemma put_new_ok : forall kv k kv',
  kv_ok kv -> 0 < k -> e_get Z.eqb kv k = None -> e_put Z.eqb kv k tt k = Some kv' ->
  kv_ok kv' /\ ext none_removed kv kv' /\ (forall x, e_lease_live kv' x = e_lease_live kv x).
Proof.
  intros kv k kv' (K0 & K1 & K2 & K3 & K4 & K5 & K6) Hk0 Hg H.
  apply put_shape in H; auto. destruct H as (Hr & Hk & Hl & Hn & Hlv).
  assert (Hlive : forall x, e_lease_live kv' x = e_lease_live kv x)
    by (intros; apply live_ids_eq; rewrite Hl; auto).
  destruct Hlv as [Hlv|Hlv]; [lia|].
  assert (Hin : forall x, In x (e_kvs kv') -> In x (e_kvs kv) \/ x = mkEkv k tt (e_rev kv + 1) (e_rev kv + 1) 1 k).
  { intros x Hx. rewrite Hk in Hx. apply in_app_or in Hx. destruct Hx as [Hx|[Hx|[]]]; auto. }
  split; [|split]; auto.
  - unfold kv_ok. split; [lia|]. split; [|split; [|split; [|split; [|split]]]].
    + intros x Hx. destruct (Hin x Hx) as [Hx'| ->]; simpl; [apply K1 in Hx'; lia|lia].
    + rewrite Hk, map_app. simpl. apply NoDup_snoc; auto.
      intro Hi. apply in_map_iff in Hi. destruct Hi as [x [Ex Hx]].
      eapply e_get_none in Hg; eauto. apply Z.eqb_eq.
    + rewrite Hk, map_app. simpl. apply NoDup_snoc; auto.
      intro Hi. apply in_map_iff in Hi. destruct Hi as [x [Ex Hx]]. apply K1 in Hx. lia.
    + intros x Hx. rewrite Hlive. destruct (Hin x Hx) as [Hx'| ->]; simpl; auto.
    + intros id Hi. rewrite Hl in Hi. rewrite Hn. auto.
    + lia.
  - unfold ext. split; [|split; [|split; [|split]]]; try lia.
    + intros id _ L. rewrite Hlive in L. auto.
    + intros x Hx. destruct (Hin x Hx) as [Hx'| ->]; simpl; auto. right; lia.
    + intros x Hx. left. rewrite Hk. apply in_or_app; auto.
Qed.

Lemma delete_ok : forall kv k n kv',
  kv_ok kv -> e_delete Z.eqb kv k = (n, kv') ->
  kv_ok kv' /\ ext (eq k) kv kv' /\ (forall x, e_lease_live kv' x = e_lease_live kv x).
Proof.
  intros kv k n kv' Hkv H.
  apply (delete_shape Z.eqb Z.eqb_eq) in H. destruct H as (Hk & Hr & Hl & Hn).
  assert (Hlive : forall x, e_lease_live kv' x = e_lease_live kv x)
    by (intros; apply live_ids_eq; rewrite Hl; auto).
  (* lia also shows that only k is filtered out *)
  destruct (kv_ok_filter (eq k) kv kv' _ Hkv Hk) as [A B]; try lia.
  - intros x. rewrite Hlive. auto.
  - intros x Hx _. rewrite Hlive. apply key_live; auto.
  - auto.
Qed.

Lemma detach_ok : forall kv id,
  kv_ok kv -> kv_ok (e_detach kv id) /\ ext (eq id) kv (e_detach kv id).
Proof.
  intros kv id Hkv. pose proof Hkv as (_ & _ & _ & _ & K4 & _).
  destruct (detach_shape kv id) as (Hk & Hr & Hl & Hn).
  apply (kv_ok_filter (eq id) kv (e_detach kv id) _ Hkv Hk); try lia.
  - intros x L. rewrite detach_live in L. apply andb_true_iff in L. tauto.
  - intros x Hx F. rewrite detach_live. destruct (K4 x Hx) as [E L]. rewrite L, <- E. exact F.
  - intros x Hx F. apply negb_false_iff in F. apply Z.eqb_eq in F. destruct (K4 x Hx). congruence.
Qed.

Lemma detach_dead : forall (kv : store) id, dead (e_detach kv id) id.
Proof. intros. rewrite detach_live, Z.eqb_refl. apply andb_false_r. Qed.

Lemma revoke_ok : forall kv id,
  kv_ok kv ->
  kv_ok (snd (e_revoke kv id)) /\ ext (eq id) kv (snd (e_revoke kv id)) /\ dead (snd (e_revoke kv id)) id.
Proof.
  intros kv id H. unfold e_revoke. destruct (e_lease_live kv id) eqn:E; simpl.
  - destruct (detach_ok kv id H). auto using detach_dead.
  - auto using ext_refl.
Qed.

Lemma ext_trans_dead : forall kv kv1 kv2,
  kv_ok kv ->
  ext (fun k => dead kv1 k) kv kv1 -> ext (fun k => dead kv2 k) kv1 kv2 ->
  ext (fun k => dead kv2 k) kv kv2.
Proof.
  intros kv kv1 kv2 Hok (A1 & B1 & C1 & D1 & E1) (A2 & B2 & C2 & D2 & E2).
  unfold ext. split; [|split; [|split; [|split]]]; try lia.
  - intros id Hid L. apply A1; auto. apply A2; auto. lia.
  - intros x Hx. destruct (D2 x Hx) as [H|H]; [|right; lia].
    destruct (D1 x H); auto.
  - intros x Hx. destruct (E1 x Hx) as [H|H]; [apply E2; auto|].
    right. simpl in *. destruct (e_lease_live kv2 (ek_key x)) eqn:L; auto.
    apply A2 in L; [congruence|].
    pose proof (live_lt_next kv _ Hok (key_live kv x Hok Hx)). lia.
Qed.

Lemma detaches_ok : forall ids kv,
  kv_ok kv ->
  kv_ok (fold_left e_detach ids kv) /\
  ext (fun k => dead (fold_left e_detach ids kv) k) kv (fold_left e_detach ids kv).
Proof.
  induction ids as [|id t IH]; intros kv H; simpl.
  - split; auto. apply ext_refl.
  - destruct (detach_ok kv id H) as [A B].
    destruct (IH _ A) as [A' B']. split; auto.
    eapply ext_trans_dead; eauto.
    eapply ext_weaken; [|exact B]. intros k <-. apply detach_dead.
Qed.

Lemma tick_ok : forall kv d,
  kv_ok kv ->
  kv_ok (e_tick kv d) /\ ext (fun k => dead (e_tick kv d) k) kv (e_tick kv d).
Proof.
  intros kv d H. unfold e_tick.
  set (s1 := mkEtcd (e_rev kv) (e_kvs kv) (e_leases kv) (e_next_lease kv) (e_now kv + d)).
  exact (detaches_ok (e_expired_ids s1) s1 H).
Qed.

(* the store after tryAcquire's txn  If(CreateRevision(L) = 0) Then(Put(L, lease L)) *)
Inductive txn_put (kv : store) (L : Z) : store -> Prop :=
| txn_present x : e_get Z.eqb kv L = Some x -> txn_put kv L kv
| txn_absent kv' : e_get Z.eqb kv L = None -> e_put Z.eqb kv L tt L = Some kv' -> txn_put kv L kv'.

(* [my] of EtcdLock.step is the create revision of the caller's key, which is in the store after the txn *)
Lemma put_if_absent_spec : forall (kv : store) L,
  match e_put_if_absent Z.eqb kv L tt L with
  | Some (succ, kv') =>
      txn_put kv L kv' /\
      exists x, In x (e_kvs kv') /\ ek_key x = L /\
                (if succ then e_rev kv' else e_create_rev Z.eqb kv' L) = ek_create x
  | None => e_get Z.eqb kv L = None /\ e_put Z.eqb kv L tt L = None
  end.
Proof.
  intros kv L. unfold e_put_if_absent, e_create_rev.
  destruct (e_get Z.eqb kv L) as [x|] eqn:Hg.
  - split; [eapply txn_present; eauto|]. exists x. rewrite Hg.
    apply (e_get_some Z.eqb Z.eqb_eq) in Hg. tauto.
  - destruct (e_put Z.eqb kv L tt L) as [kv'|] eqn:Hp; [|auto].
    split; [apply txn_absent; auto|].
    destruct (put_shape _ _ _ _ _ _ Hg Hp) as (Hr & Hk & _).
    eexists. rewrite Hk, Hr. split; [apply in_or_app; right; left; reflexivity|]. split; reflexivity.
Qed.

(* the owner test of tryAcquire: x has the least create revision under the prefix *)
Lemma first_create_test : forall (kv : store) x,
  In x (e_kvs kv) ->
  if match e_first_create kv all_keys with Some m => Z.eqb (ek_create m) (ek_create x) | None => true end
  then forall y, In y (e_kvs kv) -> ek_create x <= ek_create y
  else exists y, In y (e_kvs kv) /\ ek_create y < ek_create x.
Proof.
  intros kv x Hx. unfold all_keys. rewrite first_create_all.
  destruct (min_create (e_kvs kv)) as [m|] eqn:Hm.
  - destruct (min_create_spec _ _ Hm) as [Hin Hle].
    destruct (Z.eqb_spec (ek_create m) (ek_create x)) as [E|E].
    + intros y Hy. rewrite <- E. auto.
    + exists m. split; auto. specialize (Hle x Hx). lia.
  - apply min_create_none in Hm. rewrite Hm in Hx. destruct Hx.
Qed.

(* [cstep i kv c l kv' c']: contender i, in state c over the store kv, takes step l and
   leaves the store kv' and itself in state c'.  One constructor per outcome. *)
Inductive cstep (i : nat) (kv : store) (c : cont) : label -> store -> cont -> Prop :=
| cs_call o (Hpc : c_pc c = Idle) : cstep i kv c (LCall i o) kv (set_pc c (Called o))
| cs_acq_front o kv' x
    (Hpc : c_pc c = Called o) (Ht : txn_put kv (c_lease c) kv')
    (Hx : In x (e_kvs kv')) (Hk : ek_key x = c_lease c)
    (Hmin : forall y, In y (e_kvs kv') -> ek_create x <= ek_create y) :
    cstep i kv c (LAcq i) kv' (acquire c (ek_create x))
| cs_acq_queue o kv' x y
    (Hpc : c_pc c = Called o) (Ht : txn_put kv (c_lease c) kv')
    (Hx : In x (e_kvs kv')) (Hk : ek_key x = c_lease c)
    (Hy : In y (e_kvs kv')) (Hlt : ek_create y < ek_create x) :
    cstep i kv c (LAcq i) kv'
          (set_rev (set_pc c (match o with OpLock => Waiting | OpTry => TryDel end)) (ek_create x))
| cs_acq_rejected o
    (Hpc : c_pc c = Called o) (Hput : e_put Z.eqb kv (c_lease c) tt (c_lease c) = None) :
    cstep i kv c (LAcq i) kv (set_pc c (Failed ErrLeaseNotFound))
| cs_poll_blocked (Hpc : c_pc c = Waiting) : cstep i kv c (LPoll i) kv c
| cs_poll_through
    (Hpc : c_pc c = Waiting) (Hfree : forall x, In x (e_kvs kv) -> c_rev c <= ek_create x) :
    cstep i kv c (LPoll i) kv (set_pc c Verify)
| cs_verify_gone
    (Hpc : c_pc c = Verify) (Hg : e_get Z.eqb kv (c_lease c) = None) :
    cstep i kv c (LVerify i) kv (set_pc c (Failed ErrSessionExpired))
| cs_verify_ok x
    (Hpc : c_pc c = Verify) (Hg : e_get Z.eqb kv (c_lease c) = Some x) :
    cstep i kv c (LVerify i) kv (acquire c (c_rev c))
| cs_timeout (Hpc : c_pc c = Waiting \/ c_pc c = Verify) : cstep i kv c (LTimeout i) kv (set_pc c TimingOut)
| cs_delown e
    (Hpc : c_pc c = TimingOut /\ e = ErrDeadline \/ c_pc c = TryDel /\ e = ErrLocked) :
    cstep i kv c (LDelOwn i) (snd (e_delete Z.eqb kv (c_lease c))) (set_rev (set_pc c (Failed e)) (-1))
| cs_exit e (Hpc : c_pc c = Held \/ c_pc c = Failed e) :          (* from Held, e is any *)
    cstep i kv c (LExit i) kv (mkCont Unlocking (c_lease c) (c_rev c) false (c_sdone c) (c_w c) (c_ctx c))
| cs_unlock (Hpc : c_pc c = Unlocking) :
    cstep i kv c (LUnlockTxn i) (snd (e_delete_if_create Z.eqb kv (c_lease c) (c_rev c))) (set_pc c Closing)
| cs_close (Hpc : c_pc c = Closing) :
    cstep i kv c (LClose i) (snd (e_revoke kv (c_lease c)))
          (mkCont Done (c_lease c) (c_rev c) (c_locked c) true (c_w c) (c_ctx c))
| cs_keepalive kv'
    (Hsd : c_sdone c = false) (Hka : e_keepalive kv (c_lease c) = (true, kv')) :
    cstep i kv c (LKeepAlive i) kv' c
| cs_keepalive_gone kv'
    (Hsd : c_sdone c = false) (Hka : e_keepalive kv (c_lease c) = (false, kv')) :
    cstep i kv c (LKeepAlive i) kv (mkCont (c_pc c) (c_lease c) (c_rev c) (c_locked c) true (c_w c) (c_ctx c))
| cs_watch_locked
    (Hw : c_w c = WWatching) (Hsd : c_sdone c = true) (Hlk : c_locked c = true) :
    cstep i kv c (LWatch i) kv (mkCont (c_pc c) (c_lease c) (c_rev c) true true WCancelling CtxSessionDone)
| cs_watch_unlocked
    (Hw : c_w c = WWatching) (Hsd : c_sdone c = true) (Hlk : c_locked c = false) :
    cstep i kv c (LWatch i) kv (mkCont (c_pc c) (c_lease c) (c_rev c) false true WParked (c_ctx c))
| cs_cancel (Hw : c_w c = WCancelling) :
    cstep i kv c (LCancel i) kv (mkCont (c_pc c) (c_lease c) (c_rev c) (c_locked c) (c_sdone c) WExit (c_ctx c))
| cs_acqlost o kv'
    (Hpc : c_pc c = Called o) (Ht : txn_put kv (c_lease c) kv') :
    cstep i kv c (LAcqLost i) kv' (set_pc c (Failed ErrDeadline))
| cs_acqlost_rejected o
    (Hpc : c_pc c = Called o) (Hput : e_put Z.eqb kv (c_lease c) tt (c_lease c) = None) :
    cstep i kv c (LAcqLost i) kv (set_pc c (Failed ErrLeaseNotFound))
| cs_abort o (Hpc : c_pc c = Called o) : cstep i kv c (LAbort i) kv (set_pc c (Failed ErrDeadline)).

Inductive sstep (s : sys) : label -> sys -> Prop :=
| ss_new ttl id kv' (Hg : e_grant (s_kv s) ttl = (id, kv')) :
    sstep s (LNew ttl) (mkSys kv' (s_cs s ++ [mkCont Idle id (-1) false false WNone CtxLive]))
| ss_revoke lid : sstep s (LRevoke lid) (mkSys (snd (e_revoke (s_kv s) lid)) (s_cs s))
| ss_tick d (Hd : 0 <= d) : sstep s (LTick d) (mkSys (e_tick (s_kv s) d) (s_cs s))
| ss_cont i c l kv' c' (Hi : nth_error (s_cs s) i = Some c) (Hst : cstep i (s_kv s) c l kv' c') :
    sstep s l (mkSys kv' (upd i c' (s_cs s))).

(* [H : with_c s i kv' c' = Some s']: the goal is the step of contender i to kv', c' *)
Local Ltac step_of H Hc := unfold with_c in H; injection H as <-; eapply ss_cont; [exact Hc|].

Lemma step_sstep : forall s l s', step s l = Some s' -> sstep s l s'.
Proof.
  intros s l s' H.
  destruct l as [ttl|i o|i|i|i|i|i|i|i|i|lid|d|i|i|i|i|i]; unfold step in H; cbv zeta in H;
    try (destruct (nth_error (s_cs s) i) as [c|] eqn:Hc; [|discriminate]).
  - destruct (e_grant (s_kv s) ttl) as [id kv'] eqn:Hg. injection H as <-. apply ss_new; auto.
  - destruct (c_pc c) eqn:Hpc; try discriminate. step_of H Hc. apply cs_call; auto.
  - destruct (c_pc c) eqn:Hpc; try discriminate. unfold step_acq in H; cbv zeta in H.
    pose proof (put_if_absent_spec (s_kv s) (c_lease c)) as Ht.
    destruct (e_put_if_absent Z.eqb (s_kv s) (c_lease c) tt (c_lease c)) as [[succ kv']|].
    + destruct Ht as (Ht & x & Hx & Hk & Hmy). rewrite Hmy in H.
      pose proof (first_create_test kv' x Hx) as Hf.
      match type of Hf with if ?b then _ else _ => destruct b end.
      * step_of H Hc. eapply cs_acq_front; eauto.
      * destruct Hf as (y & Hy & Hlt). step_of H Hc. eapply cs_acq_queue; eauto.
    + step_of H Hc. eapply cs_acq_rejected; [eauto|tauto].
  - destruct (c_pc c) eqn:Hpc; try discriminate.
    destruct (e_last_create_upto (s_kv s) all_keys (c_rev c - 1)) eqn:Hl.
    + injection H as <-. pose proof (ss_cont s i c _ _ _ Hc (cs_poll_blocked i _ c Hpc)) as X.
      rewrite upd_nth_same in X by exact Hc. destruct s; exact X.
    + rewrite last_create_upto_none in Hl. step_of H Hc. apply cs_poll_through; auto.
      intros x Hx. specialize (Hl x Hx eq_refl). lia.
  - destruct (c_pc c) eqn:Hpc; try discriminate.
    destruct (e_get Z.eqb (s_kv s) (c_lease c)) eqn:Hg; step_of H Hc;
      [eapply cs_verify_ok|apply cs_verify_gone]; eauto.
  - destruct (c_pc c) eqn:Hpc; try discriminate; step_of H Hc; apply cs_timeout; auto.
  - destruct (c_pc c) eqn:Hpc; try discriminate; step_of H Hc; apply cs_delown; auto.
  - destruct (c_pc c) eqn:Hpc; try discriminate; step_of H Hc;
      [apply (cs_exit _ _ _ ErrLocked)|apply (cs_exit _ _ _ e)]; auto.
  - destruct (c_pc c) eqn:Hpc; try discriminate. step_of H Hc. apply cs_unlock; auto.
  - destruct (c_pc c) eqn:Hpc; try discriminate. step_of H Hc. apply cs_close; auto.
  - injection H as <-. apply ss_revoke.
  - destruct (Z.ltb_spec d 0); [discriminate|]. injection H as <-. apply ss_tick; auto.
  - destruct (c_sdone c) eqn:Hsd; [discriminate|].
    destruct (e_keepalive (s_kv s) (c_lease c)) as [[|] kv'] eqn:Hka; step_of H Hc;
      [eapply cs_keepalive|eapply cs_keepalive_gone]; eauto.
  - destruct (c_w c) eqn:Hw; try discriminate. destruct (c_sdone c) eqn:Hsd; [|discriminate].
    destruct (c_locked c) eqn:Hlk; step_of H Hc; [apply cs_watch_locked|apply cs_watch_unlocked]; auto.
  - destruct (c_pc c) eqn:Hpc; try discriminate.
    pose proof (put_if_absent_spec (s_kv s) (c_lease c)) as Ht.
    destruct (e_put_if_absent Z.eqb (s_kv s) (c_lease c) tt (c_lease c)) as [[succ kv']|]; step_of H Hc;
      [eapply cs_acqlost|eapply cs_acqlost_rejected]; eauto; tauto.
  - destruct (c_w c) eqn:Hw; try discriminate. step_of H Hc. apply cs_cancel; auto.
  - destruct (c_pc c) eqn:Hpc; try discriminate. step_of H Hc. eapply cs_abort; eauto.
Qed.

Lemma sstep_at : forall s l s' i c,
  sstep s l s' -> nth_error (s_cs s) i = Some c ->
  exists c', nth_error (s_cs s') i = Some c' /\ (c' = c \/ cstep i (s_kv s) c l (s_kv s') c').
Proof.
  intros s l s' i c H Hc. destruct H as [ttl id kv' Hg|lid|d Hd|j c0 l kv' c' Hj Hst]; simpl; eauto.
  - exists c. rewrite nth_error_app1 by (apply nth_error_Some; congruence). auto.
  - destruct (Nat.eq_dec j i) as [->|Hne].
    + exists c'. erewrite nth_error_upd_hit by eassumption.
      replace c with c0 by congruence. auto.
    + exists c. rewrite nth_error_upd_other by exact Hne. auto.
Qed.

(* what a contender's step does to the store: nothing, the tryAcquire txn, the deletion
   of its own key, or a keepalive; LClose revokes its own lease *)
Inductive kv_eff (L : Z) (kv : store) : store -> Prop :=
| eff_none : kv_eff L kv kv
| eff_put kv' : txn_put kv L kv' -> kv_eff L kv kv'
| eff_delete : kv_eff L kv (snd (e_delete Z.eqb kv L))
| eff_keepalive b kv' : e_keepalive kv L = (b, kv') -> kv_eff L kv kv'.

Lemma cstep_eff : forall i kv c l kv' c', cstep i kv c l kv' c' ->
  c_lease c' = c_lease c /\
  (kv_eff (c_lease c) kv kv' \/ kv' = snd (e_revoke kv (c_lease c)) /\ c_pc c' = Done).
Proof.
  destruct 1; (split; [reflexivity|]); try (left; constructor; assumption).
  - left. unfold e_delete_if_create. destruct (Z.eqb _ _); simpl; [apply eff_delete|apply eff_none].
  - right. auto.
  - left. eapply eff_keepalive; eauto.
Qed.

Lemma txn_put_ok : forall kv L kv', kv_ok kv -> 0 < L -> txn_put kv L kv' ->
  kv_ok kv' /\ ext none_removed kv kv' /\ (forall x, e_lease_live kv' x = e_lease_live kv x).
Proof.
  intros kv L kv' Hkv HL [x Hg|kv1 Hg Hp]; [auto using ext_refl|].
  exact (put_new_ok _ _ _ Hkv HL Hg Hp).
Qed.

Lemma kv_eff_ok : forall L kv kv', kv_ok kv -> 0 < L -> kv_eff L kv kv' ->
  kv_ok kv' /\ ext (eq L) kv kv' /\ (forall x, e_lease_live kv' x = e_lease_live kv x).
Proof.
  intros L kv kv' Hkv HL [ |kv1 Ht| |b kv1 Hka].
  - auto using ext_refl.
  - destruct (txn_put_ok _ _ _ Hkv HL Ht) as (A & B & C). auto using ext_none.
  - destruct (e_delete Z.eqb kv L) as [n kv3] eqn:Hd.
    exact (delete_ok _ _ _ _ Hkv Hd).
  - destruct (keepalive_ok _ _ _ _ Hkv Hka) as (A & B & C & _). auto using ext_none.
Qed.

Lemma cstep_store_ok : forall i kv c l kv' c',
  kv_ok kv -> 0 < c_lease c -> cstep i kv c l kv' c' -> kv_ok kv' /\ ext (eq (c_lease c)) kv kv'.
Proof.
  intros i kv c l kv' c' Hkv HL Hst. destruct (cstep_eff _ _ _ _ _ _ Hst) as [_ [Heff|[-> _]]].
  - apply kv_eff_ok in Heff; tauto.
  - destruct (revoke_ok kv (c_lease c) Hkv) as (A & B & _). auto.
Qed.

Definition queued (p : pc) : Prop := match p with Waiting | Verify | Held => True | _ => False end.
Definition front (p : pc) : Prop := match p with Verify | Held => True | _ => False end.

(* while its lease is live: a queued contender's key exists with create revision
   myRev; a contender at the front (verifying or holding) has the least create
   revision under the prefix *)
Definition cont_ok (kv : store) (c : cont) : Prop :=
  live kv (c_lease c) ->
    (queued (c_pc c) -> exists x, In x (e_kvs kv) /\ ek_key x = c_lease c /\ ek_create x = c_rev c) /\
    (front (c_pc c) -> forall x, In x (e_kvs kv) -> ek_key x <> c_lease c -> c_rev c < ek_create x).

(* the wrapper: flag, watcher, returned context, session *)
Definition wrap_ok (kv : store) (c : cont) : Prop :=
  (c_pc c = Held -> c_locked c = true /\
     ((c_w c = WWatching /\ c_ctx c = CtxLive) \/
      ((c_w c = WCancelling \/ c_w c = WExit) /\ c_ctx c = CtxSessionDone))) /\
  (c_ctx c = CtxSessionDone -> c_sdone c = true) /\
  (c_sdone c = true -> dead kv (c_lease c)) /\
  c_ctx c <> CtxOther.

Definition sys_ok (s : sys) : Prop :=
  kv_ok (s_kv s) /\ NoDup (map c_lease (s_cs s)) /\
  (forall c, In c (s_cs s) -> 0 < c_lease c < e_next_lease (s_kv s)) /\
  (forall c, In c (s_cs s) -> cont_ok (s_kv s) c /\ wrap_ok (s_kv s) c).

Lemma front_queued : forall p, front p -> queued p.
Proof. destruct p; simpl; auto. Qed.

Lemma cont_ok_frame : forall R kv kv' c,
  kv_ok kv -> ext R kv kv' -> c_lease c < e_next_lease kv ->
  (R (c_lease c) -> dead kv' (c_lease c)) ->
  cont_ok kv c -> cont_ok kv' c.
Proof.
  intros R kv kv' c Hok (A & B & C & D & E) Hlt HR Hc. unfold cont_ok. intros L'.
  assert (L : live kv (c_lease c)) by (apply A; auto).
  destruct (Hc L) as [H1 H2]. split.
  - intros Q. destruct (H1 Q) as [x [Hx [Ek Ec]]]. destruct (E x Hx) as [Hx'|HRx].
    + exists x; auto.
    + rewrite Ek in HRx. apply HR in HRx. congruence.
  - intros F x Hx Hne. destruct (D x Hx) as [Hx'|Hnew]; [apply H2; auto|].
    destruct (H1 (front_queued _ F)) as [x0 [Hx0 [_ Ec]]].
    destruct Hok as (_ & K1 & _). apply K1 in Hx0. lia.
Qed.

Lemma wrap_ok_frame : forall R kv kv' c,
  ext R kv kv' -> c_lease c < e_next_lease kv -> wrap_ok kv c -> wrap_ok kv' c.
Proof.
  intros R kv kv' c (A & _) Hlt (W1 & W2 & W3 & W4).
  unfold wrap_ok. split; [exact W1|]. split; [exact W2|]. split; [|exact W4].
  intros Hs. apply W3 in Hs. destruct (e_lease_live kv' (c_lease c)) eqn:L; auto.
  apply A in L; auto. congruence.
Qed.

Lemma cont_ok_unqueued : forall kv c, ~ queued (c_pc c) -> cont_ok kv c.
Proof. intros kv c H _. split; intros Q; [|apply front_queued in Q]; contradiction. Qed.

Lemma cont_ok_same : forall kv c c',
  c_pc c' = c_pc c -> c_lease c' = c_lease c -> c_rev c' = c_rev c -> cont_ok kv c -> cont_ok kv c'.
Proof. unfold cont_ok. intros kv c c' -> -> ->. auto. Qed.

Lemma wrap_ok_same : forall kv c c',
  c_pc c' <> Held -> c_lease c' = c_lease c -> c_sdone c' = c_sdone c -> c_ctx c' = c_ctx c ->
  wrap_ok kv c -> wrap_ok kv c'.
Proof.
  intros kv c c' Hp El Es Ec (W1 & W2 & W3 & W4). unfold wrap_ok. rewrite El, Es, Ec.
  split; [intros; contradiction|]. split; [exact W2|]. split; [exact W3|exact W4].
Qed.

Lemma wrap_ok_acquire : forall kv c r, wrap_ok kv c -> wrap_ok kv (acquire c r).
Proof.
  intros kv c r (W1 & W2 & W3 & W4). unfold wrap_ok, acquire; simpl.
  split; [intros _; split; auto|]. split; [discriminate|]. split; [exact W3|discriminate].
Qed.

Lemma create_lt : forall kv x y,
  kv_ok kv -> In x (e_kvs kv) -> In y (e_kvs kv) ->
  ek_create x <= ek_create y -> ek_key y <> ek_key x -> ek_create x < ek_create y.
Proof.
  intros kv x y (_ & _ & _ & K3 & _) Hx Hy Hle Hne.
  assert (ek_create x <> ek_create y); [|lia].
  intro E. apply Hne. f_equal. symmetry. eapply (NoDup_map_inj ek_create); eauto.
Qed.

Lemma cstep_cont_ok : forall i kv c l kv' c',
  kv_ok kv -> kv_ok kv' -> c_lease c < e_next_lease kv -> cont_ok kv c ->
  cstep i kv c l kv' c' -> cont_ok kv' c'.
Proof.
  intros i kv c l kv' c' Hkv Hkv' Hnext Cc Hst.
  destruct Hst;
    try (apply cont_ok_unqueued; simpl; tauto);      (* the outcomes that leave the queue *)
    try (apply (cont_ok_same kv c); auto; fail).     (* pc, lease and myRev stay *)
  - (* acquired at once: the own key is the least *)
    intros _. simpl. split; intros _; [exists x; auto|].
    intros y Hy Hne. apply (create_lt kv'); auto. congruence.
  - destruct o; [|apply cont_ok_unqueued; simpl; tauto].
    intros _. simpl. split; [intros _; exists x; auto|intros []].
  - (* the poll found no key below myRev *)
    intros L. destruct (Cc L) as [[x0 (Hx0 & Hk0 & Hr0)] _]; [rewrite Hpc; exact I|].
    simpl. split; intros _; [exists x0; auto|].
    intros y Hy Hne. rewrite <- Hr0. apply (create_lt kv); auto; [rewrite Hr0; auto|congruence].
  - intros L. destruct (Cc L) as [Q F]. rewrite Hpc in Q, F. simpl. split; intros _; [apply Q|apply F]; exact I.
  - destruct (keepalive_ok _ _ _ _ Hkv Hka) as (_ & Hext & _).
    apply (cont_ok_frame none_removed kv kv'); auto. intros [].
Qed.

Lemma cstep_wrap_ok : forall R i kv c l kv' c',
  kv_ok kv -> ext R kv kv' -> c_lease c < e_next_lease kv -> wrap_ok kv c ->
  cstep i kv c l kv' c' -> wrap_ok kv' c'.
Proof.
  intros R i kv c l kv' c' Hkv Hext Hnext Wc Hst.
  pose proof (wrap_ok_frame _ _ _ _ Hext Hnext Wc) as W. clear Wc.
  pose proof W as (W1 & W2 & W3 & W4).
  destruct Hst; try exact W;
    (* the outcomes that do not enter Held and leave session and context alone *)
    try (apply (wrap_ok_same _ c); [simpl; congruence|reflexivity..|exact W]; fail).
  - apply wrap_ok_acquire; exact W.
  - apply (wrap_ok_same kv' c); [destruct o; simpl; congruence|reflexivity..|exact W].
  - apply wrap_ok_acquire; exact W.
  - (* LClose: the session is done and its lease revoked *)
    destruct (revoke_ok kv (c_lease c) Hkv) as (_ & _ & Hd).
    unfold wrap_ok; simpl. split; [discriminate|]. auto.
  - (* the keepalive loop finds the lease gone *)
    destruct (keepalive_shape _ _ _ _ Hka) as (_ & _ & _ & _ & Hb).
    unfold wrap_ok; simpl. auto.
  - unfold wrap_ok; simpl.
    split; [auto|]. split; [auto|]. split; [auto|discriminate].
  - unfold wrap_ok; simpl.
    split; [|auto]. intros Hh. destruct (W1 Hh) as [Hl _]. congruence.
  - unfold wrap_ok; simpl.
    split; [|auto]. intros Hh. destruct (W1 Hh) as [Hl [[Hx _]|[_ Hc']]]; [congruence|auto].
Qed.

Lemma sys_ok_upd : forall s i c c' kv',
  sys_ok s -> nth_error (s_cs s) i = Some c -> c_lease c' = c_lease c ->
  kv_ok kv' -> ext (eq (c_lease c)) (s_kv s) kv' ->
  cont_ok kv' c' -> wrap_ok kv' c' ->
  sys_ok (mkSys kv' (upd i c' (s_cs s))).
Proof.
  intros s i c c' kv' (Hkv & Hnd & Hrange & Hcs) Hi El Hkv' Hext Hc' Hw'.
  unfold sys_ok; simpl. split; auto. split; [|split].
  - erewrite map_upd_same; eauto.
  - intros y Hy. apply In_upd in Hy. destruct Hext as (_ & B & _).
    destruct Hy as [->|Hy].
    + rewrite El. apply nth_error_In in Hi. apply Hrange in Hi. lia.
    + apply Hrange in Hy. lia.
  - intros y Hy. apply In_nth_error in Hy. destruct Hy as [j Hj].
    apply nth_error_upd in Hj. destruct Hj as [[_ ->]|[Hne Hj]]; auto.
    assert (Hin : In y (s_cs s)) by (eapply nth_error_In; eauto).
    destruct (Hcs y Hin) as [Cy Wy]. destruct (Hrange y Hin) as [_ Hlt].
    split.
    + apply (cont_ok_frame _ (s_kv s) kv' y Hkv Hext Hlt); [|exact Cy].
      intros Ry. exfalso. apply Hne. eapply NoDup_map_nth; eauto.
    + eapply wrap_ok_frame; eauto.
Qed.

Lemma sys_ok_env : forall R s kv',
  sys_ok s -> kv_ok kv' -> ext R (s_kv s) kv' -> (forall k, R k -> dead kv' k) ->
  sys_ok (mkSys kv' (s_cs s)).
Proof.
  intros R s kv' (Hkv & Hnd & Hrange & Hcs) Hkv' Hext HR.
  unfold sys_ok; simpl. split; auto. split; auto. split.
  - intros y Hy. apply Hrange in Hy. destruct Hext as (_ & B & _). lia.
  - intros y Hy. destruct (Hcs y Hy) as [Cy Wy]. destruct (Hrange y Hy) as [_ Hlt]. split.
    + apply (cont_ok_frame R (s_kv s) kv' y Hkv Hext Hlt); [|exact Cy]. intros Ry. auto.
    + eapply wrap_ok_frame; eauto.
Qed.

Lemma sys_init_ok : sys_ok sys_init.
Proof.
  unfold sys_ok, sys_init, kv_ok; simpl. repeat split; try lia; try constructor; intros; tauto.
Qed.

Lemma step_ok : forall s l s', sys_ok s -> step s l = Some s' -> sys_ok s'.
Proof.
  intros s l s' Hok H. apply step_sstep in H.
  pose proof Hok as (Hkv & Hnd & Hrange & Hcs). destruct H.
  - (* LNew: a fresh lease, an idle contender *)
    destruct (grant_ok _ _ _ _ Hkv Hg) as (Hkv' & Hext & Hid & Hnext & _).
    assert (K6 : 0 < e_next_lease (s_kv s)) by (destruct Hkv as (_&_&_&_&_&_&K); exact K).
    unfold sys_ok; simpl. split; auto. split; [|split].
    + rewrite map_app. simpl. apply NoDup_snoc; auto.
      intro Hi. apply in_map_iff in Hi. destruct Hi as [y [Ey Hy]]. apply Hrange in Hy. lia.
    + intros y Hy. apply in_app_or in Hy. destruct Hy as [Hy|[<-|[]]]; simpl; [apply Hrange in Hy; lia|lia].
    + destruct (sys_ok_env none_removed s kv' Hok Hkv' Hext) as (_ & _ & _ & Hcs'); [intros k []|].
      intros y Hy. apply in_app_or in Hy. destruct Hy as [Hy|[<-|[]]]; [exact (Hcs' y Hy)|].
      split; [apply cont_ok_unqueued; simpl; tauto|].
      unfold wrap_ok; simpl. split; [discriminate|]. split; [discriminate|]. split; discriminate.
  - destruct (revoke_ok (s_kv s) lid Hkv) as (Hkv' & Hext & Hdead).
    apply (sys_ok_env (eq lid)); auto. intros k <-; auto.
  - destruct (tick_ok (s_kv s) d Hkv) as [Hkv' Hext]. eapply sys_ok_env; eauto.
  - assert (Hin : In c (s_cs s)) by (eapply nth_error_In; eauto).
    destruct (Hcs c Hin) as [Cc Wc]. destruct (Hrange c Hin) as [Hpos Hlt].
    destruct (cstep_store_ok _ _ _ _ _ _ Hkv Hpos Hst) as [Hkv' Hext].
    apply (sys_ok_upd s i c); auto.
    + apply (cstep_eff _ _ _ _ _ _ Hst).
    + apply (cstep_cont_ok i (s_kv s) c l kv' c'); auto.
    + apply (cstep_wrap_ok _ i (s_kv s) c l kv' c' Hkv Hext); auto.
Qed.

Theorem reachable_ok : forall s, reachable step sys_init s -> sys_ok s.
Proof. apply invariant_reachable; [exact sys_init_ok|]. intros; eapply step_ok; eauto. Qed.

Lemma holds_spec : forall s c, holds s c = true <-> c_pc c = Held /\ live (s_kv s) (c_lease c).
Proof.
  intros s c. unfold holds, lease_live. rewrite andb_true_iff. split; intros [A B]; split; auto.
  - destruct (c_pc c); simpl in A; try discriminate; auto.
  - rewrite A. reflexivity.
Qed.

Lemma holder_key : forall s c,
  sys_ok s -> In c (s_cs s) -> c_pc c = Held -> live (s_kv s) (c_lease c) ->
  exists x, In x (e_kvs (s_kv s)) /\ ek_key x = c_lease c /\ ek_create x = c_rev c /\
            forall y, In y (e_kvs (s_kv s)) -> ek_key y <> c_lease c -> c_rev c < ek_create y.
Proof.
  intros s c (_ & _ & _ & Hcs) Hc Hpc L. destruct (Hcs c Hc) as [Cc _]. destruct (Cc L) as [Q F].
  rewrite Hpc in Q, F. destruct (Q I) as (x & Hx & Hk & Hr). exists x. auto using (F I).
Qed.

(* C18, mutual exclusion: in every reachable state (any number of contenders, any
   schedule, including lease revocations and expiries) at most one contender is
   in its critical section with a live lease *)
Theorem etcd_mutex : forall s i j a b,
  reachable step sys_init s ->
  nth_error (s_cs s) i = Some a -> nth_error (s_cs s) j = Some b ->
  holds s a = true -> holds s b = true -> i = j.
Proof.
  intros s i j a b Hr Ha Hb Pa Pb.
  apply reachable_ok in Hr. pose proof Hr as (_ & Hnd & _).
  apply holds_spec in Pa. apply holds_spec in Pb. destruct Pa as [Pa La]. destruct Pb as [Pb Lb].
  destruct (holder_key s a Hr (nth_error_In _ _ Ha) Pa La) as (xa & Hxa & Eka & Eca & Fa).
  destruct (holder_key s b Hr (nth_error_In _ _ Hb) Pb Lb) as (xb & Hxb & Ekb & Ecb & Fb).
  destruct (Z.eq_dec (c_lease a) (c_lease b)) as [E|Hne].
  - eapply NoDup_map_nth; eauto.
  - exfalso. specialize (Fa xb Hxb). specialize (Fb xa Hxa). lia.
Qed.

Theorem etcd_holders_le_one : forall s, reachable step sys_init s -> (holders s <= 1)%nat.
Proof.
  intros s Hr. unfold holders. apply countb_le_one.
  intros i j a b. exact (etcd_mutex s i j a b Hr).
Qed.

(* with leases that do not expire: at most one contender in its critical section *)
Corollary etcd_mutex_no_expiry : forall s i j a b,
  reachable step sys_init s ->
  (forall c, In c (s_cs s) -> c_pc c = Held -> live (s_kv s) (c_lease c)) ->
  nth_error (s_cs s) i = Some a -> nth_error (s_cs s) j = Some b ->
  c_pc a = Held -> c_pc b = Held -> i = j.
Proof.
  intros s i j a b Hr Hlive Ha Hb Pa Pb.
  apply (etcd_mutex s i j a b Hr Ha Hb); apply holds_spec; split; auto; apply Hlive; auto;
    eapply nth_error_In; eauto.
Qed.

(* a try-lock step taken while another contender holds fails in that step: the
   caller is never made to wait (it goes to the clean-up delete, whose only
   outcome is the ErrLocked failure) *)
Theorem etcd_trylock_fails : forall s s' i j c h,
  reachable step sys_init s ->
  nth_error (s_cs s) j = Some h -> holds s h = true -> i <> j ->
  nth_error (s_cs s) i = Some c -> c_pc c = Called OpTry ->
  step s (LAcq i) = Some s' ->
  exists c', nth_error (s_cs s') i = Some c' /\
             (c_pc c' = TryDel \/ c_pc c' = Failed ErrLeaseNotFound).
Proof.
  intros s s' i j c h Hr Hj Hh Hij Hi Hpc Hstep.
  apply reachable_ok in Hr. pose proof Hr as (Hkv & Hnd & Hrange & _).
  apply holds_spec in Hh. destruct Hh as [Ph Lh].
  destruct (holder_key s h Hr (nth_error_In _ _ Hj) Ph Lh) as (xh & Hxh & Ekh & Ech & Hfront).
  assert (Hlne : c_lease c <> c_lease h) by (intro E; apply Hij; eapply NoDup_map_nth; eauto).
  apply step_sstep in Hstep. inversion Hstep as [ | | |i0 c0 l0 kv' c' Hi0 Hst]; subst.
  inversion Hst; subst; rewrite Hi in Hi0; injection Hi0 as <-; simpl;
    erewrite nth_error_upd_hit by eassumption; eexists; (split; [reflexivity|]).
  - (* the caller cannot be first: the holder's key is older *)
    exfalso. destruct (Hrange c (nth_error_In _ _ Hi)) as [Hpos _].
    destruct (txn_put_ok _ _ _ Hkv Hpos Ht) as (_ & (_ & _ & _ & D & E) & _).
    destruct (E xh Hxh) as [Hxh'|[]]. specialize (Hmin xh Hxh').
    destruct (D x Hx) as [Hx'|Hnew].
    + specialize (Hfront x Hx'). lia.
    + destruct Hkv as (_ & K1 & _). apply K1 in Hxh. lia.
  - left. replace o with OpTry by congruence. reflexivity.
  - right. reflexivity.
Qed.

(* ... and the clean-up step is always enabled and ends in the ErrLocked failure *)
Theorem etcd_trydel_fails : forall s i c,
  nth_error (s_cs s) i = Some c -> c_pc c = TryDel ->
  exists s' c', step s (LDelOwn i) = Some s' /\ nth_error (s_cs s') i = Some c' /\ c_pc c' = Failed ErrLocked.
Proof.
  intros s i c Hi Hpc. simpl. rewrite Hi, Hpc. unfold with_c.
  eexists. eexists. split; [reflexivity|]. simpl. split; [eapply nth_error_upd_hit, Hi|reflexivity].
Qed.

Definition nobody_ahead (s : sys) (c : cont) : Prop :=
  forall x, In x (e_kvs (s_kv s)) -> c_rev c <= ek_create x.

(* a waiter with nobody ahead of it acquires in its next two own steps
   (the waitDeletes poll and the Get of its own key) *)
Theorem etcd_wait_acquires : forall s i c,
  reachable step sys_init s ->
  nth_error (s_cs s) i = Some c -> c_pc c = Waiting -> live (s_kv s) (c_lease c) ->
  nobody_ahead s c ->
  exists s1 s2 c2, step s (LPoll i) = Some s1 /\ step s1 (LVerify i) = Some s2 /\
                   nth_error (s_cs s2) i = Some c2 /\ c_pc c2 = Held /\ s_kv s2 = s_kv s.
Proof.
  intros s i c Hr Hi Hpc Hl Hna.
  apply reachable_ok in Hr. destruct Hr as (Hkv & Hnd & Hrange & Hcs).
  destruct (Hcs c (nth_error_In _ _ Hi)) as [Cc _]. destruct (Cc Hl) as [H1 _].
  destruct H1 as [x0 [Hx0 [Ek Ec]]]; [rewrite Hpc; exact I|].
  assert (Hnone : e_last_create_upto (s_kv s) all_keys (c_rev c - 1) = None).
  { apply last_create_upto_none. intros x Hx _. specialize (Hna x Hx). lia. }
  simpl. rewrite Hi, Hpc, Hnone. unfold with_c.
  eexists. eexists. eexists. split; [reflexivity|]. simpl.
  erewrite nth_error_upd_hit by eassumption. simpl.
  rewrite (e_get_in Z.eqb Z.eqb_eq (s_kv s) (c_lease c) x0); auto;
    [|destruct Hkv as (_ & _ & K2 & _); auto].
  unfold with_c. split; [reflexivity|]. simpl.
  split; [eapply nth_error_upd_hit, nth_error_upd_hit, Hi|]. split; reflexivity.
Qed.

(* a waiter whose deadline passes fails with the deadline error after its
   clean-up delete; both steps are enabled in every state *)
Theorem etcd_wait_timeout : forall s i c,
  nth_error (s_cs s) i = Some c -> c_pc c = Waiting ->
  exists s1 s2 c2, step s (LTimeout i) = Some s1 /\ step s1 (LDelOwn i) = Some s2 /\
                   nth_error (s_cs s2) i = Some c2 /\ c_pc c2 = Failed ErrDeadline.
Proof.
  intros s i c Hi Hpc.
  simpl. rewrite Hi, Hpc. unfold with_c.
  eexists. eexists. eexists. split; [reflexivity|]. simpl.
  erewrite nth_error_upd_hit by eassumption. simpl. unfold with_c.
  split; [reflexivity|]. simpl.
  split; [eapply nth_error_upd_hit, nth_error_upd_hit, Hi|reflexivity].
Qed.

(* C19: the helper steps that deliver the loss to holder i: one iteration of the
   session keepalive loop (if it has not yet seen the loss), the watcher (sets the
   error), the watcher's deferred cancel (closes Done) *)
Definition notify_steps (i : nat) (c : cont) : list label :=
  match c_w c with
  | WCancelling => [LCancel i]
  | _ => if c_sdone c then [LWatch i; LCancel i] else [LKeepAlive i; LWatch i; LCancel i]
  end.

Theorem etcd_notify : forall s i c,
  reachable step sys_init s ->
  nth_error (s_cs s) i = Some c -> c_pc c = Held -> dead (s_kv s) (c_lease c) ->
  ctx_view c <> CtxSessionDone ->
  exists s' c', run step s (notify_steps i c) = Some s' /\
                nth_error (s_cs s') i = Some c' /\ ctx_view c' = CtxSessionDone /\ c_pc c' = Held.
Proof.
  intros s i c Hr Hi Hpc Hd Hctx.
  apply reachable_ok in Hr. destruct Hr as (Hkv & Hnd & Hrange & Hcs).
  destruct (Hcs c (nth_error_In _ _ Hi)) as [_ (W1 & W2 & W3 & W4)].
  destruct (W1 Hpc) as [Hlk [[Hw Hlive]|[[Hw|Hw] Hx]]].
  - (* watcher still waiting *)
    unfold notify_steps. rewrite Hw. destruct (c_sdone c) eqn:Hsd.
    + simpl. rewrite Hi, Hw, Hsd, Hlk. unfold with_c. simpl.
      erewrite nth_error_upd_hit by eassumption. simpl. unfold with_c.
      eexists. eexists. split; [reflexivity|]. simpl.
      split; [eapply nth_error_upd_hit, nth_error_upd_hit, Hi|]. split; auto.
    + simpl. rewrite Hi, Hsd.
      destruct (e_keepalive (s_kv s) (c_lease c)) as [alive kv'] eqn:Hka.
      destruct (keepalive_ok _ _ _ _ Hkv Hka) as (_ & _ & _ & Hb).
      rewrite Hd in Hb. subst alive. unfold with_c. simpl.
      erewrite nth_error_upd_hit by eassumption. simpl. rewrite Hw, Hlk. unfold with_c. simpl.
      erewrite nth_error_upd_hit by (eapply nth_error_upd_hit, Hi). simpl. unfold with_c.
      eexists. eexists. split; [reflexivity|]. simpl.
      split; [eapply nth_error_upd_hit, nth_error_upd_hit, nth_error_upd_hit, Hi|]. split; auto.
  - (* error set, Done not yet closed *)
    unfold notify_steps. rewrite Hw. simpl. rewrite Hi, Hw. unfold with_c.
    eexists. eexists. split; [reflexivity|]. simpl.
    split; [eapply nth_error_upd_hit, Hi|]. unfold ctx_view; simpl. rewrite Hx. split; auto.
  - exfalso. apply Hctx. unfold ctx_view. rewrite Hx, Hw. reflexivity.
Qed.

(* the watcher's two steps neither read nor write the store: they are enabled and
   have the same effect whatever the store contains, in particular when etcd is
   unreachable — no store call precedes the cancel *)
Theorem etcd_watch_cancel_store_free : forall s kv' i l,
  l = LWatch i \/ l = LCancel i ->
  step (mkSys kv' (s_cs s)) l =
  match step s l with Some s' => Some (mkSys kv' (s_cs s')) | None => None end /\
  (forall s', step s l = Some s' -> s_kv s' = s_kv s).
Proof.
  intros s kv' i l [->| ->]; simpl; destruct (nth_error (s_cs s) i) as [c|]; try (split; [reflexivity|discriminate]);
    destruct (c_w c); try (split; [reflexivity|discriminate]).
  - destruct (c_sdone c); [|split; [reflexivity|discriminate]].
    destruct (c_locked c); unfold with_c; simpl; (split; [reflexivity|intros s' E; inversion E; reflexivity]).
  - unfold with_c; simpl. split; [reflexivity|intros s' E; inversion E; reflexivity].
Qed.

(* a context cancelled with ErrLockSessionDone means the lease is really gone *)
Theorem etcd_ctx_sound : forall s i c,
  reachable step sys_init s ->
  nth_error (s_cs s) i = Some c -> c_ctx c = CtxSessionDone -> dead (s_kv s) (c_lease c).
Proof.
  intros s i c Hr Hi Hctx.
  apply reachable_ok in Hr. destruct Hr as (Hkv & Hnd & Hrange & Hcs).
  destruct (Hcs c (nth_error_In _ _ Hi)) as [_ (W1 & W2 & W3 & W4)]. auto.
Qed.

(* overlap bound: if two contenders are in their critical sections, j with a live
   lease and i not yet woken up (Done of its context not closed), then i's lease
   is gone and i's notification is in flight (its watcher has not finished); by
   [etcd_notify] it is delivered by at most three helper steps of i, which are
   enabled and (the last two) independent of the store *)
Theorem etcd_overlap_bound : forall s i j a b,
  reachable step sys_init s ->
  nth_error (s_cs s) i = Some a -> nth_error (s_cs s) j = Some b -> i <> j ->
  c_pc a = Held -> ctx_view a <> CtxSessionDone -> holds s b = true ->
  dead (s_kv s) (c_lease a) /\ (c_w a = WWatching \/ c_w a = WCancelling) /\
  (exists s' a', run step s (notify_steps i a) = Some s' /\
                 nth_error (s_cs s') i = Some a' /\ ctx_view a' = CtxSessionDone).
Proof.
  intros s i j a b Hr Ha Hb Hij Pa Ca Hb'.
  assert (Hd : dead (s_kv s) (c_lease a)).
  { destruct (e_lease_live (s_kv s) (c_lease a)) eqn:L; auto.
    exfalso. apply Hij. apply (etcd_mutex s i j a b Hr Ha Hb); [apply holds_spec; auto|exact Hb']. }
  split; auto.
  pose proof (reachable_ok _ Hr) as (Hkv & Hnd & Hrange & Hcs).
  destruct (Hcs a (nth_error_In _ _ Ha)) as [_ (W1 & _)].
  split.
  - destruct (W1 Pa) as [_ [[Hw _]|[[Hw|Hw] Hx]]]; auto.
    exfalso. apply Ca. unfold ctx_view. rewrite Hx, Hw. reflexivity.
  - destruct (etcd_notify s i a Hr Ha Pa Hd Ca) as (s' & a' & H1 & H2 & H3 & _).
    exists s', a'. auto.
Qed.

(* the hypotheses of the statements above are satisfiable: a reachable state with
   a holder (live lease), a try-locker about to try, and a waiter; and one where
   the holder's lease has been revoked while it is in its critical section *)
Example etcd_hyps_satisfiable :
  exists s h c w, run step sys_init
      [LNew 60; LNew 60; LNew 60; LCall 0 OpLock; LAcq 0; LCall 1 OpTry; LCall 2 OpLock; LAcq 2] = Some s /\
    nth_error (s_cs s) 0 = Some h /\ holds s h = true /\
    nth_error (s_cs s) 1 = Some c /\ c_pc c = Called OpTry /\
    nth_error (s_cs s) 2 = Some w /\ c_pc w = Waiting /\ live (s_kv s) (c_lease w).
Proof.
  eexists. eexists. eexists. eexists. split; [vm_compute; reflexivity|].
  split; [reflexivity|]. split; [vm_compute; reflexivity|]. split; [reflexivity|].
  split; [reflexivity|]. split; [reflexivity|]. split; reflexivity.
Qed.

Example etcd_loss_satisfiable :
  exists s a b, run step sys_init
      [LNew 2; LNew 2; LCall 0 OpLock; LAcq 0; LCall 1 OpLock; LAcq 1; LRevoke 1; LPoll 1; LVerify 1] = Some s /\
    nth_error (s_cs s) 0 = Some a /\ nth_error (s_cs s) 1 = Some b /\
    c_pc a = Held /\ ctx_view a = CtxLive /\ dead (s_kv s) (c_lease a) /\ holds s b = true.
Proof.
  eexists. eexists. eexists. split; [vm_compute; reflexivity|].
  split; [reflexivity|]. split; [reflexivity|]. split; [reflexivity|]. split; [reflexivity|].
  split; vm_compute; reflexivity.
Qed.
