(* Shared lemmas for the strategy proofs: finite maps as association lists,
   sums, the budget bookkeeping common to the two heap loops (AUTO, GLOBAL), the
   Prop-level specifications of C01/C02/C03 and their boolean reflections. *)
From Coq Require Import String Ascii.
From Coq Require Import List Bool ZArith Arith Lia Permutation.
From Verif Require Import Base.GoInt Base.GoFloat Strategy.Model Base.ListFacts.
Import ListNotations.
Local Open Scope Z_scope.

Lemma mget_mset_same m k v : mget (mset m k v) k = v.
Proof.
  induction m as [|[k' v'] t IH]; simpl.
  - rewrite String.eqb_refl. reflexivity.
  - destruct (String.eqb k' k) eqn:E; simpl; rewrite E; auto.
Qed.

Lemma mget_mset_other m k v k' : k <> k' -> mget (mset m k v) k' = mget m k'.
Proof.
  intro Hne. induction m as [|[k2 v2] t IH]; simpl.
  - apply String.eqb_neq in Hne. rewrite Hne. reflexivity.
  - destruct (String.eqb k2 k) eqn:E; simpl.
    + apply String.eqb_eq in E. subst k2. apply String.eqb_neq in Hne. rewrite Hne. reflexivity.
    + destruct (String.eqb k2 k'); auto.
Qed.

Lemma mhas_mset m k v k' : mhas (mset m k v) k' = String.eqb k k' || mhas m k'.
Proof.
  induction m as [|[k2 v2] t IH]; simpl.
  - reflexivity.
  - destruct (String.eqb k2 k) eqn:E; simpl.
    + apply String.eqb_eq in E. subst k2. destruct (String.eqb k k'); reflexivity.
    + rewrite IH. destruct (String.eqb k2 k'), (String.eqb k k'); reflexivity.
Qed.

Lemma mget_madd_same m k v : mget (madd m k v) k = mget m k + v.
Proof. unfold madd. apply mget_mset_same. Qed.
Lemma mget_madd_other m k v k' : k <> k' -> mget (madd m k v) k' = mget m k'.
Proof. unfold madd. apply mget_mset_other. Qed.
Lemma mhas_madd m k v k' : mhas (madd m k v) k' = String.eqb k k' || mhas m k'.
Proof. unfold madd. apply mhas_mset. Qed.

Lemma mhas_in m k : mhas m k = true <-> In k (map fst m).
Proof.
  induction m as [|[k' v'] t IH]; simpl.
  - split; [discriminate|tauto].
  - rewrite orb_true_iff, IH, String.eqb_eq. tauto.
Qed.

Lemma mget_in m k v : NoDup (map fst m) -> In (k, v) m -> mget m k = v.
Proof.
  induction m as [|[k2 v2] t IH]; simpl; intros Hnd Hin; [tauto|]. inversion Hnd as [|? ? Hk Ht]; subst.
  destruct Hin as [E|Hin]; [inversion E; subst; rewrite String.eqb_refl; reflexivity|].
  destruct (String.eqb k2 k) eqn:E2; [|auto].
  apply String.eqb_eq in E2. subst. destruct Hk. apply in_map_iff. exists (k, v). auto.
Qed.

Lemma mhas_false_mget m k : mhas m k = false -> mget m k = 0.
Proof.
  induction m as [|[k' v'] t IH]; simpl; auto.
  destruct (String.eqb k' k); simpl; [discriminate|auto].
Qed.

Lemma keys_mset m k v : mhas m k = true -> map fst (mset m k v) = map fst m.
Proof.
  induction m as [|[k' v'] t IH]; simpl; [discriminate|].
  destruct (String.eqb k' k) eqn:E; simpl; auto.
  intro H. rewrite IH; auto.
Qed.

Lemma keys_mset_new m k v : mhas m k = false -> map fst (mset m k v) = map fst m ++ [k].
Proof.
  induction m as [|[k' v'] t IH]; simpl; auto.
  destruct (String.eqb k' k) eqn:E; simpl; [discriminate|].
  intro H. rewrite IH; auto.
Qed.

Lemma nodup_keys_mset m k v : NoDup (map fst m) -> NoDup (map fst (mset m k v)).
Proof.
  intro H. destruct (mhas m k) eqn:E.
  - rewrite keys_mset; auto.
  - rewrite keys_mset_new; auto.
    assert (Hn : ~ In k (map fst m)) by (rewrite <- mhas_in; congruence).
    clear E. induction (map fst m) as [|a l IH]; simpl.
    + constructor; [tauto|constructor].
    + inversion H; subst. constructor.
      * rewrite in_app_iff. simpl. intros [?|[?|[]]]; [tauto|]. subst. apply Hn. left; reflexivity.
      * apply IH; auto. intro. apply Hn. right; auto.
Qed.

Lemma length_mset m k v : length (mset m k v) = if mhas m k then length m else S (length m).
Proof.
  induction m as [|[k' v'] t IH]; simpl; auto.
  destruct (String.eqb k' k) eqn:E; simpl; auto.
  rewrite IH. destruct (mhas t k); reflexivity.
Qed.

Lemma plan_sum_mset m k v : plan_sum (mset m k v) = plan_sum m - mget m k + v.
Proof.
  unfold plan_sum. induction m as [|[k' v'] t IH]; simpl.
  - lia.
  - destruct (String.eqb k' k) eqn:E; simpl.
    + lia.
    + unfold sumZ in *. simpl. lia.
Qed.

Lemma plan_sum_madd m k v : plan_sum (madd m k v) = plan_sum m + v.
Proof. unfold madd. rewrite plan_sum_mset. lia. Qed.

Lemma in_names x l : In x l -> In (name x) (names l).
Proof. intro H. unfold names. apply in_map. exact H. Qed.

Lemma nodup_names_inj l x y : NoDup (names l) -> In x l -> In y l -> name x = name y -> x = y.
Proof.
  induction l as [|a t IH]; simpl; intros Hnd Hx Hy E; [tauto|].
  inversion Hnd as [|? ? Hna Hnt]; subst.
  destruct Hx as [->|Hx], Hy as [->|Hy]; auto.
  - exfalso. apply Hna. rewrite E. apply in_names; auto.
  - exfalso. apply Hna. rewrite <- E. apply in_names; auto.
Qed.

Lemma names_app l1 l2 : names (l1 ++ l2) = names l1 ++ names l2.
Proof. unfold names. apply map_app. Qed.

Lemma nodup_names_firstn l n : NoDup (names l) -> NoDup (names (firstn n l)).
Proof. intro H. rewrite <- (firstn_skipn n l), names_app in H. exact (NoDup_app_l _ _ H). Qed.

Lemma nodup_names_filter f l : NoDup (names l) -> NoDup (names (filter f l)).
Proof.
  induction l as [|h t IH]; simpl; intro H; [constructor|]. inversion H as [|? ? Hh Ht]; subst.
  destruct (f h); simpl; auto. constructor; auto.
  intro Hin. apply Hh. unfold names in *. apply in_map_iff in Hin. destruct Hin as (y & Ey & Hy).
  apply filter_In in Hy. apply in_map_iff. exists y. tauto.
Qed.

Lemma in_of_name l sel x : NoDup (names l) -> In x l -> incl sel l -> In (name x) (names sel) -> In x sel.
Proof.
  intros Hnd Hx Hsub Hn. unfold names in Hn. apply in_map_iff in Hn. destruct Hn as (y & Ey & Hy).
  rewrite (nodup_names_inj l x y); auto.
Qed.

Lemma names_eq_dec l x y : NoDup (names l) -> In x l -> In y l -> {x = y} + {name x <> name y}.
Proof.
  intros Hnd Hx Hy. destruct (string_dec (name x) (name y)) as [E|E]; [left|right; exact E].
  apply (nodup_names_inj l); assumption.
Qed.

Lemma perm_names l l' : Permutation l l' -> Permutation (names l) (names l').
Proof. intro H. unfold names. apply Permutation_map. exact H. Qed.

Lemma nodup_names_perm l l' : Permutation l l' -> NoDup (names l) -> NoDup (names l').
Proof. intros Hp H. eapply Permutation_NoDup; [apply perm_names; exact Hp|exact H]. Qed.

Lemma sumZ_app l1 l2 : sumZ (l1 ++ l2) = sumZ l1 + sumZ l2.
Proof. unfold sumZ. induction l1; simpl; lia. Qed.

Lemma sumZ_perm l l' : Permutation l l' -> sumZ l = sumZ l'.
Proof. unfold sumZ. induction 1; simpl; lia. Qed.

Lemma sumZ_nonneg l : Forall (fun z => 0 <= z) l -> 0 <= sumZ l.
Proof. unfold sumZ. induction 1; simpl; lia. Qed.

Lemma sumZ_zero_iff l : Forall (fun z => 0 <= z) l -> (sumZ l = 0 <-> Forall (fun z => z = 0) l).
Proof.
  induction 1 as [|z t Hz Ht IH]; [split; constructor|].
  pose proof (sumZ_nonneg t Ht). change (sumZ (z :: t)) with (z + sumZ t). split.
  - intro H0. constructor; [lia|]. apply IH. lia.
  - intro H0. inversion H0 as [|? ? Hz0 Ht0]; subst. apply IH in Ht0. lia.
Qed.

Lemma plan_sum_zero_iff p : NoDup (map fst p) -> (forall k, 0 <= mget p k) ->
  (plan_sum p = 0 <-> forall k, mhas p k = true -> mget p k = 0).
Proof.
  intros Hnd Hnn. unfold plan_sum.
  assert (Hv : forall z, In z (map snd p) <-> exists k, mhas p k = true /\ mget p k = z).
  { intro z. rewrite in_map_iff. split.
    - intros ([k v] & <- & Hin). exists k. split; [|exact (mget_in p k v Hnd Hin)].
      apply mhas_in, in_map_iff. exists (k, v). auto.
    - intros (k & Hk & <-). apply mhas_in, in_map_iff in Hk. destruct Hk as ([k' v] & <- & Hin).
      exists (k', v). simpl. rewrite (mget_in p k' v Hnd Hin). auto. }
  rewrite sumZ_zero_iff, Forall_forall.
  - split; [intros H k Hk; apply H, Hv; eauto|intros H z Hz; apply Hv in Hz; destruct Hz as (k & Hk & <-); auto].
  - apply Forall_forall. intros z Hz. apply Hv in Hz. destruct Hz as (k & _ & <-). apply Hnn.
Qed.

Lemma sumZ_map_nonneg {A} (f : A -> Z) l : (forall x, In x l -> 0 <= f x) -> 0 <= sumZ (map f l).
Proof.
  intro H. apply sumZ_nonneg, Forall_forall. intros z Hz. apply in_map_iff in Hz.
  destruct Hz as (x & <- & Hx). auto.
Qed.

Lemma sumZ_map_pos {A} (f : A -> Z) l x :
  (forall y, In y l -> 0 <= f y) -> In x l -> 1 <= f x -> 1 <= sumZ (map f l).
Proof.
  intros Hf Hx H1. destruct (in_split x l Hx) as (l1 & l2 & ->). rewrite map_app, sumZ_app.
  assert (0 <= sumZ (map f l1)) by (apply sumZ_map_nonneg; intros; apply Hf, in_or_app; auto).
  assert (0 <= sumZ (map f l2)) by (apply sumZ_map_nonneg; intros; apply Hf, in_or_app; simpl; auto).
  cbn [map]. change (sumZ (f x :: map f l2)) with (f x + sumZ (map f l2)). lia.
Qed.

Lemma sumZ_map_zero {A} (f : A -> Z) l : (forall x, In x l -> f x = 0) -> sumZ (map f l) = 0.
Proof.
  induction l as [|a t IH]; intro H; [reflexivity|]. cbn [map]. change (f a + sumZ (map f t) = 0).
  rewrite (H a) by (left; reflexivity). rewrite IH; [reflexivity|]. intros x Hx. apply H. right; exact Hx.
Qed.

Lemma sumZ_map_dec (f g : info -> Z) x l : NoDup (names l) -> In x l ->
  g x = f x - 1 -> (forall y, name x <> name y -> g y = f y) -> sumZ (map g l) = sumZ (map f l) - 1.
Proof.
  intros Hnd Hx Hgx Ho. destruct (in_split x l Hx) as (l1 & l2 & ->).
  unfold names in Hnd. rewrite map_app in Hnd. apply NoDup_remove_2 in Hnd. rewrite in_app_iff in Hnd.
  assert (Hsame : forall l', ~ In (name x) (map name l') -> map g l' = map f l').
  { intros l' Hn. apply map_ext_in. intros y Hy. apply Ho. intro E. apply Hn. rewrite E. apply in_map. exact Hy. }
  rewrite !map_app, !sumZ_app. cbn [map]. rewrite !Hsame by tauto.
  change (sumZ (g x :: map f l2)) with (g x + sumZ (map f l2)).
  change (sumZ (f x :: map f l2)) with (f x + sumZ (map f l2)). lia.
Qed.

Lemma satadd_spec a b : 0 <= a <= max_int -> 0 <= b -> satadd a b = Z.min max_int (a + b).
Proof.
  intros Ha Hb. unfold satadd. destruct (Z.leb_spec max_int (a + b)); lia.
Qed.

Lemma satsum_from l : Forall (fun z => 0 <= z) l -> forall acc, 0 <= acc <= max_int ->
  fold_left satadd l acc = Z.min max_int (acc + sumZ l).
Proof.
  induction 1 as [|z t Hz Ht IH]; intros acc Hacc; simpl.
  - unfold sumZ; simpl. lia.
  - rewrite IH.
    + rewrite satadd_spec by lia. unfold sumZ; simpl. fold (sumZ t).
      assert (0 <= sumZ t) by (apply sumZ_nonneg; auto). lia.
    + rewrite satadd_spec by lia. unfold max_int in *. lia.
Qed.

Lemma satsum_spec l : Forall (fun z => 0 <= z) l -> satsum l = Z.min max_int (sumZ l).
Proof. intro H. unfold satsum. rewrite satsum_from; auto. unfold max_int; lia. Qed.

Lemma countb_app {A} (f : A -> bool) l1 l2 : countb f (l1 ++ l2) = countb f l1 + countb f l2.
Proof. unfold countb. rewrite filter_app, app_length. lia. Qed.

Lemma countb_perm {A} (f : A -> bool) l l' : Permutation l l' -> countb f l = countb f l'.
Proof.
  unfold countb. induction 1; simpl; auto.
  - destruct (f x); simpl; lia.
  - destruct (f x), (f y); simpl; lia.
  - lia.
Qed.

Lemma countb_cons {A} (f : A -> bool) x l : countb f (x :: l) = (if f x then 1 else 0) + countb f l.
Proof. unfold countb. cbn [filter]. destruct (f x); cbn [length]; lia. Qed.

Lemma countb_nonneg {A} (f : A -> bool) l : 0 <= countb f l.
Proof. unfold countb. lia. Qed.

Lemma countb_le_length {A} (f : A -> bool) l : countb f l <= Z.of_nat (length l).
Proof. unfold countb. induction l as [|x t IH]; cbn [filter length]; [lia|]. destruct (f x); cbn [length]; lia. Qed.

Definition valid_infos (infos : list info) : Prop :=
  NoDup (names infos) /\ Forall (fun x => 0 <= cap x /\ 0 <= cnt x) infos.

Lemma valid_infos_perm l l' : Permutation l l' -> valid_infos l -> valid_infos l'.
Proof.
  intros Hp [H1 H2]. split; [eapply nodup_names_perm; eauto|exact (Permutation_Forall Hp H2)].
Qed.

(* [use L H]: L is a lemma proved in a section; name it H and discharge its leading
   premises (the section's hypotheses) from the context and the [core] hints *)
Ltac feed H :=
  repeat (match type of H with
          | ?A -> _ => let a := fresh "a" in assert (a : A) by auto; specialize (H a); clear a
          end).
Ltac use L H := pose proof L as H; feed H.

Definition is_plan (r : result) (p : plan) : Prop := r = Ok p \/ r = AlreadyFilled p.

Lemma is_plan_fun r p q : is_plan r p -> is_plan r q -> p = q.
Proof. intros [-> | ->] [H|H]; congruence. Qed.

(* AUTO and GLOBAL: one instance at a time, each candidate within a budget.
   Both loops keep in a heap the candidates that can still take an instance, pop the least, count
   one instance on it and push it back unless it is full.  [w x] is the number of instances x may
   take, [cur dep x] is x as the loop sees it once [dep] has been placed, [keep] the heap's filter
   and [step] what the loop does to the popped candidate. *)
Record budget_ok (infos : list info) (w : info -> Z) (cur : plan -> info -> info)
                 (keep : info -> bool) (step : info -> info) : Prop := {
  bo_nodup : NoDup (names infos);
  bo_w : forall x, In x infos -> 0 <= w x;
  bo_name : forall dep x, name (cur dep x) = name x;
  bo_other : forall dep x y, name x <> name y -> cur (madd dep (name x) 1) y = cur dep y;
  bo_same : forall dep x, 0 <= mget dep (name x) -> cur (madd dep (name x) 1) x = step (cur dep x);
  bo_room : forall dep x, In x infos -> 0 <= mget dep (name x) <= w x ->
            (keep (cur dep x) = true <-> mget dep (name x) < w x) }.

Section Budget.
Variables (infos : list info) (w : info -> Z) (cur : plan -> info -> info)
          (keep : info -> bool) (step : info -> info).
Hypothesis ok : budget_ok infos w cur keep step.

Definition within (dep : plan) : Prop :=
  NoDup (map fst dep) /\
  (forall k, mhas dep k = true -> In k (names infos)) /\
  (forall x, In x infos -> 0 <= mget dep (name x) <= w x).
Definition budget (dep : plan) : Z := sumZ (map (fun x => w x - mget dep (name x)) infos).
Definition eligible (dep : plan) : list info := filter keep (map (cur dep) infos).

Lemma within_nil : within [].
Proof.
  split; [constructor|]. split; [discriminate|]. intros x Hx. pose proof (bo_w _ _ _ _ _ ok x Hx). simpl. lia.
Qed.

Lemma within_madd dep x : within dep -> In x infos -> keep (cur dep x) = true ->
  within (madd dep (name x) 1).
Proof.
  intros (D0 & D2 & D1) Hx Hk. apply (bo_room _ _ _ _ _ ok dep x Hx (D1 x Hx)) in Hk.
  split; [apply nodup_keys_mset; exact D0|]. split.
  - intros k Hkk. rewrite mhas_madd in Hkk. apply orb_true_iff in Hkk. destruct Hkk as [E|Hkk]; [|auto].
    apply String.eqb_eq in E. subst k. apply in_names. exact Hx.
  - intros y Hy. destruct (names_eq_dec infos x y (bo_nodup _ _ _ _ _ ok) Hx Hy) as [<-|E].
    + rewrite mget_madd_same. specialize (D1 x Hx). lia.
    + rewrite mget_madd_other by exact E. auto.
Qed.

Lemma budget_nil : budget [] = sumZ (map w infos).
Proof. unfold budget. f_equal. apply map_ext. intro x. apply Z.sub_0_r. Qed.

Lemma budget_madd dep x : In x infos -> budget (madd dep (name x) 1) = budget dep - 1.
Proof.
  intro Hx. apply (sumZ_map_dec _ _ x); auto using (bo_nodup _ _ _ _ _ ok).
  - rewrite mget_madd_same. lia.
  - intros y E. rewrite mget_madd_other by exact E. reflexivity.
Qed.

Lemma budget_nonneg dep : within dep -> 0 <= budget dep.
Proof. intros (_ & _ & D1). apply sumZ_map_nonneg. intros x Hx. specialize (D1 x Hx). lia. Qed.

Lemma eligible_in dep y : In y (eligible dep) -> exists x, In x infos /\ y = cur dep x /\ keep (cur dep x) = true.
Proof.
  intro H. apply filter_In in H. destruct H as [H Hk]. apply in_map_iff in H.
  destruct H as (x & <- & Hx). eauto.
Qed.

Lemma in_eligible dep x : In x infos -> keep (cur dep x) = true -> In (cur dep x) (eligible dep).
Proof. intros Hx Hk. apply filter_In. split; [apply in_map; exact Hx|exact Hk]. Qed.

Lemma budget_zero dep : within dep -> eligible dep = [] -> budget dep = 0.
Proof.
  intros (_ & _ & D1) He. apply sumZ_map_zero. intros x Hx. specialize (D1 x Hx).
  destruct (keep (cur dep x)) eqn:Ek.
  - pose proof (in_eligible dep x Hx Ek) as Hin. rewrite He in Hin. destruct Hin.
  - assert (~ mget dep (name x) < w x); [|lia].
    rewrite <- (bo_room _ _ _ _ _ ok dep x Hx D1). congruence.
Qed.

Lemma budget_pos dep x : within dep -> In x infos -> keep (cur dep x) = true -> 1 <= budget dep.
Proof.
  intros (_ & _ & D1) Hx Hk. apply (sumZ_map_pos _ _ x); auto.
  - intros y Hy. specialize (D1 y Hy). lia.
  - apply (bo_room _ _ _ _ _ ok dep x Hx (D1 x Hx)) in Hk. lia.
Qed.

Lemma eligible_madd dep x h h' : within dep -> In x infos -> keep (cur dep x) = true ->
  Permutation h (eligible dep) -> Permutation h (cur dep x :: h') ->
  Permutation (if keep (step (cur dep x)) then step (cur dep x) :: h' else h')
              (eligible (madd dep (name x) 1)).
Proof.
  intros (_ & _ & D1) Hx Hk Hperm Hpop. pose proof (bo_nodup _ _ _ _ _ ok) as Hnd.
  pose proof (proj1 (D1 x Hx)) as Hd0.
  destruct (in_split x infos Hx) as (i1 & i2 & E). unfold eligible in *. rewrite E in Hnd, Hperm |- *.
  unfold names in Hnd. rewrite map_app in Hnd. apply NoDup_remove_2 in Hnd. rewrite in_app_iff in Hnd.
  assert (Hsame : forall l, ~ In (name x) (map name l) -> map (cur (madd dep (name x) 1)) l = map (cur dep) l).
  { intros l Hn. apply map_ext_in. intros y Hy. apply (bo_other _ _ _ _ _ ok).
    intro E'. apply Hn. rewrite E'. apply in_map. exact Hy. }
  rewrite map_app, filter_app in *. cbn [map filter] in *. rewrite Hk in Hperm.
  rewrite !Hsame, (bo_same _ _ _ _ _ ok) by (tauto || exact Hd0).
  assert (Hh' : Permutation h' (filter keep (map (cur dep) i1) ++ filter keep (map (cur dep) i2))).
  { apply Permutation_cons_inv with (a := cur dep x).
    rewrite <- Hpop, Hperm. symmetry. apply Permutation_middle. }
  destruct (keep (step (cur dep x))); [|exact Hh'].
  rewrite Hh'. apply Permutation_middle.
Qed.
End Budget.

Definition C01_spec (s : strategy) (need limit : Z) (infos : list info) (p : plan) : Prop :=
  NoDup (map fst p) /\
  (forall k, mhas p k = true -> In k (names infos)) /\
  (forall x, In x infos -> 0 <= mget p (name x) <= cap x) /\
  match s with
  | Auto | Global | Drained => plan_sum p = need
  | Each => Z.of_nat (length p) = each_limit infos limit /\
            (forall k, mhas p k = true -> mget p k = need)
  | Fill => Z.of_nat (length p) = each_limit infos limit /\
            (forall x, In x infos -> mhas p (name x) = true -> fin p x = Z.max (cnt x) need)
  | Other => False
  end /\
  (s = Auto -> limit <> 0 -> forall x, In x infos -> 1 <= mget p (name x) -> fin p x <= limit).

Definition C03_spec (s : strategy) (need limit : Z) (infos : list info) (p : plan) : Prop :=
  forall a b, In a infos -> In b infos ->
  let pa := mget p (name a) in
  let pb := mget p (name b) in
  match s with
  | Auto => 1 <= pa -> 1 <= cap b - pb -> (limit = 0 \/ fin p b < limit) -> fin p a <= fin p b + 1
  | Global => 1 <= pa -> 1 <= cap b - pb ->
              fle (usage_fin p a) (fadd (usage_fin p b) (rate b)) = true
  | Drained => cap a < cap b -> 1 <= pb -> pa = cap a
  | Each => mhas p (name a) = true -> mhas p (name b) = false -> cap b <= cap a
  | Fill => mhas p (name a) = true -> mhas p (name b) = false -> need <= cnt b + cap b ->
            cnt b < cnt a \/ (cnt b = cnt a /\ cap b <= cap a)
  | Other => True
  end.

Lemma nodupb_spec l : nodupb l = true <-> NoDup l.
Proof.
  induction l as [|x t IH]; simpl.
  - split; [constructor|reflexivity].
  - rewrite andb_true_iff, negb_true_iff, IH. split.
    + intros [H1 H2]. constructor; auto. intro Hin.
      assert (existsb (String.eqb x) t = true); [|congruence].
      apply existsb_exists. exists x. split; auto. apply String.eqb_refl.
    + intro H. inversion H; subst. split; auto.
      destruct (existsb (String.eqb x) t) eqn:E; auto.
      apply existsb_exists in E. destruct E as (y & Hy & Exy). apply String.eqb_eq in Exy. subst. tauto.
Qed.

Lemma existsb_eqb_in k l : existsb (String.eqb k) l = true <-> In k l.
Proof.
  rewrite existsb_exists. split.
  - intros (y & Hy & E). apply String.eqb_eq in E. subst. auto.
  - intro H. exists k. split; auto. apply String.eqb_refl.
Qed.

Lemma C01_reflect s need limit infos p :
  C01_plan_ok s need limit infos p = true <-> C01_spec s need limit infos p.
Proof.
  unfold C01_plan_ok, C01_spec.
  rewrite !andb_true_iff, nodupb_spec, !forallb_forall.
  split.
  - intros ((((H1 & H2) & H3) & H4) & H5). split; [exact H1|]. split; [|split; [|split]].
    + intros k Hk. apply mhas_in in Hk. apply in_map_iff in Hk. destruct Hk as ([k' v] & <- & Hin).
      apply existsb_eqb_in. apply (H2 _ Hin).
    + intros x Hx. specialize (H3 x Hx). apply andb_true_iff in H3. lia.
    + destruct s; try (apply Z.eqb_eq; exact H4); try discriminate.
      * apply andb_true_iff in H4. destruct H4 as [Ha Hb]. split; [lia|].
        rewrite forallb_forall in Hb. intros x Hx Hh.
        specialize (Hb x Hx). rewrite Hh in Hb. simpl in Hb. lia.
      * apply andb_true_iff in H4. destruct H4 as [Ha Hb]. split; [lia|].
        rewrite forallb_forall in Hb. intros k Hk.
        apply mhas_in in Hk. apply in_map_iff in Hk. destruct Hk as ([k' v] & <- & Hin).
        specialize (Hb _ Hin). simpl in *.
        rewrite (mget_in p k' v H1 Hin) in *. lia.
    + intros -> Hl x Hx Hp. apply orb_true_iff in H5. destruct H5 as [H5|H5]; [lia|].
      rewrite forallb_forall in H5. specialize (H5 x Hx). apply orb_true_iff in H5. lia.
  - intros (H1 & H2 & H3 & H4 & H5). split; [split; [split; [split|]|]|].
    + exact H1.
    + intros [k v] Hin. simpl. apply existsb_eqb_in. apply H2. apply mhas_in.
      apply in_map_iff. exists (k, v). auto.
    + intros x Hx. specialize (H3 x Hx). apply andb_true_iff. lia.
    + destruct s; try (apply Z.eqb_eq; exact H4); try tauto.
      * destruct H4 as [Ha Hb]. apply andb_true_iff. split; [lia|].
        apply forallb_forall. intros x Hx. destruct (mhas p (name x)) eqn:E; simpl; auto.
        specialize (Hb x Hx E). lia.
      * destruct H4 as [Ha Hb]. apply andb_true_iff. split; [lia|].
        apply forallb_forall. intros [k v] Hin. simpl.
        assert (Hk : mhas p k = true) by (apply mhas_in; apply in_map_iff; exists (k, v); auto).
        specialize (Hb k Hk).
        rewrite (mget_in p k v H1 Hin) in *. lia.
    + destruct s; auto.
      destruct (Z.eqb_spec limit 0) as [|Hl]; simpl; auto.
      apply forallb_forall. intros x Hx. apply orb_true_iff.
      destruct (Z.ltb_spec (mget p (name x)) 1); [left; reflexivity|right].
      specialize (H5 eq_refl Hl x Hx). lia.
Qed.
