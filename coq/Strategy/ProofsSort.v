(* EACH, FILL, DRAINED: the sort-based strategies.  Every statement is proved
   for an ARBITRARY sorted permutation of the candidates (what sort.Slice may
   return), then instantiated with [gosort]. *)
From Coq Require Import String Ascii.
From Coq Require Import List Bool ZArith Arith Lia Permutation Sorted RelationClasses.
From Verif Require Import Base.GoInt Base.GoFloat Base.GoSort Base.GoSortSpec Strategy.Model Strategy.ProofsBase Base.ListFacts.
Import ListNotations.
Local Open Scope Z_scope.

Lemma Sorted_impl_in {A} (R S : A -> A -> Prop) l :
  (forall a b, In a l -> In b l -> R a b -> S a b) -> Sorted R l -> Sorted S l.
Proof.
  induction l as [|a t IH]; intros H Hs; [constructor|].
  inversion Hs as [|? ? Hst Hhd]; subst. constructor.
  - apply IH; auto. intros x y Hx Hy. apply H; right; assumption.
  - destruct Hhd as [|b t' Rab]; constructor. apply H; [left; reflexivity|right; left; reflexivity|exact Rab].
Qed.

Lemma ssorted_app_rel {A} (R : A -> A -> Prop) l1 l2 a b :
  StronglySorted R (l1 ++ l2) -> In a l1 -> In b l2 -> R a b.
Proof.
  induction l1 as [|h t IH]; simpl; intros H Ha Hb; [tauto|].
  inversion H as [|? ? Ht Hall]; subst.
  destruct Ha as [->|Ha].
  - rewrite Forall_forall in Hall. apply Hall. apply in_or_app. right; exact Hb.
  - apply IH; auto.
Qed.

Lemma ssorted_nth {A} (R : A -> A -> Prop) (d : A) l :
  StronglySorted R l -> forall i j, (i < j < length l)%nat -> R (nth i l d) (nth j l d).
Proof.
  induction 1 as [|a l Hl IH Hall]; intros i j Hij; simpl in *; [lia|].
  destruct j as [|j]; [lia|]. destruct i as [|i].
  - rewrite Forall_forall in Hall. apply Hall. apply nth_In. lia.
  - apply IH. lia.
Qed.

Lemma countb_ext {A} (f g : A -> bool) l : (forall x, In x l -> f x = g x) -> countb f l = countb g l.
Proof.
  induction l as [|x t IH]; intro H; [reflexivity|].
  rewrite !countb_cons. rewrite (H x) by (left; reflexivity). rewrite IH; auto.
  intros y Hy. apply H. right; exact Hy.
Qed.

Lemma countb_prefix {A} (f : A -> bool) (d : A) l : forall p,
  (p <= length l)%nat ->
  (forall i, (i < p)%nat -> f (nth i l d) = true) ->
  (forall i, (p <= i < length l)%nat -> f (nth i l d) = false) ->
  countb f l = Z.of_nat p.
Proof.
  induction l as [|x t IH]; intros p Hp H1 H2.
  - simpl in Hp. assert (p = 0)%nat by lia. subst. reflexivity.
  - rewrite countb_cons. destruct p as [|p].
    + assert (E : f x = false) by (apply (H2 0%nat); simpl; lia). rewrite E.
      rewrite (IH 0%nat); try lia.
      intros i Hi. apply (H2 (S i)). simpl. lia.
    + assert (E : f x = true) by (apply (H1 0%nat); lia). rewrite E.
      rewrite (IH p); try (simpl in Hp; lia).
      * intros i Hi. apply (H1 (S i)). lia.
      * intros i Hi. apply (H2 (S i)). simpl. lia.
Qed.

Lemma in_skipn {A} (l : list A) n x : In x (skipn n l) -> In x l.
Proof. intro H. rewrite <- (firstn_skipn n l). apply in_or_app. right; exact H. Qed.

Definition each_rel (a b : info) : Prop := cap b <= cap a.

Lemma each_sorted_strong l : Sorted (ngt each_less) l -> StronglySorted each_rel l.
Proof.
  intro H. apply Sorted_StronglySorted.
  - intros a b c. unfold each_rel. lia.
  - eapply Sorted_impl_in; [|exact H]. intros a b _ _. unfold ngt, each_less, each_rel. lia.
Qed.

(* the map built by the final loop of AveragePlan *)
Definition each_fold (need : Z) (l : list info) (dep : plan) : plan :=
  fold_left (fun dep x => madd dep (name x) need) l dep.

Lemma madd_fresh d k v : mhas d k = false -> madd d k v = mset d k v.
Proof. intro H. unfold madd. rewrite (mhas_false_mget _ _ H). reflexivity. Qed.

(* the three plans are built by a fold that gives each candidate of l, none of which has an
   entry yet, the entry [v x] *)
Lemma fold_fresh_spec (f : plan -> info -> plan) (v : info -> Z) :
  (forall d x, mhas d (name x) = false -> f d x = mset d (name x) (v x)) ->
  forall l dep, NoDup (names l) -> NoDup (map fst dep) -> (forall x, In x l -> mhas dep (name x) = false) ->
  let r := fold_left f l dep in
  NoDup (map fst r) /\ length r = (length dep + length l)%nat /\
  (forall k, mhas r k = mhas dep k || existsb (String.eqb k) (names l)) /\
  (forall x, In x l -> mget r (name x) = v x) /\
  (forall k, ~ In k (names l) -> mget r k = mget dep k) /\
  plan_sum r = plan_sum dep + sumZ (map v l).
Proof.
  intro Hf. induction l as [|x t IH]; intros dep Hnd Hdep Hdis; cbv zeta.
  - simpl. unfold sumZ. simpl. repeat split; auto; intros; try rewrite orb_false_r; auto; try tauto; lia.
  - simpl in Hnd. inversion Hnd as [|? ? Hx Ht]; subst.
    assert (Hfresh : mhas dep (name x) = false) by (apply Hdis; left; reflexivity).
    cbn [fold_left]. rewrite (Hf dep x Hfresh).
    destruct (IH (mset dep (name x) (v x))) as (I1 & I2 & I3 & I4 & I5 & I6); auto.
    + apply nodup_keys_mset. exact Hdep.
    + intros y Hy. rewrite mhas_mset. rewrite Hdis by (right; exact Hy).
      rewrite orb_false_r. apply String.eqb_neq. intro E. apply Hx. rewrite E. apply in_names. exact Hy.
    + split; [exact I1|]. split; [|split; [|split; [|split]]].
      * rewrite I2, length_mset, Hfresh. simpl. lia.
      * intro k. rewrite I3, mhas_mset. simpl. rewrite (String.eqb_sym k (name x)).
        destruct (String.eqb (name x) k), (mhas dep k); reflexivity.
      * intros y [->|Hy]; [|apply I4; exact Hy]. rewrite I5 by exact Hx. apply mget_mset_same.
      * intros k Hk. simpl in Hk. rewrite I5 by tauto. apply mget_mset_other. tauto.
      * rewrite I6, plan_sum_mset, (mhas_false_mget _ _ Hfresh). cbn [map].
        change (sumZ (v x :: map v t)) with (v x + sumZ (map v t)). lia.
Qed.

Section Each.
Variables (infos sorted : list info) (need limit : Z).
Hypothesis Hvalid : valid_infos infos.
Hypothesis Hperm : Permutation infos sorted.
Hypothesis Hsorted : Sorted (ngt each_less) sorted.
Hypothesis Hneed : 0 < need.
Hypothesis Hlimit : 0 <= limit.

Let limit' := each_limit infos limit.
Let n := length sorted.
Let f := fun i : nat => cap (nth i sorted dinfo) <? need.
Let p := search n f.

Lemma each_len : length infos = length sorted.
Proof. apply Permutation_length. exact Hperm. Qed.

Lemma each_limit_nonneg : 0 <= limit'.
Proof. unfold limit', each_limit. destruct (Z.eqb_spec limit 0); lia. Qed.

Lemma each_search : search_post f n p.
Proof.
  apply search_spec. intros i j Hij Hi. unfold f in *.
  destruct (Nat.eq_dec i j) as [->|Hne]; [exact Hi|].
  assert (H := ssorted_nth each_rel dinfo sorted (each_sorted_strong _ Hsorted) i j).
  unfold each_rel in H. specialize (H ltac:(unfold n in Hij; lia)). lia.
Qed.

Lemma each_p_count : countb (fun x => need <=? cap x) sorted = Z.of_nat p.
Proof.
  destruct each_search as (Hp & Hlo & Hhi).
  apply (countb_prefix _ dinfo); [exact Hp| |].
  - intros i Hi. specialize (Hlo i Hi). unfold f in Hlo. lia.
  - intros i Hi. specialize (Hhi i Hi). unfold f in Hhi. lia.
Qed.

Lemma each_feasible_iff :
  feasible Each need limit infos = true <->
  (limit' <= Z.of_nat (length infos) /\ p <> 0%nat /\ limit' <= Z.of_nat p).
Proof.
  unfold feasible. fold limit'.
  rewrite (countb_perm _ _ _ Hperm), each_p_count.
  rewrite !andb_true_iff, !Z.leb_le.
  destruct each_search as (Hp & _). rewrite each_len. fold n.
  unfold limit', each_limit in *. destruct (Z.eqb_spec limit 0); rewrite ?each_len; fold n; lia.
Qed.

Lemma each_from_cases :
  (p = 0%nat /\ each_from sorted need limit' = Err EInsufficientCapacity) \/
  (p <> 0%nat /\ Z.of_nat p < limit' /\ each_from sorted need limit' = Err EInsufficientResource) \/
  (p <> 0%nat /\ limit' <= Z.of_nat p /\
   each_from sorted need limit' = Ok (each_fold need (firstn (Z.to_nat limit') sorted) [])).
Proof.
  unfold each_from. fold n. fold f. fold p.
  destruct (Nat.eqb_spec p 0) as [E|E]; [left; auto|right].
  destruct (Z.ltb_spec (Z.of_nat p) limit'); [left; auto|right].
  pose proof each_limit_nonneg.
  destruct (Z.ltb_spec limit' 0); [lia|]. auto.
Qed.

Let sel := firstn (Z.to_nat limit') sorted.

Lemma each_sel_nodup : NoDup (names sel).
Proof. apply nodup_names_firstn. destruct Hvalid as [Hnd _]. eapply nodup_names_perm; eauto. Qed.

Lemma each_plan_facts :
  let r := each_fold need sel [] in
  NoDup (map fst r) /\ length r = length sel /\
  (forall k, mhas r k = existsb (String.eqb k) (names sel)) /\
  (forall k, mget r k = if existsb (String.eqb k) (names sel) then need else 0).
Proof.
  destruct (fold_fresh_spec (fun dep x => madd dep (name x) need) (fun _ => need)
              (fun d x => madd_fresh d (name x) need) sel [] each_sel_nodup)
    as (H1 & H2 & H3 & H4 & H5 & _); simpl; auto; [constructor|].
  split; [exact H1|]. split; [exact H2|]. split; [exact H3|]. intro k.
  destruct (existsb (String.eqb k) (names sel)) eqn:E.
  - apply existsb_eqb_in in E. unfold names in E. apply in_map_iff in E. destruct E as (y & <- & Hy). auto.
  - apply H5. intro Hin. apply existsb_eqb_in in Hin. congruence.
Qed.

Lemma each_in_sel_name x : In x infos -> existsb (String.eqb (name x)) (names sel) = true -> In x sel.
Proof.
  intros Hx Hn. apply existsb_eqb_in in Hn. destruct Hvalid as [Hnd _].
  apply (in_of_name sorted); auto.
  - eapply nodup_names_perm; eauto.
  - eapply Permutation_in; eauto.
  - intros y Hy. eapply in_firstn; exact Hy.
Qed.

Lemma in_firstn_nth {A} (d : A) (l : list A) : forall m x, In x (firstn m l) ->
  exists i, (i < m)%nat /\ (i < length l)%nat /\ nth i l d = x.
Proof.
  induction l as [|h t IH]; intros m x H.
  - rewrite firstn_nil in H. destruct H.
  - destruct m as [|m]; simpl in H; [tauto|]. destruct H as [->|H].
    + exists 0%nat. simpl. repeat split; lia.
    + destruct (IH m x H) as (i & Hi & Hl & E). exists (S i). simpl. repeat split; auto; lia.
Qed.

Definition each_result : result :=
  if Z.of_nat (length infos) <? limit' then Err EInsufficientResource
  else each_from sorted need limit'.

Lemma each_sel_cap x : limit' <= Z.of_nat p -> In x sel -> need <= cap x.
Proof.
  intros Hlp Hx. destruct (in_firstn_nth dinfo sorted _ x Hx) as (i & Hi & Hl & E).
  destruct each_search as (_ & Hlo & _).
  specialize (Hlo i ltac:(lia)). unfold f in Hlo. rewrite E in Hlo. lia.
Qed.

Lemma each_C01 pl : each_from sorted need limit' = Ok pl -> C01_spec Each need limit infos pl.
Proof.
  intro H. destruct each_from_cases as [[_ E]|[(_ & _ & E)|(Hp0 & Hlp & E)]];
    rewrite E in H; try discriminate. injection H as <-.
  destruct each_plan_facts as (F1 & F2 & F3 & F4). fold sel.
  destruct each_search as (Hpn & _ & _).
  unfold C01_spec. split; [exact F1|]. split; [|split; [|split]].
  - intros k Hk. rewrite F3 in Hk. apply existsb_eqb_in in Hk.
    eapply Permutation_in; [symmetry; apply perm_names; exact Hperm|].
    unfold sel, names in Hk |- *. rewrite <- firstn_map in Hk. eapply in_firstn; exact Hk.
  - intros x Hx. rewrite F4. destruct (existsb _ _) eqn:E2.
    + assert (In x sel) by (apply each_in_sel_name; auto).
      pose proof (each_sel_cap x Hlp H). lia.
    + destruct Hvalid as [_ Hv]. rewrite Forall_forall in Hv. specialize (Hv x Hx). lia.
  - split.
    + rewrite F2. unfold sel. rewrite firstn_length. fold limit'. fold n.
      pose proof each_limit_nonneg. lia.
    + intros k Hk. rewrite F4. rewrite F3 in Hk. rewrite Hk. reflexivity.
  - discriminate.
Qed.

Lemma each_C02 :
  (feasible Each need limit infos = true -> exists pl, each_result = Ok pl) /\
  (feasible Each need limit infos = false ->
     each_result = Err EInsufficientResource \/ each_result = Err EInsufficientCapacity).
Proof.
  unfold each_result. split.
  - intro Hf. apply each_feasible_iff in Hf. destruct Hf as (H1 & H2 & H3).
    destruct (Z.ltb_spec (Z.of_nat (length infos)) limit'); [lia|].
    destruct each_from_cases as [[E0 _]|[(_ & Hlt & _)|(_ & _ & E)]]; try lia; try tauto.
    eexists. exact E.
  - intro Hf.
    destruct (Z.ltb_spec (Z.of_nat (length infos)) limit'); [left; reflexivity|].
    destruct each_from_cases as [[E0 E]|[(_ & Hlt & E)|(Hp0 & Hlp & E)]]; auto.
    exfalso. assert (feasible Each need limit infos = true); [|congruence].
    apply each_feasible_iff. repeat split; auto.
Qed.

Lemma each_C03 pl : each_from sorted need limit' = Ok pl -> C03_spec Each need limit infos pl.
Proof.
  intro H. destruct each_from_cases as [[_ E]|[(_ & _ & E)|(Hp0 & Hlp & E)]];
    rewrite E in H; try discriminate. injection H as <-.
  destruct each_plan_facts as (F1 & F2 & F3 & F4). fold sel.
  intros a b Ha Hb. cbv zeta. intros Hsa Hsb.
  rewrite F3 in Hsa, Hsb.
  assert (Hain : In a sel) by (apply each_in_sel_name; auto).
  assert (Hbs : In b sorted) by (eapply Permutation_in; eauto).
  pose proof (each_sorted_strong _ Hsorted) as Hss.
  rewrite <- (firstn_skipn (Z.to_nat limit') sorted) in Hss, Hbs.
  apply in_app_or in Hbs. destruct Hbs as [Hb1|Hb2].
  - exfalso. assert (existsb (String.eqb (name b)) (names sel) = true); [|congruence].
    apply existsb_eqb_in. apply in_names. exact Hb1.
  - apply (ssorted_app_rel each_rel _ _ a b Hss Hain Hb2).
Qed.
End Each.

Definition fill_rel (a b : info) : Prop := cnt b < cnt a \/ (cnt b = cnt a /\ cap b <= cap a).

Lemma fill_sorted_strong l : Sorted (ngt fill_less) l -> StronglySorted fill_rel l.
Proof.
  intro H. apply Sorted_StronglySorted.
  - intros a b c. unfold fill_rel. lia.
  - eapply Sorted_impl_in; [|exact H]. intros a b _ _. unfold ngt, fill_less, fill_rel.
    destruct (Z.eqb_spec (cnt b) (cnt a)); lia.
Qed.

Definition fill_val (need : Z) (x : info) : Z := Z.max (need - cnt x) 0.
Definition fill_step (need : Z) (st : plan * Z) (x : info) : plan * Z :=
  let d' := madd (fst st) (name x) (fill_val need x) in (d', snd st + mget d' (name x)).
Definition fill_fold (need : Z) (l : list info) (st : plan * Z) : plan * Z :=
  fold_left (fill_step need) l st.

Lemma fill_loop_spec need : forall l lim dep todo, 1 <= lim ->
  (countb (fillable need) l < lim -> fill_loop l need lim dep todo = Err EInsufficientResource) /\
  (lim <= countb (fillable need) l -> exists l1 l2, l = l1 ++ l2 /\ countb (fillable need) l1 = lim /\
     let r := fill_fold need (filter (fillable need) l1) (dep, todo) in
     fill_loop l need lim dep todo = if snd r =? 0 then AlreadyFilled (fst r) else Ok (fst r)).
Proof.
  induction l as [|x t IH]; intros lim dep todo Hlim.
  - split; [reflexivity|]. unfold countb; simpl. lia.
  - rewrite countb_cons. cbn [fill_loop]. destruct (fillable need x) eqn:Ex.
    + destruct (Z.eqb_spec (lim - 1) 0) as [E1|E1].
      * split; [pose proof (countb_nonneg (fillable need) t); lia|].
        intros _. exists [x], t. split; [reflexivity|]. split.
        -- rewrite countb_cons, Ex. unfold countb; simpl. lia.
        -- cbn [filter]. rewrite Ex. reflexivity.
      * destruct (IH (lim - 1) (madd dep (name x) (Z.max (need - cnt x) 0))
                     (todo + mget (madd dep (name x) (Z.max (need - cnt x) 0)) (name x))) as [I1 I2]; [lia|].
        split.
        -- intro Hc. apply I1. lia.
        -- intro Hc. destruct I2 as (l1 & l2 & -> & Hcnt & Hr); [lia|].
           exists (x :: l1), l2. split; [reflexivity|]. split.
           ++ rewrite countb_cons, Ex. lia.
           ++ cbn [filter]. rewrite Ex. exact Hr.
    + destruct (IH lim dep todo Hlim) as [I1 I2]. split.
      * intro Hc. apply I1. lia.
      * intro Hc. destruct I2 as (l1 & l2 & -> & Hcnt & Hr); [lia|].
        exists (x :: l1), l2. split; [reflexivity|]. split.
        -- rewrite countb_cons, Ex. lia.
        -- cbn [filter]. rewrite Ex. exact Hr.
Qed.

Lemma fill_fold_fresh need l : forall dep todo,
  NoDup (names l) -> (forall x, In x l -> mhas dep (name x) = false) ->
  fill_fold need l (dep, todo) =
  (fold_left (fun d x => madd d (name x) (fill_val need x)) l dep, todo + sumZ (map (fill_val need) l)).
Proof.
  induction l as [|x t IH]; intros dep todo Hnd Hdis.
  - unfold fill_fold, sumZ. simpl. rewrite Z.add_0_r. reflexivity.
  - simpl in Hnd. inversion Hnd as [|? ? Hx Ht]; subst.
    set (dep' := madd dep (name x) (fill_val need x)).
    change (fill_fold need (x :: t) (dep, todo)) with (fill_fold need t (dep', todo + mget dep' (name x))).
    rewrite IH; [|exact Ht|].
    + unfold dep'. rewrite mget_madd_same, (mhas_false_mget _ _ (Hdis x (or_introl eq_refl))).
      cbn [fold_left map]. change (sumZ (fill_val need x :: map (fill_val need) t))
        with (fill_val need x + sumZ (map (fill_val need) t)). f_equal. lia.
    + intros y Hy. unfold dep'. rewrite mhas_madd, (Hdis y (or_intror Hy)), orb_false_r.
      apply String.eqb_neq. intro E. apply Hx. rewrite E. apply in_names. exact Hy.
Qed.

Lemma fillable_iff need x : fillable need x = (need <=? cnt x + cap x).
Proof. unfold fillable. destruct (Z.leb_spec need (cnt x + cap x)); lia. Qed.

Section FillS.
Variables (infos sorted : list info) (need limit : Z).
Hypothesis Hvalid : valid_infos infos.
Hypothesis Hperm : Permutation infos sorted.
Hypothesis Hsorted : Sorted (ngt fill_less) sorted.
Hypothesis Hneed : 0 < need.
Hypothesis Hlimit : 0 <= limit.

Let limit' := each_limit infos limit.

Definition fill_result : result :=
  if Z.of_nat (length infos) <? limit' then Err EInsufficientResource
  else fill_from sorted need limit'.

Lemma fill_sorted_nodup : NoDup (names sorted).
Proof. destruct Hvalid as [Hnd _]. eapply nodup_names_perm; eauto. Qed.

Lemma fill_count_eq :
  countb (fun x => need <=? cnt x + cap x) infos = countb (fillable need) sorted.
Proof.
  rewrite (countb_perm _ _ _ Hperm). apply countb_ext. intros x _. symmetry. apply fillable_iff.
Qed.

Lemma fill_limit_cases : (limit' = 0 /\ infos = []) \/ 1 <= limit'.
Proof.
  unfold limit', each_limit. destruct (Z.eqb_spec limit 0).
  - destruct infos; [left; auto|right; simpl; lia].
  - right. lia.
Qed.

Lemma fill_from_plan r pl : fill_from sorted need limit' = r -> is_plan r pl ->
  1 <= limit' /\ exists l1 l2, sorted = l1 ++ l2 /\ countb (fillable need) l1 = limit' /\
    let sel := filter (fillable need) l1 in
    pl = fst (fill_fold need sel ([], 0)) /\
    (r = AlreadyFilled pl <-> snd (fill_fold need sel ([], 0)) = 0).
Proof.
  intros Hr Hpl. unfold fill_from in Hr.
  destruct fill_limit_cases as [[E0 En]|H1].
  - exfalso. rewrite En in Hperm. apply Permutation_nil in Hperm. rewrite Hperm in Hr.
    simpl in Hr. subst r. destruct Hpl; discriminate.
  - split; [exact H1|].
    destruct (fill_loop_spec need sorted limit' [] 0 H1) as [I1 I2].
    destruct (Z.lt_ge_cases (countb (fillable need) sorted) limit') as [Hlt|Hge].
    + rewrite (I1 Hlt) in Hr. subst r. destruct Hpl; discriminate.
    + destruct (I2 Hge) as (l1 & l2 & E & Hc & Hres). exists l1, l2. split; [exact E|]. split; [exact Hc|].
      cbv zeta in *. rewrite Hres in Hr. subst r. unfold is_plan in Hpl. revert Hpl.
      match goal with |- context [if ?c =? 0 then _ else _] => destruct (Z.eqb_spec c 0) as [Ez|Ez] end;
        intros [Hpl|Hpl]; inversion Hpl; subst; (split; [reflexivity|]); split; intro Hd;
        first [exact Ez | reflexivity | discriminate Hd | destruct (Ez Hd)].
Qed.

(* the plan of a successful run, candidate by candidate: the fillable nodes of the prefix l1 are
   topped up, nothing else is touched *)
Lemma fill_plan_facts r pl : fill_from sorted need limit' = r -> is_plan r pl ->
  exists l1 l2, sorted = l1 ++ l2 /\ countb (fillable need) l1 = limit' /\
    NoDup (map fst pl) /\ Z.of_nat (length pl) = limit' /\
    (forall k, mhas pl k = true -> In k (names l1)) /\
    (forall y, In y l1 -> mhas pl (name y) = fillable need y) /\
    (forall y, In y l2 -> mhas pl (name y) = false) /\
    (forall y, In y l1 -> fillable need y = true -> mget pl (name y) = fill_val need y) /\
    (r = AlreadyFilled pl <-> plan_sum pl = 0).
Proof.
  intros Hr Hpl. destruct (fill_from_plan r pl Hr Hpl) as (H1 & l1 & l2 & E & Hc & Hp & Haf).
  exists l1, l2. split; [exact E|]. split; [exact Hc|].
  cbv zeta in *. set (sel := filter (fillable need) l1) in *.
  pose proof fill_sorted_nodup as Hnd. rewrite E, names_app in Hnd.
  pose proof (NoDup_app_l _ _ Hnd) as Hnd1.
  rewrite fill_fold_fresh in Hp, Haf by (exact (nodup_names_filter _ _ Hnd1) || (intros; reflexivity)).
  cbn [fst snd] in Hp, Haf.
  destruct (fold_fresh_spec (fun d x => madd d (name x) (fill_val need x)) (fill_val need)
              (fun d x => madd_fresh d (name x) _) sel [] (nodup_names_filter _ _ Hnd1))
    as (F1 & F2 & F3 & F4 & _ & F6); simpl; auto; [constructor|].
  rewrite <- Hp in *. cbn [mhas orb] in F3.
  assert (Hk1 : forall k, mhas pl k = true -> In k (names l1)).
  { intros k Hk. rewrite F3 in Hk. apply existsb_eqb_in in Hk.
    exact (incl_map name (incl_filter _ l1) k Hk). }
  split; [exact F1|]. split; [rewrite F2, <- Hc; reflexivity|]. split; [exact Hk1|split; [|split; [|split]]].
  - intros y Hy. rewrite F3. destruct (fillable need y) eqn:Ef.
    + apply existsb_eqb_in, in_names, filter_In. split; assumption.
    + destruct (existsb _ _) eqn:Ex; [|reflexivity]. apply existsb_eqb_in in Ex.
      apply (in_of_name l1 sel y Hnd1 Hy (incl_filter _ _)), filter_In in Ex. destruct Ex. congruence.
  - intros y Hy. destruct (mhas pl (name y)) eqn:Ex; [|reflexivity].
    destruct (NoDup_app_disjoint _ _ (name y) Hnd (Hk1 _ Ex) (in_names _ _ Hy)).
  - intros y Hy Hf. apply F4. apply filter_In. split; assumption.
  - rewrite Haf, F6. cbn. lia.
Qed.

Lemma fill_C01 r pl : fill_from sorted need limit' = r -> is_plan r pl ->
  C01_spec Fill need limit infos pl /\ (r = AlreadyFilled pl -> plan_sum pl = 0).
Proof.
  intros Hr Hpl.
  destruct (fill_plan_facts r pl Hr Hpl) as (l1 & l2 & E & Hc & F1 & F2 & Fk & Fi1 & Fi2 & Fv & Faf).
  split; [|apply Faf].
  assert (Hcase : forall x, In x infos ->
            (In x l1 /\ fillable need x = true /\ mhas pl (name x) = true /\ mget pl (name x) = fill_val need x) \/
            (mhas pl (name x) = false /\ mget pl (name x) = 0)).
  { intros x Hx. apply (Permutation_in _ Hperm) in Hx. rewrite E in Hx. apply in_app_or in Hx.
    destruct Hx as [Hx|Hx]; [destruct (fillable need x) eqn:Ef|].
    - left. rewrite Fi1, Fv by assumption. auto.
    - right. rewrite <- Ef, <- Fi1 by assumption. split; [reflexivity|]. apply mhas_false_mget. rewrite Fi1; assumption.
    - right. split; [|apply mhas_false_mget]; apply Fi2; exact Hx. }
  unfold C01_spec. split; [exact F1|]. split; [|split; [|split; [split|discriminate]]].
  - intros k Hk. eapply Permutation_in; [symmetry; apply perm_names; exact Hperm|].
    rewrite E, names_app. apply in_or_app. left. apply Fk. exact Hk.
  - intros x Hx. destruct Hvalid as [_ Hv]. rewrite Forall_forall in Hv. specialize (Hv x Hx).
    destruct (Hcase x Hx) as [(_ & Hf & _ & ->)|[_ ->]]; [|lia]. unfold fillable in Hf. unfold fill_val. lia.
  - exact F2.
  - intros x Hx Hh. destruct (Hcase x Hx) as [(_ & _ & _ & Hg)|[Hn _]]; [|congruence].
    unfold fin. rewrite Hg. unfold fill_val. lia.
Qed.

Lemma fill_from_cases :
  (1 <= limit' <= countb (fillable need) sorted /\ exists pl, is_plan (fill_from sorted need limit') pl) \/
  ((limit' < 1 \/ countb (fillable need) sorted < limit') /\
   fill_from sorted need limit' = Err EInsufficientResource).
Proof.
  unfold fill_from. destruct fill_limit_cases as [[E0 En]|H1].
  - right. split; [left; lia|]. rewrite En in Hperm. apply Permutation_nil in Hperm. rewrite Hperm. reflexivity.
  - destruct (fill_loop_spec need sorted limit' [] 0 H1) as [I1 I2].
    destruct (Z.lt_ge_cases (countb (fillable need) sorted) limit') as [Hlt|Hge]; [right; auto|left].
    split; [lia|]. destruct (I2 Hge) as (l1 & l2 & _ & _ & Hr). cbv zeta in Hr. rewrite Hr.
    destruct (_ =? 0); eexists; [right|left]; reflexivity.
Qed.

Lemma fill_C02 :
  (feasible Fill need limit infos = true -> exists pl, is_plan fill_result pl) /\
  (feasible Fill need limit infos = false -> fill_result = Err EInsufficientResource).
Proof.
  unfold fill_result, feasible. fold limit'. rewrite fill_count_eq.
  destruct fill_from_cases as [[Hr (pl & Hpl)]|[Hr E]]; [|rewrite E]; split;
    rewrite ?andb_true_iff, ?andb_false_iff, ?Z.leb_le, ?Z.leb_gt; intro Hf;
    destruct (Z.ltb_spec (Z.of_nat (length infos)) limit'); try lia; eauto.
Qed.

Lemma fill_C03 r pl : fill_from sorted need limit' = r -> is_plan r pl -> C03_spec Fill need limit infos pl.
Proof.
  intros Hr Hpl.
  destruct (fill_plan_facts r pl Hr Hpl) as (l1 & l2 & E & _ & _ & _ & _ & Fi1 & Fi2 & _ & _).
  intros a b Ha Hb. cbv zeta. intros Hsa Hsb Hfb.
  apply (Permutation_in _ Hperm) in Ha, Hb. rewrite E in Ha, Hb. apply in_app_or in Ha, Hb.
  (* a was selected, so it stands in l1; b was fillable and not selected, so it stands after l1 *)
  destruct Ha as [Ha|Ha]; [|rewrite (Fi2 a Ha) in Hsa; discriminate].
  destruct Hb as [Hb|Hb]; [rewrite (Fi1 b Hb), fillable_iff in Hsb; lia|].
  pose proof (fill_sorted_strong _ Hsorted) as Hss. rewrite E in Hss.
  apply (ssorted_app_rel fill_rel _ _ a b Hss Ha Hb).
Qed.
End FillS.

Definition drained_rel (a b : info) : Prop := cap a <= cap b.

Lemma drained_sorted_strong l : Sorted (ngt drained_less) l -> StronglySorted drained_rel l.
Proof.
  intro H. apply Sorted_StronglySorted.
  - intros a b c. unfold drained_rel. lia.
  - eapply Sorted_impl_in; [|exact H]. intros a b _ _. unfold ngt, drained_less, drained_rel.
    destruct (Z.eqb_spec (cap b) (cap a)); simpl; lia.
Qed.

Definition caps (l : list info) : Z := sumZ (map cap l).
Lemma caps_cons x l : caps (x :: l) = cap x + caps l.
Proof. reflexivity. Qed.
Lemma caps_nonneg l : Forall (fun x => 0 <= cap x) l -> 0 <= caps l.
Proof. unfold caps, sumZ. induction 1; simpl; lia. Qed.
Lemma caps_perm l l' : Permutation l l' -> caps l = caps l'.
Proof. intro H. unfold caps. apply sumZ_perm. apply Permutation_map. exact H. Qed.

Definition drained_fold (l : list info) (dep : plan) : plan :=
  fold_left (fun d y => mset d (name y) (cap y)) l dep.

Lemma drained_loop_spec : forall l need dep, 1 <= need -> Forall (fun x => 0 <= cap x) l ->
  (caps l < need -> drained_loop l need dep = Err EInsufficientResource) /\
  (need <= caps l -> exists l1 x l2, l = l1 ++ x :: l2 /\ caps l1 < need <= caps l1 + cap x /\
     drained_loop l need dep = Ok (mset (drained_fold l1 dep) (name x) (need - caps l1))).
Proof.
  induction l as [|y t IH]; intros need dep Hneed Hcap.
  - split; [reflexivity|]. unfold caps, sumZ; simpl. lia.
  - inversion Hcap as [|? ? Hy Ht]; subst. pose proof (caps_nonneg t Ht) as Hnn.
    rewrite caps_cons. cbn [drained_loop].
    destruct (Z.le_gt_cases need (cap y)) as [Hle|Hgt].
    + split; [lia|]. intros _. exists [], y, t. split; [reflexivity|].
      change (caps []) with 0. split; [lia|]. rewrite Z.sub_0_r. cbn [drained_fold fold_left].
      destruct (Z.ltb_spec need (cap y)); [reflexivity|].
      replace (cap y) with need by lia. rewrite Z.sub_diag. reflexivity.
    + destruct (Z.ltb_spec need (cap y)); [lia|]. destruct (Z.eqb_spec (need - cap y) 0); [lia|].
      destruct (IH (need - cap y) (mset dep (name y) (cap y))) as [I1 I2]; [lia|exact Ht|].
      split.
      * intro Hc. apply I1. lia.
      * intro Hc. destruct I2 as (l1 & x & l2 & -> & Hb & Hr); [lia|].
        exists (y :: l1), x, l2. split; [reflexivity|]. rewrite caps_cons. split; [lia|].
        rewrite Hr. cbn [drained_fold fold_left]. f_equal. f_equal. lia.
Qed.

Section DrainedS.
Variables (infos sorted : list info) (need total : Z).
Hypothesis Hvalid : valid_infos infos.
Hypothesis Hperm : Permutation infos sorted.
Hypothesis Hsorted : Sorted (ngt drained_less) sorted.
Hypothesis Hneed : 0 < need.

Definition drained_result : result :=
  if total <? need then Err EInsufficientResource else drained_from sorted need total.

Lemma drained_caps_nonneg : Forall (fun x => 0 <= cap x) sorted.
Proof.
  destruct (valid_infos_perm _ _ Hperm Hvalid) as [_ Hv]. eapply Forall_impl; [|exact Hv]. intros x Hx. apply Hx.
Qed.

Lemma drained_sorted_nodup : NoDup (names sorted).
Proof. destruct Hvalid as [Hnd _]. eapply nodup_names_perm; eauto. Qed.

(* shape of a successful run: l1 is drained completely, x takes the rest *)
Lemma drained_from_plan pl : drained_from sorted need total = Ok pl ->
  exists l1 x l2, sorted = l1 ++ x :: l2 /\ caps l1 < need <= caps l1 + cap x /\
    NoDup (map fst pl) /\
    (forall k, mhas pl k = true -> In k (names (l1 ++ [x]))) /\
    (forall y, In y l1 -> mhas pl (name y) = true /\ mget pl (name y) = cap y) /\
    (mhas pl (name x) = true /\ mget pl (name x) = need - caps l1) /\
    (forall y, In y l2 -> mhas pl (name y) = false) /\
    plan_sum pl = need.
Proof.
  unfold drained_from. intro H.
  destruct (drained_loop_spec sorted need [] ltac:(lia) drained_caps_nonneg) as [I1 I2].
  destruct (Z.lt_ge_cases (caps sorted) need) as [Hlt|Hge]; [rewrite (I1 Hlt) in H; discriminate|].
  destruct (I2 Hge) as (l1 & x & l2 & E & Hb & Hr). rewrite Hr in H. injection H as <-.
  exists l1, x, l2. split; [exact E|]. split; [exact Hb|].
  pose proof drained_sorted_nodup as Hnd. rewrite E, names_app in Hnd.
  assert (Hnd1 : NoDup (names l1)) by (eapply NoDup_app_l; eauto).
  assert (Hx1 : ~ In (name x) (names l1)).
  { intro Hin. apply (NoDup_app_disjoint _ _ (name x) Hnd Hin). simpl. left; reflexivity. }
  destruct (fold_fresh_spec (fun d y => mset d (name y) (cap y)) cap (fun _ _ _ => eq_refl) l1 [] Hnd1)
    as (F1 & _ & F3 & F4 & F5 & F6); simpl; auto; [constructor|].
  fold (drained_fold l1 []) in *. fold (caps l1) in F6.
  split; [apply nodup_keys_mset; exact F1|]. split; [|split; [|split; [|split]]].
  - intros k Hk. rewrite mhas_mset, F3 in Hk. simpl in Hk. apply orb_true_iff in Hk.
    rewrite names_app, in_app_iff, <- existsb_eqb_in.
    destruct Hk as [Hk|Hk]; [right; left; apply String.eqb_eq; exact Hk|left; exact Hk].
  - intros y Hy. rewrite mhas_mset, F3, mget_mset_other.
    + rewrite (proj2 (existsb_eqb_in _ _) (in_names _ _ Hy)), !orb_true_r. split; [reflexivity|apply F4; exact Hy].
    + intro Exy. apply Hx1. rewrite Exy. apply in_names. exact Hy.
  - rewrite mhas_mset, String.eqb_refl. split; [reflexivity|apply mget_mset_same].
  - intros y Hy. pose proof (NoDup_app_r _ _ Hnd) as Hnd2. inversion Hnd2 as [|? ? Hx2 _]; subst.
    rewrite mhas_mset, F3. cbn [mhas orb]. apply orb_false_iff. split.
    + apply String.eqb_neq. intro Exy. apply Hx2. rewrite Exy. apply in_names. exact Hy.
    + destruct (existsb _ _) eqn:Ex; [|reflexivity]. apply existsb_eqb_in in Ex.
      destruct (NoDup_app_disjoint _ _ (name y) Hnd Ex). right. apply in_names. exact Hy.
  - rewrite plan_sum_mset, F6. rewrite F5 by exact Hx1. unfold plan_sum at 1. simpl. unfold sumZ; simpl. lia.
Qed.

Lemma drained_C01 pl : drained_from sorted need total = Ok pl -> C01_spec Drained need 0 infos pl.
Proof.
  intro H. destruct (drained_from_plan pl H) as (l1 & x & l2 & E & Hb & P1 & P2 & P3 & P4 & P5 & P6).
  pose proof drained_caps_nonneg as Hcn. rewrite Forall_forall in Hcn.
  unfold C01_spec. split; [exact P1|]. split; [|split; [|split]].
  - intros k Hk. specialize (P2 k Hk).
    eapply Permutation_in; [symmetry; apply perm_names; exact Hperm|].
    rewrite E. rewrite names_app in *. simpl. rewrite in_app_iff in *. simpl in *. tauto.
  - intros y Hy. assert (Hys : In y sorted) by (eapply Permutation_in; eauto).
    pose proof (Hcn y Hys) as Hcy.
    rewrite E in Hys. apply in_app_or in Hys. destruct Hys as [Hy1|[<-|Hy2]].
    + rewrite (proj2 (P3 y Hy1)). lia.
    + rewrite (proj2 P4). lia.
    + rewrite (mhas_false_mget _ _ (P5 y Hy2)). lia.
  - exact P6.
  - discriminate.
Qed.

Lemma drained_C01_limit pl limit : drained_from sorted need total = Ok pl -> C01_spec Drained need limit infos pl.
Proof.
  intro H. destruct (drained_C01 pl H) as (A & B & C & D & _).
  unfold C01_spec. repeat split; auto; try apply C; auto. discriminate.
Qed.

Lemma drained_from_cases :
  (need <= caps infos /\ exists pl, drained_from sorted need total = Ok pl) \/
  (caps infos < need /\ drained_from sorted need total = Err EInsufficientResource).
Proof.
  unfold drained_from. rewrite (caps_perm _ _ Hperm).
  destruct (drained_loop_spec sorted need [] (Zlt_le_succ 0 need Hneed) drained_caps_nonneg) as [I1 I2].
  destruct (Z.lt_ge_cases (caps sorted) need) as [Hlt|Hge]; [right; auto|left].
  split; [exact Hge|]. destruct (I2 Hge) as (l1 & x & l2 & _ & _ & Hr). eauto.
Qed.

Lemma drained_C02 : total = satsum (map cap infos) -> need <= max_int ->
  (feasible Drained need 0 infos = true -> exists pl, drained_result = Ok pl) /\
  (feasible Drained need 0 infos = false -> drained_result = Err EInsufficientResource).
Proof.
  intros Ht Hmax. unfold drained_result, feasible. fold (caps infos).
  assert (Hs : total = Z.min max_int (caps infos)).
  { rewrite Ht. apply satsum_spec. destruct Hvalid as [_ Hv].
    rewrite Forall_forall in *. intros z Hz. apply in_map_iff in Hz. destruct Hz as (x & <- & Hx).
    apply Hv. exact Hx. }
  destruct drained_from_cases as [[Hge (pl & E)]|[Hlt E]]; rewrite E; split;
    rewrite ?Z.leb_le, ?Z.leb_gt; intro Hf; destruct (Z.ltb_spec total need); try lia; eauto.
Qed.

Lemma drained_C03 pl limit : drained_from sorted need total = Ok pl -> C03_spec Drained need limit infos pl.
Proof.
  intro H. destruct (drained_from_plan pl H) as (l1 & x & l2 & E & Hb & P1 & P2 & P3 & P4 & P5 & P6).
  intros a b Ha Hb'. cbv zeta. intros Hcap Hpb.
  apply (Permutation_in _ Hperm) in Ha, Hb'. rewrite E in Ha, Hb'. apply in_app_or in Ha, Hb'.
  pose proof (drained_sorted_strong _ Hsorted) as Hss. rewrite E in Hss.
  (* b received something: it is in l1 or is x *)
  assert (Hb1x : In b (l1 ++ [x])).
  { rewrite in_app_iff. simpl.
    destruct Hb' as [Hb1|[<-|Hb2]]; auto. rewrite (mhas_false_mget _ _ (P5 b Hb2)) in Hpb. lia. }
  (* a stands strictly before b, hence in l1 *)
  destruct Ha as [Ha1|Ha2]; [apply (P3 a Ha1)|].
  exfalso. destruct Ha2 as [->|Ha2].
  - apply in_app_or in Hb1x. destruct Hb1x as [Hbl1|[<-|[]]]; [|lia].
    pose proof (ssorted_app_rel drained_rel _ _ b a Hss Hbl1 (or_introl eq_refl)) as Hr.
    unfold drained_rel in Hr. lia.
  - change (x :: l2) with ([x] ++ l2) in Hss. rewrite app_assoc in Hss.
    pose proof (ssorted_app_rel drained_rel _ _ b a Hss Hb1x Ha2) as Hr.
    unfold drained_rel in Hr. lia.
Qed.
End DrainedS.
