(* AUTO (CommunismPlan): loop invariant over the exact heap model. *)
From Coq Require Import String Ascii.
From Coq Require Import List Bool ZArith Arith Lia Permutation.
From Verif Require Import Base.GoInt Base.GoFloat Base.GoHeap Base.GoHeapSpec Strategy.Model Strategy.ProofsBase.
Import ListNotations.
Local Open Scope Z_scope.

(* the heap order of infoHeap.Less *)
Notation ale := (hle info auto_less).

Lemma auto_le_spec a b :
  ale a b = true <-> (cnt a < cnt b \/ (cnt a = cnt b /\ cap b <= cap a)).
Proof.
  unfold hle, auto_less.
  destruct (Z.ltb_spec (cnt b) (cnt a)), (Z.eqb_spec (cnt b) (cnt a)), (Z.gtb_spec (cap b) (cap a));
    simpl; split; intro HH; try lia; try discriminate; try reflexivity.
Qed.

Lemma auto_le_refl a : ale a a = true.
Proof. apply auto_le_spec. lia. Qed.
Lemma auto_le_trans a b c : ale a b = true -> ale b c = true -> ale a c = true.
Proof. rewrite !auto_le_spec. lia. Qed.
Lemma auto_le_total a b : ale a b = true \/ ale b a = true.
Proof. rewrite !auto_le_spec. lia. Qed.

Notation ainv := (heap_inv info dinfo auto_less).

(* ghost state: the candidate as the loop sees it once the instances of [dep] are placed *)
Definition cur (dep : plan) (x : info) : info :=
  mkInfo (name x) (usage x) (rate x) (cap x - mget dep (name x)) (cnt x + mget dep (name x)).

Lemma cur_nil x : cur [] x = x.
Proof. destruct x. unfold cur. simpl. f_equal; lia. Qed.

Lemma name_cur dep x : name (cur dep x) = name x.
Proof. reflexivity. Qed.

Lemma cur_madd_same dep x : cur (madd dep (name x) 1) x = bump (cur dep x).
Proof. unfold cur, bump. simpl. rewrite mget_madd_same. f_equal; lia. Qed.

Lemma cur_madd_other dep x y : name x <> name y -> cur (madd dep (name x) 1) y = cur dep y.
Proof. intro H. unfold cur. rewrite mget_madd_other by exact H. reflexivity. Qed.

Section Auto.
Variables (infos : list info) (limit : Z).
Hypothesis Hvalid : valid_infos infos.
Hypothesis Hlimit : 0 <= limit.

Definition rm (x : info) : Z := room limit x.

Lemma rm_nonneg x : In x infos -> 0 <= rm x.
Proof.
  intro Hx. destruct Hvalid as [_ Hv]. rewrite Forall_forall in Hv. specialize (Hv x Hx).
  unfold rm, room. destruct (limit >? 0); lia.
Qed.

Lemma rm_le_cap x : rm x <= cap x.
Proof. unfold rm, room. destruct (limit >? 0); lia. Qed.

Lemma keep_iff_room dep x : 0 <= mget dep (name x) <= rm x ->
  (auto_keep limit (cur dep x) = true <-> mget dep (name x) < rm x).
Proof.
  intro Hd. unfold auto_keep, cur, rm, room in *. simpl in *.
  destruct (Z.eqb_spec (cap x - mget dep (name x)) 0), (Z.gtb_spec limit 0),
           (Z.geb_spec (cnt x + mget dep (name x)) limit);
    simpl; split; intro HH; try lia; try discriminate; try reflexivity.
Qed.

Lemma auto_budget : budget_ok infos rm cur (auto_keep limit) bump.
Proof.
  split; [apply Hvalid|exact rm_nonneg|reflexivity|exact cur_madd_other| |intros dep x _; apply keep_iff_room].
  intros dep x _. apply cur_madd_same.
Qed.

Definition dep_inv (dep : plan) : Prop :=
  within infos rm dep /\
  (forall a b, In a infos -> In b infos -> 1 <= mget dep (name a) ->
     auto_keep limit (cur dep b) = true ->
     cnt a + mget dep (name a) <= cnt b + mget dep (name b) + 1).

Definition heap_rel (h : list info) (dep : plan) : Prop :=
  Permutation h (eligible infos cur (auto_keep limit) dep) /\ ainv h.

Lemma dep_inv_step h dep x :
  dep_inv dep -> heap_rel h dep ->
  In x infos -> auto_keep limit (cur dep x) = true ->
  (forall y, In y h -> ale (cur dep x) y = true) ->
  dep_inv (madd dep (name x) 1).
Proof.
  intros [Hw D4] [Hperm _] Hx Hk Hmin.
  split; [apply (within_madd _ _ _ _ _ auto_budget); assumption|].
  destruct Hvalid as [Hnd Hv].
  intros a b Ha Hb Hda Hkb.
  (* eligibility of b now implies eligibility before *)
  assert (Hkb0 : auto_keep limit (cur dep b) = true).
  { destruct (names_eq_dec infos x b Hnd Hx Hb) as [<-|E]; [exact Hk|].
    rewrite cur_madd_other in Hkb by exact E. exact Hkb. }
  destruct (names_eq_dec infos x a Hnd Hx Ha) as [<-|Ea];
    destruct (names_eq_dec infos x b Hnd Hx Hb) as [<-|Eb].
  + lia.
  + rewrite mget_madd_same. rewrite mget_madd_other by exact Eb.
    assert (Hin : In (cur dep b) h).
    { eapply Permutation_in; [symmetry; exact Hperm|]. apply in_eligible; assumption. }
    specialize (Hmin _ Hin). apply auto_le_spec in Hmin. unfold cur in Hmin. simpl in Hmin. lia.
  + rewrite mget_madd_same. rewrite mget_madd_other in * by exact Ea.
    specialize (D4 a x Ha Hx Hda Hk). lia.
  + rewrite !mget_madd_other in * by assumption.
    apply D4; auto.
Qed.

Lemma heap_rel_step h dep x h' :
  dep_inv dep -> heap_rel h dep ->
  In x infos -> auto_keep limit (cur dep x) = true ->
  Permutation h (cur dep x :: h') -> ainv h' ->
  let x' := bump (cur dep x) in
  let h'' := if auto_keep limit x' then push dinfo auto_less h' x'
             else up dinfo auto_less (length h') h' (length h' - 1)%nat in
  heap_rel h'' (madd dep (name x) 1).
Proof.
  intros [Hw _] [Hperm Hinv] Hx Hk Hpop Hinv'. cbv zeta.
  pose proof (eligible_madd _ _ _ _ _ auto_budget dep x h h' Hw Hx Hk Hperm Hpop) as Hel.
  destruct (auto_keep limit (bump (cur dep x))).
  - split; [rewrite push_perm; exact Hel|].
    apply (push_inv_all info dinfo auto_less auto_le_refl auto_le_trans auto_le_total). exact Hinv'.
  - assert (Hsame : up dinfo auto_less (length h') h' (length h' - 1)%nat = h').
    { destruct h' as [|z t]; [reflexivity|].
      apply (up_heap_id info dinfo auto_less (fun _ => True) (fun a _ => auto_le_refl a)
               (fun a b c _ _ _ => auto_le_trans a b c) (fun a b _ _ => auto_le_total a b))
        with (n := length (z :: t)); [exact Hinv'|simpl; lia]. }
    rewrite Hsame. split; [exact Hel|exact Hinv'].
Qed.

Lemma auto_loop_spec : forall k h dep, (1 <= k)%nat -> dep_inv dep -> heap_rel h dep ->
  (Z.of_nat k <= budget infos rm dep -> exists p, auto_loop k h limit dep = Ok p /\ dep_inv p /\
                                      plan_sum p = plan_sum dep + Z.of_nat k) /\
  (budget infos rm dep < Z.of_nat k -> auto_loop k h limit dep = Err EInsufficientResource).
Proof.
  induction k as [|k IH]; intros h dep Hk Hdi Hhr; [lia|].
  destruct Hhr as [Hperm Hinv].
  cbn [auto_loop].
  destruct h as [|z t].
  - (* heap empty: nobody is eligible *)
    apply Permutation_nil in Hperm.
    pose proof (budget_zero _ _ _ _ _ auto_budget dep (proj1 Hdi) Hperm) as Hr0.
    simpl. split; [lia|reflexivity].
  - destruct (pop_some info dinfo auto_less (z :: t) ltac:(discriminate)) as (x' & h' & Hpop).
    pose proof (pop_perm info dinfo auto_less _ _ _ Hpop) as Hpp.
    destruct (pop_min_all info dinfo auto_less auto_le_refl auto_le_trans auto_le_total _ _ _ Hinv Hpop)
      as [Hmin Hinv'].
    rewrite Hpop.
    destruct (eligible_in infos cur (auto_keep limit) dep x') as (x & Hx & -> & Hx'k).
    { eapply Permutation_in; [exact Hperm|]. eapply Permutation_in; [symmetry; exact Hpp|]. left; reflexivity. }
    assert (Hdi' : dep_inv (madd dep (name x) 1)).
    { exact (dep_inv_step (z :: t) dep x Hdi (conj Hperm Hinv) Hx Hx'k Hmin). }
    pose proof (budget_madd _ _ _ _ _ auto_budget dep x Hx) as Hrem'.
    pose proof (budget_pos _ _ _ _ _ auto_budget dep x (proj1 Hdi) Hx Hx'k) as Hpos.
    rewrite name_cur.
    destruct k as [|k'].
    + split; [|lia]. intros _. eexists. split; [reflexivity|]. split; [exact Hdi'|].
      rewrite plan_sum_madd. lia.
    + assert (Hhr' := heap_rel_step (z :: t) dep x h' Hdi (conj Hperm Hinv) Hx Hx'k Hpp Hinv').
      cbv zeta in Hhr'.
      destruct (IH _ _ ltac:(lia) Hdi' Hhr') as [I1 I2].
      split.
      * intro Hle. destruct I1 as (p & Hp & Hpi & Hps); [lia|].
        exists p. split; [exact Hp|]. split; [exact Hpi|]. rewrite Hps, plan_sum_madd. lia.
      * intro Hlt. apply I2. lia.
Qed.

Lemma heap_rel_init :
  heap_rel (init dinfo auto_less (filter (auto_keep limit) infos)) [].
Proof.
  split.
  - unfold eligible. rewrite (map_ext _ id cur_nil), map_id. apply init_perm.
  - apply (init_inv_all info dinfo auto_less auto_le_refl auto_le_trans auto_le_total).
Qed.

Lemma dep_inv_nil : dep_inv [].
Proof.
  split; [exact (within_nil _ _ _ _ _ auto_budget)|]. intros a b _ _ H. simpl in H. lia.
Qed.

Lemma dep_inv_C01 need p : dep_inv p -> plan_sum p = need -> C01_spec Auto need limit infos p.
Proof.
  intros ((D0 & D2 & D1) & D4) Hs. unfold C01_spec. split; [exact D0|]. split; [exact D2|]. split; [|split].
  - intros x Hx. specialize (D1 x Hx). pose proof (rm_le_cap x). lia.
  - exact Hs.
  - intros _ Hl x Hx Hp. specialize (D1 x Hx). unfold fin, rm, room in *.
    destruct (Z.gtb_spec limit 0); lia.
Qed.

Lemma dep_inv_C03 need p : dep_inv p -> C03_spec Auto need limit infos p.
Proof.
  intros ((D0 & D2 & D1) & D4) a b Ha Hb. cbv zeta. intros Hpa Hcb Hlb.
  unfold fin. apply D4; auto.
  apply keep_iff_room; [apply D1; exact Hb|].
  specialize (D1 b Hb). unfold rm, room, fin in *. destruct (Z.gtb_spec limit 0); lia.
Qed.

Lemma communism_spec need total : 0 < need ->
  (exists p, communism infos need total limit = Ok p /\ dep_inv p /\ plan_sum p = need /\
             total >= need /\ need <= sumZ (map (room limit) infos)) \/
  (communism infos need total limit = Err EInsufficientResource /\
   (total < need \/ sumZ (map (room limit) infos) < need)).
Proof.
  intro Hneed. unfold communism.
  destruct (Z.ltb_spec total need) as [Ht|Ht]; [right; auto|].
  destruct (auto_loop_spec (Z.to_nat need) _ [] ltac:(lia) dep_inv_nil heap_rel_init) as [I1 I2].
  rewrite (budget_nil infos rm) in *. change (sumZ (map rm infos)) with (sumZ (map (room limit) infos)) in *.
  rewrite Z2Nat.id in * by lia.
  destruct (Z_lt_ge_dec (sumZ (map (room limit) infos)) need) as [Hr|Hr]; [right; auto|left].
  destruct (I1 ltac:(lia)) as (p & Hp & Hpi & Hps). exists p.
  split; [exact Hp|]. split; [exact Hpi|]. split; [exact Hps|lia].
Qed.
End Auto.
