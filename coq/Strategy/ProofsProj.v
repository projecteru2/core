(* Independence of the tie order: whichever sorted permutation of the candidates
   sort.Slice returns (Go's pdqsort is unstable above 12 elements), the strategy's
   outcome class is the same and the multiset of projected tuples (attributes read
   by the strategy, plan entry) is the same. *)
From Coq Require Import String Ascii.
From Coq Require Import List Bool ZArith Arith Lia Permutation Sorted ZifyBool.
From Verif Require Import Base.GoInt Base.GoFloat Base.GoSort Base.GoSortSpec Base.RunLib
  Strategy.Model Strategy.ProofsBase Strategy.ProofsSort.
Import ListNotations.
Local Open Scope Z_scope.

Lemma map_as_seq {A B} (f : A -> B) (d : A) (l : list A) :
  map f l = map (fun i => f (nth i l d)) (seq 0 (length l)).
Proof.
  induction l as [|h t IH]; simpl; [reflexivity|]. f_equal.
  rewrite <- seq_shift, map_map. exact IH.
Qed.

Lemma name_in_firstn l : NoDup (names l) -> forall i m, (i < length l)%nat ->
  existsb (String.eqb (name (nth i l dinfo))) (names (firstn m l)) = Nat.ltb i m.
Proof.
  induction l as [|h t IH]; intros Hnd i m Hi; simpl in Hi; [lia|].
  simpl in Hnd. inversion Hnd as [|? ? Hh Ht]; subst.
  destruct m as [|m]; [destruct i; reflexivity|].
  destruct i as [|i]; simpl.
  - rewrite String.eqb_refl. reflexivity.
  - assert (E : String.eqb (name (nth i t dinfo)) (name h) = false).
    { apply String.eqb_neq. intro E. apply Hh. rewrite <- E. apply in_names. apply nth_In. lia. }
    rewrite E. simpl. change (Nat.ltb (S i) (S m)) with (Nat.ltb i m). apply IH; auto. lia.
Qed.

Section EachProj.
Variables (infos s1 s2 : list info) (need limit : Z).
Hypothesis Hvalid : valid_infos infos.
Hypothesis Hp1 : Permutation infos s1.
Hypothesis Hp2 : Permutation infos s2.
Hypothesis Ho1 : Sorted (ngt each_less) s1.
Hypothesis Ho2 : Sorted (ngt each_less) s2.
Hypothesis Hneed : 0 < need.
Hypothesis Hlimit : 0 <= limit.

Let L := each_limit infos limit.

Definition each_pos (caps : list Z) : list (list Z) :=
  map (fun i => nth i caps 0 :: (if Nat.ltb i (Z.to_nat L) then [1; need] else [0; 0]))
      (seq 0 (length caps)).

Lemma each_proj_pos sorted p :
  Permutation infos sorted -> Sorted (ngt each_less) sorted ->
  each_from sorted need L = Ok p ->
  map (proj Each p) sorted = each_pos (map cap sorted).
Proof.
  intros Hp Ho H.
  use (each_from_cases infos sorted need limit) HC.
  destruct HC as [[_ E]|[(_ & _ & E)|(_ & _ & E)]]; fold L in E; rewrite E in H; try discriminate.
  injection H as <-.
  use (each_plan_facts infos sorted need limit) HF.
  cbv zeta in HF. fold L in HF. destruct HF as (_ & _ & F3 & F4).
  assert (Hnd : NoDup (names sorted)) by (destruct Hvalid as [Hn _]; eapply nodup_names_perm; eauto).
  rewrite (map_as_seq (proj Each _) dinfo sorted). unfold each_pos. rewrite map_length.
  apply map_ext_in. intros i Hi. apply in_seq in Hi.
  unfold proj. rewrite F3, F4. rewrite name_in_firstn by (auto; lia).
  change 0 with (cap dinfo). rewrite map_nth.
  destruct (Nat.ltb i (Z.to_nat L)); reflexivity.
Qed.

Lemma each_caps_eq : map cap s1 = map cap s2.
Proof.
  apply (sorted_perm_keys_eq cap (fun a b => b <= a)).
  - intros a b. lia.
  - eapply perm_trans; [symmetry; exact Hp1|exact Hp2].
  - apply (each_sorted_strong _ Ho1).
  - apply (each_sorted_strong _ Ho2).
Qed.

Lemma each_class_invariant : res_class_eqb (each_from s1 need L) (each_from s2 need L) = true.
Proof.
  use (each_from_cases infos s1 need limit) H1. use (each_from_cases infos s2 need limit) H2.
  use (each_p_count infos s1 need limit) C1. use (each_p_count infos s2 need limit) C2.
  rewrite <- (countb_perm _ _ _ Hp1) in C1. rewrite <- (countb_perm _ _ _ Hp2) in C2.
  fold L in H1, H2.
  destruct H1 as [[A1 E1]|[(A1 & B1 & E1)|(A1 & B1 & E1)]];
  destruct H2 as [[A2 E2]|[(A2 & B2 & E2)|(A2 & B2 & E2)]]; rewrite E1, E2; try reflexivity; exfalso; lia.
Qed.

Theorem each_proj_invariant p1 p2 :
  each_from s1 need L = Ok p1 -> each_from s2 need L = Ok p2 ->
  Permutation (map (proj Each p1) infos) (map (proj Each p2) infos).
Proof.
  intros H1 H2.
  eapply perm_trans; [apply Permutation_map; exact Hp1|].
  eapply perm_trans; [|symmetry; apply Permutation_map; exact Hp2].
  rewrite (each_proj_pos s1 p1 Hp1 Ho1 H1), (each_proj_pos s2 p2 Hp2 Ho2 H2), each_caps_eq.
  apply Permutation_refl.
Qed.
End EachProj.

Definition fkey (x : info) : Z * Z := (cnt x, cap x).
Definition fkey_le (a b : Z * Z) : Prop := fst b < fst a \/ (fst b = fst a /\ snd b <= snd a).

Lemma fkey_le_antisym a b : fkey_le a b -> fkey_le b a -> a = b.
Proof. destruct a, b. unfold fkey_le. simpl. intros H1 H2. f_equal; lia. Qed.

(* positional plan: the first [lim] fillable positions are topped up *)
Fixpoint fvals (need : Z) (ks : list (Z * Z)) (lim : Z) : list (list Z) :=
  match ks with
  | [] => []
  | (c, k) :: t =>
    if (k >=? need - c) && (0 <? lim)
    then [c; k; 1; Z.max (need - c) 0] :: fvals need t (lim - 1)
    else [c; k; 0; 0] :: fvals need t lim
  end.

Lemma fvals_done need ks : forall lim, lim <= 0 ->
  fvals need ks lim = map (fun ck => [fst ck; snd ck; 0; 0]) ks.
Proof.
  induction ks as [|[c k] t IH]; intros lim Hl; cbn [fvals map fst snd]; [reflexivity|].
  destruct (Z.ltb_spec 0 lim) as [Hlt|Hge]; [exfalso; apply Z.lt_nge in Hlt; exact (Hlt Hl)|]. rewrite andb_false_r. rewrite IH by lia. reflexivity.
Qed.

Lemma fvals_prefix need (sel : info -> bool) l1 : forall lim,
  (forall x, In x l1 -> sel x = fillable need x) ->
  countb (fillable need) l1 <= lim ->
  forall rest, fvals need (map fkey (l1 ++ rest)) lim =
    map (fun x => if sel x then [cnt x; cap x; 1; fill_val need x] else [cnt x; cap x; 0; 0]) l1
    ++ fvals need (map fkey rest) (lim - countb (fillable need) l1).
Proof.
  induction l1 as [|x t IH]; intros lim Hsel Hc rest.
  - simpl. unfold countb. simpl. rewrite Z.sub_0_r. reflexivity.
  - rewrite countb_cons in Hc. cbn [app map fvals fkey]. rewrite (Hsel x) by (left; reflexivity).
    rewrite countb_cons. unfold fill_val.
    pose proof (countb_nonneg (fillable need) t) as Hnn.
    assert (Ef2 : (cap x >=? need - cnt x) = fillable need x) by reflexivity. rewrite Ef2.
    destruct (fillable need x) eqn:Ef.
    + destruct (Z.ltb_spec 0 lim); [|exfalso; lia]. cbn [andb app map]. f_equal.
      rewrite IH; [|intros y Hy; apply Hsel; right; exact Hy|lia].
      replace (lim - (1 + countb (fillable need) t)) with (lim - 1 - countb (fillable need) t) by lia. reflexivity.
    + cbn [andb app map]. f_equal.
      rewrite IH; [|intros y Hy; apply Hsel; right; exact Hy|lia].
      replace (lim - (0 + countb (fillable need) t)) with (lim - countb (fillable need) t) by lia. reflexivity.
Qed.

Definition projF (p : plan) (x : info) : list Z := proj Fill p x.

Section FillProj.
Variables (infos s1 s2 : list info) (need limit : Z).
Hypothesis Hvalid : valid_infos infos.
Hypothesis Hp1 : Permutation infos s1.
Hypothesis Hp2 : Permutation infos s2.
Hypothesis Ho1 : Sorted (ngt fill_less) s1.
Hypothesis Ho2 : Sorted (ngt fill_less) s2.
Hypothesis Hneed : 0 < need.
Hypothesis Hlimit : 0 <= limit.

Let L := each_limit infos limit.

Lemma fill_proj_pos sorted r p :
  Permutation infos sorted -> Sorted (ngt fill_less) sorted ->
  fill_from sorted need L = r -> is_plan r p ->
  map (proj Fill p) sorted = fvals need (map fkey sorted) L.
Proof.
  intros Hp Ho Hr Hpl. use (fill_plan_facts infos sorted need limit) HF. fold L in HF.
  destruct (HF r p Hr Hpl) as (l1 & l2 & E & Hc & _ & _ & _ & Fi1 & Fi2 & Fv & _).
  rewrite E, (fvals_prefix need (fun x => mhas p (name x)) l1 L) by (exact Fi1 || lia).
  rewrite Hc, Z.sub_diag, fvals_done by lia. rewrite map_app. f_equal.
  - apply map_ext_in. intros y Hy. unfold proj. destruct (mhas p (name y)) eqn:Eh; [|reflexivity].
    rewrite Fv; [reflexivity|exact Hy|]. rewrite <- Fi1; assumption.
  - rewrite map_map. apply map_ext_in. intros y Hy. unfold proj. rewrite (Fi2 y Hy). reflexivity.
Qed.

Lemma fill_keys_eq : map fkey s1 = map fkey s2.
Proof.
  apply (sorted_perm_keys_eq fkey fkey_le fkey_le_antisym).
  - eapply perm_trans; [symmetry; exact Hp1|exact Hp2].
  - apply (fill_sorted_strong _ Ho1).
  - apply (fill_sorted_strong _ Ho2).
Qed.

Theorem fill_proj_invariant r1 r2 p1 p2 :
  fill_from s1 need L = r1 -> is_plan r1 p1 -> fill_from s2 need L = r2 -> is_plan r2 p2 ->
  Permutation (map (proj Fill p1) infos) (map (proj Fill p2) infos).
Proof.
  intros H1 I1 H2 I2.
  eapply perm_trans; [apply Permutation_map; exact Hp1|].
  eapply perm_trans; [|symmetry; apply Permutation_map; exact Hp2].
  rewrite (fill_proj_pos s1 r1 p1 Hp1 Ho1 H1 I1), (fill_proj_pos s2 r2 p2 Hp2 Ho2 H2 I2), fill_keys_eq.
  apply Permutation_refl.
Qed.
End FillProj.

From Verif Require Import Base.GoFloatLemmas.

Definition dkey (x : info) : Z * Z := (cap x, canon_bits (usage x)).

Lemma canon_decode u : f_finite u = true ->
  f_finite (fb (canon_bits u)) = true /\ ext (fb (canon_bits u)) = ext u.
Proof.
  intro Hu. unfold canon_bits, fzero. destruct (feq u (fb 0)) eqn:E.
  - split; [reflexivity|]. apply (feq_zero_iff u Hu) in E. rewrite (finite_ext u Hu), E. reflexivity.
  - rewrite fb_fbits. split; [exact Hu|reflexivity].
Qed.

Definition dkey_le (a b : Z * Z) : Prop :=
  fst a < fst b \/ (fst a = fst b /\ fle (fb (snd b)) (fb (snd a)) = true).

Definition drel (a b : info) : Prop :=
  cap a < cap b \/ (cap a = cap b /\ fle (usage b) (usage a) = true).

Lemma drel_dkey a b : f_finite (usage a) = true -> f_finite (usage b) = true ->
  drel a b -> dkey_le (dkey a) (dkey b).
Proof.
  intros Ha Hb [H|[H1 H2]]; [left; exact H|right]. split; [exact H1|]. simpl.
  destruct (canon_decode _ Ha) as [Fa Ea]. destruct (canon_decode _ Hb) as [Fb Eb].
  apply fle_ext; auto using finite_nn. rewrite Ea, Eb. apply fle_ext; auto using finite_nn.
Qed.

Fixpoint dvals (ks : list (Z * Z)) (rem : Z) : list (list Z) :=
  match ks with
  | [] => []
  | (c, u) :: t =>
    if rem <=? 0 then [c; u; 0; 0] :: dvals t rem
    else if rem <=? c then [c; u; 1; rem] :: dvals t 0
    else [c; u; 1; c] :: dvals t (rem - c)
  end.

Lemma dvals_done ks : forall rem, rem <= 0 -> dvals ks rem = map (fun k => [fst k; snd k; 0; 0]) ks.
Proof.
  induction ks as [|[c u] t IH]; intros rem Hr; cbn [dvals map fst snd]; [reflexivity|].
  destruct (Z.leb_spec rem 0) as [_|Hgt]; [|exfalso; lia]. rewrite IH by exact Hr. reflexivity.
Qed.

Lemma dvals_prefix l1 : forall rem rest, Forall (fun y => 0 <= cap y) l1 -> caps l1 < rem ->
  dvals (map dkey (l1 ++ rest)) rem =
  map (fun y => [cap y; canon_bits (usage y); 1; cap y]) l1 ++ dvals (map dkey rest) (rem - caps l1).
Proof.
  induction l1 as [|y t IH]; intros rem rest Hc Hr.
  - simpl. unfold caps, sumZ. simpl. rewrite Z.sub_0_r. reflexivity.
  - inversion Hc as [|? ? Hy Ht]; subst. rewrite caps_cons in Hr. pose proof (caps_nonneg t Ht) as Hnn.
    cbn [app map dvals dkey].
    destruct (Z.leb_spec rem 0); [exfalso; lia|]. destruct (Z.leb_spec rem (cap y)); [exfalso; lia|].
    f_equal. rewrite IH by (auto; lia). rewrite caps_cons.
    replace (rem - (cap y + caps t)) with (rem - cap y - caps t) by lia. reflexivity.
Qed.

Section DrainedProj.
Variables (infos s1 s2 : list info) (need total : Z).
Hypothesis Hvalid : valid_infos infos.
Hypothesis Hfin : forall x, In x infos -> f_finite (usage x) = true.
Hypothesis Hp1 : Permutation infos s1.
Hypothesis Hp2 : Permutation infos s2.
Hypothesis Ho1 : Sorted (ngt drained_less) s1.
Hypothesis Ho2 : Sorted (ngt drained_less) s2.
Hypothesis Hneed : 0 < need.

Lemma drained_proj_pos sorted p :
  Permutation infos sorted -> Sorted (ngt drained_less) sorted -> drained_from sorted need total = Ok p ->
  map (proj Drained p) sorted = dvals (map dkey sorted) need.
Proof.
  intros Hp Ho H. use (drained_from_plan infos sorted need total) HF.
  destruct (HF p H) as (l1 & x & l2 & E & Hb & _ & _ & P3 & [Hx Px] & P5 & _).
  pose proof (drained_caps_nonneg infos sorted Hvalid Hp) as Hcn. rewrite E in Hcn |- *.
  apply Forall_app in Hcn. destruct Hcn as [Hcn1 _].
  rewrite (dvals_prefix l1 need (x :: l2) Hcn1 ltac:(lia)), map_app. f_equal.
  - apply map_ext_in. intros y Hy. unfold proj. destruct (P3 y Hy) as [-> ->]. reflexivity.
  - cbn [map dvals dkey].
    destruct (Z.leb_spec (need - caps l1) 0); [exfalso; lia|].
    destruct (Z.leb_spec (need - caps l1) (cap x)); [|exfalso; lia].
    f_equal; [unfold proj; rewrite Hx, Px; reflexivity|].
    rewrite dvals_done, map_map by lia. apply map_ext_in. intros y Hy.
    unfold proj. rewrite (P5 y Hy). reflexivity.
Qed.

Lemma drained_sorted_keys sorted : Permutation infos sorted -> Sorted (ngt drained_less) sorted ->
  StronglySorted dkey_le (map dkey sorted).
Proof.
  intros Hp Ho.
  assert (HF : Forall (fun x => f_finite (usage x) = true) sorted).
  { apply Forall_forall. intros x Hx. apply Hfin. eapply Permutation_in; [symmetry; exact Hp|exact Hx]. }
  assert (Hs : StronglySorted drel sorted).
  { apply (sorted_strong_on drel (fun x => f_finite (usage x) = true)); auto.
    - intros a b c Pa Pb Pc [H1|[H1 H1']] [H2|[H2 H2']]; unfold drel; try (left; lia).
      right. split; [lia|]. apply (fle_trans _ (usage b)); auto using finite_nn.
    - apply (Sorted_impl_in (ngt drained_less)); [|exact Ho].
      intros a b Ha Hb. unfold ngt, drained_less, drel.
      rewrite Forall_forall in HF.
      destruct (Z.eqb_spec (cap b) (cap a)) as [Ec|Ec]; simpl.
      + intro Hf. right. split; [lia|]. unfold fgt in Hf.
        rewrite <- (negb_flt_fle (usage b) (usage a)); auto using finite_nn. rewrite Hf. reflexivity.
      + intro Hf. left. lia. }
  clear Ho Hp. induction Hs as [|a l Hl IH Ha]; simpl; constructor.
  - apply IH. inversion HF; auto.
  - inversion HF as [|? ? Pa Pl]; subst. rewrite Forall_forall in *.
    intros k Hk. apply in_map_iff in Hk. destruct Hk as (y & <- & Hy).
    apply drel_dkey; auto.
Qed.

Lemma drained_keys_eq : map dkey s1 = map dkey s2.
Proof.
  apply (sorted_perm_eq_in dkey_le).
  - intros [c1 b1] [c2 b2] H1 H2 L1 L2.
    apply in_map_iff in H1. destruct H1 as (x1 & E1 & Hx1). apply in_map_iff in H2. destruct H2 as (x2 & E2 & Hx2).
    unfold dkey in E1, E2. inversion E1; subst. inversion E2; subst.
    assert (F1 : f_finite (usage x1) = true) by (apply Hfin; eapply Permutation_in; [symmetry; exact Hp1|exact Hx1]).
    assert (F2 : f_finite (usage x2) = true) by (apply Hfin; eapply Permutation_in; [symmetry; exact Hp1|exact Hx2]).
    unfold dkey_le in L1, L2. simpl in L1, L2.
    destruct L1 as [L1|[Ec L1]]; destruct L2 as [L2|[Ec' L2]]; try lia.
    f_equal; [exact Ec|].
    destruct (canon_decode _ F1) as [D1 X1]. destruct (canon_decode _ F2) as [D2 X2].
    assert (Ex : ext (usage x1) = ext (usage x2)).
    { rewrite <- X1, <- X2. apply fle_antisym_ext; auto using finite_nn. }
    rewrite (finite_ext _ F1), (finite_ext _ F2) in Ex. injection Ex as Ex.
    unfold canon_bits, fzero. apply same_value_same_bits; auto.
  - apply Permutation_map. eapply perm_trans; [symmetry; exact Hp1|exact Hp2].
  - apply drained_sorted_keys; assumption.
  - apply drained_sorted_keys; assumption.
Qed.

Theorem drained_proj_invariant p1 p2 :
  drained_from s1 need total = Ok p1 -> drained_from s2 need total = Ok p2 ->
  Permutation (map (proj Drained p1) infos) (map (proj Drained p2) infos).
Proof.
  intros H1 H2.
  eapply perm_trans; [apply Permutation_map; exact Hp1|].
  eapply perm_trans; [|symmetry; apply Permutation_map; exact Hp2].
  rewrite (drained_proj_pos s1 p1 Hp1 Ho1 H1), (drained_proj_pos s2 p2 Hp2 Ho2 H2), drained_keys_eq.
  apply Permutation_refl.
Qed.
End DrainedProj.

Section DrainedClass.
Variables (infos s1 s2 : list info) (need total : Z).
Hypothesis Hvalid : valid_infos infos.
Hypothesis Hp1 : Permutation infos s1.
Hypothesis Hp2 : Permutation infos s2.
Hypothesis Hneed : 0 < need.

Theorem drained_class_invariant :
  res_class_eqb (drained_from s1 need total) (drained_from s2 need total) = true.
Proof.
  use (drained_from_cases infos s1 need total) H1. use (drained_from_cases infos s2 need total) H2.
  destruct H1 as [[A1 (p1 & E1)]|[A1 E1]], H2 as [[A2 (p2 & E2)]|[A2 E2]]; rewrite E1, E2;
    try reflexivity; lia.
Qed.
End DrainedClass.

(* FILL: ErrAlreadyFilled iff every selected position plans 0 *)
Definition all_selected_zero (vs : list (list Z)) : Prop :=
  forall v, In v vs -> nth 2 v 0 = 1 -> nth 3 v 0 = 0.

Section FillClass.
Variables (infos s1 s2 : list info) (need limit : Z).
Hypothesis Hvalid : valid_infos infos.
Hypothesis Hp1 : Permutation infos s1.
Hypothesis Hp2 : Permutation infos s2.
Hypothesis Ho1 : Sorted (ngt fill_less) s1.
Hypothesis Ho2 : Sorted (ngt fill_less) s2.
Hypothesis Hneed : 0 < need.
Hypothesis Hlimit : 0 <= limit.

Let L := each_limit infos limit.

Lemma fill_class_of sorted :
  Permutation infos sorted -> Sorted (ngt fill_less) sorted ->
  (countb (fillable need) infos < L \/ L < 1 -> fill_from sorted need L = Err EInsufficientResource) /\
  (1 <= L <= countb (fillable need) infos ->
     exists p, (fill_from sorted need L = AlreadyFilled p \/ fill_from sorted need L = Ok p) /\
       (fill_from sorted need L = AlreadyFilled p <-> all_selected_zero (fvals need (map fkey sorted) L))).
Proof.
  intros Hp Ho. rewrite (countb_perm _ _ _ Hp).
  use (fill_from_cases infos sorted need limit) HC. fold L in HC. split.
  - intro Hor. destruct HC as [[Hr _]|[_ E]]; [lia|exact E].
  - intros [H1 Hc]. destruct HC as [[_ Hpl]|[Hr _]]; [|lia].
    destruct Hpl as (p & Hpl). exists p. split; [destruct Hpl; auto|].
    use (fill_plan_facts infos sorted need limit) HF. fold L in HF.
    destruct (HF _ p eq_refl Hpl) as (l1 & l2 & E & _ & Fnd & _ & Fk & Fi1 & _ & Fv & Faf).
    use (fill_proj_pos infos need limit) Hpos. fold L in Hpos.
    rewrite <- (Hpos sorted _ p Hp Ho eq_refl Hpl), Faf.
    assert (Hkey : forall k, mhas p k = true -> exists y, In y sorted /\ name y = k /\ mget p k = fill_val need y).
    { intros k Hk. pose proof (Fk k Hk) as Hin. unfold names in Hin. apply in_map_iff in Hin.
      destruct Hin as (y & <- & Hy). exists y. rewrite E, in_app_iff. rewrite (Fi1 y Hy) in Hk. auto. }
    rewrite plan_sum_zero_iff; [|exact Fnd|].
    + (* the projected tuple of y is [..; 1; planned] exactly when y has an entry *)
      split.
      * intros H v Hv H2. apply in_map_iff in Hv. destruct Hv as (y & <- & Hy).
        unfold proj in *. destruct (mhas p (name y)) eqn:Eh; simpl in *; [auto|discriminate].
      * intros HQ k Hk. destruct (Hkey k Hk) as (y & Hy & <- & _).
        specialize (HQ (proj Fill p y) (in_map _ _ _ Hy)). unfold proj in HQ. rewrite Hk in HQ. apply HQ. reflexivity.
    + intro k. destruct (mhas p k) eqn:Hk; [|rewrite (mhas_false_mget _ _ Hk); lia].
      destruct (Hkey k Hk) as (y & _ & _ & ->). unfold fill_val. lia.
Qed.

Theorem fill_class_invariant :
  res_class_eqb (fill_from s1 need L) (fill_from s2 need L) = true.
Proof.
  destruct (fill_class_of s1 Hp1 Ho1) as [A1 B1]. destruct (fill_class_of s2 Hp2 Ho2) as [A2 B2].
  destruct (Z_lt_ge_dec (countb (fillable need) infos) L) as [Hc|Hc].
  - rewrite (A1 (or_introl Hc)), (A2 (or_introl Hc)). reflexivity.
  - destruct (Z_lt_ge_dec L 1) as [Hl|Hl].
    + rewrite (A1 (or_intror Hl)), (A2 (or_intror Hl)). reflexivity.
    + destruct (B1 ltac:(lia)) as (p1 & [E1|E1] & Q1); destruct (B2 ltac:(lia)) as (p2 & [E2|E2] & Q2);
        rewrite E1, E2; try reflexivity; exfalso.
      * (* s1 already filled, s2 not *)
        use (fill_keys_eq infos s1 s2) Ek.
        apply Q1 in E1. rewrite Ek in E1. apply Q2 in E1. rewrite E1 in E2. discriminate.
      * use (fill_keys_eq infos s1 s2) Ek.
        apply Q2 in E2. rewrite <- Ek in E2. apply Q1 in E2. rewrite E2 in E1. discriminate.
Qed.
End FillClass.
