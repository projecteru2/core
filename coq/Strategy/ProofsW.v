(* The int64 twin (Strategy/ModelW.v) equals the unbounded-Z model on the
   validated domain: every wrapped addition / subtraction is shown to stay
   inside int64.  Outside the domain the two really differ (witnesses at the end):
   the domain conditions are exactly the overflow sites of the code. *)
From Coq Require Import String Ascii.
From Coq Require Import List Bool ZArith Arith Lia Permutation.
From Verif Require Import Base.GoInt Base.GoFloat Base.GoHeap Base.GoHeapSpec Base.GoSort Base.GoSortSpec
  Strategy.Model Strategy.ModelW Strategy.ProofsBase.
Import ListNotations.
Local Open Scope Z_scope.

Lemma wrap64_id z : min_int <= z <= max_int -> wrap64 z = z.
Proof.
  unfold wrap64, min_int, max_int, two64. intro H.
  rewrite Z.mod_small by lia. lia.
Qed.

(* all that the simulation proofs use of the two bounds *)
Lemma int64_range : min_int = - max_int - 1 /\ 0 < max_int.
Proof. split; reflexivity. Qed.

Lemma addw_id a b : min_int <= a + b <= max_int -> addw a b = a + b.
Proof. apply wrap64_id. Qed.
Lemma subw_id a b : min_int <= a - b <= max_int -> subw a b = a - b.
Proof. apply wrap64_id. Qed.

Lemma maddw_id m k v : min_int <= mget m k + v <= max_int -> maddw m k v = madd m k v.
Proof. intro H. unfold maddw, madd. rewrite addw_id by exact H. reflexivity. Qed.

(* AUTO: a budget of k more increments per value *)
Definition inr (k : nat) (x : info) : Prop :=
  min_int + Z.of_nat k <= cap x <= max_int /\ min_int <= cnt x /\ cnt x + Z.of_nat k <= max_int.
Definition depok (k : nat) (dep : plan) : Prop :=
  forall key, min_int <= mget dep key /\ mget dep key + Z.of_nat k <= max_int.

Lemma depok_madd k dep key : depok (S k) dep -> depok k (madd dep key 1).
Proof.
  intros H key'. destruct (string_dec key key') as [->|Hne].
  - rewrite mget_madd_same. specialize (H key'). lia.
  - rewrite mget_madd_other by exact Hne. specialize (H key'). lia.
Qed.

Lemma inr_weaken k x : inr (S k) x -> inr k x.
Proof. unfold inr. lia. Qed.

Lemma auto_loopW_eq limit : forall k h dep, Forall (inr k) h -> depok k dep ->
  auto_loopW k h limit dep = auto_loop k h limit dep.
Proof.
  induction k as [|k IH]; intros h dep Hh Hd; [reflexivity|].
  cbn [auto_loopW auto_loop].
  destruct (pop dinfo auto_less h) as [[x h']|] eqn:Hpop; [|reflexivity].
  apply pop_perm in Hpop. apply (Permutation_Forall Hpop), Forall_cons_iff in Hh as [Hx Hh'].
  rewrite maddw_id by (specialize (Hd (name x)); lia). destruct k as [|k']; [reflexivity|].
  assert (Eb : bumpW x = bump x).
  { unfold bumpW, bump. destruct Hx as (H1 & H2 & H3). rewrite subw_id, addw_id by lia. reflexivity. }
  rewrite Eb. apply IH.
  - assert (Hb : inr (S k') (bump x)) by (unfold inr, bump in *; cbn [cap cnt] in *; lia).
    assert (Hh'' : Forall (inr (S k')) h') by (eapply Forall_impl; [|exact Hh']; apply inr_weaken).
    destruct (auto_keep limit (bump x)).
    + eapply Permutation_Forall; [symmetry; apply push_perm|]. constructor; assumption.
    + destruct h' as [|z t]; [constructor|].
      eapply Permutation_Forall; [symmetry; apply up_perm; simpl; lia|exact Hh''].
  - apply depok_madd. exact Hd.
Qed.

Definition ginr (x : info) : Prop := 0 < cap x <= max_int.

Lemma glob_loopW_eq : forall k h dep, Forall ginr h -> depok k dep ->
  glob_loopW k h dep = glob_loop k h dep.
Proof.
  pose proof int64_range as Hr.
  induction k as [|k IH]; intros h dep Hh Hd; [reflexivity|].
  cbn [glob_loopW glob_loop].
  destruct (pop dinfo glob_less h) as [[x h']|] eqn:Hpop; [|reflexivity].
  apply pop_perm in Hpop. apply (Permutation_Forall Hpop), Forall_cons_iff in Hh as [Hx Hh'].
  rewrite maddw_id by (specialize (Hd (name x)); lia).
  assert (Eb : glob_stepW x = glob_step x).
  { unfold glob_stepW, glob_step. unfold ginr in Hx. rewrite subw_id by lia. reflexivity. }
  rewrite Eb. apply IH.
  - destruct (cap (glob_step x) >? 0) eqn:Ec.
    + eapply Permutation_Forall; [symmetry; apply push_perm|]. constructor; [|exact Hh'].
      unfold ginr, glob_step in *. cbn [cap] in *. lia.
    + exact Hh'.
  - apply depok_madd. exact Hd.
Qed.

Lemma drained_loopW_eq : forall l need dep,
  Forall (fun x => 0 <= cap x <= max_int) l -> 0 <= need <= max_int ->
  drained_loopW l need dep = drained_loop l need dep.
Proof.
  pose proof int64_range as Hr.
  induction l as [|x t IH]; intros need dep Hl Hn; [reflexivity|].
  inversion Hl as [|? ? Hx Ht]; subst. cbn [drained_loopW drained_loop].
  destruct (Z.ltb_spec need (cap x)); [reflexivity|].
  rewrite subw_id by lia.
  destruct (need - cap x =? 0); [reflexivity|]. apply IH; auto. lia.
Qed.

Lemma each_foldW_eq need l : forall dep,
  NoDup (names l) -> (forall x, In x l -> mget dep (name x) = 0) -> 0 <= need <= max_int ->
  fold_left (fun dep x => maddw dep (name x) need) l dep =
  fold_left (fun dep x => madd dep (name x) need) l dep.
Proof.
  pose proof int64_range as Hr.
  induction l as [|x t IH]; intros dep Hnd Hz Hn; [reflexivity|].
  simpl in Hnd. inversion Hnd as [|? ? Hx Ht]; subst. cbn [fold_left].
  rewrite maddw_id by (rewrite Hz by (left; reflexivity); lia).
  apply IH; auto. intros y Hy. rewrite mget_madd_other.
  - apply Hz. right; exact Hy.
  - intro E. apply Hx. rewrite E. apply in_names. exact Hy.
Qed.

Lemma each_fromW_eq sorted need limit : NoDup (names sorted) -> 0 <= need <= max_int ->
  each_fromW sorted need limit = each_from sorted need limit.
Proof.
  intros Hnd Hn. unfold each_fromW, each_from.
  destruct (_ =? 0)%nat; [reflexivity|]. destruct (_ <? limit); [reflexivity|].
  destruct (limit <? 0); [reflexivity|]. f_equal.
  apply each_foldW_eq; auto. apply nodup_names_firstn. exact Hnd.
Qed.

Lemma fill_loopW_eq need : forall l lim dep todo,
  NoDup (names l) -> (forall x, In x l -> mget dep (name x) = 0) ->
  Forall (fun x => 0 <= cnt x <= max_int) l -> 1 <= need <= max_int ->
  min_int + Z.of_nat (length l) < lim <= max_int ->
  0 <= todo -> todo + need * Z.of_nat (length l) <= max_int ->
  fill_loopW l need lim dep todo = fill_loop l need lim dep todo.
Proof.
  pose proof int64_range as Hr.
  induction l as [|x t IH]; intros lim dep todo Hnd Hz Hc Hn Hl Ht0 Ht; [reflexivity|].
  simpl in Hnd. inversion Hnd as [|? ? Hx Hnt]; subst. inversion Hc as [|? ? Hcx Hct]; subst.
  cbn [fill_loopW fill_loop]. cbn [length] in Hl, Ht. rewrite Nat2Z.inj_succ in Hl, Ht.
  rewrite Z.mul_succ_r in Ht. assert (Hnl : 0 <= need * Z.of_nat (length t)) by nia.
  unfold fillableW, fillable. rewrite (subw_id need (cnt x)) by lia.
  assert (Hfresh : forall y, In y t -> forall v, mget (madd dep (name x) v) (name y) = 0).
  { intros y Hy v. rewrite mget_madd_other; [apply Hz; right; exact Hy|].
    intro E. apply Hx. rewrite E. apply in_names. exact Hy. }
  destruct (cap x >=? need - cnt x).
  - set (v := Z.max (need - cnt x) 0). assert (Hv : 0 <= v <= need) by (unfold v; lia).
    rewrite maddw_id by (rewrite Hz by (left; reflexivity); lia).
    rewrite mget_madd_same, Hz by (left; reflexivity). cbn [Z.add].
    rewrite addw_id, subw_id by lia.
    destruct (lim - 1 =? 0); [reflexivity|].
    apply IH; auto; lia.
  - apply IH; auto; try lia. intros y Hy. apply Hz. right; exact Hy.
Qed.

Definition dom64 (s : strategy) (need limit : Z) (infos : list info) : Prop :=
  0 < need <= max_int /\ 0 <= limit <= max_int /\
  Forall (fun x => 0 <= cap x <= max_int /\ 0 <= cnt x /\ cnt x + need <= max_int) infos /\
  (s = Fill -> need * Z.of_nat (length infos) <= max_int).

Lemma int64_domain_spec s need limit infos :
  int64_domain s need limit infos = true -> dom64 s need limit infos.
Proof.
  unfold int64_domain, dom64. rewrite !andb_true_iff, orb_true_iff, negb_true_iff.
  intros (((((H1 & H2) & H3) & H4) & H5) & H6).
  split; [lia|]. split; [lia|]. split.
  - apply Forall_forall. intros x Hx. rewrite forallb_forall in H5. specialize (H5 x Hx).
    rewrite !andb_true_iff in H5. lia.
  - intros ->. destruct H6 as [H6|H6]; [discriminate|lia].
Qed.

Theorem deploy_fullW_eq s need limit infos total :
  NoDup (names infos) -> dom64 s need limit infos ->
  deploy_fullW s need limit infos total = deploy_full s need limit infos total.
Proof.
  intros Hnd (Hn & Hl & Hi & Hf). pose proof int64_range as Hr.
  unfold deploy_fullW, deploy_full. destruct s; try reflexivity;
    (destruct (need <=? 0); [reflexivity|]).
  - (* AUTO *)
    f_equal. unfold communismW, communism. destruct (total <? need); [reflexivity|].
    apply auto_loopW_eq.
    + eapply Permutation_Forall; [symmetry; apply init_perm|].
      apply Forall_forall. intros x Hx. apply filter_In in Hx. destruct Hx as [Hx _].
      rewrite Forall_forall in Hi. specialize (Hi x Hx). unfold inr.
      rewrite Z2Nat.id by lia. lia.
    + intro key. cbn [mget]. rewrite Z2Nat.id by lia. lia.
  - (* FILL *)
    unfold fillW, fill. destruct (_ <? each_limit infos limit) eqn:El; [reflexivity|]. f_equal.
    unfold fill_from.
    assert (Hp : Permutation (gosort fill_less infos) infos) by apply gosort_perm.
    assert (Hlen : length (gosort fill_less infos) = length infos) by (apply Permutation_length; exact Hp).
    apply fill_loopW_eq.
    + eapply Permutation_NoDup; [apply perm_names; symmetry; exact Hp|exact Hnd].
    + intros; reflexivity.
    + eapply Permutation_Forall; [symmetry; exact Hp|]. eapply Forall_impl; [|exact Hi]. simpl. intros x Hx. lia.
    + lia.
    + rewrite Hlen. specialize (Hf eq_refl).
      unfold each_limit. destruct (limit =? 0); nia.
    + lia.
    + rewrite Hlen. specialize (Hf eq_refl). lia.
  - (* EACH *)
    unfold averageW, average. destruct (_ <? each_limit infos limit); [reflexivity|]. f_equal.
    apply each_fromW_eq; [|lia].
    eapply Permutation_NoDup; [apply perm_names; symmetry; apply gosort_perm|exact Hnd].
  - (* GLOBAL *)
    f_equal. unfold globalW, global. destruct (total <? need); [reflexivity|].
    apply glob_loopW_eq.
    + eapply Permutation_Forall; [symmetry; apply init_perm|].
      apply Forall_forall. intros x Hx. apply filter_In in Hx. destruct Hx as [Hx Hc].
      rewrite Forall_forall in Hi. specialize (Hi x Hx). unfold ginr. lia.
    + intro key. cbn [mget]. rewrite Z2Nat.id by lia. lia.
  - (* DRAINED *)
    f_equal. unfold drainedW, drained, drained_from. destruct (total <? need); [reflexivity|].
    apply drained_loopW_eq; [|lia].
    eapply Permutation_Forall; [symmetry; apply gosort_perm|]. eapply Forall_impl; [|exact Hi]. simpl. intros x Hx. lia.
Qed.

Corollary deployW_eq s need limit infos total :
  NoDup (names infos) -> dom64 s need limit infos ->
  deployW s need limit infos total = deploy s need limit infos total.
Proof. intros H1 H2. unfold deployW, deploy. rewrite deploy_fullW_eq by assumption. reflexivity. Qed.

Corollary agreeW_eq c :
  nodupb (names (c_infos c)) = true ->
  int64_domain (c_strat c) (c_need c) (c_limit c) (c_infos c) = true ->
  negb (is_sorting (c_strat c)) || Nat.leb (length (c_infos c)) 12 = true ->
  agreeW c = agree c.
Proof.
  intros H1 H2 H3. unfold agreeW, agree. apply nodupb_spec in H1. apply int64_domain_spec in H2.
  rewrite H3. rewrite deploy_fullW_eq by assumption.
  destruct (deploy_full (c_strat c) (c_need c) (c_limit c) (c_infos c) (c_total c)) as [r after].
  try rewrite H3. reflexivity.
Qed.

(* FILL: three nodes topped up by MaxInt, MaxInt and 2 instances: toDeploy wraps to 0
   and the int64 code reports ErrAlreadyFilled although it plans instances *)
Definition w_fill_wrap : list info :=
  [mkInfo "a" fzero fzero max_int 0; mkInfo "b" fzero fzero max_int 0;
   mkInfo "c" fzero fzero max_int (max_int - 2)].
Lemma fill_todeploy_wraps :
  (exists p, deployW Fill max_int 0 w_fill_wrap max_int = AlreadyFilled p /\ plan_sum p <> 0) /\
  (exists p, deploy Fill max_int 0 w_fill_wrap max_int = Ok p) /\
  int64_domain Fill max_int 0 w_fill_wrap = false.
Proof.
  split; [|split].
  - eexists. split; [vm_compute; reflexivity|vm_compute; discriminate].
  - eexists. vm_compute. reflexivity.
  - vm_compute. reflexivity.
Qed.

(* AUTO: a node whose count is MaxInt: Count++ wraps to MinInt and the node looks empty *)
Definition w_auto_wrap : list info :=
  [mkInfo "a" fzero fzero 5 max_int; mkInfo "b" fzero fzero 5 (max_int - 1)].
Lemma auto_count_wraps :
  deployW Auto 4 0 w_auto_wrap 10 <> deploy Auto 4 0 w_auto_wrap 10 /\
  int64_domain Auto 4 0 w_auto_wrap = false.
Proof. split; [vm_compute; discriminate|vm_compute; reflexivity]. Qed.
