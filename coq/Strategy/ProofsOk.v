(* The boolean reflections C01_ok / C02_ok / C03_ok that the correspondence
   check evaluates on the implementation's output:
     - they decide the Prop-level specifications (reflection lemmas), and
     - the model's own output always satisfies them (soundness link), so an
       implementation output that agrees with the model satisfies them too. *)
From Coq Require Import String Ascii.
From Coq Require Import List Bool ZArith Arith Lia Permutation ZifyBool.
From Verif Require Import Base.GoInt Base.GoFloat Base.GoFloatLemmas
  Strategy.Model Strategy.ProofsBase Strategy.Proofs.
Import ListNotations.
Local Open Scope Z_scope.

Lemma all_pairs_spec (f : info -> info -> bool) l :
  all_pairs f l = true <-> (forall a b, In a l -> In b l -> f a b = true).
Proof.
  unfold all_pairs. rewrite forallb_forall. split.
  - intros H a b Ha Hb. specialize (H a Ha). rewrite forallb_forall in H. apply H. exact Hb.
  - intros H a Ha. apply forallb_forall. intros b Hb. apply H; assumption.
Qed.

Lemma C03_pair_spec s need limit p a b :
  C03_pair s need limit p a b = true <->
  match s with
  | Auto => 1 <= mget p (name a) -> 1 <= cap b - mget p (name b) -> (limit = 0 \/ fin p b < limit) ->
            fin p a <= fin p b + 1
  | Global => 1 <= mget p (name a) -> 1 <= cap b - mget p (name b) ->
              fle (usage_fin p a) (fadd (usage_fin p b) (rate b)) = true
  | Drained => cap a < cap b -> 1 <= mget p (name b) -> mget p (name a) = cap a
  | Each => mhas p (name a) = true -> mhas p (name b) = false -> cap b <= cap a
  | Fill => mhas p (name a) = true -> mhas p (name b) = false -> need <= cnt b + cap b ->
            cnt b < cnt a \/ (cnt b = cnt a /\ cap b <= cap a)
  | Other => True
  end.
Proof.
  unfold C03_pair, fin. destruct s.
  - lia.
  - destruct (mhas p (name a)), (mhas p (name b)); simpl; split; intro H; try discriminate; try lia;
      try (intros; discriminate); try reflexivity.
  - destruct (mhas p (name a)), (mhas p (name b)); simpl; split; intro H; try discriminate; try lia;
      try (intros; discriminate); try reflexivity.
  - destruct (fle (usage_fin p a) (fadd (usage_fin p b) (rate b))) eqn:E.
    + rewrite orb_true_r. split; auto.
    + rewrite orb_false_r.
      destruct (Z.leb_spec 1 (mget p (name a))), (Z.leb_spec 1 (cap b - mget p (name b))); simpl;
        split; intro HH; try reflexivity; try discriminate; try lia.
  - lia.
  - tauto.
Qed.

Lemma C03_reflect s need limit infos p :
  all_pairs (C03_pair s need limit p) infos = true <-> C03_spec s need limit infos p.
Proof.
  rewrite all_pairs_spec. unfold C03_spec. split.
  - intros H a b Ha Hb. specialize (H a b Ha Hb). apply C03_pair_spec in H. destruct s; exact H.
  - intros H a b Ha Hb. apply C03_pair_spec. specialize (H a b Ha Hb). destruct s; exact H.
Qed.

Lemma valid_case_spec c : valid_case c = true ->
  valid_infos (c_infos c) /\ 0 < c_need c <= max_int /\ 0 <= c_limit c /\ c_strat c <> Other /\
  (forall x, In x (c_infos c) -> f_finite (usage x) = true /\ f_finite (rate x) = true).
Proof.
  unfold valid_case. rewrite !andb_true_iff. intros (((((((H1 & H2) & H3) & H4) & H5) & H6) & H7) & _).
  apply nodupb_spec in H1. rewrite forallb_forall in H2.
  split; [split; [exact H1|]|].
  - apply Forall_forall. intros x Hx. specialize (H2 x Hx). unfold valid_info in H2.
    rewrite !andb_true_iff in H2. lia.
  - split; [lia|]. split; [lia|]. split.
    + intro E. rewrite E in H7. discriminate.
    + intros x Hx. specialize (H2 x Hx). unfold valid_info in H2. rewrite !andb_true_iff in H2. tauto.
Qed.

Section Links.
Variables (s : strategy) (need limit : Z) (infos : list info) (total : Z) (ord : list string).
Let c := mkCase s need limit infos total (deploy s need limit infos total) ord.

Lemma C01_ok_model : C01_ok c = true.
Proof.
  unfold C01_ok. destruct (valid_case c) eqn:Ev; [|reflexivity]. simpl.
  destruct (valid_case_spec c Ev) as (Hv & Hn & Hl & Hs & _). simpl in *.
  destruct (deploy_cases infos need limit total Hv ltac:(lia) Hl s) as [(e & E & _)|(p & [Hp|Hp] & H1 & _ & H4)];
    [rewrite E; reflexivity| |]; rewrite Hp; apply C01_reflect in H1; [exact H1|].
  destruct (H4 Hp) as [-> Hz]. simpl. rewrite H1. lia.
Qed.

Lemma C02_ok_model : C02_ok c = true.
Proof.
  unfold C02_ok. destruct (valid_case c && (c_total c =? satsum (map cap (c_infos c)))) eqn:Ev; [|reflexivity].
  simpl. apply andb_true_iff in Ev. destruct Ev as [Ev Et].
  destruct (valid_case_spec c Ev) as (Hv & Hn & Hl & Hs & _). simpl in *.
  destruct (C02_complete infos need limit total Hv ltac:(lia) Hl s Hs ltac:(lia) ltac:(lia)) as [I1 I2].
  destruct (feasible s need limit infos) eqn:Ef.
  - destruct (I1 eq_refl) as (p & [Hp|Hp]); rewrite Hp; reflexivity.
  - destruct (I2 eq_refl) as [He|He]; rewrite He; reflexivity.
Qed.

Lemma C03_ok_model : C03_ok c = true.
Proof.
  unfold C03_ok. destruct (valid_case c) eqn:Ev; [|reflexivity]. simpl.
  destruct (valid_case_spec c Ev) as (Hv & Hn & Hl & Hs & Hfin). simpl in *.
  destruct (strategy_eqb s Global && negb (nonneg_rates infos)) eqn:Eg; [reflexivity|].
  assert (Hfl : s = Global -> float_ok infos).
  { intros ->. simpl in Eg. apply negb_false_iff in Eg. unfold nonneg_rates in Eg.
    rewrite forallb_forall in Eg. intros x Hx. destruct (Hfin x Hx). repeat split; auto. }
  destruct (deploy_cases infos need limit total Hv ltac:(lia) Hl s) as [(e & E & _)|(p & Hp & _ & H3 & _)];
    [rewrite E; reflexivity|].
  apply C03_reflect in H3; [|exact Hfl]. destruct Hp as [Hp|Hp]; rewrite Hp; exact H3.
Qed.
End Links.

Lemma C01_ok_meaning c p : valid_case c = true -> (o_res c = Ok p \/ o_res c = AlreadyFilled p) ->
  C01_ok c = true -> C01_spec (c_strat c) (c_need c) (c_limit c) (c_infos c) p.
Proof.
  intros Hv Hp H. unfold C01_ok in H. rewrite Hv in H. simpl in H.
  destruct Hp as [Hp|Hp]; rewrite Hp in H.
  - apply C01_reflect. exact H.
  - rewrite !andb_true_iff in H. apply C01_reflect. tauto.
Qed.

Lemma C03_ok_meaning c p : valid_case c = true -> (o_res c = Ok p \/ o_res c = AlreadyFilled p) ->
  (c_strat c = Global -> nonneg_rates (c_infos c) = true) ->
  C03_ok c = true -> C03_spec (c_strat c) (c_need c) (c_limit c) (c_infos c) p.
Proof.
  intros Hv Hp Hg H. unfold C03_ok in H. rewrite Hv in H. simpl in H.
  destruct (strategy_eqb (c_strat c) Global && negb (nonneg_rates (c_infos c))) eqn:Eg.
  - exfalso. apply andb_true_iff in Eg. destruct Eg as [E1 E2].
    assert (c_strat c = Global) by (destruct (c_strat c); try discriminate; reflexivity).
    rewrite (Hg H0) in E2. discriminate.
  - destruct Hp as [Hp|Hp]; rewrite Hp in H; apply C03_reflect; exact H.
Qed.

Lemma C02_ok_meaning c : valid_case c = true -> c_total c = satsum (map cap (c_infos c)) ->
  C02_ok c = true ->
  (feasible (c_strat c) (c_need c) (c_limit c) (c_infos c) = true ->
     exists p, o_res c = Ok p \/ o_res c = AlreadyFilled p) /\
  (feasible (c_strat c) (c_need c) (c_limit c) (c_infos c) = false ->
     o_res c = Err EInsufficientResource \/ o_res c = Err EInsufficientCapacity).
Proof.
  intros Hv Ht H. unfold C02_ok in H. rewrite Hv in H. rewrite Ht in H. rewrite Z.eqb_refl in H. simpl in H.
  destruct (o_res c) as [p|p|e| |]; try discriminate.
  - split; [intros _; exists p; left; reflexivity|]. intro Hf. rewrite Hf in H. discriminate.
  - split; [intros _; exists p; right; reflexivity|]. intro Hf. rewrite Hf in H. discriminate.
  - destruct e; try discriminate; (split; [intro Hf; rewrite Hf in H; discriminate|intros _; auto]).
Qed.
