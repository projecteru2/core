(* The two defects repaired in /repo (fix: commits), shown on the model of the
   code as it was: concrete witnesses evaluated by vm_compute. *)
From Coq Require Import String Ascii.
From Coq Require Import List Bool ZArith.
From Verif Require Import Base.GoInt Base.GoFloat Strategy.Model.
Import ListNotations.
Local Open Scope Z_scope.

Definition nm (s : string) := s.

(* FILL before the repair: one node with unlimited capacity that already runs one
   instance; topping it up to 3 is feasible, the old code refused. *)
Definition w_fill : list info := [mkInfo "u" fzero fzero max_int 1].
Lemma fill_old_refuted :
  feasible Fill 3 0 w_fill = true /\ fill_old w_fill 3 0 = Err EInsufficientResource.
Proof. split; vm_compute; reflexivity. Qed.
Lemma fill_fixed_witness : deploy Fill 3 0 w_fill max_int = Ok [("u"%string, 2)].
Proof. vm_compute. reflexivity. Qed.

(* DRAINED before the repair: small (capacity 1, usage 0.1) and big (capacity 3,
   usage 0.9); the old comparator put big first and small stayed empty. *)
Definition w_drained : list info :=
  [mkInfo "small" (fb 4591870180066957722) (fb 4591870180066957722) 1 0;
   mkInfo "big" (fb 4606281698874543309) (fb 4591870180066957722) 3 0].
Lemma drained_old_refuted :
  exists p, drained_old w_drained 2 4 = Ok p /\ mget p "big" = 2 /\ mget p "small" = 0.
Proof. eexists. split; [vm_compute; reflexivity|]. split; reflexivity. Qed.
Lemma drained_fixed_witness :
  exists p, deploy Drained 2 0 w_drained 4 = Ok p /\ mget p "big" = 1 /\ mget p "small" = 1.
Proof. eexists. split; [vm_compute; reflexivity|]. split; reflexivity. Qed.
