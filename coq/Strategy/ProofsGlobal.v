(* GLOBAL (GlobalPlan): loop invariant over the exact heap model; the balancing
   rule additionally uses the float order facts of Base/GoFloatLemmas.v. *)
From Coq Require Import String Ascii.
From Coq Require Import List Bool ZArith Arith Lia Permutation.
From Verif Require Import Base.GoInt Base.GoFloat Base.GoFloatLemmas Base.GoHeap Base.GoHeapSpec
  Strategy.Model Strategy.ProofsBase.
Import ListNotations.
Local Open Scope Z_scope.

Lemma fstore_id f : fstore f = f.
Proof. apply fb_fbits. Qed.

Lemma iter_add_S_r k : forall u r, iter_add (S k) u r = fstore (fadd (iter_add k u r) r).
Proof. induction k as [|k IH]; intros u r; [reflexivity|]. exact (IH (fstore (fadd u r)) r). Qed.

Lemma nn_iter k : forall u r, nn u -> f_finite r = true -> nn (iter_add k u r).
Proof.
  induction k as [|k IH]; intros u r Hu Hr; simpl; [exact Hu|].
  apply IH; [|exact Hr]. rewrite fstore_id. apply fadd_nn; assumption.
Qed.

Notation gle := (hle info glob_less).
Definition gP (x : info) : Prop := nn (usage x) /\ f_finite (rate x) = true.

Lemma gP_key x : gP x -> nn (glob_key x).
Proof. intros [H1 H2]. apply fadd_nn; assumption. Qed.

Lemma gle_fle a b : gP a -> gP b -> gle a b = fle (glob_key a) (glob_key b).
Proof. intros Ha Hb. unfold hle, glob_less. apply negb_flt_fle; apply gP_key; assumption. Qed.

Lemma gle_refl a : gP a -> gle a a = true.
Proof. intro H. rewrite gle_fle by assumption. apply fle_refl. apply gP_key; assumption. Qed.
Lemma gle_trans a b c : gP a -> gP b -> gP c -> gle a b = true -> gle b c = true -> gle a c = true.
Proof.
  intros Ha Hb Hc. rewrite !gle_fle by assumption. apply fle_trans; apply gP_key; assumption.
Qed.
Lemma gle_total a b : gP a -> gP b -> gle a b = true \/ gle b a = true.
Proof. intros Ha Hb. rewrite !gle_fle by assumption. apply fle_total; apply gP_key; assumption. Qed.

Notation ginv := (heap_inv info dinfo glob_less).
Definition gkeep (x : info) : bool := cap x >? 0.

Definition gcur (dep : plan) (x : info) : info :=
  mkInfo (name x) (iter_add (Z.to_nat (mget dep (name x))) (usage x) (rate x)) (rate x)
         (cap x - mget dep (name x)) (cnt x).

Lemma gcur_nil x : gcur [] x = x.
Proof. destruct x. unfold gcur. simpl. f_equal; lia. Qed.
Lemma gcur_madd_same dep x : 0 <= mget dep (name x) ->
  gcur (madd dep (name x) 1) x = glob_step (gcur dep x).
Proof.
  intro H. unfold gcur, glob_step. simpl. rewrite mget_madd_same.
  replace (Z.to_nat (mget dep (name x) + 1)) with (S (Z.to_nat (mget dep (name x)))) by lia.
  rewrite iter_add_S_r. f_equal. lia.
Qed.

Lemma gcur_madd_other dep x y : name x <> name y -> gcur (madd dep (name x) 1) y = gcur dep y.
Proof. intro H. unfold gcur. rewrite mget_madd_other by exact H. reflexivity. Qed.

Section GlobalS.
Variable infos : list info.
Hypothesis Hvalid : valid_infos infos.

(* float hypotheses, needed for the balancing rule only *)
Definition FH : Prop :=
  forall x, In x infos -> f_finite (usage x) = true /\ f_finite (rate x) = true /\ fle fzero (rate x) = true.

Definition U (dep : plan) (x : info) : f64 := usage (gcur dep x).

Lemma gP_gcur dep x : FH -> In x infos -> gP (gcur dep x).
Proof.
  intros Hf Hx. destruct (Hf x Hx) as (H1 & H2 & _). split; simpl; [|exact H2].
  apply nn_iter; [apply finite_nn; exact H1|exact H2].
Qed.

Lemma glob_budget : budget_ok infos cap gcur gkeep glob_step.
Proof.
  split; [apply Hvalid| |reflexivity|exact gcur_madd_other|exact gcur_madd_same|].
  - intros x Hx. destruct Hvalid as [_ Hv]. rewrite Forall_forall in Hv. apply Hv. exact Hx.
  - intros dep x _ _. unfold gkeep, gcur. simpl. lia.
Qed.

Definition gdep_inv (dep : plan) : Prop :=
  within infos cap dep /\
  (FH -> forall a b, In a infos -> In b infos -> 1 <= mget dep (name a) -> 1 <= cap b - mget dep (name b) ->
     fle (U dep a) (fadd (U dep b) (rate b)) = true).

Definition gheap_rel (h : list info) (dep : plan) : Prop :=
  Permutation h (eligible infos gcur gkeep dep) /\ (FH -> ginv h).

Lemma gP_eligible dep h : FH -> Permutation h (eligible infos gcur gkeep dep) -> Forall gP h.
Proof.
  intros Hf Hperm. apply Forall_forall. intros y Hy.
  destruct (eligible_in infos gcur gkeep dep y) as (x & Hx & -> & _); [eapply Permutation_in; eauto|].
  apply gP_gcur; assumption.
Qed.

Lemma gdep_inv_step h dep x :
  gdep_inv dep -> gheap_rel h dep -> In x infos -> gkeep (gcur dep x) = true ->
  (FH -> forall y, In y h -> gle (gcur dep x) y = true) ->
  gdep_inv (madd dep (name x) 1).
Proof.
  intros [Hw D4] [Hperm _] Hx Hk Hmin.
  split; [apply (within_madd _ _ _ _ _ glob_budget); assumption|].
  destruct Hw as (_ & _ & D1). destruct Hvalid as [Hnd Hv].
  assert (Hcx : 1 <= cap x - mget dep (name x)) by (unfold gkeep, gcur in Hk; simpl in Hk; lia).
  intros Hf a b Ha Hb Hda Hcb.
  specialize (D4 Hf). specialize (Hmin Hf).
  pose proof (D1 x Hx) as Hdx.
  assert (HUx : U (madd dep (name x) 1) x = fadd (U dep x) (rate x)).
  { unfold U. rewrite gcur_madd_same by lia. simpl. apply fstore_id. }
  assert (HUo : forall y, name x <> name y -> U (madd dep (name x) 1) y = U dep y).
  { intros y Hy. unfold U. rewrite gcur_madd_other by exact Hy. reflexivity. }
  assert (Hnn : forall d y, In y infos -> nn (U d y)).
  { intros d y Hy. apply (gP_gcur d y Hf Hy). }
  destruct (Hf x Hx) as (_ & Hrx & Hpx).
  destruct (names_eq_dec infos x a Hnd Hx Ha) as [<-|Ea];
    destruct (names_eq_dec infos x b Hnd Hx Hb) as [<-|Eb].
  + apply fadd_ge; [apply Hnn; exact Hx|exact Hrx|exact Hpx].
  + rewrite HUx, (HUo b Eb). rewrite mget_madd_other in Hcb by exact Eb.
    assert (Hin : In (gcur dep b) h).
    { eapply Permutation_in; [symmetry; exact Hperm|].
      apply in_eligible; [exact Hb|]. unfold gkeep, gcur. simpl. lia. }
    specialize (Hmin _ Hin). rewrite gle_fle in Hmin by (apply gP_gcur; assumption).
    exact Hmin.
  + rewrite (HUo a Ea), HUx. rewrite mget_madd_other in Hda by exact Ea.
    rewrite mget_madd_same in Hcb.
    specialize (D4 a x Ha Hx Hda ltac:(lia)).
    pose proof (fadd_nn _ _ (Hnn dep x Hx) Hrx) as Hn1.
    apply fle_trans with (fadd (U dep x) (rate x)); auto.
    * apply fadd_nn; [exact Hn1|exact Hrx].
    * apply fadd_ge; [exact Hn1|exact Hrx|exact Hpx].
  + rewrite (HUo a Ea), (HUo b Eb). rewrite !mget_madd_other in * by assumption.
    apply D4; auto.
Qed.

Lemma gheap_rel_step h dep x h' :
  gdep_inv dep -> gheap_rel h dep -> In x infos -> gkeep (gcur dep x) = true ->
  Permutation h (gcur dep x :: h') -> (FH -> ginv h') ->
  let x' := glob_step (gcur dep x) in
  let h'' := if cap x' >? 0 then push dinfo glob_less h' x' else h' in
  gheap_rel h'' (madd dep (name x) 1).
Proof.
  intros [Hw _] [Hperm Hinv] Hx Hk Hpop Hinv'. cbv zeta.
  pose proof (eligible_madd _ _ _ _ _ glob_budget dep x h h' Hw Hx Hk Hperm Hpop) as Hel.
  change (cap (glob_step (gcur dep x)) >? 0) with (gkeep (glob_step (gcur dep x))).
  destruct (gkeep (glob_step (gcur dep x))); [|split; assumption].
  split; [rewrite push_perm; exact Hel|].
  intro Hf. pose proof (gP_eligible _ _ Hf Hel) as HP. inversion HP; subst.
  apply (push_inv info dinfo glob_less gP gle_refl gle_trans gle_total); auto.
Qed.

Lemma glob_loop_spec : forall k h dep, gdep_inv dep -> gheap_rel h dep ->
  (Z.of_nat k <= budget infos cap dep -> exists p, glob_loop k h dep = Ok p /\ gdep_inv p /\
                                       plan_sum p = plan_sum dep + Z.of_nat k) /\
  (budget infos cap dep < Z.of_nat k -> glob_loop k h dep = Err EInsufficientResource).
Proof.
  induction k as [|k IH]; intros h dep Hdi Hhr.
  - pose proof (budget_nonneg infos cap dep (proj1 Hdi)). simpl. split; [|lia].
    intros _. exists dep. split; [reflexivity|]. split; [exact Hdi|lia].
  - pose proof Hhr as [Hperm Hinv]. cbn [glob_loop].
    destruct h as [|z t].
    + apply Permutation_nil in Hperm.
      pose proof (budget_zero _ _ _ _ _ glob_budget dep (proj1 Hdi) Hperm). simpl. split; [lia|reflexivity].
    + destruct (pop_some info dinfo glob_less (z :: t) ltac:(discriminate)) as (x' & h' & Hpop).
      pose proof (pop_perm info dinfo glob_less _ _ _ Hpop) as Hpp.
      rewrite Hpop.
      destruct (eligible_in infos gcur gkeep dep x') as (x & Hx & -> & Hx'k).
      { eapply Permutation_in; [exact Hperm|]. eapply Permutation_in; [symmetry; exact Hpp|]. left; reflexivity. }
      assert (Hmin : FH -> (forall y, In y (z :: t) -> gle (gcur dep x) y = true) /\ ginv h').
      { intro Hf. apply (pop_min info dinfo glob_less gP gle_refl gle_trans gle_total (z :: t)); auto.
        apply (gP_eligible dep); assumption. }
      assert (Hdi' := gdep_inv_step (z :: t) dep x Hdi Hhr Hx Hx'k (fun Hf => proj1 (Hmin Hf))).
      assert (Hhr' := gheap_rel_step (z :: t) dep x h' Hdi Hhr Hx Hx'k Hpp (fun Hf => proj2 (Hmin Hf))).
      cbv zeta in Hhr'.
      pose proof (budget_madd _ _ _ _ _ glob_budget dep x Hx) as Hrem'.
      pose proof (budget_pos _ _ _ _ _ glob_budget dep x (proj1 Hdi) Hx Hx'k) as Hpos.
      change (name (gcur dep x)) with (name x).
      destruct (IH _ _ Hdi' Hhr') as [I1 I2].
      split.
      * intro Hle. destruct I1 as (p & Hp & Hpi & Hps); [lia|].
        exists p. split; [exact Hp|]. split; [exact Hpi|]. rewrite Hps, plan_sum_madd. lia.
      * intro Hlt. apply I2. lia.
Qed.

Lemma gheap_rel_init : gheap_rel (init dinfo glob_less (filter gkeep infos)) [].
Proof.
  assert (E : eligible infos gcur gkeep [] = filter gkeep infos)
    by (unfold eligible; rewrite (map_ext _ id gcur_nil), map_id; reflexivity).
  split.
  - rewrite E. apply init_perm.
  - intro Hf. apply (init_inv info dinfo glob_less gP gle_refl gle_trans gle_total).
    rewrite <- E. apply (gP_eligible []); auto.
Qed.

Lemma gdep_inv_nil : gdep_inv [].
Proof.
  split; [exact (within_nil _ _ _ _ _ glob_budget)|]. intros _ a b _ _ H. simpl in H. lia.
Qed.

Lemma gdep_inv_C01 need limit p : gdep_inv p -> plan_sum p = need -> C01_spec Global need limit infos p.
Proof.
  intros ((D0 & D2 & D1) & _) Hs. unfold C01_spec. split; [exact D0|]. split; [exact D2|]. split; [exact D1|].
  split; [exact Hs|discriminate].
Qed.

Lemma gdep_inv_C03 need limit p : FH -> gdep_inv p -> C03_spec Global need limit infos p.
Proof.
  intros Hf (_ & D4) a b Ha Hb. cbv zeta. intros Hpa Hcb.
  exact (D4 Hf a b Ha Hb Hpa Hcb).
Qed.

Lemma global_spec need total : 0 < need ->
  (exists p, global infos need total = Ok p /\ gdep_inv p /\ plan_sum p = need /\
             total >= need /\ need <= sumZ (map cap infos)) \/
  (global infos need total = Err EInsufficientResource /\
   (total < need \/ sumZ (map cap infos) < need)).
Proof.
  intro Hneed. unfold global. fold gkeep.
  destruct (Z.ltb_spec total need) as [Ht|Ht]; [right; auto|].
  destruct (glob_loop_spec (Z.to_nat need) _ [] gdep_inv_nil gheap_rel_init) as [I1 I2].
  rewrite (budget_nil infos cap) in *. rewrite Z2Nat.id in * by lia.
  destruct (Z_lt_ge_dec (sumZ (map cap infos)) need) as [Hr|Hr]; [right; auto|left].
  destruct (I1 ltac:(lia)) as (p & Hp & Hpi & Hps). exists p.
  split; [exact Hp|]. split; [exact Hpi|]. split; [exact Hps|lia].
Qed.
End GlobalS.
