(* Top-level statements for C01, C02, C03 about [deploy] (strategy.Deploy),
   assembled from ProofsSort / ProofsAuto / ProofsGlobal, and the links to the
   boolean reflections the correspondence check evaluates. *)
From Coq Require Import String Ascii.
From Coq Require Import List Bool ZArith Arith Lia Permutation Sorted.
From Verif Require Import Base.GoInt Base.GoFloat Base.GoFloatLemmas Base.GoSort Base.GoSortSpec
  Strategy.Model Strategy.ProofsBase Strategy.ProofsSort Strategy.ProofsAuto Strategy.ProofsGlobal.
Import ListNotations.
Local Open Scope Z_scope.

(* the comparators are asymmetric, so gosort yields a sorted permutation *)
Lemma each_less_asym x y : each_less x y = true -> each_less y x = false.
Proof. unfold each_less. lia. Qed.
Lemma fill_less_asym x y : fill_less x y = true -> fill_less y x = false.
Proof.
  unfold fill_less. rewrite (Z.eqb_sym (cnt y) (cnt x)).
  destruct (Z.eqb_spec (cnt x) (cnt y)); lia.
Qed.
Lemma drained_less_asym x y : drained_less x y = true -> drained_less y x = false.
Proof.
  unfold drained_less. rewrite (Z.eqb_sym (cap y) (cap x)).
  destruct (Z.eqb_spec (cap x) (cap y)); simpl; [|lia].
  unfold fgt. apply flt_asym.
Qed.

Definition float_ok (infos : list info) : Prop :=
  forall x, In x infos -> f_finite (usage x) = true /\ f_finite (rate x) = true /\ fle fzero (rate x) = true.

Section Top.
Variables (infos : list info) (need limit total : Z).
Hypothesis Hvalid : valid_infos infos.
Hypothesis Hneed : 0 < need.
Hypothesis Hlimit : 0 <= limit.

Lemma need_pos_leb : (need <=? 0) = false.
Proof. lia. Qed.

Let sE := gosort each_less infos.
Let sF := gosort fill_less infos.
Let sD := gosort drained_less infos.
Lemma pE : Permutation infos sE. Proof. symmetry. apply gosort_perm. Qed.
Lemma pF : Permutation infos sF. Proof. symmetry. apply gosort_perm. Qed.
Lemma pD : Permutation infos sD. Proof. symmetry. apply gosort_perm. Qed.
Lemma oE : Sorted (ngt each_less) sE. Proof. apply gosort_sorted. exact each_less_asym. Qed.
Lemma oF : Sorted (ngt fill_less) sF. Proof. apply gosort_sorted. exact fill_less_asym. Qed.
Lemma oD : Sorted (ngt drained_less) sD. Proof. apply gosort_sorted. exact drained_less_asym. Qed.

Local Hint Resolve pE pF pD oE oF oD : core.

Lemma deploy_auto : deploy Auto need limit infos total = communism infos need total limit.
Proof. unfold deploy, deploy_full. rewrite need_pos_leb. reflexivity. Qed.
Lemma deploy_global : deploy Global need limit infos total = global infos need total.
Proof. unfold deploy, deploy_full. rewrite need_pos_leb. reflexivity. Qed.
Lemma deploy_drained : deploy Drained need limit infos total = drained_result sD need total.
Proof. unfold deploy, deploy_full. rewrite need_pos_leb. reflexivity. Qed.
Lemma deploy_each : deploy Each need limit infos total = each_result infos sE need limit.
Proof.
  unfold deploy, deploy_full. rewrite need_pos_leb. unfold average, each_result. simpl.
  destruct (Z.of_nat (length infos) <? each_limit infos limit); reflexivity.
Qed.
Lemma deploy_fill : deploy Fill need limit infos total = fill_result infos sF need limit.
Proof.
  unfold deploy, deploy_full. rewrite need_pos_leb. unfold fill, fill_result. simpl.
  destruct (Z.of_nat (length infos) <? each_limit infos limit); reflexivity.
Qed.

Definition refusal (r : result) : Prop :=
  r = Err EInsufficientResource \/ r = Err EInsufficientCapacity.

Lemma auto_outcome :
  (exists p, communism infos need total limit = Ok p /\ dep_inv infos limit p /\ plan_sum p = need /\
             total >= need /\ need <= sumZ (map (room limit) infos)) \/
  (communism infos need total limit = Err EInsufficientResource /\
   (total < need \/ sumZ (map (room limit) infos) < need)).
Proof. use (communism_spec infos limit) HH. exact (HH need total Hneed). Qed.

Lemma global_outcome :
  (exists p, global infos need total = Ok p /\ gdep_inv infos p /\ plan_sum p = need /\
             total >= need /\ need <= sumZ (map cap infos)) \/
  (global infos need total = Err EInsufficientResource /\
   (total < need \/ sumZ (map cap infos) < need)).
Proof. use (global_spec infos) HH. exact (HH need total Hneed). Qed.

Lemma drained_outcome :
  (exists p, drained_result sD need total = Ok p /\ drained_from sD need total = Ok p) \/
  drained_result sD need total = Err EInsufficientResource.
Proof.
  unfold drained_result. destruct (total <? need); [right; reflexivity|].
  use (drained_from_cases infos sD need total) HH. destruct HH as [[_ (p & E)]|[_ E]]; rewrite E; eauto.
Qed.

Lemma each_outcome :
  (exists p, each_result infos sE need limit = Ok p /\ each_from sE need (each_limit infos limit) = Ok p) \/
  refusal (each_result infos sE need limit).
Proof.
  unfold each_result, refusal.
  destruct (Z.of_nat (length infos) <? each_limit infos limit); [right; left; reflexivity|].
  use (each_from_cases infos sE need limit) HH.
  destruct HH as [[_ E]|[(_ & _ & E)|(_ & _ & E)]]; rewrite E; eauto.
Qed.

Lemma fill_outcome :
  (exists p, is_plan (fill_result infos sF need limit) p /\
             is_plan (fill_from sF need (each_limit infos limit)) p /\
             fill_result infos sF need limit = fill_from sF need (each_limit infos limit)) \/
  fill_result infos sF need limit = Err EInsufficientResource.
Proof.
  unfold fill_result.
  destruct (Z.of_nat (length infos) <? each_limit infos limit); [right; reflexivity|].
  use (fill_from_cases infos sF need limit) HH. destruct HH as [[_ (p & Hp)]|[_ E]]; [left; exists p; auto|right; exact E].
Qed.

Lemma deploy_cases s :
  (exists e, deploy s need limit infos total = Err e /\ (s <> Other -> refusal (Err e))) \/
  (exists p, is_plan (deploy s need limit infos total) p /\ C01_spec s need limit infos p /\
     ((s = Global -> float_ok infos) -> C03_spec s need limit infos p) /\
     (deploy s need limit infos total = AlreadyFilled p -> s = Fill /\ plan_sum p = 0)).
Proof.
  assert (Herr : forall r, r = Err EInsufficientResource \/ r = Err EInsufficientCapacity ->
            exists e, r = Err e /\ (s <> Other -> refusal (Err e))).
  { intros r [-> | ->]; eexists; (split; [reflexivity|intros _]); [left|right]; reflexivity. }
  destruct s.
  - rewrite deploy_auto. destruct auto_outcome as [(q & Hq & Hi & Hs & _)|[He _]]; [right; exists q|left; auto].
    rewrite Hq. split; [left; reflexivity|]. split; [|split; [intros _|discriminate]].
    + use (dep_inv_C01 infos limit) HH. apply HH; auto.
    + use (dep_inv_C03 infos limit need q) HH. apply HH; auto.
  - rewrite deploy_fill. destruct fill_outcome as [(q & Hq & _ & E)|He]; [right; exists q|left; auto].
    split; [exact Hq|]. rewrite E in *.
    use (fill_C01 infos sF need limit) H1. destruct (H1 _ q eq_refl Hq) as [H1a H1b].
    use (fill_C03 infos sF need limit) H3. specialize (H3 _ q eq_refl Hq). auto.
  - rewrite deploy_each. destruct each_outcome as [(q & Hq & Hf)|He]; [right; exists q|left; auto].
    rewrite Hq. split; [left; reflexivity|]. split; [|split; [intros _|discriminate]].
    + use (each_C01 infos sE need limit) HH. apply HH; auto.
    + use (each_C03 infos sE need limit) HH. apply HH; auto.
  - rewrite deploy_global. destruct global_outcome as [(q & Hq & Hi & Hs & _)|[He _]]; [right; exists q|left; auto].
    rewrite Hq. split; [left; reflexivity|]. split; [|split; [intro Hfl|discriminate]].
    + use (gdep_inv_C01 infos need limit q) HH. apply HH; auto.
    + use (gdep_inv_C03 infos need limit q) HH. apply HH; auto. exact (Hfl eq_refl).
  - rewrite deploy_drained. destruct drained_outcome as [(q & Hq & Hf)|He]; [right; exists q|left; auto].
    rewrite Hq. split; [left; reflexivity|]. split; [|split; [intros _|discriminate]].
    + use (drained_C01_limit infos sD need total) HH. apply HH; auto.
    + use (drained_C03 infos sD need total) HH. specialize (HH q limit). feed HH. apply HH; auto.
  - left. exists EInvalidStrategy. split; [reflexivity|congruence].
Qed.

Theorem C01_sound s p :
  is_plan (deploy s need limit infos total) p -> C01_spec s need limit infos p.
Proof.
  intro Hp. destruct (deploy_cases s) as [(e & E & _)|(q & Hq & H1 & _)].
  - rewrite E in Hp. destruct Hp; discriminate.
  - rewrite (is_plan_fun _ _ _ Hp Hq). exact H1.
Qed.

Lemma already_filled_fill s p :
  deploy s need limit infos total = AlreadyFilled p -> s = Fill /\ plan_sum p = 0.
Proof.
  intro Hp. destruct (deploy_cases s) as [(e & E & _)|(q & Hq & _ & _ & H4)]; [congruence|].
  destruct (is_plan_fun _ _ _ Hq (or_intror Hp)). exact (H4 Hp).
Qed.

Lemma deploy_total_outcome s : s <> Other ->
  (exists p, is_plan (deploy s need limit infos total) p) \/ refusal (deploy s need limit infos total).
Proof.
  intro Hs. destruct (deploy_cases s) as [(e & E & Hr)|(q & Hq & _)]; [right|left; exists q; exact Hq].
  rewrite E. exact (Hr Hs).
Qed.

Lemma room_le_cap_sum : sumZ (map (room limit) infos) <= sumZ (map cap infos).
Proof.
  clear Hvalid. induction infos as [|x t IH]; unfold sumZ in *; simpl; [lia|].
  pose proof (rm_le_cap limit x) as H. unfold rm in H. lia.
Qed.

Lemma caps_nonneg_all : Forall (fun z => 0 <= z) (map cap infos).
Proof.
  destruct Hvalid as [_ Hv]. rewrite Forall_forall in *. intros z Hz.
  apply in_map_iff in Hz. destruct Hz as (x & <- & Hx). apply Hv. exact Hx.
Qed.

Theorem C02_complete s :
  s <> Other -> need <= max_int -> total = satsum (map cap infos) ->
  (feasible s need limit infos = true -> exists p, is_plan (deploy s need limit infos total) p) /\
  (feasible s need limit infos = false -> refusal (deploy s need limit infos total)).
Proof.
  intros Hs Hmax Ht.
  assert (Htot : total = Z.min max_int (sumZ (map cap infos))) by (rewrite Ht; apply satsum_spec; apply caps_nonneg_all).
  unfold refusal. destruct s; try congruence.
  - rewrite deploy_auto. unfold feasible.
    destruct auto_outcome as [(q & Hq & _ & _ & _ & Hf)|[He Hf]].
    + split; [intros _; exists q; left; exact Hq|]. rewrite Z.leb_gt. lia.
    + split; [|intros _; left; exact He]. rewrite Z.leb_le. intro Hfe. exfalso.
      pose proof room_le_cap_sum. lia.
  - rewrite deploy_fill.
    use (fill_C02 infos sF need limit) HH. destruct HH as [I1 I2].
    split; [exact I1|]. intro Hf. left. apply I2. exact Hf.
  - rewrite deploy_each.
    use (each_C02 infos sE need limit) HH. destruct HH as [I1 I2].
    split; [|exact I2]. intro Hf. destruct (I1 Hf) as (q & Hq). exists q. left. exact Hq.
  - rewrite deploy_global. unfold feasible.
    destruct global_outcome as [(q & Hq & _ & _ & _ & Hf)|[He Hf]].
    + split; [intros _; exists q; left; exact Hq|]. rewrite Z.leb_gt. lia.
    + split; [|intros _; left; exact He]. rewrite Z.leb_le. intro Hfe. exfalso. lia.
  - rewrite deploy_drained.
    use (drained_C02 infos sD need total) HH. destruct HH as [I1 I2].
    split.
    + intro Hf. destruct (I1 Hf) as (q & Hq). exists q. left. exact Hq.
    + intro Hf. left. apply I2. exact Hf.
Qed.

Theorem C03_rules s p :
  (s = Global -> float_ok infos) ->
  is_plan (deploy s need limit infos total) p -> C03_spec s need limit infos p.
Proof.
  intros Hfl Hp. destruct (deploy_cases s) as [(e & E & _)|(q & Hq & _ & H3 & _)].
  - rewrite E in Hp. destruct Hp; discriminate.
  - rewrite (is_plan_fun _ _ _ Hp Hq). exact (H3 Hfl).
Qed.
End Top.
