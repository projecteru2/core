(* Non-vacuity examples: the hypotheses of the theorems of Strategy/Proofs.v are
   satisfiable and every strategy does produce a plan on a concrete table. *)
From Coq Require Import String Ascii.
From Coq Require Import List Bool ZArith Lia.
From Verif Require Import Base.GoInt Base.GoFloat
  Strategy.Model Strategy.ProofsBase Strategy.Proofs.
Import ListNotations.
Local Open Scope Z_scope.

Definition ex_infos : list info :=
  [mkInfo "a" (fb 4598175219545276416) (fb 4593671619917905920) 4 1;   (* usage 0.25 rate 0.125 *)
   mkInfo "b" (fb 4602678819172646912) (fb 4598175219545276416) 2 0;   (* usage 0.5  rate 0.25 *)
   mkInfo "c" (fb 4593671619917905920) (fb 4602678819172646912) max_int 3]. (* unlimited capacity *)

Lemma ex_valid : valid_infos ex_infos.
Proof.
  split.
  - apply nodupb_spec. reflexivity.
  - repeat constructor; simpl; unfold max_int; lia.
Qed.

Lemma ex_float_ok : float_ok ex_infos.
Proof.
  intros x Hx. simpl in Hx. destruct Hx as [<-|[<-|[<-|[]]]]; (split; [|split]); vm_compute; reflexivity.
Qed.

Lemma ex_all_strategies_plan :
  (exists p, deploy Auto 4 3 ex_infos max_int = Ok p) /\
  (exists p, deploy Global 5 0 ex_infos max_int = Ok p) /\
  (exists p, deploy Drained 5 0 ex_infos max_int = Ok p) /\
  (exists p, deploy Each 2 2 ex_infos max_int = Ok p) /\
  (exists p, deploy Fill 4 2 ex_infos max_int = Ok p) /\
  feasible Auto 4 3 ex_infos = true /\ feasible Fill 4 2 ex_infos = true /\
  feasible Each 2 0 ex_infos = true /\ feasible Auto 5 3 ex_infos = false.
Proof.
  repeat split;
  try (match goal with |- exists p, ?d = Ok p =>
         let r := eval vm_compute in d in
         match r with Ok ?q => exists q; vm_compute; reflexivity end end);
  vm_compute; reflexivity.
Qed.
