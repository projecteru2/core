(* Proofs about Selfmon/Selfmon.v (C28).

   [step] is analysed once: [sstep] is the relation of the six steps of one session with
   the exact next state ([sstep_step]), and [step_effect] says what any step can do to the
   data, to the lock and to the phase of each watcher.  The invariants ([inv], [hvalid],
   [hexact]), the settling argument and the interleaving theorems all go through these. *)
From Coq Require Import List Bool PeanoNat Lia.
From Verif Require Import Selfmon.Selfmon.
Import ListNotations.

Lemma memn_In : forall i l, memn i l = true <-> In i l.
Proof.
  intros i l. induction l as [|x t IH]; simpl; [split; [discriminate|tauto]|].
  rewrite orb_true_iff, Nat.eqb_eq, IH. tauto.
Qed.
Lemma memn_app : forall n l1 l2, memn n (l1 ++ l2) = memn n l1 || memn n l2.
Proof. intros. induction l1; simpl; [reflexivity|]. rewrite IHl1. apply orb_assoc. Qed.
Lemma In_remn : forall j k l, In j (remn k l) <-> In j l /\ j <> k.
Proof. intros. unfold remn. rewrite filter_In, negb_true_iff, Nat.eqb_neq. tauto. Qed.
Lemma memn_remn_same : forall n l, memn n (remn n l) = false.
Proof.
  intros n l. destruct (memn n (remn n l)) eqn:E; [|reflexivity].
  apply memn_In, In_remn in E. destruct E as [_ E]. congruence.
Qed.

Lemma nth_upd_same : forall A (f : A -> A) k l d, k < length l -> nth k (upd k f l) d = f (nth k l d).
Proof. intros A f k l d. revert k. induction l; intros [|k] H; simpl in *; try lia; auto. apply IHl. lia. Qed.
Lemma nth_upd_other : forall A (f : A -> A) k j l d, k <> j -> nth j (upd k f l) d = nth j l d.
Proof. intros A f k j l d. revert k j. induction l; intros [|k] [|j] H; simpl; auto; try congruence. Qed.
Lemma upd_length : forall A (f : A -> A) i l, length (upd i f l) = length l.
Proof. intros A f i l. revert i. induction l; intros [|i]; simpl; auto. Qed.

Definition inactive (p : wphase) : Prop := forall se, p <> Active se.

Lemma phase_lt : forall s k, phase s k <> Stopped -> k < length (ws s).
Proof.
  intros s k H. destruct (Nat.lt_ge_cases k (length (ws s))) as [L|L]; [exact L|].
  exfalso. apply H. apply nth_overflow. exact L.
Qed.
Lemma phase_active_lt : forall s k se, phase s k = Active se -> k < length (ws s).
Proof. intros s k se H. apply phase_lt. rewrite H. discriminate. Qed.
Lemma phase_ws : forall s s' j, ws s' = ws s -> phase s' j = phase s j.
Proof. intros s s' j E. unfold phase. rewrite E. reflexivity. Qed.

Definition moves (s s' : st) (k : nat) (p : wphase) : Prop :=
  k < length (ws s) /\ ws s' = upd k (fun _ => p) (ws s).

Lemma moves_at : forall s s' k p, moves s s' k p -> phase s' k = p.
Proof. intros s s' k p [L E]. unfold phase. rewrite E. apply nth_upd_same. exact L. Qed.
Lemma moves_other : forall s s' k p j, moves s s' k p -> j <> k -> phase s' j = phase s j.
Proof. intros s s' k p j [_ E] N. unfold phase. rewrite E. apply nth_upd_other. congruence. Qed.
Lemma moves_len : forall s s' k p, moves s s' k p -> length (ws s') = length (ws s).
Proof. intros s s' k p [_ E]. rewrite E. apply upd_length. Qed.
Lemma moves_set : forall s k p, k < length (ws s) -> moves s (set_phase s k p) k p.
Proof. intros s k p L. split; [exact L|reflexivity]. Qed.

Lemma phase_set_same : forall s k p, k < length (ws s) -> phase (set_phase s k p) k = p.
Proof. intros s k p L. exact (moves_at _ _ _ _ (moves_set s k p L)). Qed.
Lemma phase_set_other : forall s k j p, k <> j -> phase (set_phase s k p) j = phase s j.
Proof. intros. unfold phase, set_phase. simpl. apply nth_upd_other. assumption. Qed.

(* a watch event reaches an open session *)
Definition push (n : node) (a : bool) (se : session) : session :=
  if se_watch se then mkSe true (se_listed se) (se_init se) (se_queue se ++ [(n, a)]) (se_tasks se) else se.
Lemma enqueue_active : forall n a se, enqueue n a (Active se) = Active (push n a se).
Proof. intros. unfold push. simpl. destruct (se_watch se); reflexivity. Qed.
Lemma enqueue_inactive : forall n a p, inactive p -> enqueue n a p = p.
Proof. intros n a [| |se|] H; try reflexivity. destruct (H se eq_refl). Qed.
Lemma push_flags : forall n a se,
  se_watch (push n a se) = se_watch se /\ se_listed (push n a se) = se_listed se /\
  se_init (push n a se) = se_init se /\ se_tasks (push n a se) = se_tasks se /\
  incl (se_queue se) (se_queue (push n a se)).
Proof.
  intros. unfold push. destruct (se_watch se) eqn:W; simpl; repeat split; auto using incl_refl, incl_appl.
Qed.
Lemma push_open : forall n a se, se_watch se = true -> In (n, a) (se_queue (push n a se)).
Proof. intros n a se W. unfold push. rewrite W. simpl. apply in_or_app. right. left. reflexivity. Qed.

Lemma phase_cast : forall s n a al j,
  phase (set_ws (set_alive s al) (map (enqueue n a) (ws s))) j = enqueue n a (phase s j).
Proof.
  intros. unfold phase. simpl. change Stopped with (enqueue n a Stopped) at 1. rewrite map_nth. reflexivity.
Qed.
Lemma phase_spawn : forall s j,
  phase (set_ws s (ws s ++ [Idle])) j = if j =? length (ws s) then Idle else phase s j.
Proof.
  intros s j. unfold phase. simpl. destruct (Nat.eqb_spec j (length (ws s))) as [E|E].
  - subst. rewrite app_nth2, Nat.sub_diag by lia. reflexivity.
  - destruct (Nat.lt_ge_cases j (length (ws s))) as [L|L]; [apply app_nth1; exact L|].
    rewrite !nth_overflow; [reflexivity|exact L|rewrite app_length; simpl; lia].
Qed.

(* workloads are only appended and never change node *)
Definition extends (l0 l : list wl) : Prop :=
  exists more, map w_node l = map w_node l0 ++ more.

Lemma extends_refl : forall l, extends l l.
Proof. intro l. exists []. rewrite app_nil_r. reflexivity. Qed.
Lemma extends_same_nodes : forall l0 l l', extends l0 l -> map w_node l' = map w_node l -> extends l0 l'.
Proof. intros l0 l l' [m E] H. exists m. congruence. Qed.
Lemma extends_snoc : forall l0 l w, extends l0 l -> extends l0 (l ++ [w]).
Proof. intros l0 l w [m E]. exists (m ++ [w_node w]). rewrite map_app, E, app_assoc. reflexivity. Qed.
Lemma extends_trans : forall a b c, extends a b -> extends b c -> extends a c.
Proof. intros a b c [m1 E1] [m2 E2]. exists (m1 ++ m2). rewrite E2, E1, app_assoc. reflexivity. Qed.

Lemma map_node_down : forall m l, map w_node (map (down_wl m) l) = map w_node l.
Proof.
  intros m l. rewrite map_map. apply map_ext. intro w. unfold down_wl. destruct (w_node w =? m); reflexivity.
Qed.
Lemma map_node_upd : forall i r h l,
  map w_node (upd i (fun x => mkWl (w_node x) (Some (r, h))) l) = map w_node l.
Proof. intros i r h l. revert i. induction l as [|w t IH]; intros [|i]; simpl; auto. rewrite IH. reflexivity. Qed.

(* one step of the session se of watcher k: the event, the session afterwards, and the
   node whose workloads the step marks down, if it is a successful handler *)
Inductive sstep (s : st) (k : nat) (se : session) : event -> session -> option node -> Prop :=
| SWatch : sstep s k se (EWatch k) (mkSe true (se_listed se) (se_init se) (se_queue se) (se_tasks se)) None
| SInitList : se_listed se = false -> se_watch se = true ->
    sstep s k se (EInitList k) (mkSe (se_watch se) true (nodes s) (se_queue se) (se_tasks se)) None
| SInitRead n r : se_init se = n :: r ->
    sstep s k se (EInitRead k)
      (mkSe (se_watch se) (se_listed se) r (se_queue se)
            (if memn n (alive s) then se_tasks se else se_tasks se ++ [n])) None
| SDeliver n a r : se_queue se = (n, a) :: r ->
    sstep s k se (EDeliver k)
      (mkSe (se_watch se) (se_listed se) (se_init se) r (if a then se_tasks se else se_tasks se ++ [n])) None
| SHandle j n : nth_error (se_tasks se) j = Some n ->
    sstep s k se (EHandle k j)
      (mkSe (se_watch se) (se_listed se) (se_init se) (se_queue se) (remove_nth j (se_tasks se))) (Some n)
| SHandleFail j n : nth_error (se_tasks se) j = Some n ->
    sstep s k se (EHandleFail k j)
      (mkSe (se_watch se) (se_listed se) (se_init se) (se_queue se) (remove_nth j (se_tasks se))) None.

Definition wls_after (s : st) (o : option node) : list wl :=
  match o with Some n => map (down_wl n) (wls s) | None => wls s end.
Definition trace_after (s : st) (k : nat) (o : option node) : list tev :=
  match o with Some n => THandled k n (on_node n (wls s)) :: trace s | None => trace s end.

Definition sess_result (s : st) (k : nat) (se' : session) (o : option node) : st :=
  mkSt (nodes s) (alive s) (wls_after s o) (holder s) (upd k (fun _ => Active se') (ws s)) (trace_after s k o).

Lemma sstep_step : forall s k se e se' o, phase s k = Active se -> sstep s k se e se' o ->
  step s e = sess_result s k se' o.
Proof.
  intros s k se e se' o P S. destruct S as [|L W|m r I|m a r Q|j m T|j m T]; simpl; rewrite P;
    [|rewrite L, W|rewrite I|rewrite Q|rewrite T|rewrite T]; reflexivity.
Qed.

(* events that end the session of watcher k, or make one of its handlers fail
   (SetNode error: the code does not retry) *)
Definition ends (k : nat) (e : event) : Prop := e = EStop k \/ e = EExpire k \/ exists j, e = EHandleFail k j.

(* the steps of watcher k's own session: those it takes when all goes well, and all of them *)
Definition own (k : nat) (e : event) : Prop :=
  e = EWatch k \/ e = EInitList k \/ e = EInitRead k \/ e = EDeliver k \/ exists j, e = EHandle k j.
Definition sess (k : nat) (e : event) : Prop := own k e \/ exists j, e = EHandleFail k j.

Lemma own_not_ends : forall k e, own k e -> ~ ends k e.
Proof. intros k e [->|[->|[->|[->|[j ->]]]]] [X|[X|[j' X]]]; discriminate. Qed.

Lemma sess_cases : forall s k e, sess k e ->
  step s e = s \/ exists se se' o, phase s k = Active se /\ sstep s k se e se' o.
Proof.
  intros s k e [[E|[E|[E|[E|[j E]]]]]|[j E]]; subst e; simpl;
    (destruct (phase s k) as [| |se|] eqn:P; [left; reflexivity|left; reflexivity| |left; reflexivity]).
  - right. exists se. eauto using SWatch.
  - destruct (se_listed se) eqn:L; [left; reflexivity|]. destruct (se_watch se) eqn:W; [|left; reflexivity].
    right. exists se. eauto using SInitList.
  - destruct (se_init se) as [|n r] eqn:I; [left; reflexivity|]. right. exists se. eauto using SInitRead.
  - destruct (se_queue se) as [|[n a] r] eqn:Q; [left; reflexivity|]. right. exists se. eauto using SDeliver.
  - destruct (nth_error (se_tasks se) j) as [n|] eqn:T; [|left; reflexivity]. right. exists se. eauto using SHandle.
  - destruct (nth_error (se_tasks se) j) as [n|] eqn:T; [|left; reflexivity]. right. exists se. eauto using SHandleFail.
Qed.

Definition active (s : st) (k : nat) : Prop := exists se, phase s k = Active se.

(* the phase of watcher k moves to p and the lock goes to h' *)
Inductive moved (s : st) (k : nat) (p : wphase) (h' : option nat) (e : event) : option node -> Prop :=
| M_idle : inactive (phase s k) -> inactive p -> h' = holder s -> moved s k p h' e None
| M_register : phase s k = Waiting -> holder s = None -> p = Active fresh -> h' = Some k -> moved s k p h' e None
| M_release : e = EExpire k \/ e = EStop k -> active s k -> inactive p -> h' = release_by k (holder s) ->
    moved s k p h' e None
| M_sess se se' o : phase s k = Active se -> sstep s k se e se' o -> p = Active se' -> h' = holder s ->
    moved s k p h' e o.

Inductive effect (s s' : st) (e : event) : Prop :=
| E_none : s' = s -> effect s s' e
  (* EAddNode, ECreate, EReport *)
| E_data : ws s' = ws s -> holder s' = holder s -> alive s' = alive s -> trace s' = trace s ->
    incl (nodes s) (nodes s') -> extends (wls s) (wls s') -> effect s s' e
  (* EHeartbeat (a = true), ELapse (a = false): the watch event goes to every open session *)
| E_cast n a : (a = true -> memn n (nodes s) = true) ->
    s' = set_ws (set_alive s (if a then n :: alive s else remn n (alive s))) (map (enqueue n a) (ws s)) ->
    effect s s' e
| E_spawn : s' = set_ws s (ws s ++ [Idle]) -> effect s s' e
  (* EStart, ERegister, EExpire, EStop and the session steps *)
| E_move k p o : moves s s' k p -> nodes s' = nodes s -> alive s' = alive s ->
    wls s' = wls_after s o -> trace s' = trace_after s k o -> moved s k p (holder s') e o -> effect s s' e
| E_lost k : e = ELeaseLost k -> holder s = Some k -> s' = set_holder s None -> effect s s' e.

Lemma step_effect : forall s e, effect s (step s e) e.
Proof.
  intros s e.
  assert (Mv : forall k p h o, phase s k <> Stopped -> moved s k p h e o ->
            effect s (mkSt (nodes s) (alive s) (wls_after s o) h (upd k (fun _ => p) (ws s)) (trace_after s k o)) e).
  { intros k p h o L M. apply (E_move _ _ _ k p o); try reflexivity; [|exact M].
    split; [apply phase_lt; exact L|reflexivity]. }
  assert (Ss : forall k, sess k e -> effect s (step s e) e).
  { intros k Se. destruct (sess_cases s k e Se) as [E|[se [se' [o [P S]]]]]; [apply E_none; exact E|].
    rewrite (sstep_step _ _ _ _ _ _ P S). apply Mv; [rewrite P; discriminate|].
    apply (M_sess _ _ _ _ _ se se' o); auto. }
  destruct e; try (apply (Ss k); unfold sess, own; eauto 8; fail); clear Ss; simpl.
  - destruct (memn n (nodes s)); [apply E_none; reflexivity|].
    apply E_data; try reflexivity; [apply incl_appl, incl_refl|apply extends_refl].
  - destruct (memn n (nodes s)) eqn:M; [simpl|apply E_none; reflexivity].
    destruct (memn n (alive s)); [apply E_none; reflexivity|].
    apply (E_cast _ _ _ n true); [intros _; exact M|reflexivity].
  - destruct (memn n (alive s)); [|apply E_none; reflexivity].
    apply (E_cast _ _ _ n false); [discriminate|reflexivity].
  - destruct (memn n (nodes s)); [|apply E_none; reflexivity].
    apply E_data; try reflexivity; [apply incl_refl|apply extends_snoc, extends_refl].
  - apply E_data; try reflexivity; [apply incl_refl|].
    eapply extends_same_nodes; [apply extends_refl|apply map_node_upd].
  - apply E_spawn. reflexivity.
  - destruct (phase s k) eqn:P; try (apply E_none; reflexivity).
    apply (Mv k Waiting (holder s) None); [rewrite P; discriminate|].
    apply M_idle; [rewrite P| |reflexivity]; intro; discriminate.
  - destruct (phase s k) eqn:P; try (apply E_none; reflexivity).
    destruct (holder s) eqn:H; [apply E_none; reflexivity|].
    apply (Mv k (Active fresh) (Some k) None); [rewrite P; discriminate|]. apply M_register; auto.
  - destruct (holder s) as [k'|] eqn:H; [|apply E_none; reflexivity].
    destruct (Nat.eqb_spec k' k) as [E|E]; [subst k'|apply E_none; reflexivity].
    apply (E_lost _ _ _ k); [reflexivity|exact H|reflexivity].
  - destruct (phase s k) eqn:P; try (apply E_none; reflexivity).
    apply (Mv k Waiting (release_by k (holder s)) None); [rewrite P; discriminate|].
    apply M_release; [left; reflexivity|exists se; exact P|intro; discriminate|reflexivity].
  - destruct (phase s k) eqn:P; [| | |apply E_none; reflexivity].
    + apply (Mv k Stopped (holder s) None); [rewrite P; discriminate|].
      apply M_idle; [rewrite P| |reflexivity]; intro; discriminate.
    + apply (Mv k Stopped (holder s) None); [rewrite P; discriminate|].
      apply M_idle; [rewrite P| |reflexivity]; intro; discriminate.
    + apply (Mv k Stopped (release_by k (holder s)) None); [rewrite P; discriminate|].
      apply M_release; [right; reflexivity|exists se; exact P|intro; discriminate|reflexivity].
Qed.

Lemma sstep_flags : forall s k se e se' o, sstep s k se e se' o ->
  (se_watch se = true -> se_watch se' = true) /\
  ((se_listed se = true -> se_watch se = true) -> se_listed se' = true -> se_watch se' = true).
Proof. intros s k se e se' o S. destruct S; simpl; auto. Qed.

Lemma enqueue_Active_inv : forall n a p se', enqueue n a p = Active se' ->
  exists se, p = Active se /\ se' = push n a se.
Proof.
  intros n a [| |se|] se' H; try discriminate. rewrite enqueue_active in H. inversion H. eauto.
Qed.

Lemma release_by_some : forall k h j, release_by k h = Some j -> h = Some j /\ j <> k.
Proof.
  intros k [k'|] j H; simpl in H; [|discriminate].
  destruct (Nat.eqb_spec k' k); [discriminate|]. inversion H; subst. auto.
Qed.

Lemma run_invariant : forall (P : st -> Prop) (Q : event -> Prop),
  (forall s e, Q e -> P s -> P (step s e)) ->
  forall evs s, Forall Q evs -> P s -> P (run s evs).
Proof.
  intros P Q H. induction evs as [|e t IH]; intros s F I; simpl; [exact I|].
  inversion F; subst. apply IH; auto.
Qed.
Lemma Forall_True : forall (evs : list event), Forall (fun _ => True) evs.
Proof. intro evs. apply Forall_forall. auto. Qed.

Record inv (s : st) : Prop := mkInv {
  inv_alive : forall n, memn n (alive s) = true -> memn n (nodes s) = true;
  inv_listed : forall k se, phase s k = Active se -> se_listed se = true -> se_watch se = true
}.

Lemma inv_step : forall s e, inv s -> inv (step s e).
Proof.
  intros s e [IA IL].
  destruct (step_effect s e) as [E|Hws Hho Hal Htr Hno Hwl|n a Hn E|E|k p o M Hno Hal Hwl Htr Mv|k _ Hk E].
  - rewrite E. constructor; assumption.
  - constructor.
    + intros n Hn. rewrite Hal in Hn. apply memn_In, Hno, memn_In, IA, Hn.
    + intros k se P. rewrite (phase_ws _ _ _ Hws) in P. exact (IL k se P).
  - rewrite E. constructor; simpl.
    + intros m Hm. destruct a; [|apply memn_In, In_remn in Hm; apply IA, memn_In, Hm].
      simpl in Hm. destruct (Nat.eqb_spec n m) as [C|_]; [subst m; auto|exact (IA m Hm)].
    + intros k se P. rewrite phase_cast in P. apply enqueue_Active_inv in P. destruct P as [se0 [P ->]].
      destruct (push_flags n a se0) as [W [L _]]. rewrite W, L. exact (IL k se0 P).
  - rewrite E. constructor; [exact IA|]. intros k se P. rewrite phase_spawn in P.
    destruct (k =? length (ws s)); [discriminate|exact (IL k se P)].
  - constructor; [rewrite Hno, Hal; exact IA|]. intros j se P L.
    destruct (Nat.eq_dec j k) as [->|N]; [|rewrite (moves_other _ _ _ _ _ M N) in P; exact (IL j se P L)].
    rewrite (moves_at _ _ _ _ M) in P.
    destruct Mv as [_ Hp _|_ _ Hp _|_ _ Hp _|se0 se' o P0 S Hp _]; try (destruct (Hp se P)); subst p; inversion P; subst se.
    + discriminate L.
    + exact (proj2 (sstep_flags _ _ _ _ _ _ S) (IL k se0 P0) L).
  - rewrite E. constructor; assumption.
Qed.

Lemma inv_init : inv init.
Proof. constructor; [discriminate|]. intros [|k] se P; discriminate. Qed.
Lemma inv_run : forall evs s, inv s -> inv (run s evs).
Proof. intros evs s. apply (run_invariant inv (fun _ => True)); auto using inv_step, Forall_True. Qed.

(* k's session is still running although the key is no longer bound to its lease *)
Definition stale (s : st) (k : nat) : Prop := active s k /\ holder s <> Some k.
Definition lease_loss (e : event) : Prop := exists k, e = ELeaseLost k.

Lemma active_lt : forall s k, active s k -> k < length (ws s).
Proof. intros s k [se P]. eapply phase_active_lt. exact P. Qed.
Lemma active_frame : forall s s' k, phase s' k = phase s k -> active s k -> active s' k.
Proof. intros s s' k E [se P]. exists se. congruence. Qed.

(* the key, when it exists, is bound to the lease of a running session *)
Definition hvalid (s : st) : Prop := forall k, holder s = Some k -> active s k.
(* without lease losses a running session always holds the key *)
Definition hexact (s : st) : Prop := forall k, active s k -> holder s = Some k.

Lemma hvalid_step : forall s e, hvalid s -> hvalid (step s e).
Proof.
  intros s e H j.
  destruct (step_effect s e) as [E|Hws Hho Hal Htr Hno Hwl|n a Hn E|E|k p o M Hno Hal Hwl Htr Mv|k _ Hk E].
  - rewrite E. apply H.
  - rewrite Hho. intro Hj. eapply active_frame; [apply phase_ws; exact Hws|exact (H j Hj)].
  - rewrite E. intro Hj. destruct (H j Hj) as [se P]. exists (push n a se). rewrite phase_cast, P. apply enqueue_active.
  - rewrite E. intro Hj. destruct (H j Hj) as [se P]. exists se. rewrite phase_spawn.
    destruct (Nat.eqb_spec j (length (ws s))) as [C|_]; [|exact P]. apply phase_active_lt in P. lia.
  - intro Hj. destruct Mv as [Hi _ Hh|_ _ Hp Hh|_ _ _ Hh|se0 se' o P0 S Hp Hh]; rewrite Hh in Hj.
    + destruct (H j Hj) as [se P]. exists se. rewrite (moves_other _ _ _ _ _ M); [exact P|].
      intros ->. exact (Hi se P).
    + inversion Hj; subst. exists fresh. exact (moves_at _ _ _ _ M).
    + apply release_by_some in Hj. destruct Hj as [Hj N].
      eapply active_frame; [exact (moves_other _ _ _ _ _ M N)|exact (H j Hj)].
    + destruct (Nat.eq_dec j k) as [->|N]; [exists se'; subst p; exact (moves_at _ _ _ _ M)|].
      eapply active_frame; [exact (moves_other _ _ _ _ _ M N)|exact (H j Hj)].
  - rewrite E. discriminate.
Qed.
Lemma hvalid_run : forall evs s, hvalid s -> hvalid (run s evs).
Proof. intros evs s. apply (run_invariant hvalid (fun _ => True)); auto using hvalid_step, Forall_True. Qed.
Lemma hvalid_init : hvalid init.
Proof. intros k H. discriminate. Qed.

Lemma hexact_step : forall s e, ~ lease_loss e -> hexact s -> hexact (step s e).
Proof.
  intros s e NL H j.
  destruct (step_effect s e) as [E|Hws Hho Hal Htr Hno Hwl|n a Hn E|E|k p o M Hno Hal Hwl Htr Mv|k Ek _ _].
  - rewrite E. apply H.
  - rewrite Hho. intro A. apply H. eapply active_frame; [symmetry; apply phase_ws; exact Hws|exact A].
  - rewrite E. intros [se P]. rewrite phase_cast in P. apply enqueue_Active_inv in P.
    destruct P as [se0 [P _]]. apply H. exists se0. exact P.
  - rewrite E. intros [se P]. rewrite phase_spawn in P.
    destruct (j =? length (ws s)); [discriminate|]. apply H. exists se. exact P.
  - intros [se P]. destruct (Nat.eq_dec j k) as [->|N].
    + rewrite (moves_at _ _ _ _ M) in P.
      destruct Mv as [_ Hp _|_ _ _ Hh|_ _ Hp _|se0 se' o P0 _ _ Hh]; try (destruct (Hp se P)); rewrite Hh.
      * reflexivity.
      * apply H. exists se0. exact P0.
    + rewrite (moves_other _ _ _ _ _ M N) in P.
      assert (Hj : holder s = Some j) by (apply H; exists se; exact P).
      destruct Mv as [_ _ Hh|_ Hn _ _|_ A _ _|se0 se' o _ _ _ Hh]; try (rewrite Hh; exact Hj).
      * congruence.
      * apply H in A. congruence.
  - exfalso. apply NL. exists k. exact Ek.
Qed.
Lemma hexact_run : forall evs s, Forall (fun e => ~ lease_loss e) evs -> hexact s -> hexact (run s evs).
Proof. intros evs s. apply (run_invariant hexact); auto using hexact_step. Qed.
Lemma hexact_init : hexact init.
Proof. intros k [se P]. destruct k; discriminate. Qed.

Lemma trace_grows : forall s e, exists pre, trace (step s e) = pre ++ trace s.
Proof.
  intros s e.
  destruct (step_effect s e) as [E|_ _ _ Htr _ _|n a _ E|E|k p o _ _ _ _ Htr _|k _ _ E]; try (rewrite E; exists []; reflexivity).
  - exists []. exact Htr.
  - rewrite Htr. destruct o; [eexists [_]|exists []]; reflexivity.
Qed.
Lemma wls_extends : forall s e, extends (wls s) (wls (step s e)).
Proof.
  intros s e.
  destruct (step_effect s e) as [E|_ _ _ _ _ Hwl|n a _ E|E|k p o _ _ _ Hwl _ _|k _ _ E]; try (rewrite E; apply extends_refl).
  - exact Hwl.
  - rewrite Hwl. destruct o; [|apply extends_refl].
    eapply extends_same_nodes; [apply extends_refl|apply map_node_down].
Qed.

Definition same_data (s s' : st) : Prop :=
  nodes s' = nodes s /\ alive s' = alive s /\ map w_node (wls s') = map w_node (wls s).

Lemma sess_result_moves : forall s k se' o, k < length (ws s) -> moves s (sess_result s k se' o) k (Active se').
Proof. intros s k se' o L. split; [exact L|reflexivity]. Qed.

Lemma sess_run_data : forall evs s k, Forall (sess k) evs -> same_data s (run s evs).
Proof.
  intros evs s k F. apply (run_invariant (same_data s) (sess k)); [|exact F|repeat split].
  intros s1 e Se [A [B C]]. destruct (sess_cases s1 k e Se) as [E|[se [se' [o [P S]]]]]; [rewrite E; repeat split; assumption|].
  rewrite (sstep_step _ _ _ _ _ _ P S). repeat split; [exact A|exact B|].
  destruct o; simpl; [rewrite map_node_down|]; exact C.
Qed.

Lemma next_event_own : forall s k e, next_event s k = Some e -> own k e.
Proof.
  intros s k e H. unfold next_event in H. destruct (phase s k) as [| |se|]; try discriminate. unfold own.
  destruct (negb (se_watch se)); [inversion H; auto|].
  destruct (negb (se_listed se)); [inversion H; auto|].
  destruct (se_init se); [|inversion H; auto].
  destruct (se_queue se); [|inversion H; auto].
  destruct (se_tasks se); [discriminate|inversion H; eauto 6].
Qed.

Lemma settle_run : forall f k s, exists evs, Forall (own k) evs /\ settle f k s = run s evs.
Proof.
  induction f as [|f IH]; intros k s; simpl; [exists []; auto|].
  destruct (next_event s k) as [e|] eqn:N; [|exists []; auto].
  destruct (IH k (step s e)) as [evs [F E]]. exists (e :: evs).
  split; [constructor; [exact (next_event_own _ _ _ N)|exact F]|exact E].
Qed.
Lemma own_sess : forall k evs, Forall (own k) evs -> Forall (sess k) evs.
Proof. intros k evs F. eapply Forall_impl; [|exact F]. intros e H. left. exact H. Qed.

Definition msr (s : st) (se : session) : nat :=
  (if se_watch se then 0 else 1) + (if se_listed se then 0 else 1 + 2 * length (nodes s)) +
  2 * length (se_init se) + 2 * length (se_queue se) + length (se_tasks se).

Lemma msr_bound : forall s k se, phase s k = Active se -> msr s se <= settle_bound s k.
Proof.
  intros s k se P. unfold settle_bound, msr. rewrite P.
  destruct (se_watch se), (se_listed se); lia.
Qed.

Lemma next_event_sstep : forall s k se e, phase s k = Active se -> next_event s k = Some e ->
  exists se' o, sstep s k se e se' o /\ msr s se' < msr s se.
Proof.
  intros s k se e P N. unfold next_event in N. rewrite P in N. unfold msr.
  destruct (se_watch se) eqn:W; simpl in N;
    [|inversion N; eexists _, _; split; [apply SWatch|simpl; lia]].
  destruct (se_listed se) eqn:L; simpl in N;
    [|inversion N; eexists _, _; split; [apply SInitList; assumption|simpl; rewrite W; lia]].
  destruct (se_init se) as [|n0 r0] eqn:Ini.
  2:{ inversion N. eexists _, _. split; [eapply SInitRead; exact Ini|].
      simpl. rewrite W, L. destruct (memn n0 (alive s)); rewrite ?app_length; simpl; lia. }
  destruct (se_queue se) as [|[n0 a0] r0] eqn:Qu.
  2:{ inversion N. eexists _, _. split; [eapply SDeliver; exact Qu|].
      simpl. rewrite W, L, Ini. destruct a0; rewrite ?app_length; simpl; lia. }
  destruct (se_tasks se) as [|n0 r0] eqn:Ta; [discriminate|].
  inversion N. eexists _, _. split; [apply (SHandle _ _ _ 0 n0); rewrite Ta; reflexivity|].
  simpl. rewrite W, L, Ini, Qu, Ta. simpl. lia.
Qed.

Lemma settle_terminates : forall fuel s k se, phase s k = Active se -> msr s se <= fuel ->
  next_event (settle fuel k s) k = None.
Proof.
  assert (St : forall s k se e, phase s k = Active se -> next_event s k = Some e ->
            exists se', phase (step s e) k = Active se' /\ msr (step s e) se' < msr s se).
  { intros s k se e P N. destruct (next_event_sstep s k se e P N) as [se' [o [S Lt]]]. exists se'.
    rewrite (sstep_step _ _ _ _ _ _ P S).
    split; [exact (moves_at _ _ _ _ (sess_result_moves s k se' o (phase_active_lt _ _ _ P)))|exact Lt]. }
  induction fuel as [|f IH]; intros s k se P M; simpl;
    (destruct (next_event s k) as [e|] eqn:N; [|first [exact N|reflexivity]]);
    destruct (St s k se e P N) as [se' [P' Lt]]; [lia|]. apply (IH _ _ se' P'). lia.
Qed.
Lemma settle_bound_terminates : forall s k, next_event (settle (settle_bound s k) k s) k = None.
Proof.
  intros s k. destruct (phase s k) as [| |se|] eqn:P; try (apply (settle_terminates _ _ _ se P), msr_bound, P);
    unfold settle_bound; rewrite P; simpl; unfold next_event; rewrite P; reflexivity.
Qed.

Definition absent (s : st) (n : node) : Prop := memn n (alive s) = false.
Definition owes (s : st) (se : session) (n : node) : Prop :=
  In n (se_tasks se) \/ In (n, false) (se_queue se) \/
  (se_listed se = true /\ In n (se_init se) /\ absent s n) \/
  (se_listed se = false /\ In n (nodes s) /\ absent s n).
Definition done (s : st) (n : node) : Prop := node_down s n = true.

(* a DELETE for n is on its way through the session *)
Definition queued (n : node) (se : session) : Prop := In (n, false) (se_queue se) \/ In n (se_tasks se).
(* the init pass has still to look at n *)
Definition unexamined (l : list node) (n : node) (se : session) : Prop :=
  (se_listed se = true /\ In n (se_init se)) \/ (se_listed se = false /\ In n l).

Lemma owes_split : forall s se n, owes s se n <-> queued n se \/ (unexamined (nodes s) n se /\ absent s n).
Proof. intros. unfold owes, queued, unexamined. tauto. Qed.

Lemma In_remove_nth : forall (n : node) j l x, nth_error l j = Some x -> x <> n -> In n l -> In n (remove_nth j l).
Proof.
  intros n j l. revert j. induction l as [|y t IH]; intros [|j] x H Hx Hin; simpl in *; try discriminate.
  - inversion H; subst. destruct Hin; [congruence|assumption].
  - destruct Hin as [Hin|Hin]; [left; exact Hin|right; eapply IH; eauto].
Qed.

Lemma sstep_queued : forall s k se e se' o n, sstep s k se e se' o -> ~ ends k e ->
  queued n se -> queued n se' \/ o = Some n.
Proof.
  intros s k se e se' o n S NE Q. unfold queued in *. destruct S as [|L W|m r I|m a r Qu|j m T|j m T]; simpl; auto.
  - destruct Q as [Q|Q]; auto. left. right. destruct (memn m (alive s)); auto using in_or_app.
  - rewrite Qu in Q. left. destruct Q as [[Q|Q]|Q]; auto.
    + inversion Q; subst. right. apply in_or_app. right. left. reflexivity.
    + right. destruct a; auto using in_or_app.
  - destruct Q as [Q|Q]; auto.
    destruct (Nat.eq_dec m n) as [->|N]; [right; reflexivity|left; right; eapply In_remove_nth; eauto].
  - exfalso. apply NE. right. right. exists j. reflexivity.
Qed.
Lemma sstep_unexamined : forall s k se e se' o n, sstep s k se e se' o -> unexamined (nodes s) n se ->
  unexamined (nodes s) n se' \/ queued n se' \/ memn n (alive s) = true.
Proof.
  intros s k se e se' o n S U. unfold unexamined, queued in *. destruct S as [|L W|m r I|m a r Q|j m T|j m T]; simpl; auto.
  - destruct U as [[U _]|[_ U]]; [congruence|auto].
  - rewrite I in U. destruct U as [[L [->|U]]|U]; auto.
    destruct (memn n (alive s)); auto. right. left. right. apply in_or_app. right. left. reflexivity.
Qed.

Lemma node_down_map : forall s n m, done s n ->
  forallb (fun w => negb (w_node w =? n) || is_down w) (map (down_wl m) (wls s)) = true.
Proof.
  intros s n m D. unfold done, node_down in D. rewrite forallb_forall in *. intros w' Hw. apply in_map_iff in Hw. destruct Hw as [w [<- Hw]].
  unfold down_wl. destruct (w_node w =? m) eqn:E; [|exact (D w Hw)]. simpl. destruct (w_node w =? n); reflexivity.
Qed.
Lemma node_down_self : forall n l,
  forallb (fun w => negb (w_node w =? n) || is_down w) (map (down_wl n) l) = true.
Proof.
  intros n l. apply forallb_forall. intros w' Hw. apply in_map_iff in Hw. destruct Hw as [w [<- _]].
  unfold down_wl. destruct (w_node w =? n) eqn:E; simpl; rewrite E; reflexivity.
Qed.

Definition settling (s : st) (k : nat) (n : node) : Prop :=
  (exists se, phase s k = Active se /\ owes s se n) \/ done s n.

Lemma settling_step : forall s k n e, own k e -> settling s k n -> settling (step s e) k n.
Proof.
  intros s k n e Ow St.
  destruct (sess_cases s k e (or_introl Ow)) as [E|[se [se' [o [P S]]]]]; [rewrite E; exact St|].
  rewrite (sstep_step _ _ _ _ _ _ P S).
  assert (P' : phase (sess_result s k se' o) k = Active se')
    by exact (moves_at _ _ _ _ (sess_result_moves s k se' o (phase_active_lt _ _ _ P))).
  destruct St as [[se0 [P0 O]]|D].
  - rewrite P in P0. inversion P0; subst se0. apply owes_split in O. destruct O as [Q|[U A]].
    + destruct (sstep_queued _ _ _ _ _ _ n S (own_not_ends _ _ Ow) Q) as [Q'| ->].
      * left. exists se'. split; [exact P'|]. apply owes_split. left. exact Q'.
      * right. apply node_down_self.
    + left. exists se'. split; [exact P'|]. apply owes_split.
      destruct (sstep_unexamined _ _ _ _ _ _ n S U) as [U'|[Q'|Al]]; [right; split; assumption|left; exact Q'|].
      unfold absent in A. congruence.
  - right. unfold done, node_down. destruct o; [apply node_down_map|]; exact D.
Qed.

Lemma next_event_none : forall s k se n l, phase s k = Active se -> next_event s k = None ->
  ~ (queued n se \/ unexamined l n se).
Proof.
  intros s k se n l P N H. unfold next_event in N. rewrite P in N.
  destruct (negb (se_watch se)); [discriminate|].
  destruct (se_listed se) eqn:L; simpl in N; [|discriminate].
  destruct (se_init se) eqn:I; [|discriminate].
  destruct (se_queue se) eqn:Q; [|discriminate]. destruct (se_tasks se) eqn:T; [|discriminate].
  unfold queued, unexamined in H. rewrite L, I, Q, T in H.
  destruct H as [[[]|[]]|[[_ []]|[H _]]]. discriminate.
Qed.

Lemma settle_discharges : forall fuel s k se n,
  phase s k = Active se -> msr s se <= fuel -> owes s se n \/ done s n ->
  let s' := settle fuel k s in
  done s' n /\ map w_node (wls s') = map w_node (wls s).
Proof.
  intros fuel s k se n P M O s'. pose proof (settle_terminates fuel s k se P M) as N. fold s' in N.
  destruct (settle_run fuel k s) as [evs [F E]]. fold s' in E.
  split; [|rewrite E; exact (proj2 (proj2 (sess_run_data evs s k (own_sess k evs F))))].
  assert (St : settling s' k n).
  { rewrite E. apply (run_invariant (fun s => settling s k n) (own k)); [|exact F|].
    - intros s1 e Ow. apply settling_step. exact Ow.
    - destruct O as [O|D]; [left; exists se; auto|right; exact D]. }
  destruct St as [[se' [P' O']]|D]; [|exact D]. apply owes_split in O'.
  destruct (next_event_none _ _ _ n (nodes s') P' N). tauto.
Qed.

Lemma msr_settle_bound : forall s k se extra, phase s k = Active se -> msr s se <= settle_bound s k + extra.
Proof. intros s k se extra P. pose proof (msr_bound s k se P). lia. Qed.

(* "every workload recorded on n is reported neither running nor healthy" spelled out *)
Lemma node_down_spec : forall s n, node_down s n = true <->
  forall i w, nth_error (wls s) i = Some w -> w_node w = n -> w_st w = Some (false, false).
Proof.
  intros s n. unfold node_down. rewrite forallb_forall. split.
  - intros H i w Hi Hn. apply nth_error_In in Hi. specialize (H w Hi).
    rewrite Hn, Nat.eqb_refl in H. simpl in H. unfold is_down in H.
    destruct (w_st w) as [[[] []]|]; try discriminate. reflexivity.
  - intros H w Hw. apply In_nth_error in Hw. destruct Hw as [i Hi].
    destruct (w_node w =? n) eqn:E; [|reflexivity]. apply Nat.eqb_eq in E.
    unfold is_down. rewrite (H i w Hi E). reflexivity.
Qed.

Lemma same_nodes_nth : forall (l l' : list wl) i w, map w_node l' = map w_node l ->
  nth_error l i = Some w -> exists w', nth_error l' i = Some w' /\ w_node w' = w_node w.
Proof.
  intros l l' i w E H.
  assert (H0 : nth_error (map w_node l) i = Some (w_node w)) by (rewrite nth_error_map, H; reflexivity).
  rewrite <- E, nth_error_map in H0. destruct (nth_error l' i) as [w'|]; [|discriminate].
  simpl in H0. inversion H0. eauto.
Qed.

(* every workload recorded on n in s is, in s', still on n and reported down *)
Definition all_down (s s' : st) (n : node) : Prop :=
  forall i w, nth_error (wls s) i = Some w -> w_node w = n ->
    exists w', nth_error (wls s') i = Some w' /\ w_node w' = n /\ w_st w' = Some (false, false).

(* C28, obligations: whatever a session owes (a queued DELETE, a pending
   handler, a node its init pass will find without status) is discharged by
   the watcher's own steps *)
Theorem obligations_discharged : forall s k se n,
  phase s k = Active se -> owes s se n -> all_down s (settle (settle_bound s k) k s) n.
Proof.
  intros s k se n P O.
  destruct (settle_discharges (settle_bound s k) s k se n P (msr_bound s k se P) (or_introl O)) as [D Wn].
  intros i w Hi Hn. destruct (same_nodes_nth _ _ i w Wn Hi) as [w' [Hi' Hn']].
  exists w'. split; [exact Hi'|]. split; [congruence|].
  apply (proj1 (node_down_spec _ n) D i w' Hi'). congruence.
Qed.

Lemma step_lapse : forall s n, memn n (alive s) = true ->
  step s (ELapse n) = set_ws (set_alive s (remn n (alive s))) (map (enqueue n false) (ws s)).
Proof. intros s n A. simpl. rewrite A. reflexivity. Qed.
Lemma step_register : forall s k, phase s k = Waiting -> holder s = None ->
  step s (ERegister k) = set_holder (set_phase s k (Active fresh)) (Some k).
Proof. intros s k P H. simpl. rewrite P, H. reflexivity. Qed.
Lemma waiting_lt : forall s k, phase s k = Waiting -> k < length (ws s).
Proof. intros s k P. apply phase_lt. rewrite P. discriminate. Qed.

(* C28_down_lapse: the status of n disappears while watcher k is active *)
Theorem down_on_lapse : forall evs k se n,
  let s := run init evs in
  phase s k = Active se -> memn n (alive s) = true ->
  let s1 := step s (ELapse n) in
  all_down s (settle (settle_bound s1 k) k s1) n.
Proof.
  intros evs k se n s P A s1.
  assert (I : inv s) by (apply inv_run; exact inv_init).
  unfold s1. rewrite (step_lapse s n A). set (s2 := set_ws _ _).
  change (all_down s2 (settle (settle_bound s2 k) k s2) n).
  apply (obligations_discharged _ k (push n false se)); [unfold s2; rewrite phase_cast, P; apply enqueue_active|].
  apply owes_split. destruct (se_watch se) eqn:W; [left; left; apply push_open; exact W|].
  right. unfold push. rewrite W. split; [right; split|apply memn_remn_same].
  - destruct (se_listed se) eqn:L; [|reflexivity]. rewrite (inv_listed _ I k se P L) in W. discriminate.
  - apply memn_In, (inv_alive _ I), A.
Qed.

(* C28_down_activation: watcher k becomes active while the status of n is absent *)
Theorem down_on_activation : forall evs k n,
  let s := run init evs in
  phase s k = Waiting -> holder s = None ->
  memn n (nodes s) = true -> memn n (alive s) = false ->
  let s1 := step s (ERegister k) in
  all_down s (settle (settle_bound s1 k) k s1) n.
Proof.
  intros evs k n s P H Nn A s1. unfold s1. rewrite (step_register s k P H). set (s2 := set_holder _ _).
  change (all_down s2 (settle (settle_bound s2 k) k s2) n).
  apply (obligations_discharged _ k fresh); [exact (phase_set_same s k _ (waiting_lt s k P))|].
  right. right. right. split; [reflexivity|split; [apply memn_In; exact Nn|exact A]].
Qed.

(* the handler step itself: SetNode{WorkloadsDown} marks every workload recorded on n *)
Theorem handler_step : forall s k se j n,
  phase s k = Active se -> nth_error (se_tasks se) j = Some n ->
  let s' := step s (EHandle k j) in
  all_down s s' n /\ trace s' = THandled k n (on_node n (wls s)) :: trace s.
Proof.
  intros s k se j n P T s'. unfold s'. rewrite (sstep_step _ _ _ _ _ _ P (SHandle s k se j n T)).
  split; [|reflexivity]. intros i w Hi Hn. exists (down_wl n w).
  split; [simpl; rewrite nth_error_map, Hi; reflexivity|].
  unfold down_wl. rewrite Hn, Nat.eqb_refl. simpl. auto.
Qed.

(* withActiveLock.  The key /selfmon/active is always bound to the lease of a
   running session, so at most one session holds it ... *)
Theorem one_leased : forall evs k,
  let s := run init evs in holder s = Some k -> active s k.
Proof. intros evs k. exact (hvalid_run evs init hvalid_init k). Qed.

(* ... and two sessions can run at the same time only while one of them has
   lost its lease and not yet noticed (stale) *)
Theorem one_active : forall evs k1 k2,
  let s := run init evs in
  active s k1 -> active s k2 -> k1 <> k2 -> stale s k1 \/ stale s k2.
Proof.
  intros evs k1 k2 s A1 A2 N. unfold stale.
  destruct (holder s) as [h|] eqn:Ho.
  - destruct (Nat.eq_dec h k1); [right|left]; split; auto; congruence.
  - left. split; [exact A1|discriminate].
Qed.

(* without lease losses nobody is ever stale: a single active watcher *)
Theorem one_active_no_loss : forall evs k1 k2 se1 se2,
  Forall (fun e => ~ lease_loss e) evs ->
  let s := run init evs in
  phase s k1 = Active se1 -> phase s k2 = Active se2 -> k1 = k2.
Proof.
  intros evs k1 k2 se1 se2 F s P1 P2.
  pose proof (hexact_run evs init F hexact_init) as H.
  assert (holder s = Some k1) by (apply H; exists se1; exact P1).
  assert (holder s = Some k2) by (apply H; exists se2; exact P2). congruence.
Qed.

(* the window exists: after the lease is lost and before the old session
   notices, another watcher registers and both run *)
Example double_active_window :
  let s := run init [ESpawn; ESpawn; EStart 0; EStart 1; ERegister 0; ELeaseLost 0; ERegister 1] in
  active s 0 /\ active s 1 /\ stale s 0 /\ holder s = Some 1.
Proof.
  vm_compute. repeat split; try (eexists; reflexivity); discriminate.
Qed.

(* the hypotheses are satisfiable, and the statement is not vacuous *)
Example down_on_lapse_example :
  let evs := [EAddNode 0; EHeartbeat 0; ECreate 0; EReport 0 true true; ESpawn; EStart 0; ERegister 0; EWatch 0] in
  let s := run init evs in
  (exists se, phase s 0 = Active se) /\ memn 0 (alive s) = true /\
  map w_st (wls s) = [Some (true, true)] /\
  let s1 := step s (ELapse 0) in
  map w_st (wls (settle (settle_bound s1 0) 0 s1)) = [Some (false, false)].
Proof. vm_compute. split; [eexists; reflexivity|auto]. Qed.

(* the start order before /repo commit 26913a3:
   monitor started initNodeStatus first and the watch was opened later by a pool
   goroutine: the init pass did not wait for the watch. *)
Definition old_step (s : st) (e : event) : st :=
  match e with
  | EInitList k =>
      match phase s k with
      | Active se => if se_listed se then s
                     else set_phase s k (Active (mkSe (se_watch se) true (nodes s) (se_queue se) (se_tasks se)))
      | _ => s
      end
  | _ => step s e
  end.
Definition old_run (s : st) (evs : list event) : st := fold_left old_step evs s.

(* lock taken, init pass over (node 0 found alive), watch not yet open; then
   the status of node 0 disappears; then the watcher does everything it can *)
Definition old_witness : list event :=
  [EAddNode 0; EHeartbeat 0; ECreate 0; EReport 0 true true; ESpawn; EStart 0; ERegister 0;
   EInitList 0; EInitRead 0;
   ELapse 0;
   EWatch 0; EInitList 0; EInitRead 0; EDeliver 0; EHandle 0 0].

Theorem old_order_missed_lapse :
  let s := old_run init old_witness in
  (exists se, phase s 0 = Active se /\ se_watch se = true /\ se_listed se = true /\
              se_init se = [] /\ se_queue se = [] /\ se_tasks se = []) /\
  memn 0 (alive s) = false /\ map w_st (wls s) = [Some (true, true)].
Proof. vm_compute. split; [eexists; repeat split|auto]. Qed.

(* the same schedule under the repaired order ends with the workload down *)
Example new_order_catches_lapse :
  let s1 := run init [EAddNode 0; EHeartbeat 0; ECreate 0; EReport 0 true true; ESpawn; EStart 0; ERegister 0;
                      EInitList 0; EInitRead 0; ELapse 0] in
  map w_st (wls (settle (settle_bound s1 0) 0 s1)) = [Some (false, false)].
Proof. vm_compute. reflexivity. Qed.

(* the handler for n has run (as one of the first [length t - base] entries of the trace)
   and covered every workload in [must] *)
Definition handled_since (base : nat) (k : nat) (n : node) (must : list wid) (t : list tev) : Prop :=
  exists ws, In (THandled k n ws) (firstn (length t - base) t) /\ incl must ws.

Lemma on_node_from_app : forall n l1 l2 i,
  on_node_from n (l1 ++ l2) i = on_node_from n l1 i ++ on_node_from n l2 (i + length l1).
Proof.
  intros n l1. induction l1 as [|w t IH]; intros l2 i; simpl.
  - rewrite Nat.add_0_r. reflexivity.
  - rewrite IH. replace (S i + length t) with (i + S (length t)) by lia.
    destruct (w_node w =? n); reflexivity.
Qed.
Lemma on_node_from_nodes : forall n l l' i, map w_node l = map w_node l' ->
  on_node_from n l i = on_node_from n l' i.
Proof.
  intros n l. induction l as [|w t IH]; intros [|w' t'] i E; simpl in *; try discriminate; [reflexivity|].
  inversion E. rewrite H0. rewrite (IH t' (S i) H1). reflexivity.
Qed.
Lemma on_node_extends : forall n l0 l, extends l0 l -> incl (on_node n l0) (on_node n l).
Proof.
  intros n l0 l [m E]. unfold on_node.
  rewrite (on_node_from_nodes n l (l0 ++ map (fun x => mkWl x None) m) 0).
  - rewrite on_node_from_app. intros x Hx. apply in_or_app. left. exact Hx.
  - rewrite E, map_app, map_map. simpl. rewrite map_id. reflexivity.
Qed.

Definition since (s0 s : st) : Prop :=
  extends (wls s0) (wls s) /\ exists new, trace s = new ++ trace s0.

Lemma since_refl : forall s, since s s.
Proof. intro s. split; [apply extends_refl|exists []; reflexivity]. Qed.
Lemma since_step : forall s0 s e, since s0 s -> since s0 (step s e).
Proof.
  intros s0 s e [Ex [new Tr]]. destruct (trace_grows s e) as [pre Tg].
  split; [eapply extends_trans; [exact Ex|apply wls_extends]|].
  exists (pre ++ new). rewrite Tg, Tr, app_assoc. reflexivity.
Qed.

Lemma since_run : forall s0 evs s, since s0 s -> since s0 (run s evs).
Proof.
  intros s0 evs s. apply (run_invariant (since s0) (fun _ => True)); [|apply Forall_True].
  intros s1 e _. apply since_step.
Qed.

Definition handledP (s0 s : st) (k : nat) (n : node) : Prop :=
  exists new ws, trace s = new ++ trace s0 /\ In (THandled k n ws) new /\ incl (on_node n (wls s0)) ws.

Lemma handled_step : forall s0 s k n e, handledP s0 s k n -> handledP s0 (step s e) k n.
Proof.
  intros s0 s k n e [new [ws [T [I C]]]]. destruct (trace_grows s e) as [pre Tg].
  exists (pre ++ new), ws. split; [rewrite Tg, T, app_assoc; reflexivity|].
  split; [apply in_or_app; right; exact I|exact C].
Qed.
Lemma handled_run : forall evs s0 s k n, handledP s0 s k n -> handledP s0 (run s evs) k n.
Proof.
  intros evs s0 s k n. apply (run_invariant (fun s => handledP s0 s k n) (fun _ => True)); auto using handled_step, Forall_True.
Qed.
Lemma handled_now : forall s0 s k n e, since s0 s ->
  trace (step s e) = THandled k n (on_node n (wls s)) :: trace s -> handledP s0 (step s e) k n.
Proof.
  intros s0 s k n e [Ex [new Tr]] H. exists (THandled k n (on_node n (wls s)) :: new), (on_node n (wls s)).
  split; [rewrite H, Tr; reflexivity|]. split; [left; reflexivity|apply on_node_extends; exact Ex].
Qed.

Lemma nodes_grow : forall s e, incl (nodes s) (nodes (step s e)).
Proof.
  intros s e.
  destruct (step_effect s e) as [E|_ _ _ _ Hno _|n a _ E|E|k p o _ Hno _ _ _ _|k _ _ E];
    try (rewrite E; apply incl_refl); [exact Hno|rewrite Hno; apply incl_refl].
Qed.

Lemma session_after : forall s k se e, phase s k = Active se -> ~ ends k e ->
  exists se', phase (step s e) k = Active se' /\
    (se' = se \/ (exists n a, se' = push n a se) \/
     exists o, sstep s k se e se' o /\ step s e = sess_result s k se' o).
Proof.
  intros s k se e P NE.
  destruct (step_effect s e) as [E|Hws _ _ _ _ _|n a _ E|E|k0 p o M _ _ _ _ Mv|k0 _ _ E].
  - exists se. rewrite E. auto.
  - exists se. rewrite (phase_ws _ _ _ Hws). auto.
  - exists (push n a se). rewrite E, phase_cast, P. split; [apply enqueue_active|eauto].
  - exists se. rewrite E, phase_spawn. split; [|auto].
    destruct (Nat.eqb_spec k (length (ws s))) as [C|_]; [|exact P]. apply phase_active_lt in P. lia.
  - destruct (Nat.eq_dec k k0) as [<-|N]; [|exists se; rewrite (moves_other _ _ _ _ _ M N); auto].
    destruct Mv as [Hi _ _|Hw _ _ _|En _ _ _|se0 se' o P0 S Hp _].
    + destruct (Hi se P).
    + congruence.
    + destruct NE. destruct En as [->| ->]; [right; left|left]; reflexivity.
    + rewrite P in P0. inversion P0; subst se0. exists se'. rewrite (moves_at _ _ _ _ M).
      split; [exact Hp|]. right. right. exists o. split; [exact S|exact (sstep_step _ _ _ _ _ _ P S)].
  - exists se. rewrite E. auto.
Qed.

Definition pending (s : st) (k : nat) (n : node) : Prop :=
  exists se, phase s k = Active se /\ queued n se.
Definition pendingI (s : st) (k : nat) (n : node) : Prop :=
  exists se, phase s k = Active se /\ (queued n se \/ unexamined (nodes s) n se).

Lemma queued_push : forall n m a se, queued n se -> queued n (push m a se).
Proof.
  intros n m a se. unfold queued. destruct (push_flags m a se) as [_ [_ [_ [T Q]]]]. rewrite T.
  intros [H|H]; auto.
Qed.
Lemma unexamined_push : forall l n m a se, unexamined l n se -> unexamined l n (push m a se).
Proof.
  intros l n m a se. unfold unexamined. destruct (push_flags m a se) as [_ [L [I _]]]. rewrite L, I. auto.
Qed.

Lemma pending_step : forall s k n e, ~ ends k e -> pending s k n ->
  pending (step s e) k n \/ trace (step s e) = THandled k n (on_node n (wls s)) :: trace s.
Proof.
  intros s k n e NE [se [P Q]].
  destruct (session_after s k se e P NE) as [se' [P' [->|[[m [a ->]]|[o [S E]]]]]].
  - left. exists se. auto.
  - left. exists (push m a se). auto using queued_push.
  - destruct (sstep_queued _ _ _ _ _ _ n S NE Q) as [Q'| ->]; [left; exists se'; auto|].
    right. rewrite E. reflexivity.
Qed.

Lemma pendingI_step : forall s k n e, ~ ends k e -> pendingI s k n ->
  pendingI (step s e) k n \/
  trace (step s e) = THandled k n (on_node n (wls s)) :: trace s \/
  memn n (alive s) = true.
Proof.
  intros s k n e NE [se [P H]].
  assert (Gr : forall se', unexamined (nodes s) n se' -> unexamined (nodes (step s e)) n se').
  { intros se' [U|[L U]]; [left; exact U|right; split; [exact L|exact (nodes_grow s e n U)]]. }
  destruct (session_after s k se e P NE) as [se' [P' [->|[[m [a ->]]|[o [S E]]]]]].
  - left. exists se. split; [exact P'|]. destruct H; auto.
  - left. exists (push m a se). split; [exact P'|].
    destruct H; [left; apply queued_push|right; apply Gr, unexamined_push]; assumption.
  - destruct H as [Q|U].
    + destruct (sstep_queued _ _ _ _ _ _ n S NE Q) as [Q'| ->]; [left; exists se'; auto|].
      right. left. rewrite E. reflexivity.
    + destruct (sstep_unexamined _ _ _ _ _ _ n S U) as [U1|[Q'|A]]; [|left; exists se'; auto|auto].
      left. exists se'. split; [exact P'|right; apply Gr; exact U1].
Qed.

Lemma none_not_pendingI : forall s k n, next_event s k = None -> ~ pendingI s k n.
Proof. intros s k n N [se [P H]]. exact (next_event_none s k se n _ P N H). Qed.

(* an obligation P of watcher k for node n that every step keeps until the handler for n
   runs or the exit X opens, followed through a run *)
Section Obligation.
  Variables (s0 : st) (k : nat) (n : node) (P X : st -> Prop).
  Hypothesis P_step : forall s e, ~ ends k e -> P s ->
    P (step s e) \/ trace (step s e) = THandled k n (on_node n (wls s)) :: trace s \/ X s.

  Lemma obligation_run : forall evs s, since s0 s -> P s -> Forall (fun e => ~ ends k e) evs ->
    P (run s evs) \/ handledP s0 (run s evs) k n \/ exists pre post, evs = pre ++ post /\ X (run s pre).
  Proof.
    induction evs as [|e t IH]; intros s Si Ps F; simpl; [left; exact Ps|].
    inversion F as [|? ? NE F']; subst.
    destruct (P_step s e NE Ps) as [Ps'|[H|H]].
    - destruct (IH (step s e) (since_step _ _ e Si) Ps' F') as [A|[A|[pre [post [E A]]]]]; auto.
      right. right. exists (e :: pre), post. split; [rewrite E; reflexivity|exact A].
    - right. left. apply handled_run. exact (handled_now _ _ _ _ _ Si H).
    - right. right. exists [], (e :: t). auto.
  Qed.
End Obligation.

(* C28, all interleavings: the status of n disappears while watcher k is
   active with its watch open; then ANY events follow (heartbeats, lapses,
   creations, agent reports, other watchers, steps of k in any order) as long
   as k's session is not ended; when k has finished its own steps, a handler
   for n has run after the lapse and covered every workload that was recorded
   on n at the lapse. *)
Theorem down_interleaved : forall evs1 evs2 k se n,
  let s0 := run init evs1 in
  phase s0 k = Active se -> se_watch se = true -> memn n (alive s0) = true ->
  Forall (fun e => ~ ends k e) evs2 ->
  let s2 := run (step s0 (ELapse n)) evs2 in
  let s3 := settle (settle_bound s2 k) k s2 in
  exists new ws, trace s3 = new ++ trace s0 /\ In (THandled k n ws) new /\ incl (on_node n (wls s0)) ws.
Proof.
  intros evs1 evs2 k se n s0 P W A F s2 s3.
  assert (P1 : pending (step s0 (ELapse n)) k n).
  { rewrite (step_lapse s0 n A). exists (push n false se). rewrite phase_cast, P.
    split; [apply enqueue_active|left; apply push_open; exact W]. }
  (* the settling steps are one more stretch of events that do not end the session *)
  destruct (settle_run (settle_bound s2 k) k s2) as [own [Fo Eo]]. fold s3 in Eo.
  assert (NE : Forall (fun e => ~ ends k e) (evs2 ++ own)).
  { apply Forall_app. split; [exact F|]. eapply Forall_impl; [|exact Fo]. apply own_not_ends. }
  assert (R : run (step s0 (ELapse n)) (evs2 ++ own) = s3) by (unfold run; rewrite fold_left_app; symmetry; exact Eo).
  destruct (obligation_run s0 k n (fun s => pending s k n) (fun _ => False)) with (evs := evs2 ++ own) (s := step s0 (ELapse n))
    as [Pd|[H|[? [? [_ []]]]]]; try assumption.
  - intros s e NE' Pd. destruct (pending_step s k n e NE' Pd); auto.
  - apply since_step, since_refl.
  - rewrite R in Pd. destruct Pd as [se3 [P3 Q3]].
    destruct (none_not_pendingI s3 k n (settle_bound_terminates s2 k)). exists se3. auto.
  - rewrite R in H. exact H.
Qed.

Definition revived (evs : list event) (s : st) (n : node) : Prop :=
  exists pre post, evs = pre ++ post /\ memn n (alive (run s pre)) = true.

(* C28, all interleavings, second half: watcher k takes the lock while node n
   has no status; then ANY events follow as long as k's session is not ended;
   when k has finished its own steps, either a handler for n has run and
   covered every workload recorded on n when k took the lock, or n's status
   came back at some point in between (the node is alive again). *)
Theorem activation_interleaved : forall evs1 evs2 k n,
  let s0 := run init evs1 in
  phase s0 k = Waiting -> holder s0 = None -> memn n (nodes s0) = true ->
  Forall (fun e => ~ ends k e) evs2 ->
  let s1 := step s0 (ERegister k) in
  let s2 := run s1 evs2 in
  let s3 := settle (settle_bound s2 k) k s2 in
  handledP s0 s3 k n \/ revived evs2 s1 n.
Proof.
  intros evs1 evs2 k n s0 P H Nn F s1 s2 s3.
  assert (P1 : pendingI s1 k n).
  { unfold s1. rewrite (step_register s0 k P H). exists fresh.
    split; [exact (phase_set_same s0 k _ (waiting_lt s0 k P))|].
    right. right. split; [reflexivity|apply memn_In; exact Nn]. }
  pose proof (obligation_run s0 k n (fun s => pendingI s k n) (fun s => memn n (alive s) = true)
                (fun s e => pendingI_step s k n e)) as Run.
  destruct (settle_run (settle_bound s2 k) k s2) as [own [Fo Eo]]. fold s3 in Eo.
  destruct (Run evs2 s1 (since_step _ _ _ (since_refl s0)) P1 F) as [P2|[Hd|R]].
  - assert (S2 : since s0 s2) by apply since_run, since_step, since_refl.
    destruct (Run own s2 S2 P2) as [P3|[Hd|[pre [post [E A]]]]]; rewrite <- ?Eo in *.
    + eapply Forall_impl; [|exact Fo]. apply own_not_ends.
    + destruct (none_not_pendingI s3 k n (settle_bound_terminates s2 k) P3).
    + left. exact Hd.
    + (* the watcher's own steps leave the node statuses alone *)
      right. exists evs2, []. split; [symmetry; apply app_nil_r|]. change (run s1 evs2) with s2.
      rewrite E in Fo. apply Forall_app in Fo. destruct Fo as [Fp _].
      rewrite <- (proj1 (proj2 (sess_run_data pre s2 k (own_sess k pre Fp)))). exact A.
  - left. rewrite Eo. apply handled_run. exact Hd.
  - right. exact R.
Qed.
