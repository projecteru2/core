(* The boolean check [Selfmon.ok] that the harness evaluates on the
   implementation's observations, against Prop-level statements. *)
From Coq Require Import List Bool PeanoNat.
From Verif Require Import Selfmon.Selfmon.
Import ListNotations.

(* every observed workload that sits on n is reported running=false, healthy=false *)
Definition down_seen (wnode : list node) (seen : obs) (n : node) : Prop :=
  forall i m x, nth_error wnode i = Some m -> nth_error seen i = Some x -> m = n -> x = Some (false, false).

Lemma seen_down_spec : forall wnode seen n, seen_down wnode seen n = true <-> down_seen wnode seen n.
Proof.
  intros wnode seen n. unfold seen_down, down_seen. revert seen.
  induction wnode as [|m t IH]; intros [|x seen']; simpl;
    try (split; [intros _ [|i] ? ? Hm Hx; discriminate|reflexivity]).
  rewrite andb_true_iff, IH. split.
  - intros [H1 H2] [|i] m0 x0 Hm Hx Hn; simpl in *.
    + inversion Hm; inversion Hx; subst. rewrite Nat.eqb_refl in H1. simpl in H1.
      destruct x0 as [[[] []]|]; try discriminate. reflexivity.
    + eapply H2; eauto.
  - intro H. split.
    + destruct (m =? n) eqn:E; [|reflexivity]. apply Nat.eqb_eq in E. simpl.
      rewrite (H 0 m x eq_refl eq_refl E). reflexivity.
    + intros i m0 x0 Hm Hx Hn. apply (H (S i) m0 x0 Hm Hx Hn).
Qed.

Definition slot_clause (o : okst) (sl : slot) : Prop :=
  let o' := ok_upd o sl in
  (* the status of n disappears while a free-running watcher holds the lock *)
  (forall n, lapse_of (act sl) = Some n -> lock_running (o_held o') (o_active o) = true -> memn n (o_alive o) = true ->
     down_seen (o_wnode o') (seen sl) n) /\
  (* a free-running watcher takes the lock while the status of n is absent *)
  (lapse_of (act sl) = None -> ok_takes o sl = true ->
     forall n, In n (o_nodes o') -> memn n (o_alive o') = false -> down_seen (o_wnode o') (seen sl) n).

Lemma ok_check_spec : forall o sl, ok_check o sl = true <-> slot_clause o sl.
Proof.
  intros o sl. unfold ok_check, slot_clause. cbv zeta.
  destruct (lapse_of (act sl)) as [n|] eqn:A.
  - split.
    + intro H. split.
      * intros n0 E L M. inversion E; subst n0. rewrite L, M in H. simpl in H. apply seen_down_spec. exact H.
      * intros N. discriminate.
    + intros [H _]. destruct (lock_running _ _ && memn n (o_alive o)) eqn:C; [|reflexivity].
      apply andb_true_iff in C. destruct C as [L M]. apply seen_down_spec. apply H; auto.
  - split.
    + intro H. split; [intros n0 E; discriminate|].
      intros _ T n0 Hn Ha. rewrite T in H. rewrite forallb_forall in H.
      apply seen_down_spec. apply H. unfold ok_absent. apply filter_In. split; [exact Hn|rewrite Ha; reflexivity].
    + intros [_ H]. destruct (ok_takes o sl) eqn:T; [|reflexivity].
      apply forallb_forall. intros n0 Hn. apply seen_down_spec. unfold ok_absent in Hn. apply filter_In in Hn.
      destruct Hn as [Hn Ha]. apply negb_true_iff in Ha. apply H; auto.
Qed.

Lemma ok_step_good : forall o sl, o_good (ok_step o sl) = o_good o && ok_check o sl.
Proof. reflexivity. Qed.

Lemma ok_fold_false : forall sls o, o_good o = false -> o_good (fold_left ok_step sls o) = false.
Proof.
  induction sls as [|sl t IH]; intros o H; simpl; [exact H|]. apply IH. rewrite ok_step_good, H. reflexivity.
Qed.

Lemma ok_fold : forall sls o, o_good (fold_left ok_step sls o) = true ->
  o_good o = true /\
  forall pre sl post, sls = pre ++ sl :: post -> ok_check (fold_left ok_step pre o) sl = true.
Proof.
  induction sls as [|sl t IH]; intros o H; simpl in H.
  - split; [exact H|]. intros [|? ?] ? ? E; discriminate.
  - destruct (IH _ H) as [G R]. rewrite ok_step_good in G. apply andb_true_iff in G. destruct G as [G1 G2].
    split; [exact G1|]. intros [|x pre] sl0 post E; simpl in E; inversion E; subst.
    + exact G2.
    + simpl. apply (R pre sl0 post). reflexivity.
Qed.

Definition ok_init : okst := mkOk [] [] [] [] [] 0 None true.

(* C28: [ok c = true] implies, for every slot of the observed run, the two
   clauses of the property as propositions over what was observed *)
Theorem ok_reflects : forall c, ok c = true ->
  forall pre sl post, slots c = pre ++ sl :: post -> slot_clause (fold_left ok_step pre ok_init) sl.
Proof.
  intros c H pre sl post E. apply ok_check_spec. unfold ok in H.
  apply (proj2 (ok_fold _ _ H) pre sl post E).
Qed.

(* ... and conversely the check accepts exactly the runs whose slots all satisfy the clauses *)
Theorem ok_complete : forall c,
  (forall pre sl post, slots c = pre ++ sl :: post -> slot_clause (fold_left ok_step pre ok_init) sl) ->
  ok c = true.
Proof.
  intros c H. unfold ok. fold ok_init.
  assert (G : forall sls o, o_good o = true ->
             (forall pre sl post, sls = pre ++ sl :: post -> ok_check (fold_left ok_step pre o) sl = true) ->
             o_good (fold_left ok_step sls o) = true).
  { induction sls as [|sl t IH]; intros o Go R; simpl; [exact Go|].
    apply IH.
    - rewrite ok_step_good, Go. simpl. apply (R [] sl t). reflexivity.
    - intros pre sl0 post E. apply (R (sl :: pre) sl0 post). simpl. rewrite E. reflexivity. }
  apply G; [reflexivity|]. intros pre sl post E. apply ok_check_spec. apply (H pre sl post E).
Qed.

Fixpoint gen_from (s : st) (held : list nat) (acts : list action) : list slot :=
  match acts with
  | [] => []
  | a :: t =>
      let held' := held_after s held a in
      let s1 := run s (act_events s a) in
      let armed := match a with ALapseFail _ => true | _ => false end in
      let s2 := quiesce held' armed s1 in
      mkSlot a (map w_st (wls s2)) :: gen_from s2 held' t
  end.
Definition gen_case (acts : list action) : case := mkCase (gen_from init [] acts).

Lemma obs_eqb_refl : forall o, obs_eqb o o = true.
Proof.
  induction o as [|x t IH]; simpl; [reflexivity|]. rewrite IH, andb_true_r.
  destruct x as [[[] []]|]; reflexivity.
Qed.

(* the model agrees with its own observations, for every history *)
Theorem agree_gen : forall acts, agree (gen_case acts) = true.
Proof.
  intro acts. unfold agree, gen_case. simpl. generalize init, (@nil nat).
  induction acts as [|a t IH]; intros s held; simpl; [reflexivity|].
  rewrite obs_eqb_refl. simpl. apply IH.
Qed.

(* ok on the model's own output: a small exhaustive sweep as a sanity example
   (the statement for ALL histories is GenProofs.ok_gen) *)
Definition alphabet : list action :=
  [AHeartbeat 0; ALapse 0; ALapse 1; ALapseFail 0; ALapseHb 0; ACreate 0; AReport 0 true true;
   AStart; AStartHeld; ARelease 0; ARelease 1; AStop 0; AStop 1; AExpire 0].
Definition setup : list action :=
  [AAddNode 0; AAddNode 1; ACreate 0; ACreate 1; AReport 0 true true; AReport 1 true false].
Fixpoint words (n : nat) : list (list action) :=
  match n with 0 => [[]] | S m => [] :: flat_map (fun w => map (fun a => a :: w) alphabet) (words m) end.
Definition all_ok (pre : list action) (n : nat) : bool :=
  forallb (fun w => ok (gen_case (pre ++ w))) (words n).

Example ok_gen_sweep : all_ok setup 2 = true /\ all_ok (setup ++ [AStartHeld; AStart]) 2 = true.
Proof. vm_compute. auto. Qed.
