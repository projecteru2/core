(* C28: the harness check ok accepts the model's own observations for every history:
   an invariant (rel) ties ok's script-level bookkeeping to the model state at slot boundaries. *)
From Coq Require Import List Bool PeanoNat Lia.
From Verif Require Import Selfmon.Selfmon Selfmon.SelfmonProofs Selfmon.OkProofs.
Import ListNotations.

(* one step of the continuation in which the first handler fails: the canonical step, or
   the failing variant of a handler *)
Lemma settle_failing_step : forall f k s a e, next_event s k = Some e ->
  exists e' a', sess k e' /\ settle_failing (S f) k s a = settle_failing f k (step s e') a'.
Proof.
  intros f k s a e N. cbn [settle_failing]. rewrite N.
  destruct (next_event_own _ _ _ N) as [->|[->|[->|[->|[j ->]]]]];
    try (eexists; exists a; split; [|reflexivity]; left; unfold own; auto).
  destruct a; [exists (EHandleFail k j), false; split; [right; eauto|reflexivity]|].
  exists (EHandle k j), false. split; [left; unfold own; eauto 6|reflexivity].
Qed.

Lemma settle_failing_run : forall f k s a, exists evs, Forall (sess k) evs /\ settle_failing f k s a = run s evs.
Proof.
  induction f as [|f IH]; intros k s a; [exists []; split; [constructor|reflexivity]|].
  destruct (next_event s k) as [e|] eqn:N.
  - destruct (settle_failing_step f k s a e N) as [e' [a' [Se ->]]].
    destruct (IH k (step s e') a') as [evs [F E]].
    exists (e' :: evs). split; [constructor; assumption|exact E].
  - exists []. split; [constructor|]. simpl. rewrite N. reflexivity.
Qed.

Lemma settle_failing_false : forall f k s, settle_failing f k s false = settle f k s.
Proof.
  induction f as [|f IH]; intros k s; simpl; [reflexivity|].
  destruct (next_event s k) as [e|]; [|reflexivity]. destruct e; apply IH.
Qed.

Lemma set_phase_len : forall s k p, length (ws (set_phase s k p)) = length (ws s).
Proof. intros. unfold set_phase. simpl. apply upd_length. Qed.

Lemma sess_not_loss : forall k e, sess k e -> ~ lease_loss e.
Proof. intros k e [[E|[E|[E|[E|[j E]]]]]|[j E]] [k' L]; subst; discriminate. Qed.

Lemma fwf_some : forall l i m, first_waiting_from l i = Some m ->
  i <= m /\ nth (m - i) l Stopped = Waiting /\ forall j, j < m - i -> nth j l Stopped <> Waiting.
Proof.
  induction l as [|p t IH]; intros i m H; simpl in H; [discriminate|].
  destruct p; try (apply IH in H; destruct H as [A [B C]]; split; [lia|];
    replace (m - i) with (S (m - S i)) by lia; split; [exact B|];
    intros [|j] Hj; simpl; [discriminate|apply C; lia]).
  inversion H; subst. rewrite Nat.sub_diag. split; [lia|]. split; [reflexivity|]. intros j Hj. lia.
Qed.
Lemma fwf_none : forall l i, first_waiting_from l i = None -> forall j, nth j l Stopped <> Waiting.
Proof.
  induction l as [|p t IH]; intros i H j; simpl in *; [destruct j; discriminate|].
  destruct p; try discriminate; destruct j; simpl; try discriminate; eapply IH; eauto.
Qed.
Lemma fw_some : forall s m, first_waiting s = Some m ->
  phase s m = Waiting /\ forall j, j < m -> phase s j <> Waiting.
Proof.
  intros s m H. apply fwf_some in H. rewrite Nat.sub_0_r in H. destruct H as [_ [B C]]. split; [exact B|exact C].
Qed.
Lemma fw_none : forall s, first_waiting s = None -> forall j, phase s j <> Waiting.
Proof. intros s H j. eapply fwf_none. exact H. Qed.

Lemma fw_intro : forall s m, phase s m = Waiting -> (forall j, j < m -> phase s j <> Waiting) ->
  first_waiting s = Some m.
Proof.
  intros s m P L. destruct (first_waiting s) as [m'|] eqn:F.
  - destruct (fw_some s m' F) as [A B]. f_equal.
    assert (~ m < m') by (intro C; exact (B m C P)).
    assert (~ m' < m) by (intro C; exact (L m' C A)). lia.
  - exfalso. exact (fw_none s F m P).
Qed.

Lemma no_waiting_fw : forall s, (forall j, phase s j <> Waiting) -> first_waiting s = None.
Proof.
  intros s H. destruct (first_waiting s) as [m|] eqn:F; [|reflexivity].
  destruct (fw_some s m F) as [A _]. exfalso. exact (H m A).
Qed.

Lemma fold_min_spec : forall t x,
  (fold_left Nat.min t x = x \/ In (fold_left Nat.min t x) t) /\
  fold_left Nat.min t x <= x /\ forall z, In z t -> fold_left Nat.min t x <= z.
Proof.
  induction t as [|y t IH]; intro x; simpl.
  - split; [left; reflexivity|]. split; [lia|]. intros z [].
  - destruct (IH (Nat.min x y)) as [A [B C]]. split; [|split].
    + destruct A as [A|A]; [|right; right; exact A].
      destruct (Nat.min_dec x y) as [E|E]; [left; congruence|right; left; congruence].
    + lia.
    + intros z [E|E]; [subst; lia|apply C; exact E].
Qed.
Lemma min_of_spec : forall l m, min_of l = Some m -> In m l /\ forall x, In x l -> m <= x.
Proof.
  intros [|x t] m H; simpl in H; [discriminate|]. inversion H; subst. clear H.
  destruct (fold_min_spec t x) as [A [B C]]. split.
  - destruct A as [A|A]; [left; symmetry; exact A|right; exact A].
  - intros z [E|E]; [subst; exact B|apply C; exact E].
Qed.
Lemma min_of_none : forall l, min_of l = None -> l = [].
Proof. intros [|x t] H; [reflexivity|discriminate]. Qed.

Lemma fw_min : forall s l, (forall j, In j l <-> phase s j = Waiting) -> first_waiting s = min_of l.
Proof.
  intros s l H. destruct (min_of l) as [m|] eqn:M.
  - destruct (min_of_spec l m M) as [C D]. apply fw_intro; [apply H; exact C|].
    intros j Lt W. apply H, D in W. lia.
  - apply min_of_none in M. subst. apply no_waiting_fw. intros j W. apply H in W. destruct W.
Qed.
Lemma fw_ext : forall s s', (forall j, phase s' j = Waiting <-> phase s j = Waiting) ->
  first_waiting s' = first_waiting s.
Proof.
  intros s s' H. destruct (first_waiting s) as [m|] eqn:F.
  - destruct (fw_some s m F) as [A B]. apply fw_intro; [apply H; exact A|].
    intros j Lt W. apply H in W. exact (B j Lt W).
  - apply no_waiting_fw. intros j W. apply H in W. exact (fw_none s F j W).
Qed.

(* the standing assumptions at a slot boundary, before the watchers settle *)
Record qpre (s : st) (held : list nat) : Prop := mkQpre {
  qp_exact : hexact s;
  qp_valid : hvalid s;
  qp_inv : inv s;
  qp_fresh : forall k se, In k held -> phase s k = Active se -> se_listed se = false
}.

Definition started (s : st) (k : nat) : Prop := phase s k = Waiting \/ active s k.

Record qpost (s1 s2 : st) (held : list nat) : Prop := mkQpost {
  qo_nodes : nodes s2 = nodes s1;
  qo_alive : alive s2 = alive s1;
  qo_len : length (ws s2) = length (ws s1);
  qo_wnode : map w_node (wls s2) = map w_node (wls s1);
  qo_started : forall j, started s2 j <-> started s1 j;
  qo_holder : holder s2 = match holder s1 with Some k => Some k | None => first_waiting s1 end;
  qo_pre : qpre s2 held;
  qo_nowait : holder s2 = None -> forall j, phase s2 j <> Waiting;
  qo_watch : forall k, holder s2 = Some k -> ~ In k held ->
             exists se, phase s2 k = Active se /\ se_watch se = true
}.

(* what the events of a session, and those of the environment, leave alone: who has the
   lock, and which watcher is idle, waiting, running or stopped *)
Definition kind (p : wphase) : wphase := match p with Active _ => Active fresh | _ => p end.
Record same_control (s s' : st) : Prop := mkControl {
  sc_holder : holder s' = holder s;
  sc_len : length (ws s') = length (ws s);
  sc_kind : forall j, kind (phase s' j) = kind (phase s j)
}.

Lemma control_same_ws : forall s s', ws s' = ws s -> holder s' = holder s -> same_control s s'.
Proof. intros s s' W H. constructor; [exact H|rewrite W; reflexivity|]. intro j. rewrite (phase_ws _ _ j W). reflexivity. Qed.
Lemma control_cast : forall s n a al, same_control s (set_ws (set_alive s al) (map (enqueue n a) (ws s))).
Proof.
  intros. constructor; [reflexivity|apply map_length|]. intro j. rewrite phase_cast.
  destruct (phase s j); try reflexivity. rewrite enqueue_active. reflexivity.
Qed.
Lemma control_run : forall (Q : event -> Prop), (forall s e, Q e -> same_control s (step s e)) ->
  forall evs s, Forall Q evs -> same_control s (run s evs).
Proof.
  intros Q H evs s F. apply (run_invariant (same_control s) Q); [|exact F|apply control_same_ws; reflexivity].
  intros s1 e Qe [A B C]. destruct (H s1 e Qe) as [A' B' C'].
  constructor; [congruence|congruence|]. intro j. rewrite C'. apply C.
Qed.

Lemma started_kind : forall s j, started s j <-> kind (phase s j) = Waiting \/ kind (phase s j) = Active fresh.
Proof.
  intros s j. unfold started, active. destruct (phase s j) as [| |se|]; simpl; split.
  all: try (intros [H|[se' H]]; discriminate); try (intros [H|H]; discriminate); auto. right. eauto.
Qed.
Lemma started_control : forall s s' j, same_control s s' -> (started s' j <-> started s j).
Proof. intros s s' j C. rewrite !started_kind, (sc_kind _ _ C j). reflexivity. Qed.
Lemma waiting_control : forall s s' j, same_control s s' -> (phase s' j = Waiting <-> phase s j = Waiting).
Proof.
  intros s s' j C. pose proof (sc_kind _ _ C j) as K.
  destruct (phase s j), (phase s' j); simpl in K; split; intro H; try discriminate; reflexivity.
Qed.

Lemma sess_control : forall s k e, sess k e -> same_control s (step s e).
Proof.
  intros s k e Se. destruct (sess_cases s k e Se) as [E|[se [se' [o [P S]]]]];
    [rewrite E; apply control_same_ws; reflexivity|].
  rewrite (sstep_step _ _ _ _ _ _ P S).
  pose proof (sess_result_moves s k se' o (phase_active_lt _ _ _ P)) as M.
  constructor; [reflexivity|exact (moves_len _ _ _ _ M)|]. intro j. destruct (Nat.eq_dec j k) as [->|N].
  - rewrite (moves_at _ _ _ _ M), P. reflexivity.
  - rewrite (moves_other _ _ _ _ _ M N). reflexivity.
Qed.

Lemma sess_run_other : forall evs s k j, Forall (sess k) evs -> j <> k -> phase (run s evs) j = phase s j.
Proof.
  intros evs s k j F N. apply (run_invariant (fun s' => phase s' j = phase s j) (sess k)); [|exact F|reflexivity].
  intros s1 e Se <-. destruct (sess_cases s1 k e Se) as [E|[se [se' [o [P S]]]]]; [rewrite E; reflexivity|].
  rewrite (sstep_step _ _ _ _ _ _ P S).
  exact (moves_other _ _ _ _ _ (sess_result_moves s1 k se' o (phase_active_lt _ _ _ P)) N).
Qed.
Definition watching (k : nat) (s : st) : Prop := exists se, phase s k = Active se /\ se_watch se = true.
Lemma sess_run_watch : forall evs s k, Forall (sess k) evs -> watching k s -> watching k (run s evs).
Proof.
  intros evs s k. apply (run_invariant (watching k) (sess k)).
  intros s1 e Se [se0 [P0 W]]. destruct (sess_cases s1 k e Se) as [E|[se [se' [o [P S]]]]]; [rewrite E; exists se0; auto|].
  rewrite (sstep_step _ _ _ _ _ _ P S). exists se'.
  split; [exact (moves_at _ _ _ _ (sess_result_moves s1 k se' o (phase_active_lt _ _ _ P)))|].
  rewrite P in P0. inversion P0; subst se0. exact (proj1 (sstep_flags _ _ _ _ _ _ S) W).
Qed.

Lemma settle_watch : forall f k s a se, phase s k = Active se -> watching k (settle_failing (S f) k s a).
Proof.
  intros f k s a se P.
  destruct (se_watch se) eqn:W.
  - destruct (settle_failing_run (S f) k s a) as [evs [F ->]]. apply sess_run_watch; [exact F|exists se; auto].
  - (* the first step opens the watch *)
    assert (N : next_event s k = Some (EWatch k)) by (unfold next_event; rewrite P, W; reflexivity).
    assert (U : settle_failing (S f) k s a = settle_failing f k (step s (EWatch k)) a).
    { cbn [settle_failing]. rewrite N. reflexivity. }
    rewrite U. destruct (settle_failing_run f k (step s (EWatch k)) a) as [evs [F ->]].
    apply sess_run_watch; [exact F|]. rewrite (sstep_step _ _ _ _ _ _ P (SWatch s k se)). eexists.
    split; [exact (moves_at _ _ _ _ (sess_result_moves s k _ None (phase_active_lt _ _ _ P)))|reflexivity].
Qed.

Lemma qpre_run : forall evs s held held', qpre s held -> Forall (fun e => ~ lease_loss e) evs ->
  (forall k se, In k held' -> phase (run s evs) k = Active se -> se_listed se = false) ->
  qpre (run s evs) held'.
Proof.
  intros evs s held held' [E V I _] F Fr.
  constructor; [apply hexact_run|apply hvalid_run|apply inv_run|]; assumption.
Qed.

Lemma qpre_sess_run : forall evs s held k, Forall (sess k) evs -> ~ In k held -> qpre s held -> qpre (run s evs) held.
Proof.
  intros evs s held k F Nk Q. apply (qpre_run evs s held held Q).
  - eapply Forall_impl; [|exact F]. apply sess_not_loss.
  - intros k' se Hk P. assert (H : k' <> k) by (intro; subst; contradiction).
    rewrite (sess_run_other evs s k k' F H) in P. exact (qp_fresh _ _ Q k' se Hk P).
Qed.

(* the lock holder settles, unless the harness holds it back *)
Lemma settle_post : forall s held armed k, qpre s held -> holder s = Some k ->
  qpost s (if memn k held then s else settle_failing (settle_bound s k + 8) k s armed) held.
Proof.
  intros s held armed k Q H. destruct (memn k held) eqn:M.
  - constructor; auto; try tauto; rewrite H; try reflexivity; try discriminate.
    intros k0 Hk N. inversion Hk; subst. destruct N. apply memn_In. exact M.
  - assert (Nk : ~ In k held) by (intro C; apply memn_In in C; congruence).
    destruct (settle_failing_run (settle_bound s k + 8) k s armed) as [evs [F E]].
    destruct (sess_run_data evs s k F) as [D1 [D2 D3]].
    pose proof (control_run (sess k) (fun s e => sess_control s k e) evs s F) as C.
    destruct (qp_valid _ _ Q k H) as [se P].
    replace (settle_bound s k + 8) with (S (settle_bound s k + 7)) in * by lia.
    pose proof (settle_watch (settle_bound s k + 7) k s armed se P) as W.
    rewrite E in *. constructor; try (rewrite (sc_holder _ _ C), H); try assumption.
    + exact (sc_len _ _ C).
    + intro j. apply started_control. exact C.
    + reflexivity.
    + eapply qpre_sess_run; eauto.
    + discriminate.
    + intros k0 Hk _. inversion Hk; subst. exact W.
Qed.

Lemma register_effect : forall s k, holder s = None -> phase s k = Waiting ->
  let s' := step s (ERegister k) in
  nodes s' = nodes s /\ alive s' = alive s /\ length (ws s') = length (ws s) /\ wls s' = wls s /\
  holder s' = Some k /\ phase s' k = Active fresh /\ (forall j, j <> k -> phase s' j = phase s j).
Proof.
  intros s k H P. cbv zeta. rewrite (step_register s k P H).
  pose proof (moves_set s k (Active fresh) (waiting_lt s k P)) as M.
  repeat split; [exact (moves_len _ _ _ _ M)|exact (moves_at _ _ _ _ M)|].
  intros j Hj. exact (moves_other _ _ _ _ _ M Hj).
Qed.

Lemma quiesce_take : forall s held armed k, holder s = None -> first_waiting s = Some k ->
  quiesce held armed s = quiesce held armed (step s (ERegister k)).
Proof.
  intros s held armed k H F. destruct (fw_some s k F) as [Pk _].
  destruct (register_effect s k H Pk) as [_ [_ [_ [_ [R5 _]]]]].
  unfold quiesce, take_lock. rewrite H, F. cbv zeta. rewrite !R5. reflexivity.
Qed.

Lemma quiesce_spec : forall s1 held armed, qpre s1 held -> qpost s1 (quiesce held armed s1) held.
Proof.
  assert (Held : forall s k held armed, qpre s held -> holder s = Some k -> qpost s (quiesce held armed s) held).
  { intros s k held armed Q H. unfold quiesce, take_lock. rewrite H. cbv zeta. rewrite H.
    exact (settle_post s held armed k Q H). }
  intros s1 held armed Q.
  destruct (holder s1) as [k|] eqn:H; [exact (Held s1 k held armed Q H)|].
  destruct (first_waiting s1) as [k|] eqn:F.
  - rewrite (quiesce_take s1 held armed k H F).
    destruct (fw_some s1 k F) as [Pk _].
    destruct (register_effect s1 k H Pk) as [R1 [R2 [R3 [R4 [R5 [R6 R7]]]]]].
    set (s' := step s1 (ERegister k)) in *.
    assert (Q' : qpre s' held).
    { apply (qpre_run [ERegister k] s1 held held Q); [repeat constructor; intros [k' L]; discriminate|].
      intros k' se Hk P. change (run s1 [ERegister k]) with s' in P. destruct (Nat.eq_dec k' k) as [Ek|Ek].
      - subst. rewrite R6 in P. inversion P. reflexivity.
      - rewrite (R7 k' Ek) in P. exact (qp_fresh _ _ Q k' se Hk P). }
    destruct (Held s' k held armed Q' R5) as [A1 A2 A3 A4 A5 A6 A7 A8 A9]. rewrite R5 in A6.
    constructor; try congruence; [|rewrite A6, H, F; reflexivity|exact A9].
    intro j. rewrite A5. unfold started, active. destruct (Nat.eq_dec j k) as [Ej|Ej].
    + subst. rewrite R6, Pk. split; intros _; [left; reflexivity|right; eauto].
    + rewrite (R7 j Ej). tauto.
  - unfold quiesce, take_lock. rewrite H, F. cbv zeta. rewrite H.
    constructor; auto; try tauto.
    + rewrite H, F. reflexivity.
    + intros _. apply fw_none. exact F.
    + intros k Hk. rewrite H in Hk. discriminate.
Qed.

(* ok's bookkeeping against the model state *)
Record rel (o : okst) (s : st) (held : list nat) : Prop := mkRel {
  r_nodes : o_nodes o = nodes s;
  r_alive : o_alive o = alive s;
  r_wnode : o_wnode o = map w_node (wls s);
  r_nw : o_nw o = length (ws s);
  r_held : o_held o = held;
  r_active : o_active o = holder s;
  r_started : forall k, In k (o_free o ++ o_held o) <-> started s k;
  r_pre : qpre s held;
  r_nowait : holder s = None -> forall j, phase s j <> Waiting;
  r_watch : forall k, holder s = Some k -> ~ In k held -> exists se, phase s k = Active se /\ se_watch se = true
}.

Lemma rel_finish : forall o' s1 held' armed,
  o_nodes o' = nodes s1 -> o_alive o' = alive s1 -> o_wnode o' = map w_node (wls s1) ->
  o_nw o' = length (ws s1) -> o_held o' = held' ->
  (forall k, In k (o_free o' ++ o_held o') <-> started s1 k) ->
  qpre s1 held' ->
  o_active o' = match holder s1 with Some k => Some k | None => first_waiting s1 end ->
  rel o' (quiesce held' armed s1) held'.
Proof.
  intros o' s1 held' armed H1 H2 H3 H4 H5 H6 H7 H8.
  destruct (quiesce_spec s1 held' armed H7) as [Q1 Q2 Q3 Q4 Q5 Q6 Q7 Q8 Q9].
  constructor; try congruence; try assumption.
  intro k. rewrite H6. symmetry. apply Q5.
Qed.

Lemma rel_ok_step : forall o sl s h, rel (ok_upd o sl) s h -> rel (ok_step o sl) s h.
Proof. intros o sl s h [A1 A2 A3 A4 A5 A6 A7 A8 A9 A10]. constructor; assumption. Qed.

Lemma remn_notin : forall n l, memn n l = false -> remn n l = l.
Proof.
  intros n l. induction l as [|x t IH]; simpl; [reflexivity|]. intro H.
  apply orb_false_iff in H. destruct H as [H1 H2]. rewrite H1. simpl. rewrite IH by exact H2. reflexivity.
Qed.

(* the events of the environment do not touch the watchers, except by appending to the
   queues of established watches *)
Definition is_env (e : event) : Prop :=
  match e with EAddNode _ | EHeartbeat _ | ELapse _ | ECreate _ | EReport _ _ _ => True | _ => False end.
Lemma env_cases : forall s e, is_env e ->
  (ws (step s e) = ws s /\ holder (step s e) = holder s) \/
  exists n a al, step s e = set_ws (set_alive s al) (map (enqueue n a) (ws s)).
Proof.
  intros s e H. destruct e; try destruct H; simpl.
  - destruct (memn n (nodes s)); left; split; reflexivity.
  - destruct (negb (memn n (nodes s))); [left; split; reflexivity|].
    destruct (memn n (alive s)); [left; split; reflexivity|right; eauto].
  - destruct (memn n (alive s)); [right; eauto|left; split; reflexivity].
  - destruct (memn n (nodes s)); left; split; reflexivity.
  - left. split; reflexivity.
Qed.
Lemma env_control : forall s e, is_env e -> same_control s (step s e).
Proof.
  intros s e H. destruct (env_cases s e H) as [[W Ho]|[n [a [al ->]]]];
    [exact (control_same_ws _ _ W Ho)|apply control_cast].
Qed.
Lemma is_env_not_loss : forall e, is_env e -> ~ lease_loss e.
Proof. intros e H [k L]. subst. destruct H. Qed.

Lemma qpre_env_run : forall evs s held, Forall is_env evs -> qpre s held -> qpre (run s evs) held.
Proof.
  intros evs s held F Q. apply (qpre_run evs s held held Q).
  - eapply Forall_impl; [|exact F]. apply is_env_not_loss.
  - (* no init pass starts *)
    apply (run_invariant (fun s => forall k se, In k held -> phase s k = Active se -> se_listed se = false) is_env);
      [|exact F|exact (qp_fresh _ _ Q)].
    intros s1 e He Fr k se' Hk P. destruct (env_cases s1 e He) as [[W _]|[n [a [al E]]]].
    + rewrite (phase_ws _ _ k W) in P. exact (Fr k se' Hk P).
    + rewrite E, phase_cast in P. apply enqueue_Active_inv in P. destruct P as [se [P ->]].
      rewrite (proj1 (proj2 (push_flags n a se))). exact (Fr k se Hk P).
Qed.

Lemma rel_env_gen : forall o s held o' evs armed,
  rel o s held -> Forall is_env evs ->
  o_nodes o' = nodes (run s evs) -> o_alive o' = alive (run s evs) ->
  o_wnode o' = map w_node (wls (run s evs)) ->
  o_nw o' = o_nw o -> o_held o' = o_held o -> o_free o' = o_free o -> o_active o' = o_active o ->
  rel o' (quiesce held armed (run s evs)) held.
Proof.
  intros o s held o' evs armed R F H1 H2 H3 H4 H5 H6 H7.
  pose proof (control_run is_env env_control evs s F) as E.
  apply rel_finish.
  - exact H1.
  - exact H2.
  - exact H3.
  - rewrite H4, (r_nw _ _ _ R). symmetry. apply (sc_len _ _ E).
  - rewrite H5. apply (r_held _ _ _ R).
  - intro k. rewrite H6, H5, (r_started _ _ _ R). symmetry. apply started_control. exact E.
  - apply qpre_env_run; [exact F|apply (r_pre _ _ _ R)].
  - rewrite H7, (r_active _ _ _ R), (sc_holder _ _ E).
    destruct (holder s) eqn:Ho; [reflexivity|]. symmetry. apply no_waiting_fw.
    intros j C. apply (waiting_control _ _ j E) in C. exact (r_nowait _ _ _ R Ho j C).
Qed.

Lemma seen_down_model : forall s n, seen_down (map w_node (wls s)) (map w_st (wls s)) n = node_down s n.
Proof.
  intros s n. unfold seen_down, node_down. induction (wls s) as [|w t IH]; simpl; [reflexivity|].
  rewrite IH. reflexivity.
Qed.

Lemma quiesce_wlen : forall s1 held armed, qpre s1 held ->
  length (wls (quiesce held armed s1)) = length (wls s1).
Proof.
  intros s1 held armed H. pose proof (qo_wnode _ _ _ (quiesce_spec s1 held armed H)) as E.
  rewrite <- (map_length w_node), E, map_length. reflexivity.
Qed.

Lemma quiesce_discharges : forall s1 held k se n,
  holder s1 = Some k -> ~ In k held -> phase s1 k = Active se -> owes s1 se n ->
  node_down (quiesce held false s1) n = true.
Proof.
  intros s1 held k se n H Nk P O. unfold quiesce, take_lock. rewrite H. cbv zeta. rewrite H.
  destruct (memn k held) eqn:M; [apply memn_In in M; contradiction|].
  rewrite settle_failing_false.
  exact (proj1 (settle_discharges _ s1 k se n P (msr_settle_bound s1 k se 8 P) (or_introl O))).
Qed.

Lemma queued_handled : forall s1 held k se1 n,
  holder s1 = Some k -> ~ In k held -> phase s1 k = Active se1 -> In (n, false) (se_queue se1) ->
  node_down (quiesce held false s1) n = true.
Proof.
  intros s1 held k se1 n H1 Nk P1 Hq. apply (quiesce_discharges s1 held k se1 n H1 Nk P1).
  right. left. exact Hq.
Qed.

(* the lock holder, free-running and with its watch open, handles a lapse *)
Lemma lapse_handled : forall s held k n,
  qpre s held -> holder s = Some k -> ~ In k held ->
  (exists se, phase s k = Active se /\ se_watch se = true) ->
  memn n (alive s) = true ->
  node_down (quiesce held false (step s (ELapse n))) n = true.
Proof.
  intros s held k n Q H Nk [se [P W]] A. rewrite (step_lapse s n A).
  apply (queued_handled _ held k (push n false se) n); auto.
  - rewrite phase_cast, P. apply enqueue_active.
  - apply push_open. exact W.
Qed.

(* ... also when the heartbeat is back before the handler runs *)
Lemma lapsehb_handled : forall s held k n,
  qpre s held -> holder s = Some k -> ~ In k held ->
  (exists se, phase s k = Active se /\ se_watch se = true) ->
  memn n (alive s) = true ->
  node_down (quiesce held false (run s [ELapse n; EHeartbeat n])) n = true.
Proof.
  intros s held k n Q H Nk [se [P W]] A.
  change (run s [ELapse n; EHeartbeat n]) with (step (step s (ELapse n)) (EHeartbeat n)).
  rewrite (step_lapse s n A). set (sa := set_ws _ _).
  assert (E : step sa (EHeartbeat n) = set_ws (set_alive sa (n :: alive sa)) (map (enqueue n true) (ws sa))).
  { simpl. rewrite (inv_alive _ (qp_inv _ _ Q) n A), memn_remn_same. reflexivity. }
  rewrite E.
  apply (queued_handled _ held k (push n true (push n false se)) n); auto.
  - rewrite phase_cast. unfold sa. rewrite phase_cast, P, !enqueue_active. reflexivity.
  - apply (proj2 (proj2 (proj2 (proj2 (push_flags n true _))))), push_open. exact W.
Qed.

Lemma run_addnode : forall s n,
  let s1 := run s [EAddNode n; EHeartbeat n] in
  let nodes' := if memn n (nodes s) then nodes s else nodes s ++ [n] in
  nodes s1 = nodes' /\
  alive s1 = (if memn n nodes' && negb (memn n (alive s)) then n :: alive s else alive s) /\
  wls s1 = wls s.
Proof.
  intros s n. simpl. destruct (memn n (nodes s)) eqn:M; simpl.
  - rewrite M. simpl. destruct (memn n (alive s)); simpl; auto.
  - rewrite memn_app, M. simpl. rewrite Nat.eqb_refl. simpl. destruct (memn n (alive s)); simpl; auto.
Qed.
Lemma run_heartbeat : forall s n,
  let s1 := run s [EHeartbeat n] in
  nodes s1 = nodes s /\
  alive s1 = (if memn n (nodes s) && negb (memn n (alive s)) then n :: alive s else alive s) /\
  wls s1 = wls s.
Proof.
  intros s n. simpl. destruct (memn n (nodes s)); simpl; auto. destruct (memn n (alive s)); simpl; auto.
Qed.
Lemma run_lapse : forall s n,
  let s1 := run s [ELapse n] in
  nodes s1 = nodes s /\ alive s1 = remn n (alive s) /\ wls s1 = wls s.
Proof.
  intros s n. simpl. destruct (memn n (alive s)) eqn:M; simpl; auto.
  rewrite remn_notin by exact M. auto.
Qed.
Lemma run_lapsehb : forall s n,
  let s1 := run s [ELapse n; EHeartbeat n] in
  nodes s1 = nodes s /\
  alive s1 = (if memn n (nodes s) then n :: remn n (alive s) else remn n (alive s)) /\ wls s1 = wls s.
Proof.
  intros s n. destruct (run_lapse s n) as [A [B C]].
  change (run s [ELapse n; EHeartbeat n]) with (run (run s [ELapse n]) [EHeartbeat n]).
  destruct (run_heartbeat (run s [ELapse n]) n) as [A' [B' C']].
  cbv zeta. rewrite A', B', C'. rewrite A, B, C. rewrite memn_remn_same. simpl. rewrite andb_true_r. auto.
Qed.
Lemma run_create : forall s n,
  let s1 := run s [ECreate n] in
  nodes s1 = nodes s /\ alive s1 = alive s /\
  wls s1 = (if memn n (nodes s) then wls s ++ [mkWl n None] else wls s).
Proof. intros s n. simpl. destruct (memn n (nodes s)); simpl; auto. Qed.
Lemma run_report : forall s w r h,
  let s1 := run s [EReport w r h] in
  nodes s1 = nodes s /\ alive s1 = alive s /\ map w_node (wls s1) = map w_node (wls s).
Proof. intros. simpl. repeat split. apply map_node_upd. Qed.

Definition slot_for (s : st) (held : list nat) (a : action) : slot * st * list nat :=
  let held' := held_after s held a in
  let s1 := run s (act_events s a) in
  let armed := match a with ALapseFail _ => true | _ => false end in
  let s2 := quiesce held' armed s1 in
  (mkSlot a (map w_st (wls s2)), s2, held').

Definition env_action (a : action) : Prop :=
  match a with
  | AAddNode _ | AHeartbeat _ | ALapse _ | ALapseFail _ | ALapseHb _ | ACreate _ | AReport _ _ _ => True
  | _ => False
  end.

Lemma gen_step_env : forall o s held a, rel o s held -> env_action a ->
  let '(sl, s2, held') := slot_for s held a in
  rel (ok_upd o sl) s2 held'.
Proof.
  intros o s held a R Ha. unfold slot_for.
  pose proof R as [Rn Ra Rw Rnw Rh Rac Rst Rpre Rnowait Rwatch].
  assert (Q1 : forall n, qpre (run s [ECreate n]) held) by (intro; apply qpre_env_run; [repeat constructor|exact Rpre]).
  (* ok_upd computes, from the script, the node data that the events produce in the model *)
  destruct a; try destruct Ha; cbn [held_after act_events];
    [pose proof (run_addnode s n) as D|pose proof (run_heartbeat s n) as D|pose proof (run_lapse s n) as D
    |pose proof (run_lapse s n) as D|pose proof (run_lapsehb s n) as D|pose proof (run_create s n) as D
    |pose proof (run_report s w r h) as D];
    cbv zeta in D; destruct D as [A [B C]];
    (apply rel_env_gen with (o := o); auto; try (repeat constructor); cbn -[run quiesce]);
    rewrite ?A, ?B, ?Rn, ?Ra; auto; try (rewrite C; exact Rw).
  (* ACreate: the workload exists iff one more status is observed *)
  rewrite map_length, (quiesce_wlen _ held false (Q1 n)), C, Rw, map_length.
  destruct (memn n (nodes s)).
  - rewrite app_length. cbn [length]. rewrite Nat.add_1_r, Nat.leb_refl, map_app. reflexivity.
  - change (match length (wls s) with 0 => false | S m' => length (wls s) <=? m' end) with (length (wls s) <? length (wls s)).
    rewrite Nat.ltb_irrefl. reflexivity.
Qed.

Lemma run_spawn : forall s,
  let nw := length (ws s) in
  let s1 := run s [ESpawn; EStart nw] in
  nodes s1 = nodes s /\ alive s1 = alive s /\ wls s1 = wls s /\ holder s1 = holder s /\
  length (ws s1) = S nw /\ phase s1 nw = Waiting /\ (forall j, j <> nw -> phase s1 j = phase s j).
Proof.
  intros s nw s1. set (s' := set_ws s (ws s ++ [Idle])).
  assert (P0 : phase s' nw = Idle) by (unfold s', nw; rewrite phase_spawn, Nat.eqb_refl; reflexivity).
  assert (E : s1 = set_phase s' nw Waiting) by (unfold s1; cbn [run fold_left step]; fold s'; rewrite P0; reflexivity).
  assert (M : moves s' s1 nw Waiting) by (rewrite E; apply moves_set, phase_lt; rewrite P0; discriminate).
  rewrite E at 1 2 3 4. repeat split.
  - rewrite (moves_len _ _ _ _ M). unfold s'. simpl. rewrite app_length. simpl. lia.
  - exact (moves_at _ _ _ _ M).
  - intros j Hj. rewrite (moves_other _ _ _ _ _ M Hj). unfold s'. rewrite phase_spawn.
    destruct (Nat.eqb_spec j (length (ws s))); [contradiction|reflexivity].
Qed.

Lemma qpre_spawn : forall s held held',
  qpre s held -> (forall k, In k held' -> k = length (ws s) \/ In k held) ->
  qpre (run s [ESpawn; EStart (length (ws s))]) held'.
Proof.
  intros s held held' Q Hh. destruct (run_spawn s) as [_ [_ [_ [_ [_ [Pn Po]]]]]].
  apply (qpre_run _ s held held' Q); [repeat constructor; intros [k L]; discriminate|].
  intros k se Hk P. destruct (Nat.eq_dec k (length (ws s))) as [Ek|Ek].
  - subst. rewrite Pn in P. discriminate.
  - rewrite (Po k Ek) in P. destruct (Hh k Hk) as [C|C]; [contradiction|]. exact (qp_fresh _ _ Q k se C P).
Qed.

(* the two ways a fresh session comes to run freely *)
Lemma all_down_release : forall s1 held k se n,
  holder s1 = Some k -> ~ In k held -> phase s1 k = Active se -> se_listed se = false ->
  memn n (nodes s1) = true -> memn n (alive s1) = false ->
  node_down (quiesce held false s1) n = true.
Proof.
  intros s1 held k se n H Nk P L Nn A. apply (quiesce_discharges s1 held k se n H Nk P).
  right. right. right. split; [exact L|]. split; [apply memn_In; exact Nn|exact A].
Qed.

Lemma all_down_take : forall s1 held k n,
  qpre s1 held -> holder s1 = None -> first_waiting s1 = Some k -> ~ In k held ->
  memn n (nodes s1) = true -> memn n (alive s1) = false ->
  node_down (quiesce held false s1) n = true.
Proof.
  intros s1 held k n Q H F Nk Nn A. rewrite (quiesce_take s1 held false k H F).
  destruct (fw_some s1 k F) as [Pk _].
  destruct (register_effect s1 k H Pk) as [R1 [R2 [_ [_ [R5 [R6 _]]]]]].
  apply (all_down_release _ held k fresh n R5 Nk R6); [reflexivity|congruence|congruence].
Qed.

Lemma step_stop : forall s k, hexact s -> hvalid s ->
  let s1 := step s (EStop k) in
  nodes s1 = nodes s /\ alive s1 = alive s /\ wls s1 = wls s /\ length (ws s1) = length (ws s) /\
  phase s1 k = Stopped /\ (forall j, j <> k -> phase s1 j = phase s j) /\
  ((holder s = Some k /\ holder s1 = None) \/ (holder s <> Some k /\ holder s1 = holder s)).
Proof.
  intros s k E V s1. unfold s1. simpl.
  assert (NH : inactive (phase s k) -> holder s <> Some k).
  { intros N H. destruct (V k H) as [se P]. exact (N se P). }
  pose proof (phase_lt s k) as L.
  destruct (phase s k) as [| |se|] eqn:P;
    [pose proof (moves_set s k Stopped (L ltac:(discriminate))) as M ..|].
  1,2: repeat split; [exact (moves_len _ _ _ _ M)|exact (moves_at _ _ _ _ M)|intros j Hj; exact (moves_other _ _ _ _ _ M Hj)|];
       right; split; [apply NH; intro; discriminate|reflexivity].
  - repeat split; [exact (moves_len _ _ _ _ M)|exact (moves_at _ _ _ _ M)|intros j Hj; exact (moves_other _ _ _ _ _ M Hj)|].
    left. assert (H : holder s = Some k) by (apply E; exists se; exact P). split; [exact H|].
    simpl. rewrite H. simpl. rewrite Nat.eqb_refl. reflexivity.
  - repeat split; auto. right. split; [apply NH; intro; discriminate|reflexivity].
Qed.

(* the lock lease is revoked and the holder notices *)
Lemma run_expire : forall s k, hexact s -> hvalid s ->
  let s1 := run s [ELeaseLost k; EExpire k] in
  nodes s1 = nodes s /\ alive s1 = alive s /\ wls s1 = wls s /\ length (ws s1) = length (ws s) /\
  (forall j, j <> k -> phase s1 j = phase s j) /\
  ((holder s = Some k /\ holder s1 = None /\ phase s1 k = Waiting) \/
   (holder s <> Some k /\ s1 = s)).
Proof.
  intros s k E V s1. unfold s1. cbn [run fold_left].
  assert (D : holder s = Some k \/ holder s <> Some k).
  { destruct (holder s) as [k'|]; [|right; discriminate].
    destruct (Nat.eq_dec k' k); [left|right]; congruence. }
  destruct D as [H|H].
  - destruct (V k H) as [se P].
    assert (E1 : step s (ELeaseLost k) = set_holder s None) by (simpl; rewrite H, Nat.eqb_refl; reflexivity).
    assert (E2 : step (set_holder s None) (EExpire k) = set_holder (set_phase s k Waiting) None).
    { simpl. change (phase (set_holder s None) k) with (phase s k). rewrite P. reflexivity. }
    rewrite E1, E2. pose proof (moves_set s k Waiting (phase_active_lt _ _ _ P)) as M.
    repeat split; [exact (moves_len _ _ _ _ M)|intros j Hj; exact (moves_other _ _ _ _ _ M Hj)|].
    left. repeat split; [exact H|exact (moves_at _ _ _ _ M)].
  - assert (E1 : step s (ELeaseLost k) = s).
    { simpl. destruct (holder s) as [k'|]; [|reflexivity].
      destruct (Nat.eqb_spec k' k); [subst; destruct (H eq_refl)|reflexivity]. }
    assert (E2 : step s (EExpire k) = s).
    { simpl. destruct (phase s k) as [| |se|] eqn:P; try reflexivity.
      destruct H. apply E. exists se. exact P. }
    rewrite E1, E2. repeat split; auto.
Qed.

Lemma started_lt : forall s k, started s k -> k < length (ws s).
Proof. intros s k [P|[se P]]; apply phase_lt; rewrite P; discriminate. Qed.

Lemma qpre_sub : forall s held held', qpre s held -> (forall k, In k held' -> In k held) -> qpre s held'.
Proof. intros s held held' [E V I F] H. constructor; auto. intros k se Hk P. eapply F; eauto. Qed.

Lemma quiesce_data : forall s1 held armed, qpre s1 held ->
  nodes (quiesce held armed s1) = nodes s1 /\ alive (quiesce held armed s1) = alive s1.
Proof. intros s1 held armed Q. destruct (quiesce_spec s1 held armed Q); auto. Qed.

(* a lapse: if a free-running watcher holds the lock, the node's workloads are seen down *)
Lemma check_lapse : forall o sl s s2 held n,
  rel o s held -> rel (ok_upd o sl) s2 held -> lapse_of (act sl) = Some n -> seen sl = map w_st (wls s2) ->
  (forall k, holder s = Some k -> ~ In k held -> memn n (alive s) = true -> node_down s2 n = true) ->
  ok_check o sl = true.
Proof.
  intros o sl s s2 held n R G Hl Hs H. unfold ok_check. cbv zeta. rewrite Hl.
  destruct (lock_running _ _ && memn n (o_alive o)) eqn:C; [|reflexivity].
  apply andb_true_iff in C. destruct C as [C1 C2].
  rewrite (r_held _ _ _ G), (r_active _ _ _ R) in C1. rewrite (r_alive _ _ _ R) in C2.
  unfold lock_running in C1. destruct (holder s) as [k|] eqn:Ho; [|discriminate]. apply negb_true_iff in C1.
  rewrite (r_wnode _ _ _ G), Hs, seen_down_model. apply (H k eq_refl); [|exact C2].
  intro X. apply memn_In in X. congruence.
Qed.

(* any other action: if it puts a free-running watcher in charge, the workloads of every
   node without status are seen down *)
Lemma check_takes : forall o sl s1 held',
  let s2 := quiesce held' false s1 in
  qpre s1 held' -> rel (ok_upd o sl) s2 held' -> lapse_of (act sl) = None -> seen sl = map w_st (wls s2) ->
  (ok_takes o sl = true ->
   forall n, memn n (nodes s1) = true -> memn n (alive s1) = false -> node_down s2 n = true) ->
  ok_check o sl = true /\ rel (ok_step o sl) s2 held'.
Proof.
  intros o sl s1 held' s2 Q R Hl Hs H. subst s2. split; [|apply rel_ok_step; exact R]. unfold ok_check. cbv zeta. rewrite Hl.
  destruct (ok_takes o sl); [|reflexivity]. apply forallb_forall. intros n Hn.
  unfold ok_absent in Hn. apply filter_In in Hn. destruct Hn as [Hn Ha]. apply negb_true_iff in Ha.
  destruct (quiesce_data s1 held' false Q) as [D1 D2].
  rewrite (r_wnode _ _ _ R), Hs, seen_down_model. apply (H eq_refl).
  - rewrite <- D1, <- (r_nodes _ _ _ R). apply memn_In. exact Hn.
  - rewrite <- D2, <- (r_alive _ _ _ R). exact Ha.
Qed.

(* when the lock holder stops or loses its lease, the check looks at who has the lock afterwards *)
Lemma ok_takes_handover : forall o sl k, act sl = AStop k \/ act sl = AExpire k -> ok_takes o sl = true ->
  o_active o = Some k /\ lock_running (o_held (ok_upd o sl)) (o_active (ok_upd o sl)) = true.
Proof.
  intros o sl k Ha T. unfold ok_takes in T. cbv zeta in T.
  destruct Ha as [Ha|Ha]; rewrite Ha in T; (destruct (o_active o) as [k'|]; [|discriminate]);
    apply andb_true_iff in T; destruct T as [T1 T2]; apply Nat.eqb_eq in T1; subst k'; auto.
Qed.
Lemma takes_down : forall s1 held n, qpre s1 held -> holder s1 = None ->
  lock_running held (holder (quiesce held false s1)) = true ->
  memn n (nodes s1) = true -> memn n (alive s1) = false -> node_down (quiesce held false s1) n = true.
Proof.
  intros s1 held n Q H L Nn A. rewrite (qo_holder _ _ _ (quiesce_spec s1 held false Q)), H in L.
  destruct (first_waiting s1) as [k|] eqn:F; [|discriminate]. apply negb_true_iff in L.
  apply (all_down_take s1 held k n Q H F); auto. intro C. apply memn_In in C. congruence.
Qed.
(* with the lock free nobody is active: the first waiting watcher is the least started one *)
Lemma fw_started : forall s l, hexact s -> holder s = None -> (forall j, In j l <-> started s j) ->
  first_waiting s = min_of l.
Proof.
  intros s l E H Hst. apply fw_min. intro j. rewrite Hst. unfold started.
  split; [intros [C|C]; [exact C|apply E in C; congruence]|tauto].
Qed.

Lemma gen_env : forall o s held a, rel o s held -> env_action a ->
  let '(sl, s2, held') := slot_for s held a in
  ok_check o sl = true /\ rel (ok_step o sl) s2 held'.
Proof.
  intros o s held a R Ha. pose proof (gen_step_env o s held a R Ha) as G. unfold slot_for in *.
  split; [|apply rel_ok_step; exact G].
  destruct a; try contradiction; cbn [held_after act_events] in *;
    try (unfold ok_check, ok_takes; cbn; destruct (o_active o); reflexivity).
  - eapply check_lapse; [exact R|exact G|reflexivity|reflexivity|]. intros k Ho Nk A.
    exact (lapse_handled s held k n (r_pre _ _ _ R) Ho Nk (r_watch _ _ _ R k Ho Nk) A).
  - eapply check_lapse; [exact R|exact G|reflexivity|reflexivity|]. intros k Ho Nk A.
    exact (lapsehb_handled s held k n (r_pre _ _ _ R) Ho Nk (r_watch _ _ _ R k Ho Nk) A).
Qed.

Lemma gen_start : forall o s held a, rel o s held -> a = AStart \/ a = AStartHeld ->
  let '(sl, s2, held') := slot_for s held a in
  ok_check o sl = true /\ rel (ok_step o sl) s2 held'.
Proof.
  intros o s held a R Ha. pose proof R as [Rn Ra Rw Rnw Rh Rac Rst Rpre Rnowait Rwatch].
  destruct (run_spawn s) as [S1 [S2 [S3 [S4 [S5 [S6 S7]]]]]].
  assert (Q1 : forall held', (forall k, In k held' -> k = length (ws s) \/ In k held) ->
            qpre (run s [ESpawn; EStart (length (ws s))]) held') by (intro held'; apply qpre_spawn, Rpre).
  set (nw := length (ws s)) in *. set (s1 := run s [ESpawn; EStart nw]) in *.
  assert (New : ~ In nw held).
  { intro C. assert (St : started s nw) by (apply Rst, in_or_app; right; rewrite Rh; exact C).
    apply started_lt in St. unfold nw in St. lia. }
  assert (Hst : forall k, started s1 k <-> k = nw \/ In k (o_free o ++ o_held o)).
  { intro k. rewrite Rst. unfold started, active. destruct (Nat.eq_dec k nw) as [->|E].
    - rewrite S6. tauto.
    - rewrite (S7 k E). tauto. }
  assert (H8 : match o_active o with None => Some (o_nw o) | Some x => Some x end =
               match holder s1 with Some k => Some k | None => first_waiting s1 end).
  { rewrite S4, Rac. destruct (holder s) as [k|] eqn:Ho; [reflexivity|]. symmetry. rewrite Rnw.
    apply fw_intro; [exact S6|]. intros j Hj. rewrite (S7 j) by lia. apply (Rnowait eq_refl). }
  destruct Ha as [-> | ->]; unfold slot_for; cbn [held_after act_events]; fold nw; fold s1; clearbody s1.
  - specialize (Q1 held (fun k => @or_intror _ _)).
    assert (R' : rel (ok_upd o (mkSlot AStart (map w_st (wls (quiesce held false s1))))) (quiesce held false s1) held).
    { apply rel_finish; cbn -[quiesce]; try congruence.
      intro k. rewrite Hst, !in_app_iff, Rnw. simpl. intuition congruence. }
    apply (check_takes _ _ _ _ Q1 R'); [reflexivity|reflexivity|]. intros T n Hn Ha.
    unfold ok_takes in T. cbn [act] in T. destruct (o_active o) eqn:Oa; [discriminate|].
    assert (Ho : holder s1 = None) by (rewrite S4; symmetry; exact Rac).
    apply (all_down_take s1 held nw n Q1 Ho); auto.
    rewrite Ho, Rnw in H8. symmetry. exact H8.
  - split; [unfold ok_check, ok_takes; cbn; destruct (o_active o); reflexivity|].
    apply rel_ok_step, rel_finish; cbn -[quiesce]; try congruence.
    + intro k. rewrite Hst, !in_app_iff, Rnw. simpl. intuition congruence.
    + apply Q1. intros k [E|E]; [left; symmetry; exact E|right; exact E].
Qed.

Lemma gen_release : forall o s held k, rel o s held ->
  let '(sl, s2, held') := slot_for s held (ARelease k) in
  ok_check o sl = true /\ rel (ok_step o sl) s2 held'.
Proof.
  intros o s held k R. pose proof R as [Rn Ra Rw Rnw Rh Rac Rst Rpre Rnowait Rwatch].
  unfold slot_for. cbn [held_after act_events]. change (run s []) with s.
  assert (Q1 : qpre s (remn k held)).
  { apply (qpre_sub s held); [exact Rpre|]. intros j Hj. apply In_remn in Hj. tauto. }
  assert (R' : rel (ok_upd o (mkSlot (ARelease k) (map w_st (wls (quiesce (remn k held) false s)))))
                   (quiesce (remn k held) false s) (remn k held)).
  { apply rel_finish; cbn -[quiesce]; try congruence.
    - intro j. rewrite <- Rst. destruct (memn k (o_held o)) eqn:M.
      + apply memn_In in M. rewrite !in_app_iff, In_remn. simpl.
        destruct (Nat.eq_dec j k); [subst; tauto|]. intuition congruence.
      + rewrite (remn_notin _ _ M). tauto.
    - rewrite Rac. destruct (holder s) eqn:Ho; [reflexivity|]. symmetry. apply no_waiting_fw. apply (Rnowait eq_refl). }
  apply (check_takes _ _ _ _ Q1 R'); [reflexivity|reflexivity|]. intros T n Hn Ha.
  unfold ok_takes in T. cbn [act] in T. destruct (o_active o) as [k'|] eqn:Oa; [|discriminate].
  apply andb_true_iff in T. destruct T as [T1 T2]. apply Nat.eqb_eq in T1. subst k'.
  rewrite Rh in T2. apply memn_In in T2.
  assert (Ho : holder s = Some k) by (symmetry; exact Rac).
  destruct (qp_valid _ _ Rpre k Ho) as [se P].
  apply (all_down_release s (remn k held) k se n Ho); auto.
  - intro C. apply In_remn in C. tauto.
  - apply (qp_fresh _ _ Rpre k se T2 P).
Qed.

(* AStop k and AExpire k free the lock if k holds it and leave it alone otherwise: ok's
   bookkeeping follows the lock, and a watcher put in charge sees the absent nodes down *)
Lemma gen_handover : forall o s held a k s1 held',
  rel o s held -> a = AStop k \/ a = AExpire k ->
  let s2 := quiesce held' false s1 in
  let sl := mkSlot a (map w_st (wls s2)) in
  nodes s1 = nodes s -> alive s1 = alive s -> wls s1 = wls s -> length (ws s1) = length (ws s) ->
  qpre s1 held' -> o_held (ok_upd o sl) = held' ->
  (forall j, In j (o_free (ok_upd o sl) ++ o_held (ok_upd o sl)) <-> started s1 j) ->
  (holder s = Some k /\ holder s1 = None) \/
  (holder s <> Some k /\ holder s1 = holder s /\ forall j, phase s1 j = Waiting -> phase s j = Waiting) ->
  ok_check o sl = true /\ rel (ok_step o sl) s2 held'.
Proof.
  intros o s held a k s1 held' R Ha s2 sl S1 S2 S3 S4 Q1 Hh Hst S7.
  pose proof R as [Rn Ra Rw Rnw Rh Rac Rst Rpre Rnowait Rwatch].
  assert (H8 : match o_active o with
               | Some k' => if k =? k' then min_of (o_free (ok_upd o sl) ++ o_held (ok_upd o sl)) else Some k'
               | None => None end =
               match holder s1 with Some x => Some x | None => first_waiting s1 end).
  { rewrite Rac. destruct (holder s) as [k'|] eqn:Ho.
    - destruct S7 as [[A B]|[A [B _]]].
      + inversion A; subst k'. rewrite Nat.eqb_refl, B. symmetry.
        exact (fw_started s1 _ (qp_exact _ _ Q1) B Hst).
      + rewrite B. destruct (k =? k') eqn:E; [apply Nat.eqb_eq in E; congruence|reflexivity].
    - destruct S7 as [[A B]|[A [B W]]]; [discriminate|]. rewrite B. symmetry. apply no_waiting_fw.
      intros j C. exact (Rnowait eq_refl j (W j C)). }
  assert (R' : rel (ok_upd o sl) s2 held').
  { apply rel_finish; try assumption; subst sl; destruct Ha; subst a; cbn -[quiesce]; try congruence; exact H8. }
  apply (check_takes _ _ _ _ Q1 R'); [subst sl; destruct Ha; subst a; reflexivity|reflexivity|]. intros T n Hn Hd.
  apply ok_takes_handover with (k := k) in T; [|exact Ha]. destruct T as [Oa L].
  rewrite (r_held _ _ _ R'), (r_active _ _ _ R') in L.
  destruct S7 as [[A B]|[A _]]; [|destruct A; rewrite <- Rac; exact Oa].
  exact (takes_down s1 _ n Q1 B L Hn Hd).
Qed.

Lemma gen_stop : forall o s held k, rel o s held ->
  let '(sl, s2, held') := slot_for s held (AStop k) in
  ok_check o sl = true /\ rel (ok_step o sl) s2 held'.
Proof.
  intros o s held k R. pose proof (r_pre _ _ _ R) as Rpre. pose proof Rpre as [HE HV HI HF].
  unfold slot_for. cbn [held_after act_events]. change (run s [EStop k]) with (step s (EStop k)).
  destruct (step_stop s k HE HV) as [S1 [S2 [S3 [S4 [S5 [S6 S7]]]]]].
  assert (Q1 : qpre (step s (EStop k)) (remn k held)).
  { apply (qpre_run [EStop k] s held _ Rpre); [repeat constructor; intros [k' L]; discriminate|].
    intros j se Hj P. change (run s [EStop k]) with (step s (EStop k)) in P.
    apply In_remn in Hj. destruct Hj as [Hj Ne]. rewrite (S6 j Ne) in P. eapply HF; eauto. }
  set (s1 := step s (EStop k)) in *. clearbody s1.
  apply (gen_handover o s held (AStop k) k s1 (remn k held) R); auto.
  - cbn. rewrite (r_held _ _ _ R). reflexivity.
  - intro j. cbn. rewrite in_app_iff, !In_remn. unfold started, active. destruct (Nat.eq_dec j k) as [E|E].
    + subst. rewrite S5. split; [tauto|]. intros [C|[se C]]; discriminate.
    + rewrite (S6 j E). fold (active s j). fold (started s j). rewrite <- (r_started _ _ _ R), in_app_iff. tauto.
  - destruct S7 as [S7|[A B]]; [left; exact S7|right]. repeat split; auto. intros j C.
    destruct (Nat.eq_dec j k) as [->|E]; [congruence|rewrite <- (S6 j E); exact C].
Qed.

Lemma gen_expire : forall o s held k, rel o s held ->
  let '(sl, s2, held') := slot_for s held (AExpire k) in
  ok_check o sl = true /\ rel (ok_step o sl) s2 held'.
Proof.
  intros o s held k R. pose proof (r_pre _ _ _ R) as Rpre. pose proof Rpre as [HE HV HI HF].
  unfold slot_for. cbn [held_after act_events].
  destruct (run_expire s k HE HV) as [S1 [S2 [S3 [S4 [S6 S7]]]]].
  assert (HI1 : inv (run s [ELeaseLost k; EExpire k])) by (apply inv_run; exact HI).
  set (s1 := run s [ELeaseLost k; EExpire k]) in *. clearbody s1.
  apply (gen_handover o s held (AExpire k) k s1 held R); auto.
  - destruct S7 as [[A [B C]]|[A ->]]; [|exact Rpre].
    (* the holder loses the lock and goes back to waiting: nobody is active *)
    assert (NoAct : forall j, ~ active s1 j).
    { intros j [se Pj]. destruct (Nat.eq_dec j k) as [E|E]; [subst; congruence|].
      rewrite (S6 j E) in Pj. assert (holder s = Some j) by (apply HE; exists se; exact Pj). congruence. }
    constructor; [intros j Aj|intros j Hj; congruence|exact HI1|intros j se Hj P];
      exfalso; apply (NoAct j); [exact Aj|exists se; exact P].
  - exact (r_held _ _ _ R).
  - intro j. cbn. rewrite (r_started _ _ _ R). destruct S7 as [[A [B C]]|[A ->]]; [|tauto].
    destruct (HV k A) as [se0 P0]. unfold started, active. destruct (Nat.eq_dec j k) as [E|E].
    + subst. rewrite C, P0. split; intros _; [left; reflexivity|right; eauto].
    + rewrite (S6 j E). tauto.
  - destruct S7 as [[A [B C]]|[A ->]]; [left|right]; auto.
Qed.

Theorem gen_step : forall o s held a,
  rel o s held ->
  let '(sl, s2, held') := slot_for s held a in
  ok_check o sl = true /\ rel (ok_step o sl) s2 held'.
Proof.
  intros o s held a R.
  destruct a; try (apply gen_env; [exact R|exact I]).
  - apply gen_start; auto.
  - apply gen_start; auto.
  - apply gen_release; exact R.
  - apply gen_stop; exact R.
  - apply gen_expire; exact R.
Qed.

Lemma rel_init : rel ok_init init [].
Proof.
  constructor; simpl; auto.
  - intro k. unfold started, active, phase. simpl. split; [intros []|].
    intros [H|[se H]]; destruct k; discriminate.
  - constructor.
    + exact hexact_init.
    + exact hvalid_init.
    + exact inv_init.
    + intros k se [].
  - intros _ j. unfold phase. simpl. destruct j; discriminate.
  - intros k H. discriminate.
Qed.

Lemma ok_gen_from : forall acts o s held, rel o s held -> o_good o = true ->
  o_good (fold_left ok_step (gen_from s held acts) o) = true.
Proof.
  induction acts as [|a t IH]; intros o s held R G; simpl; [exact G|].
  pose proof (gen_step o s held a R) as H. unfold slot_for in H. destruct H as [C R'].
  apply (IH _ _ _ R'). rewrite ok_step_good, G, C. reflexivity.
Qed.

(* C28: the check accepts the model's own observations, for EVERY history *)
Theorem ok_gen : forall acts, ok (gen_case acts) = true.
Proof.
  intro acts. unfold ok, gen_case. cbn [slots]. apply (ok_gen_from acts _ init []); [exact rel_init|reflexivity].
Qed.
