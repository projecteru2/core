(* C16: the boolean reflection [ok] used on the implementation's observations accepts every
   trace of the model.  (Only that: nothing here says what [ok] rejects; what the accepted model
   traces look like is C16_replay / C16_removed_iff / C16_ids_fresh.)  Observations are derived
   from the model's results by [obs_of]. *)
From Coq Require Import List Bool Arith NArith String Lia Sorted.
From Verif Require Import Base.GoStr Base.GoStrLemmas Wal.Model Wal.Proofs Base.ListFacts.
Import ListNotations.
Open Scope list_scope.
Local Open Scope N_scope.

Opaque event_key parse_event_id event_prefix.

Definition id_of_key (k : bytes) : N := match parse_event_id k with Some id => id | None => 0 end.

Definition sobs (kv : bytes * option (N * N)) : string * option (N * N * N) :=
  (l2s (fst kv), match snd kv with Some ti => Some (id_of_key (fst kv), fst ti, snd ti) | None => None end).

Definition obs_of (r : result) : obs :=
  match r with
  | RLogged _ => ObsLog 0
  | RLogUnknownType => ObsLog 1
  | RLogEncodeErr => ObsLog 2
  | RCommitted _ => ObsCommit true
  | RCommitStale | RCommitNone => ObsCommit false
  | RReopened snap => ObsReopen (map sobs snap)
  | RRecovered calls => ObsRecover (map (fun c => (e_typ (fst c), e_item (fst c), stages (snd c))) calls)
  | RInjected => ObsInject
  end.

Definition obs_trace (tr : trace) : list obs := map (fun x => obs_of (snd x)) tr.
Definition spec0 (regs : list N) : spec := mkSpec [] [] regs [] [] true.
Definition ospec (regs : list N) (tr : trace) : spec := spec_run (spec0 regs) (map fst tr) (obs_trace tr).

Lemma spec_run_snoc : forall ops os sp o b, List.length ops = List.length os ->
  spec_run sp (ops ++ [o]) (os ++ [b]) = spec_step (spec_run sp ops os) o b.
Proof.
  induction ops as [|x ops IH]; intros [|y os] sp o b L; simpl in L; try discriminate; [reflexivity|].
  simpl. apply IH. lia.
Qed.

Lemma ospec_snoc : forall regs tr o r, ospec regs (tr ++ [(o, r)]) = spec_step (ospec regs tr) o (obs_of r).
Proof.
  intros. unfold ospec, obs_trace. rewrite !map_app. simpl.
  apply spec_run_snoc. rewrite !map_length. reflexivity.
Qed.

Definition log_items (ops : list op) : list N :=
  flat_map (fun o => match o with Log _ i _ => [i] | _ => [] end) ops.

Lemma logged_items_sub : forall (tr : trace) e, In e (logged tr) -> In (e_item e) (log_items (map fst tr)).
Proof.
  intros tr e He. apply in_flat_map in He. destruct He as [[o r] [Hx Hin]].
  apply in_flat_map. exists o. split; [apply (in_map fst _ _ Hx)|].
  destruct o; try contradiction. destruct r; try contradiction. destruct Hin as [<-|[]]. left. reflexivity.
Qed.

Lemma existsb_map : forall (A B : Type) (g : A -> B) (f : B -> bool) l, existsb f (map g l) = existsb (fun x => f (g x)) l.
Proof. induction l as [|a l IH]; simpl; [reflexivity|]. rewrite IH. reflexivity. Qed.
Lemma forallb_map : forall (A B : Type) (g : A -> B) (f : B -> bool) l, forallb f (map g l) = forallb (fun x => f (g x)) l.
Proof. induction l as [|a l IH]; simpl; [reflexivity|]. rewrite IH. reflexivity. Qed.

Lemma NoDup_snoc : forall (l : list N) x, NoDup (l ++ [x]) <-> NoDup l /\ ~ In x l.
Proof.
  intros l x. rewrite (NoDup_Add (Add_app x l [])), app_nil_r. reflexivity.
Qed.

Lemma memN_false : forall x l, memN x l = false <-> ~ In x l.
Proof. intros. rewrite <- memN_In. symmetry. apply not_true_iff_false. Qed.
Lemma nodupN_of_NoDup : forall l, NoDup l -> nodupN l = true.
Proof.
  induction 1 as [|x l Nx _ IH]; [reflexivity|]. simpl.
  apply andb_true_iff. split; [apply negb_true_iff, memN_false; exact Nx | exact IH].
Qed.
Lemma strictly_incr_of_sorted : forall l, StronglySorted N.lt l -> strictly_incr l = true.
Proof.
  induction l as [|x l IH]; intro S; [reflexivity|]. inversion S as [|? ? Sl Hx]; subst. simpl.
  destruct l as [|y l']; [reflexivity|]. inversion Hx; subst.
  apply andb_true_iff. split; [apply N.ltb_lt; assumption | apply IH; exact Sl].
Qed.
Lemma lookupN_In : forall k m v, lookupN k m = Some v -> In (k, v) m.
Proof.
  induction m as [|[k' v'] m IH]; intros v H; simpl in H; [discriminate|].
  destruct (N.eqb k k') eqn:E.
  - apply N.eqb_eq in E. inversion H; subst. left. reflexivity.
  - right. apply IH. exact H.
Qed.
Lemma mem_string_In : forall x l, mem_string x l = true <-> In x l.
Proof.
  induction l as [|y t IH]; simpl; [split; [discriminate|tauto]|].
  rewrite orb_true_iff, IH, String.eqb_eq. split; intros [H|H]; auto.
Qed.

Definition item_typ (e : entry) : N * N := (e_item e, e_typ e).
Definition item_id (e : entry) : N * N := (e_item e, e_id e).

Lemma map_fst_item_typ : forall L, map fst (map item_typ L) = map e_item L.
Proof. intro L. rewrite map_map. reflexivity. Qed.

(* the spec knows events by item, the trace by id *)
Definition corr (gone removed : list N) (L : list entry) : Prop :=
  forall e, In e L -> memN (e_item e) gone = memN (e_id e) removed.

Lemma live_item_typ : forall gone removed L, corr gone removed L ->
  filter (fun it => negb (memN (fst it) gone)) (map item_typ L) = map item_typ (filter (not_in removed) L).
Proof.
  intros gone removed L C. rewrite filter_map_comm. f_equal. apply filter_ext_in. intros e He.
  unfold not_in. rewrite <- (C e He). reflexivity.
Qed.
Lemma live_reg_item_typ : forall gone removed rgs L, corr gone removed L ->
  filter (fun it => negb (memN (fst it) gone) && memN (snd it) rgs) (map item_typ L)
  = map item_typ (filter (fun e => memN (e_typ e) rgs) (filter (not_in removed) L)).
Proof.
  intros gone removed rgs L C. rewrite filter_andb, (live_item_typ _ _ _ C). apply filter_map_comm.
Qed.

Lemma lookupN_item_typ : forall L e, NoDup (map e_item L) -> In e L -> lookupN (e_item e) (map item_typ L) = Some (e_typ e).
Proof.
  induction L as [|x L IH]; intros e ND H; [contradiction|]. simpl in ND. inversion ND as [|? ? Nx NL]; subst. simpl.
  destruct H as [<-|H]; [rewrite N.eqb_refl; reflexivity|].
  destruct (N.eqb (e_item e) (e_item x)) eqn:E.
  - apply N.eqb_eq in E. elim Nx. rewrite <- E. apply in_map. exact H.
  - apply IH; assumption.
Qed.

Lemma eq_item_id : forall L a b, NoDup (map e_item L) -> StronglySorted N.lt (map e_id L) -> In a L -> In b L ->
  N.eqb (e_item a) (e_item b) = N.eqb (e_id a) (e_id b).
Proof.
  intros L a b NI SI Ha Hb. apply sorted_nodup in SI.
  destruct (N.eqb_spec (e_item a) (e_item b)) as [E|E]; destruct (N.eqb_spec (e_id a) (e_id b)) as [E'|E']; try reflexivity.
  - elim E'. f_equal. exact (NoDup_map_inj e_item L a b NI Ha Hb E).
  - elim E. f_equal. exact (NoDup_map_inj e_id L a b SI Ha Hb E').
Qed.

Lemma mem_corr : forall L D e,
  NoDup (map e_item L) -> StronglySorted N.lt (map e_id L) -> In e L -> incl D L ->
  memN (e_item e) (map e_item D) = memN (e_id e) (map e_id D).
Proof.
  intros L D e NI SI He H. induction D as [|c D IH]; [reflexivity|]. simpl.
  rewrite (eq_item_id L e c NI SI He (H c (or_introl eq_refl))). f_equal.
  apply IH. intros x Hx. apply H. right. exact Hx.
Qed.

(* the walk of Recover, in the shape the check looks at *)
Section Walk.
Variable rgs : list N.
Variable oc : list (N * outcome).
Definition crashing (e : entry) : bool := crashes (lookup_oc (e_item e) oc).
Definition registered (e : entry) : bool := memN (e_typ e) rgs.

Lemma calls_prefix : forall E,
  is_prefix (map (fun c => e_item (fst c)) (expected_calls rgs oc E)) (map e_item (filter registered E)) = true.
Proof.
  induction E as [|e E IH]; [reflexivity|]. simpl. unfold registered at 1.
  destruct (memN (e_typ e) rgs); simpl; [|exact IH].
  destruct (crashes (lookup_oc (e_item e) oc)); simpl; rewrite N.eqb_refl; [reflexivity | exact IH].
Qed.

Lemma calls_c2 : forall E,
  let calls := expected_calls rgs oc E in
  (if existsb (fun c => crashing (fst c)) calls
   then match rev calls with
        | c :: _ => crashing (fst c) && Nat.eqb (List.length (filter (fun c => crashing (fst c)) calls)) 1
        | [] => false
        end
   else Nat.eqb (List.length calls) (List.length (filter registered E))) = true.
Proof.
  intros E calls.
  assert (Out : forall c, In c calls -> crashing (fst c) = crashes (snd c)).
  { intros c Hc. rewrite (proj1 (expected_calls_outcome _ _ _ _ Hc)). reflexivity. }
  assert (Last : forall pre c post, calls = pre ++ c :: post -> crashing (fst c) = true -> post = []).
  { intros pre c post S Cr. rewrite Out in Cr by (rewrite S; apply in_elt).
    exact (expected_calls_crash_last _ _ _ _ _ _ S Cr). }
  (* a crashing call ends the walk: it is the last one, and none before it crashes *)
  destruct (existsb (fun c => crashing (fst c)) calls) eqn:X.
  - apply existsb_exists in X. destruct X as [c [Hc Cr]]. destruct (in_split _ _ Hc) as [pre [post S]].
    rewrite (Last _ _ _ S Cr) in S. rewrite S, rev_app_distr, filter_app. simpl. rewrite Cr, filter_none; [reflexivity|].
    intros x Hx. destruct (in_split _ _ Hx) as [p1 [p2 S2]]. rewrite S2, <- app_assoc, <- app_comm_cons in S.
    apply not_true_iff_false. intro Cx. destruct p2; discriminate (Last _ _ _ S Cx).
  - apply Nat.eqb_eq. unfold registered. rewrite <- (expected_calls_complete rgs oc E), map_length; [reflexivity|].
    intros c Hc. rewrite <- (Out c Hc). destruct (crashing (fst c)) eqn:Cx; [|reflexivity].
    rewrite <- X. symmetry. apply existsb_exists. exists c. split; assumption.
Qed.
End Walk.

(* the snapshot of Reopen, in the shape the check looks at *)
Definition snap_tuple (e : entry) : string * N * N * N := (l2s (event_key (e_id e)), e_id e, e_typ e, e_item e).

Definition own_of (injl : list string) (snap0 : list (string * option (N * N * N))) :=
  filter (fun s : string * option (N * N * N) => negb (mem_string (fst s) injl)) snap0.

Lemma own_filter : forall injl A F kv, Merge A F kv ->
  (forall f, In f F -> mem_string (l2s (fst f)) injl = true) ->
  (forall a, In a A -> mem_string (l2s (fst a)) injl = false) ->
  own_of injl (map sobs kv) = map sobs A.
Proof.
  intros injl A F kv M HF HA. unfold own_of. rewrite filter_map_comm. f_equal.
  apply (merge_filter _ A F kv M); intros x Hx; unfold sobs; cbn [fst];
    [rewrite (HA x Hx) | rewrite (HF x Hx)]; reflexivity.
Qed.

Lemma snap_of_own : forall L s, ids_ok L s -> s < two64N ->
  flat_map (fun s0 : string * option (N * N * N) =>
              match snd s0 with Some x => [(fst s0, fst (fst x), snd (fst x), snd x)] | None => [] end)
           (map sobs (kv_of L)) = map snap_tuple L.
Proof.
  intros L s [_ Rg] Hs. induction L as [|e L IH]; [reflexivity|]. inversion Rg as [|? ? [H1 H2] Rl]; subst.
  cbn [map kv_of flat_map]. unfold sobs at 1. cbn [key_of fst snd]. unfold id_of_key.
  rewrite key_roundtrip by lia. cbn [List.app fst snd]. unfold snap_tuple at 1. f_equal. apply IH. exact Rl.
Qed.
Lemma own_all_some : forall L,
  forallb (fun s0 : string * option (N * N * N) => match snd s0 with Some _ => true | None => false end)
          (map sobs (kv_of L)) = true.
Proof. induction L as [|e L IH]; [reflexivity|]. cbn [map kv_of forallb]. unfold sobs at 1. cbn [key_of snd]. exact IH. Qed.

Lemma reopen_c1 : forall L,
  list_eqb2 (fun (a : N * N) (s : string * N * N * N) => N.eqb (fst a) (snd s) && N.eqb (snd a) (snd (fst s)))
            (map item_typ L) (map snap_tuple L) = true.
Proof. induction L as [|e L IH]; [reflexivity|]. simpl. rewrite !N.eqb_refl. exact IH. Qed.

Lemma known_sub : forall (idm : list (N * N)) Lg,
  (forall e x, In e Lg -> lookupN (e_item e) idm = Some x -> x = e_id e) ->
  flat_map (fun it : N * N => match lookupN (fst it) idm with Some id => [id] | None => [] end) (map item_typ Lg)
  = map e_id (filter (fun e => match lookupN (e_item e) idm with Some _ => true | None => false end) Lg).
Proof.
  induction Lg as [|e Lg IH]; intro H; [reflexivity|]. simpl.
  destruct (lookupN (e_item e) idm) as [x|] eqn:E; simpl.
  - rewrite (H e x (or_introl eq_refl) E). f_equal. apply IH. intros y z Hy. apply H. right. exact Hy.
  - apply IH. intros y z Hy. apply H. right. exact Hy.
Qed.

(* the relation between the spec state and the projections of the trace (as for [inv_on]) *)
Record rel_on (sp : spec) (L : list entry) (R : list N) (J : list bytes) (rgs : list N) : Prop := mkRel {
  r_good : good sp = true;
  r_lg : lg sp = map item_typ L;
  r_rg : rg sp = rgs;
  r_corr : corr (gone sp) R L;
  r_gone : incl (gone sp) (map e_item L);
  r_ids : incl (ids sp) (map item_id L);
  r_inj : forall k, In k (inj sp) <-> In k (map l2s J);
  r_items : NoDup (map e_item L)
}.

Lemma rel_log : forall sp L R J rgs t i e id, rel_on sp L R J rgs ->
  ~ In i (map e_item L) -> ~ In id R ->
  rel_on (spec_step sp (Log t i e) (ObsLog 0)) (L ++ [mkEntry id t i]) R J rgs.
Proof.
  intros sp L R J rgs t i e id [Rg Rl Rr Rc Rgo Ri Rin Rit] Nit Nid.
  replace (spec_step sp (Log t i e) (ObsLog 0))
    with (mkSpec (lg sp ++ [(i, t)]) (gone sp) (rg sp) (ids sp) (inj sp) (good sp)).
  2:{ simpl. rewrite Rl, map_fst_item_typ, (proj2 (memN_false i _) Nit). reflexivity. }
  constructor; cbn [lg gone rg ids inj good]; try assumption.
  - rewrite Rl, map_app. reflexivity.
  - intros x Hx. apply in_app_or in Hx. destruct Hx as [Hx|[<-|[]]]; [apply Rc; exact Hx|].
    cbn [e_item e_id]. rewrite (proj2 (memN_false id R) Nid). apply memN_false. intro C. apply Nit, Rgo, C.
  - rewrite map_app. apply incl_appl, Rgo.
  - rewrite map_app. apply incl_appl, Ri.
  - rewrite map_app. apply NoDup_snoc. split; assumption.
Qed.

(* entries [D] of the log leave it: by item on the spec's side, by id on the trace's *)
Lemma rel_remove : forall sp L R J rgs D, rel_on sp L R J rgs -> StronglySorted N.lt (map e_id L) -> incl D L ->
  rel_on (mkSpec (lg sp) (map e_item D ++ gone sp) (rg sp) (ids sp) (inj sp) (good sp)) L (R ++ map e_id D) J rgs.
Proof.
  intros sp L R J rgs D [Rg Rl Rr Rc Rgo Ri Rin Rit] SI HD.
  constructor; cbn [lg gone rg ids inj good]; try assumption.
  - intros x Hx. rewrite !memN_app, (Rc x Hx), orb_comm. f_equal. exact (mem_corr L D x Rit SI Hx HD).
  - exact (incl_app (incl_map e_item HD) Rgo).
Qed.

Lemma rel_commit : forall sp L R J rgs k en, rel_on sp L R J rgs ->
  StronglySorted N.lt (map e_id L) -> nth_error L k = Some en ->
  rel_on (spec_step sp (Commit k) (ObsCommit true)) L (R ++ [e_id en]) J rgs.
Proof.
  intros sp L R J rgs k en Rel SI En.
  replace (spec_step sp (Commit k) (ObsCommit true))
    with (mkSpec (lg sp) (map e_item [en] ++ gone sp) (rg sp) (ids sp) (inj sp) (good sp))
    by (simpl; rewrite (r_lg _ _ _ _ _ Rel), (map_nth_error item_typ k L En); reflexivity).
  apply (rel_remove sp L R J rgs [en] Rel SI). intros e [<-|[]]. exact (nth_error_In _ _ En).
Qed.

Lemma rel_inject : forall sp L R J rgs k v, rel_on sp L R J rgs ->
  rel_on (spec_step sp (Inject k v) ObsInject) L R (J ++ [k]) rgs.
Proof.
  intros sp L R J rgs k v [Rg Rl Rr Rc Rgo Ri Rin Rit].
  constructor; cbn [spec_step lg gone rg ids inj good]; try assumption.
  intro x. rewrite map_app, in_app_iff. cbn [map In]. rewrite <- Rin. tauto.
Qed.

Lemma rel_reopen : forall sp L R J rgs st F b rs, rel_on sp L R J rgs -> inv_on L R J st F -> seq st < two64N ->
  rel_on (spec_step sp (Reopen b rs) (ObsReopen (map sobs (kv st)))) L R J rs.
Proof.
  intros sp L R J rgs st F b rs [Rg Rl Rr Rc Rgo Ri Rin Rit] I Hseq.
  pose proof (ids_ok_filter (not_in R) _ _ (i_ids _ _ _ _ _ I)) as OK.
  destruct (i_ids _ _ _ _ _ I) as [SI _]. destruct (i_kv _ _ _ _ _ I) as [Mg Sk Fi].
  set (lv := filter (not_in R) L) in *.
  set (idm := map (fun s : string * N * N * N => let '(_, id, _, item) := s in (item, id)) (map snap_tuple lv) ++ ids sp).
  (* an item determines its id, in [ids sp] and in [idm] *)
  assert (Hlook : forall m : list (N * N), incl m (map item_id L) ->
                  forall e x, In e L -> lookupN (e_item e) m = Some x -> x = e_id e).
  { intros m Hm e x He Hl. apply lookupN_In, Hm, in_map_iff in Hl. destruct Hl as [e2 [E H2]]. injection E as E1 E2.
    rewrite (NoDup_map_inj e_item L e2 e Rit H2 He E1) in E2. symmetry. exact E2. }
  assert (Hidm : incl idm (map item_id L)).
  { unfold idm. rewrite map_map. exact (incl_app (incl_map item_id (incl_filter _ L)) Ri). }
  replace (spec_step sp (Reopen b rs) (ObsReopen (map sobs (kv st))))
    with (mkSpec (lg sp) (gone sp) rs idm (inj sp) true).
  { constructor; cbn [lg gone rg ids inj good]; try assumption; reflexivity. }
  symmetry. cbn [spec_step]. fold (own_of (inj sp) (map sobs (kv st))).
  (* the foreign entries are the injected ones, which are not events: what is left is the live events *)
  rewrite (own_filter (inj sp) _ F (kv st) Mg).
  2:{ intros f Hf. apply mem_string_In, Rin, in_map, (i_fkeys _ _ _ _ _ I), Hf. }
  2:{ intros a Ha. apply not_true_iff_false. intro E. apply mem_string_In, Rin, in_map_iff in E.
      destruct E as [k [E Hk]]. apply l2s_inj in E. subst k.
      destruct (i_fkept _ _ _ _ _ I _ Hk) as [ov Hov].
      apply in_map_iff in Ha. destruct Ha as [e [<- _]]. exact (inert_keys F (e_id e) Fi _ Hov eq_refl). }
  fold lv. rewrite (snap_of_own _ _ OK Hseq), own_all_some.
  replace (forallb (fun k : string => mem_string k (map fst (map sobs (kv st)))) (inj sp)) with true.
  2:{ symmetry. apply forallb_forall. intros k Hk. apply mem_string_In. apply Rin, in_map_iff in Hk. destruct Hk as [k0 [<- Hk0]].
      destruct (i_fkept _ _ _ _ _ I k0 Hk0) as [ov Hov]. rewrite map_map.
      apply in_map_iff. exists (k0, ov). split; [reflexivity | eapply merge_in_r; eassumption]. }
  rewrite Rl, (live_item_typ _ _ _ Rc). fold lv. rewrite reopen_c1. fold idm.
  cbn [lg gone rg ids inj good]. rewrite Rg. cbn [andb].
  replace (forallb _ (map snap_tuple lv)) with true.
  2:{ symmetry. rewrite forallb_map. apply forallb_forall. intros e He. unfold snap_tuple.
      destruct (lookupN (e_item e) (ids sp)) as [x|] eqn:E; [|reflexivity].
      rewrite (Hlook (ids sp) Ri e x (incl_filter _ L e He) E). apply N.eqb_refl. }
  unfold known_ids. cbn [lg ids andb]. rewrite (known_sub idm L (Hlook idm Hidm)).
  rewrite (strictly_incr_of_sorted _ (sorted_map_filter _ _ _ _ _ _ SI)). cbn [andb].
  replace (forallb _ (map snap_tuple lv)) with true; [reflexivity|].
  symmetry. rewrite forallb_map. apply forallb_forall. intros e He. unfold snap_tuple. cbn [fst snd].
  destruct OK as [_ Rng]. rewrite Forall_forall in Rng. apply N.leb_le, (Rng e He).
Qed.

Lemma rel_recover : forall sp L R J rgs oc, rel_on sp L R J rgs -> StronglySorted N.lt (map e_id L) ->
  let calls := expected_calls rgs oc (filter (not_in R) L) in
  rel_on (spec_step sp (Recover oc) (obs_of (RRecovered calls))) L (R ++ removed_by calls) J rgs.
Proof.
  intros sp L R J rgs oc Rel SI calls. pose proof Rel as [Rg Rl Rr Rc _ _ _ Rit].
  set (lv := filter (not_in R) L) in *.
  set (f := fun c : entry * outcome => (e_typ (fst c), e_item (fst c), stages (snd c))).
  set (RC := filter (fun c : entry * outcome => removes (snd c)) calls).
  assert (Hc_in : forall c, In c calls -> In (fst c) L).
  { intros c Hc. apply expected_calls_sub, filter_In in Hc. tauto. }
  replace (spec_step sp (Recover oc) (obs_of (RRecovered calls)))
    with (mkSpec (lg sp) (map e_item (map fst RC) ++ gone sp) (rg sp) (ids sp) (inj sp) (good sp)).
  { unfold removed_by. fold RC. rewrite <- (map_map fst e_id). apply (rel_remove _ _ _ _ _ _ Rel SI).
    intros e He. apply in_map_iff in He. destruct He as [c [<- Hc]]. apply filter_In in Hc. apply Hc_in, Hc. }
  symmetry. cbn [obs_of spec_step]. fold f.
  rewrite Rl, Rr, (live_reg_item_typ _ _ _ _ Rc). fold lv (registered rgs).
  rewrite (map_map f). cbn [f fst snd].
  (* the calls go along the registered live events, whose items are distinct *)
  pose proof (calls_prefix rgs oc lv) as P. fold calls in P. rewrite map_fst_item_typ, P.
  rewrite nodupN_of_NoDup.
  2:{ rewrite <- (map_map fst e_item). eapply subseq_nodup; [apply subseq_map, expected_calls_subseq|].
      eapply subseq_nodup; [apply subseq_map, subseq_filter | exact Rit]. }
  replace (if existsb _ (map f calls) then _ else _) with true.
  2:{ rewrite existsb_map, <- map_rev, filter_map_comm, !map_length.
      pose proof (calls_c2 rgs oc lv) as K. cbv zeta in K. fold calls in K. rewrite <- K.
      destruct (rev calls); reflexivity. }
  replace (forallb _ (map f calls)) with true.
  2:{ symmetry. rewrite forallb_map. apply forallb_forall. intros c Hc. cbn [f].
      rewrite <- (proj1 (expected_calls_outcome _ _ _ _ Hc)), N.eqb_refl, (lookupN_item_typ L (fst c) Rit (Hc_in c Hc)). apply N.eqb_refl. }
  rewrite filter_map_comm, !map_map, Rg. cbn [f fst snd andb].
  replace (filter (fun x : entry * outcome => removes (lookup_oc (e_item (fst x)) oc)) calls) with RC; [reflexivity|].
  apply filter_ext_in. intros c Hc. rewrite <- (proj1 (expected_calls_outcome _ _ _ _ Hc)). reflexivity.
Qed.

Definition rel (regs : list N) (tr : trace) (st : state) : Prop :=
  rel_on (ospec regs tr) (logged tr) (removed_ids tr) (injected tr) (reg st).

Lemma step_rel : forall regs tr st F o st' r,
  inv tr st F -> rel regs tr st -> step st o = (st', r) -> seq st' < two64N ->
  (forall t i e, o = Log t i e -> ~ In i (map e_item (logged tr))) ->
  rel regs (tr ++ [(o, r)]) st'.
Proof.
  intros regs tr st F o st' r I Rel H B Fresh. unfold rel in *. rewrite ospec_snoc.
  pose proof (seq_mono _ _ _ _ H) as Mono.
  destruct (i_ids _ _ _ _ _ I) as [SI Rng].
  (* on an error result [spec_step] computes to its argument *)
  destruct o as [t i e|k|b rs|oc|ik iv]; simpl in H.
  - destruct (negb (memN t (reg st))); [|destruct (negb e)]; inversion H; subst st' r; snoc_trace; try exact Rel.
    apply rel_log; [exact Rel | apply (Fresh t i e eq_refl) |].
    intro C. pose proof (i_removed _ _ _ _ _ I) as Irem. rewrite Forall_forall in Irem. specialize (Irem _ C). lia.
  - destruct (nth_error (issued st) k) as [[id g]|] eqn:En; [destruct (N.eqb g (gen st))|];
      inversion H; subst st' r; snoc_trace; try exact Rel.
    apply (map_nth_error fst) in En. rewrite (i_issued _ _ _ _ _ I), nth_error_map in En.
    destruct (nth_error (logged tr) k) as [en|] eqn:En2; [|discriminate]. inversion En; subst id.
    apply rel_commit; assumption.
  - inversion H; subst st' r. snoc_trace. apply (rel_reopen _ _ _ _ (reg st) st F); [exact Rel | exact I | lia].
  - destruct (step_recover st oc _ F (i_kv _ _ _ _ _ I) (inv_live_ok _ _ _ I)) as [E _]; [lia|].
    simpl in E. rewrite E in H. inversion H; subst st' r. snoc_trace. apply rel_recover; assumption.
  - inversion H; subst st' r. snoc_trace. apply rel_inject, Rel.
Qed.

Lemma log_items_snoc : forall ops o, log_items (ops ++ [o]) = log_items ops ++ log_items [o].
Proof. intros. apply flat_map_app. Qed.

Lemma run_rel : forall regs ops tr st,
  run (init regs) ops = (tr, st) -> seq st < two64N -> Forall op_inert ops -> NoDup (log_items ops) -> rel regs tr st.
Proof.
  intros regs ops tr st H B HI ND. rewrite <- (run_fst _ _ _ _ H) in ND. revert ND.
  cut ((exists F, inv tr st F) /\ (NoDup (log_items (map fst tr)) -> rel regs tr st)); [tauto|].
  revert ops tr st H B HI. apply run_ind.
  - split; [exists []; apply inv_init|]. intros _. repeat constructor; simpl; try contradiction; try apply incl_nil_l; tauto.
  - intros tr st o st' r [[F I] IH] E B Hin. split; [eapply step_inv; eassumption|]. intro ND.
    rewrite map_app in ND. cbn [map fst] in ND. rewrite log_items_snoc in ND.
    apply (step_rel regs tr st F); try assumption.
    + apply IH. destruct o; simpl in ND; rewrite ?app_nil_r in ND; try exact ND. apply NoDup_snoc in ND. tauto.
    + intros t i e ->. apply NoDup_snoc in ND. intro C. apply (proj2 ND).
      apply in_map_iff in C. destruct C as [x [<- Hx]]. apply logged_items_sub, Hx.
Qed.

Lemma ok_sound : forall regs ops tr st,
  run (init regs) ops = (tr, st) -> seq st < two64N -> Forall op_inert ops -> NoDup (log_items ops) ->
  ok (mkCase regs ops (obs_trace tr)) = true.
Proof.
  intros regs ops tr st H B HI ND. unfold ok. cbn [c_regs c_ops c_obs]. rewrite <- (run_fst _ _ _ _ H) at 1.
  exact (r_good _ _ _ _ _ (run_rel regs ops tr st H B HI ND)).
Qed.
