(* C16, the recovery log.  At every point of every history the bucket is the key-ordered interleaving
   of the events logged and not yet removed with the entries a foreign writer put there ([inv],
   [run_inv]); from such a bucket Recover decodes exactly those events and calls the handlers along the
   walk [expected_calls] over them ([step_recover]).  The property theorems are read off these two. *)
From Coq Require Import List Bool NArith String Lia Sorted.
From Verif Require Import Base.GoStr Base.GoStrLemmas Wal.Model Base.ListFacts.
Import ListNotations.
Open Scope list_scope.
Local Open Scope N_scope.

(* sub-sequence: order and multiplicity are inherited from the live list *)
Inductive subseq {A} : list A -> list A -> Prop :=
| sub_nil : forall l, subseq [] l
| sub_take : forall x a l, subseq a l -> subseq (x :: a) (x :: l)
| sub_skip : forall x a l, subseq a l -> subseq a (x :: l).

Lemma subseq_refl : forall (A : Type) (l : list A), subseq l l.
Proof. induction l; constructor; assumption. Qed.
Lemma subseq_in : forall (A : Type) (a l : list A) x, subseq a l -> In x a -> In x l.
Proof. intros A a l x S. induction S; simpl; tauto. Qed.
Lemma subseq_map : forall (A B : Type) (f : A -> B) a l, subseq a l -> subseq (map f a) (map f l).
Proof. intros A B f a l S. induction S; simpl; constructor; assumption. Qed.
Lemma subseq_filter : forall (A : Type) (f : A -> bool) l, subseq (filter f l) l.
Proof. induction l as [|a l IH]; simpl; [constructor|]. destruct (f a); constructor; exact IH. Qed.

Lemma subseq_sorted : forall (A : Type) (R : A -> A -> Prop) a l,
  subseq a l -> StronglySorted R l -> StronglySorted R a.
Proof.
  intros A R a l S. induction S as [l|x a l S IH|x a l S IH]; intro H.
  - constructor.
  - inversion H as [|? ? Hl Hx]; subst. constructor; [apply IH; exact Hl|].
    rewrite Forall_forall in Hx |- *. intros y Hy. apply Hx. eapply subseq_in; eassumption.
  - inversion H; subst. apply IH. assumption.
Qed.
Lemma subseq_nodup : forall (A : Type) (a l : list A), subseq a l -> NoDup l -> NoDup a.
Proof.
  intros A a l S. induction S as [l|x a l S IH|x a l S IH]; intro H.
  - constructor.
  - inversion H as [|? ? Nx Nl]; subst. constructor; [|apply IH; exact Nl].
    intro C. apply Nx. eapply subseq_in; eassumption.
  - inversion H; subst. apply IH. assumption.
Qed.

Lemma sorted_map_filter : forall (A B : Type) (R : B -> B -> Prop) (g : A -> B) f l,
  StronglySorted R (map g l) -> StronglySorted R (map g (filter f l)).
Proof. intros A B R g f l. apply subseq_sorted, subseq_map, subseq_filter. Qed.

Lemma sorted_nodup : forall l, StronglySorted N.lt l -> NoDup l.
Proof.
  induction 1 as [|x l _ IH Hx]; constructor; [|exact IH].
  intro C. rewrite Forall_forall in Hx. specialize (Hx x C). lia.
Qed.

Lemma filter_andb : forall (A : Type) (f g : A -> bool) l, filter (fun x => f x && g x) l = filter g (filter f l).
Proof.
  induction l as [|a l IH]; simpl; [reflexivity|].
  destruct (f a); simpl; [destruct (g a); [f_equal|]|]; exact IH.
Qed.

Lemma Forall_app_l : forall (A : Type) (P : A -> Prop) a b, Forall P (a ++ b) -> Forall P a.
Proof. intros A P a b H. apply Forall_app in H. tauto. Qed.

Lemma memN_In : forall x l, memN x l = true <-> In x l.
Proof.
  induction l as [|y t IH]; simpl; [split; [discriminate|tauto]|].
  rewrite orb_true_iff, IH, N.eqb_eq. split; intros [H|H]; auto.
Qed.
Lemma memN_app : forall x a b, memN x (a ++ b) = memN x a || memN x b.
Proof. induction a as [|y a IH]; intro b; simpl; [reflexivity|]. rewrite IH. apply orb_assoc. Qed.

Lemma event_key_shape : forall id, event_key id = event_prefix ++ hex16 id.
Proof.
  intro id. unfold event_key. set (h := hex16 id).
  change (join_path [event_prefix; h]) with (clean (slash :: join [slash] [s2l "events"; []; h])).
  rewrite clean_rooted.
  - pose proof (hex16_safe id) as S. fold h in S. destruct S as [Hn _].
    destruct h as [|c h']; [congruence|]. reflexivity.
  - constructor; [right|constructor; [left; reflexivity|constructor; [right; apply hex16_safe|constructor]]].
    unfold safe_elem, no_byte. repeat split; try reflexivity. discriminate.
Qed.

Lemma key_roundtrip : forall id, 1 <= id -> id < two64N -> parse_event_id (event_key id) = Some id.
Proof.
  intros id H1 H2. unfold parse_event_id. rewrite event_key_shape, trim_prefix_app.
  apply parse_hex16; assumption.
Qed.

Lemma key_order : forall a b, a < b -> b < two64N -> bytes_ltb (event_key a) (event_key b) = true.
Proof. intros a b H1 H2. rewrite !event_key_shape, bytes_ltb_app_common. apply hex16_lt; assumption. Qed.

Lemma key_inj : forall a b, a < two64N -> b < two64N -> event_key a = event_key b -> a = b.
Proof.
  intros a b Ha Hb E. destruct (N.lt_trichotomy a b) as [L|[?|G]]; [|assumption|].
  - apply key_order in L; [|exact Hb]. rewrite E, bytes_ltb_irrefl in L. discriminate.
  - apply key_order in G; [|exact Ha]. rewrite E, bytes_ltb_irrefl in G. discriminate.
Qed.

Lemma key_order_iff : forall a b, a < two64N -> b < two64N ->
  (bytes_ltb (event_key a) (event_key b) = true <-> a < b).
Proof.
  intros a b Ha Hb. split; [|intro; apply key_order; assumption].
  intro H. destruct (N.lt_trichotomy a b) as [L|[E|G]]; [exact L| |].
  - subst. rewrite bytes_ltb_irrefl in H. discriminate.
  - apply key_order in G; [|exact Ha]. rewrite (bytes_ltb_asym _ _ G) in H. discriminate.
Qed.

Lemma key_has_prefix : forall id, has_prefix event_prefix (event_key id) = true.
Proof. intro. rewrite event_key_shape. apply has_prefix_app. Qed.
Lemma key_not_below_prefix : forall id, bytes_ltb (event_key id) event_prefix = false.
Proof. intro. rewrite event_key_shape. apply bytes_ltb_prefix_nlt. Qed.

Lemma event_key_length : forall id, List.length (event_key id) = 24%nat.
Proof.
  intro id. rewrite event_key_shape, app_length. unfold hex16. rewrite hexw_length. reflexivity.
Qed.

(* from here on the codec is used through the lemmas above only *)
Opaque event_key parse_event_id event_prefix.

Definition key_of (e : entry) : bytes * option (N * N) := (event_key (e_id e), Some (e_typ e, e_item e)).
Definition kv_of (L : list entry) : kvstore := map key_of L.

(* a foreign entry Recover cannot take for an event: its key has not the length of an event key
   (24 bytes; so it is none, and a Put or Delete of an event never hits it), and it is outside
   the scanned prefix, or its key does not parse, or its value does not decode *)
Definition inert (x : bytes * option (N * N)) : Prop :=
  List.length (fst x) <> 24%nat /\
  (has_prefix event_prefix (fst x) = false \/ parse_event_id (fst x) = None \/ snd x = None).

Lemma inert_not_event_key : forall f id, inert f -> fst f <> event_key id.
Proof. intros f id [H _] C. apply H. rewrite C. apply event_key_length. Qed.

Definition ids_ok (L : list entry) (s : N) : Prop :=
  StronglySorted N.lt (map e_id L) /\ Forall (fun e => 1 <= e_id e /\ e_id e <= s) L.

Lemma ids_ok_filter : forall f L s, ids_ok L s -> ids_ok (filter f L) s.
Proof.
  intros f L s [S R]. split; [apply sorted_map_filter, S | exact (incl_Forall (incl_filter f L) R)].
Qed.
Lemma ids_ok_mono : forall L s s', ids_ok L s -> s <= s' -> ids_ok L s'.
Proof.
  intros L s s' [S R] H. split; [exact S|].
  rewrite Forall_forall in R |- *. intros x Hx. specialize (R x Hx). lia.
Qed.

Definition blt (a b : bytes) : Prop := bytes_ltb a b = true.
Definition ksorted (kv : kvstore) : Prop := StronglySorted blt (map fst kv).

Lemma blt_trans : forall a b c, blt a b -> blt b c -> blt a c.
Proof. exact bytes_ltb_trans. Qed.

Lemma ksorted_cons : forall x s, ksorted (x :: s) <-> ksorted s /\ forall y, In y s -> blt (fst x) (fst y).
Proof.
  intros x s. unfold ksorted. simpl. split.
  - intro S. inversion S as [|? ? Ss Hk]; subst. split; [exact Ss|].
    intros y Hy. rewrite Forall_forall in Hk. apply Hk, in_map, Hy.
  - intros [Ss Hk]. constructor; [exact Ss|]. apply Forall_forall. intros k Hk'.
    apply in_map_iff in Hk'. destruct Hk' as [y [<- Hy]]. apply Hk, Hy.
Qed.

Lemma put_first : forall k v s, (forall y, In y s -> blt k (fst y)) -> kv_put k v s = (k, v) :: s.
Proof.
  intros k v [|[k' v'] s] H; [reflexivity|]. simpl.
  pose proof (H (k', v') (or_introl eq_refl)) as L. cbn [fst] in L. rewrite L. reflexivity.
Qed.

Lemma put_last : forall k v s, (forall y, In y s -> blt (fst y) k) -> kv_put k v s = s ++ [(k, v)].
Proof.
  induction s as [|[k' v'] s IH]; intro H; [reflexivity|]. simpl.
  pose proof (H (k', v') (or_introl eq_refl)) as L. cbn [fst] in L.
  rewrite (bytes_ltb_asym _ _ L), (proj2 (bytes_eqb_neq k k')).
  - f_equal. apply IH. intros y Hy. apply H. right. exact Hy.
  - intros ->. apply bytes_ltb_neq in L. apply L. reflexivity.
Qed.

Lemma in_put : forall k v s x, In x (kv_put k v s) -> x = (k, v) \/ In x s.
Proof.
  induction s as [|[k' v'] s IH]; intros x H; simpl in H.
  - destruct H as [<-|[]]. left. reflexivity.
  - destruct (bytes_ltb k k'); [|destruct (bytes_eqb k k')]; destruct H as [<-|H]; simpl; auto.
    destruct (IH x H); auto.
Qed.
Lemma put_in : forall k v s, In (k, v) (kv_put k v s).
Proof.
  induction s as [|[k' v'] s IH]; simpl; [auto|].
  destruct (bytes_ltb k k'); [|destruct (bytes_eqb k k')]; simpl; auto.
Qed.
Lemma put_keeps : forall k v s x, In x s -> fst x <> k -> In x (kv_put k v s).
Proof.
  induction s as [|[k' v'] s IH]; intros x H N; simpl; [contradiction|].
  destruct (bytes_ltb k k'); [right; exact H|]. destruct (bytes_eqb k k') eqn:E.
  - apply bytes_eqb_eq in E. subst k'. destruct H as [<-|H]; [elim N; reflexivity | right; exact H].
  - destruct H as [<-|H]; [left; reflexivity | right; apply IH; assumption].
Qed.

Lemma put_sorted : forall k v s, ksorted s -> ksorted (kv_put k v s).
Proof.
  induction s as [|[k' v'] s IH]; intro S; simpl.
  - apply ksorted_cons. split; [constructor | intros y []].
  - pose proof S as S0. apply ksorted_cons in S. destruct S as [Ss Hk].
    destruct (bytes_ltb k k') eqn:L; [|destruct (bytes_eqb k k') eqn:E].
    + apply ksorted_cons. split; [exact S0|]. intros y [<-|Hy]; [exact L | eapply blt_trans; [exact L | apply Hk, Hy]].
    + apply bytes_eqb_eq in E. subst k'. apply ksorted_cons. split; assumption.
    + apply ksorted_cons. split; [apply IH, Ss|]. intros y Hy. apply in_put in Hy. destruct Hy as [->|Hy]; [|apply Hk, Hy].
      destruct (bytes_ltb k' k) eqn:L2; [exact L2|].
      apply bytes_eqb_neq in E. elim E. apply bytes_ltb_total; assumption.
Qed.

Lemma delete_subseq : forall k s, subseq (kv_delete k s) s.
Proof.
  induction s as [|[k' v'] s IH]; simpl; [constructor|].
  destruct (bytes_eqb k k'); [apply sub_skip, subseq_refl | apply sub_take, IH].
Qed.
Lemma delete_sorted : forall k s, ksorted s -> ksorted (kv_delete k s).
Proof. intros k s. apply subseq_sorted, subseq_map, delete_subseq. Qed.

(* order-preserving interleaving of the events A and the foreign entries F *)
Inductive Merge : kvstore -> kvstore -> kvstore -> Prop :=
| M_nil : Merge [] [] []
| M_ev : forall a A F kv, Merge A F kv -> Merge (a :: A) F (a :: kv)
| M_fo : forall f A F kv, Merge A F kv -> Merge A (f :: F) (f :: kv).

Lemma merge_sym : forall A F kv, Merge A F kv -> Merge F A kv.
Proof. intros A F kv M. induction M; constructor; assumption. Qed.
Lemma merge_in_l : forall A F kv a, Merge A F kv -> In a A -> In a kv.
Proof. intros A F kv a M. induction M; simpl; tauto. Qed.
Lemma merge_in_r : forall A F kv f, Merge A F kv -> In f F -> In f kv.
Proof. intros A F kv f M. apply merge_in_l with (F := A), merge_sym, M. Qed.
Lemma merge_filter : forall (f : bytes * option (N * N) -> bool) A F kv, Merge A F kv ->
  (forall a, In a A -> f a = true) -> (forall x, In x F -> f x = false) -> filter f kv = A.
Proof.
  intros f A F kv M. induction M as [|a A F kv M IH|x A F kv M IH]; intros HA HF; [reflexivity| |]; simpl.
  - rewrite (HA a (or_introl eq_refl)). f_equal. apply IH; [intros y Hy; apply HA; right; exact Hy | exact HF].
  - rewrite (HF x (or_introl eq_refl)). apply IH; [exact HA | intros y Hy; apply HF; right; exact Hy].
Qed.
Lemma merge_nil_l : forall F kv, Merge [] F kv -> kv = F.
Proof. intros F kv M. remember [] as A. induction M; try discriminate; [reflexivity|]. f_equal. apply IHM. exact HeqA. Qed.

Lemma merge_put : forall k v A F kv, Merge A F kv -> ksorted kv -> (forall f, In f F -> fst f <> k) ->
  Merge (kv_put k v A) F (kv_put k v kv).
Proof.
  intros k v A F kv M. induction M as [|[ka va] A F kv M IH|[kf vf] A F kv M IH]; intros S HF.
  - apply M_ev, M_nil.
  - apply ksorted_cons in S. destruct S as [S _]. cbn [kv_put].
    destruct (bytes_ltb k ka); [apply M_ev, M_ev, M|].
    destruct (bytes_eqb k ka); apply M_ev; [exact M | apply IH; assumption].
  - apply ksorted_cons in S. destruct S as [S Hk]. cbn [kv_put].
    destruct (bytes_ltb k kf) eqn:L.
    + (* k is below kf, hence below every event that follows *)
      rewrite put_first; [apply M_ev, M_fo, M|].
      intros y Hy. eapply blt_trans; [exact L | apply Hk, (merge_in_l _ _ _ _ M Hy)].
    + rewrite (proj2 (bytes_eqb_neq k kf)); [|intros ->; apply (HF (kf, vf)); [left|]; reflexivity].
      apply M_fo, IH; [exact S | intros f Hf; apply HF; right; exact Hf].
Qed.

Lemma merge_delete : forall k A F kv, Merge A F kv -> (forall f, In f F -> fst f <> k) ->
  Merge (kv_delete k A) F (kv_delete k kv).
Proof.
  intros k A F kv M. induction M as [|[ka va] A F kv M IH|[kf vf] A F kv M IH]; intro HF.
  - apply M_nil.
  - cbn [kv_delete]. destruct (bytes_eqb k ka); [exact M | apply M_ev, IH, HF].
  - cbn [kv_delete]. rewrite (proj2 (bytes_eqb_neq k kf)); [|intros ->; apply (HF (kf, vf)); [left|]; reflexivity].
    apply M_fo, IH. intros f Hf. apply HF. right. exact Hf.
Qed.

Definition not_in (R : list N) (e : entry) : bool := negb (memN (e_id e) R).

Lemma put_kv_of : forall L s id t i, ids_ok L s -> s < id -> id < two64N ->
  kv_put (event_key id) (Some (t, i)) (kv_of L) = kv_of (L ++ [mkEntry id t i]).
Proof.
  intros L s id t i [_ R] Hs Hid. unfold kv_of. rewrite map_app. apply put_last.
  intros y Hy. apply in_map_iff in Hy. destruct Hy as [e [<- He]].
  rewrite Forall_forall in R. specialize (R e He). apply key_order; [lia | exact Hid].
Qed.

Lemma delete_kv_of : forall L s id, ids_ok L s -> s < two64N -> id < two64N ->
  kv_delete (event_key id) (kv_of L) = kv_of (filter (not_in [id]) L).
Proof.
  intros L s id [S R] Hs Hid. induction L as [|e L IH]; [reflexivity|].
  inversion S as [|? ? St He]; subst. inversion R as [|? ? [_ Hes] Rt]; subst.
  cbn [kv_of map key_of kv_delete filter]. unfold not_in at 1. cbn [memN]. rewrite orb_false_r.
  destruct (bytes_eqb (event_key id) (event_key (e_id e))) eqn:E.
  - apply bytes_eqb_eq, key_inj in E; [|exact Hid|lia]. subst id. rewrite N.eqb_refl. cbn [negb].
    (* the ids after e are larger *)
    rewrite filter_all; [reflexivity|]. intros x Hx. unfold not_in. cbn [memN]. rewrite orb_false_r.
    apply negb_true_iff, N.eqb_neq. rewrite Forall_forall in He. specialize (He _ (in_map e_id _ _ Hx)). lia.
  - replace (e_id e =? id) with false; [cbn [negb map]; f_equal; apply IH; assumption|].
    symmetry. apply N.eqb_neq. intro C. rewrite C, bytes_eqb_refl in E. discriminate.
Qed.

Definition prefixed (p : bytes) (x : bytes * option (N * N)) : bool := has_prefix p (fst x).

Lemma take_filter : forall p s, ksorted s ->
  (forall x, In x s -> bytes_ltb (fst x) p = false) ->
  take_prefixed p s = filter (prefixed p) s.
Proof.
  induction s as [|[k v] s IH]; intros S H; [reflexivity|].
  apply ksorted_cons in S. destruct S as [S Hk].
  cbn [take_prefixed filter]. change (prefixed p (k, v)) with (has_prefix p k). destruct (has_prefix p k) eqn:E.
  - f_equal. apply IH; [exact S | intros x Hx; apply H; right; exact Hx].
  - (* k is above the interval, and so is everything after it *)
    symmetry. apply filter_none. intros x Hx. unfold prefixed.
    destruct (has_prefix p (fst x)) eqn:P; [|reflexivity]. apply has_prefix_iff in P. destruct P as [r P].
    specialize (Hk x Hx). unfold blt in Hk. rewrite P in Hk. cbn [fst] in Hk.
    rewrite (prefix_interval p r k (H (k, v) (or_introl eq_refl)) Hk) in E. discriminate.
Qed.

(* Scan: on a sorted bucket, Seek + while-HasPrefix is the filter of the prefixed keys *)
Lemma scan_filter : forall p s, ksorted s -> kv_scan p s = filter (prefixed p) s.
Proof.
  intros p s S. unfold kv_scan. induction s as [|[k v] s IH]; [reflexivity|].
  pose proof S as S0. apply ksorted_cons in S. destruct S as [S Hk].
  cbn [kv_seek]. destruct (bytes_ltb k p) eqn:L.
  - cbn [filter]. change (prefixed p (k, v)) with (has_prefix p k). destruct (has_prefix p k) eqn:E; [|apply IH, S].
    apply has_prefix_iff in E. destruct E as [r ->]. rewrite bytes_ltb_prefix_nlt in L. discriminate.
  - apply take_filter; [exact S0|]. intros x [<-|Hx]; [exact L|].
    destruct (bytes_ltb (fst x) p) eqn:C; [|reflexivity].
    pose proof (bytes_ltb_trans _ _ _ (Hk x Hx) C) as T. cbn [fst] in T. congruence.
Qed.

Lemma decode_foreign : forall A F kv, Merge A F kv -> Forall inert F ->
  decode_events (filter (prefixed event_prefix) kv) = decode_events (filter (prefixed event_prefix) A).
Proof.
  intros A F kv M I. induction M as [|a A F kv M IH|f A F kv M IH]; [reflexivity| |].
  - cbn [filter]. destruct (prefixed event_prefix a); [|apply IH, I].
    unfold decode_events. cbn [flat_map]. f_equal. apply IH, I.
  - inversion I as [|? ? [_ If] I']; subst. rewrite <- (IH I'). cbn [filter].
    destruct (prefixed event_prefix f) eqn:P; [|reflexivity].
    unfold decode_events. cbn [flat_map]. unfold prefixed in P.
    destruct If as [H|[H|H]]; [congruence | |]; rewrite H; [destruct (snd f)|]; reflexivity.
Qed.

Lemma decode_kv_of : forall L s, ids_ok L s -> s < two64N ->
  decode_events (filter (prefixed event_prefix) (kv_of L)) = L.
Proof.
  intros L s [_ R] Hs. induction R as [|e L [H1 H2] _ IH]; [reflexivity|].
  cbn [kv_of map filter]. unfold prefixed at 1, key_of at 1. cbn [fst]. rewrite key_has_prefix.
  unfold decode_events. cbn [flat_map key_of fst snd]. rewrite key_roundtrip by lia.
  destruct e as [id t i]. cbn [app e_id e_typ e_item]. f_equal. exact IH.
Qed.

Record wfkv (kv : kvstore) (L : list entry) (F : kvstore) : Prop := mkWf {
  w_merge : Merge (kv_of L) F kv; w_sorted : ksorted kv; w_inert : Forall inert F }.

Lemma wf_decode : forall kv L F s, wfkv kv L F -> ids_ok L s -> s < two64N ->
  decode_events (kv_scan event_prefix kv) = L.
Proof.
  intros kv L F s [M S I] OK Hs. rewrite (scan_filter _ _ S), (decode_foreign _ _ _ M I).
  eapply decode_kv_of; eassumption.
Qed.

Lemma inert_keys : forall F id, Forall inert F -> forall f, In f F -> fst f <> event_key id.
Proof. intros F id I f Hf. apply inert_not_event_key. rewrite Forall_forall in I. apply I, Hf. Qed.

Lemma wf_put_event : forall kv L F s id t i, wfkv kv L F -> ids_ok L s -> s < id -> id < two64N ->
  wfkv (kv_put (event_key id) (Some (t, i)) kv) (L ++ [mkEntry id t i]) F.
Proof.
  intros kv L F s id t i [M S I] OK Hs Hid. constructor; [|apply put_sorted, S | exact I].
  rewrite <- (put_kv_of L s) by assumption. apply merge_put; [exact M | exact S | apply inert_keys, I].
Qed.

Lemma wf_delete_event : forall kv L F s id, wfkv kv L F -> ids_ok L s -> s < two64N -> id < two64N ->
  wfkv (kv_delete (event_key id) kv) (filter (not_in [id]) L) F.
Proof.
  intros kv L F s id [M S I] OK Hs Hid. constructor; [|apply delete_sorted, S | exact I].
  rewrite <- (delete_kv_of L s) by assumption. apply merge_delete; [exact M | apply inert_keys, I].
Qed.

Lemma wf_put_foreign : forall kv L F k ov, wfkv kv L F -> inert (k, ov) -> wfkv (kv_put k ov kv) L (kv_put k ov F).
Proof.
  intros kv L F k ov [M S I] Hi. constructor; [|apply put_sorted, S|].
  - apply merge_sym, merge_put; [apply merge_sym, M | exact S|].
    intros a Ha C. apply in_map_iff in Ha. destruct Ha as [e [<- _]].
    exact (inert_not_event_key _ _ Hi (eq_sym C)).
  - rewrite Forall_forall in I |- *. intros x Hx. apply in_put in Hx. destruct Hx as [->|Hx]; [exact Hi | apply I, Hx].
Qed.

Fixpoint expected_calls (regs : list N) (oc : list (N * outcome)) (events : list entry)
  : list (entry * outcome) :=
  match events with
  | [] => []
  | e :: rest =>
      if negb (memN (e_typ e) regs) then expected_calls regs oc rest
      else let o := lookup_oc (e_item e) oc in
           if crashes o then [(e, o)] else (e, o) :: expected_calls regs oc rest
  end.

Definition removed_by (calls : list (entry * outcome)) : list N :=
  map (fun c => e_id (fst c)) (filter (fun c => removes (snd c)) calls).

Lemma in_removed_by : forall calls id,
  In id (removed_by calls) <-> exists c, In c calls /\ e_id (fst c) = id /\ removes (snd c) = true.
Proof.
  intros calls id. unfold removed_by. rewrite in_map_iff. split; intros [c H]; exists c.
  - rewrite filter_In in H. tauto.
  - rewrite filter_In. tauto.
Qed.

Lemma filter_not_in_nil : forall L : list entry, filter (not_in []) L = L.
Proof. intro L. apply filter_all. reflexivity. Qed.

Lemma filter_not_in_app : forall R1 R2 (L : list entry),
  filter (not_in (R1 ++ R2)) L = filter (not_in R2) (filter (not_in R1) L).
Proof.
  intros R1 R2 L. rewrite <- filter_andb. apply filter_ext. intro e.
  unfold not_in. rewrite memN_app. apply negb_orb.
Qed.

(* the second loop of Recover calls the handlers along the walk and deletes the keys of the events
   whose handler succeeded or declared them unnecessary *)
Definition delete_ids (R : list N) (s : kvstore) : kvstore :=
  fold_left (fun s id => kv_delete (event_key id) s) R s.

Lemma replay_eq : forall regs oc E s,
  replay regs oc E s = (delete_ids (removed_by (expected_calls regs oc E)) s, expected_calls regs oc E).
Proof.
  intros regs oc E. induction E as [|e E IH]; intro s; [reflexivity|]. simpl.
  destruct (negb (memN (e_typ e) regs)); [apply IH|].
  unfold removed_by. destruct (crashes (lookup_oc (e_item e) oc)), (removes (lookup_oc (e_item e) oc)) eqn:Rm;
    simpl; rewrite ?Rm, ?IH; reflexivity.
Qed.

Lemma wf_delete_ids : forall R kv L F s,
  wfkv kv L F -> ids_ok L s -> s < two64N -> Forall (fun id => id < two64N) R ->
  wfkv (delete_ids R kv) (filter (not_in R) L) F.
Proof.
  induction R as [|id R IH]; intros kv L F s W OK Hs B; simpl.
  - rewrite filter_not_in_nil. exact W.
  - inversion B; subst. change (id :: R) with ([id] ++ R). rewrite filter_not_in_app.
    apply (IH _ _ _ s); [eapply wf_delete_event; eassumption | apply ids_ok_filter, OK | exact Hs | assumption].
Qed.

Lemma expected_calls_subseq : forall regs oc E, subseq (map fst (expected_calls regs oc E)) E.
Proof.
  induction E as [|e E IH]; simpl; [constructor|].
  destruct (negb (memN (e_typ e) regs)); [apply sub_skip; exact IH|].
  destruct (crashes (lookup_oc (e_item e) oc)); apply sub_take; [constructor | exact IH].
Qed.
Lemma expected_calls_sub : forall regs oc E c, In c (expected_calls regs oc E) -> In (fst c) E.
Proof. intros regs oc E c H. eapply subseq_in; [apply expected_calls_subseq | apply in_map, H]. Qed.

Lemma removed_by_walk_le : forall regs oc L s, ids_ok L s ->
  Forall (fun id => id <= s) (removed_by (expected_calls regs oc L)).
Proof.
  intros regs oc L s [_ R]. apply Forall_forall. intros id Hid.
  apply in_removed_by in Hid. destruct Hid as [c [Hc [<- _]]].
  apply expected_calls_sub in Hc. rewrite Forall_forall in R. apply R, Hc.
Qed.

Lemma expected_calls_outcome : forall regs oc E c, In c (expected_calls regs oc E) ->
  snd c = lookup_oc (e_item (fst c)) oc /\ memN (e_typ (fst c)) regs = true.
Proof.
  induction E as [|e E IH]; intros c H; simpl in H; [contradiction|].
  destruct (memN (e_typ e) regs) eqn:M; simpl in H; [|apply IH; exact H].
  destruct (crashes (lookup_oc (e_item e) oc)).
  - destruct H as [<-|[]]. simpl. auto.
  - destruct H as [<-|H]; [simpl; auto | apply IH; exact H].
Qed.

Lemma expected_calls_complete : forall regs oc E,
  (forall c, In c (expected_calls regs oc E) -> crashes (snd c) = false) ->
  map fst (expected_calls regs oc E) = filter (fun e => memN (e_typ e) regs) E.
Proof.
  induction E as [|e E IH]; intro H; simpl in *; [reflexivity|].
  destruct (memN (e_typ e) regs); simpl in *; [|apply IH, H].
  destruct (crashes (lookup_oc (e_item e) oc)) eqn:C.
  - specialize (H _ (or_introl eq_refl)). simpl in H. congruence.
  - simpl. f_equal. apply IH. intros c Hc. apply H. right. exact Hc.
Qed.

Lemma expected_calls_crash_last : forall regs oc E pre c post,
  expected_calls regs oc E = pre ++ c :: post -> crashes (snd c) = true -> post = [].
Proof.
  induction E as [|e E IH]; intros pre c post H Cr; simpl in H.
  - destruct pre; discriminate.
  - destruct (negb (memN (e_typ e) regs)); [eapply IH; eassumption|].
    destruct (crashes (lookup_oc (e_item e) oc)) eqn:C.
    + destruct pre as [|p pre]; inversion H; subst; [reflexivity|]. destruct pre; discriminate.
    + destruct pre as [|p pre]; inversion H; subst.
      * simpl in Cr. congruence.
      * eapply IH; eassumption.
Qed.

Definition trace := list (op * result).

Definition logged (tr : trace) : list entry :=
  flat_map (fun x => match x with
                     | (Log t i _, RLogged id) => [mkEntry id t i]
                     | _ => []
                     end) tr.
Definition logged_ids (tr : trace) : list N := map e_id (logged tr).

Definition removed_ids (tr : trace) : list N :=
  flat_map (fun x => match snd x with
                     | RCommitted id => [id]
                     | RRecovered calls => removed_by calls
                     | _ => []
                     end) tr.

Definition live (tr : trace) : list entry := filter (not_in (removed_ids tr)) (logged tr).

Definition injected (tr : trace) : list bytes :=
  flat_map (fun x => match fst x with Inject k _ => [k] | _ => [] end) tr.

Definition op_inert (o : op) : Prop := match o with Inject k v => inert (k, v) | _ => True end.

Lemma logged_snoc : forall tr x, logged (tr ++ [x]) = logged tr ++ logged [x].
Proof. intros. apply flat_map_app. Qed.
Lemma removed_snoc : forall tr x, removed_ids (tr ++ [x]) = removed_ids tr ++ removed_ids [x].
Proof. intros. apply flat_map_app. Qed.
Lemma injected_snoc : forall tr x, injected (tr ++ [x]) = injected tr ++ injected [x].
Proof. intros. apply flat_map_app. Qed.

(* the projections of a trace extended by one step whose operation and result are known *)
Ltac snoc_trace :=
  rewrite ?logged_snoc, ?removed_snoc, ?injected_snoc;
  cbn [logged removed_ids injected flat_map app fst snd]; rewrite ?app_nil_r.

Lemma live_snoc_recover : forall tr oc calls,
  live (tr ++ [(Recover oc, RRecovered calls)]) = filter (not_in (removed_by calls)) (live tr).
Proof.
  intros. unfold live at 1. rewrite logged_snoc, removed_snoc. simpl. rewrite !app_nil_r.
  apply filter_not_in_app.
Qed.

Lemma in_live : forall tr e, In e (live tr) <-> In e (logged tr) /\ ~ In (e_id e) (removed_ids tr).
Proof.
  intros. unfold live. rewrite filter_In. unfold not_in. rewrite negb_true_iff.
  rewrite <- (memN_In (e_id e) (removed_ids tr)). destruct (memN (e_id e) (removed_ids tr)); intuition congruence.
Qed.

Lemma run_app : forall ops1 ops2 st,
  run st (ops1 ++ ops2) =
  let '(tr1, st1) := run st ops1 in let '(tr2, st2) := run st1 ops2 in (tr1 ++ tr2, st2).
Proof.
  induction ops1 as [|o ops1 IH]; intros ops2 st; simpl.
  - destruct (run st ops2). reflexivity.
  - destruct (step st o) as [st' r]. rewrite IH.
    destruct (run st' ops1) as [tr1 st1]. destruct (run st1 ops2) as [tr2 st2]. reflexivity.
Qed.

Lemma run_snoc : forall ops o st tr st1 st2 r,
  run st ops = (tr, st1) -> step st1 o = (st2, r) -> run st (ops ++ [o]) = (tr ++ [(o, r)], st2).
Proof. intros. rewrite run_app, H. simpl. rewrite H0. reflexivity. Qed.

Lemma run_fst : forall ops st tr st', run st ops = (tr, st') -> map fst tr = ops.
Proof.
  induction ops as [|o ops IH]; intros st tr st' H; simpl in H.
  - inversion H. reflexivity.
  - destruct (step st o) as [s1 r]. destruct (run s1 ops) as [tr1 fin] eqn:R. inversion H; subst.
    simpl. f_equal. eapply IH. exact R.
Qed.

Lemma seq_mono : forall st o st' r, step st o = (st', r) -> seq st <= seq st'.
Proof.
  intros st o st' r H. destruct o as [t i e|k|b rs|oc|ik iv]; simpl in H.
  - destruct (negb (memN t (reg st))); [|destruct (negb e)]; inversion H; simpl; lia.
  - destruct (nth_error (issued st) k) as [[id g]|]; [destruct (N.eqb g (gen st))|]; inversion H; simpl; lia.
  - inversion H; simpl; lia.
  - destruct (replay (reg st) oc (decode_events (kv_scan event_prefix (kv st))) (kv st)).
    inversion H; simpl; lia.
  - inversion H; simpl; lia.
Qed.

Lemma run_seq_mono : forall ops st tr st', run st ops = (tr, st') -> seq st <= seq st'.
Proof.
  induction ops as [|o ops IH]; intros st tr st' H; simpl in H.
  - inversion H. lia.
  - destruct (step st o) as [s1 r] eqn:E. destruct (run s1 ops) as [tr1 fin] eqn:R. inversion H; subst.
    apply seq_mono in E. apply IH in R. lia.
Qed.

(* induction over the histories from [init], by their last operation *)
Lemma run_ind : forall regs (P : trace -> state -> Prop),
  P [] (init regs) ->
  (forall tr st o st' r, P tr st -> step st o = (st', r) -> seq st' < two64N -> op_inert o -> P (tr ++ [(o, r)]) st') ->
  forall ops tr st, run (init regs) ops = (tr, st) -> seq st < two64N -> Forall op_inert ops -> P tr st.
Proof.
  intros regs P H0 HS ops. induction ops as [|o ops IH] using rev_ind; intros tr st H B HI.
  - inversion H; subst. exact H0.
  - rewrite run_app in H. destruct (run (init regs) ops) as [tr1 st1].
    simpl in H. destruct (step st1 o) as [st2 r] eqn:E. inversion H; subst tr st. clear H.
    apply Forall_app in HI. destruct HI as [HI1 HI2]. inversion HI2; subst.
    pose proof (seq_mono _ _ _ _ E) as Mono.
    apply (HS tr1 st1 o st2 r); try assumption. apply IH; [reflexivity | lia | exact HI1].
Qed.

(* ties the state to three projections of the trace: lg = the logged events, rm = the removed ids,
   ij = the injected keys; F = the foreign entries in the bucket *)
Record inv_on (lg : list entry) (rm : list N) (ij : list bytes) (st : state) (F : kvstore) : Prop := mkInv {
  i_kv : wfkv (kv st) (filter (not_in rm) lg) F;
  i_fkeys : forall x, In x F -> In (fst x) ij;
  i_fkept : forall k, In k ij -> exists ov, In (k, ov) F;
  i_ids : ids_ok lg (seq st);
  i_removed : Forall (fun id => id <= seq st) rm;
  i_issued : map fst (issued st) = map e_id lg
}.
Definition inv (tr : trace) : state -> kvstore -> Prop := inv_on (logged tr) (removed_ids tr) (injected tr).

Lemma inv_live_ok : forall tr st F, inv tr st F -> ids_ok (live tr) (seq st).
Proof. intros tr st F I. apply ids_ok_filter, I. Qed.

Lemma ids_ok_snoc : forall L s e, ids_ok L s -> s < e_id e -> ids_ok (L ++ [e]) (e_id e).
Proof.
  intros L s e [S R] H. split.
  - rewrite map_app. apply sorted_snoc; [exact S|]. apply Forall_map.
    eapply Forall_impl; [|exact R]. simpl. intros; lia.
  - apply Forall_app. split; [eapply Forall_impl; [|exact R]; simpl; intros; lia | repeat constructor; lia].
Qed.

Lemma step_recover : forall st oc L F, wfkv (kv st) L F -> ids_ok L (seq st) -> seq st < two64N ->
  let calls := expected_calls (reg st) oc L in
  step st (Recover oc) = (mkState (seq st) (delete_ids (removed_by calls) (kv st)) (reg st) (gen st) (issued st),
                          RRecovered calls) /\
  wfkv (delete_ids (removed_by calls) (kv st)) (filter (not_in (removed_by calls)) L) F.
Proof.
  intros st oc L F W OK B calls. simpl. rewrite (wf_decode _ _ _ _ W OK B), replay_eq. split; [reflexivity|].
  apply (wf_delete_ids _ _ _ _ (seq st)); try assumption.
  eapply Forall_impl; [|apply removed_by_walk_le, OK]. simpl. intros; lia.
Qed.

Lemma step_inv : forall tr st F o st' r,
  inv tr st F -> step st o = (st', r) -> seq st' < two64N -> op_inert o ->
  exists F', inv (tr ++ [(o, r)]) st' F'.
Proof.
  intros tr st F o st' r I H B Hin. unfold inv.
  pose proof (seq_mono _ _ _ _ H) as Mono.
  pose proof (inv_live_ok _ _ _ I) as OK.
  (* a call that returns an error changes nothing *)
  pose proof (ex_intro (inv tr st) F I) as Quiet.
  destruct I as [Ikv Ifk Ifp Iids Irem Iiss].
  destruct o as [t i e|k|b rs|oc|ik iv]; simpl in H.
  - destruct (negb (memN t (reg st))); [|destruct (negb e)];
      inversion H; subst st' r; snoc_trace; try exact Quiet.
    clear H Quiet. simpl in *. set (id := seq st + 1) in *.
    exists F. constructor; simpl; try assumption.
    + (* the new id is above every removed one *)
      rewrite filter_app. simpl. unfold not_in at 2. simpl.
      replace (memN id (removed_ids tr)) with false; [eapply wf_put_event; [exact Ikv | exact OK | lia | exact B]|].
      symmetry. apply not_true_is_false. intro C. apply memN_In in C.
      rewrite Forall_forall in Irem. specialize (Irem _ C). lia.
    + apply (ids_ok_snoc _ _ (mkEntry id t i) Iids). simpl. lia.
    + eapply Forall_impl; [|exact Irem]. simpl. lia.
    + rewrite !map_app, Iiss. reflexivity.
  - destruct (nth_error (issued st) k) as [[id g]|] eqn:En; [destruct (N.eqb g (gen st))|];
      inversion H; subst st' r; snoc_trace; try exact Quiet.
    clear H Quiet. simpl in *.
    assert (Hid : id <= seq st).
    { apply (map_nth_error fst), nth_error_In in En. rewrite Iiss in En. simpl in En.
      apply in_map_iff in En. destruct En as [x [<- Hx]].
      destruct Iids as [_ R]. rewrite Forall_forall in R. apply R, Hx. }
    exists F. constructor; simpl; try assumption.
    + rewrite filter_not_in_app. eapply wf_delete_event; [exact Ikv | exact OK | exact B | lia].
    + apply Forall_app. split; [exact Irem | repeat constructor; exact Hid].
  - inversion H; subst st' r. snoc_trace. simpl in B, Mono.
    exists F. constructor; simpl; try assumption.
    + eapply ids_ok_mono; [exact Iids | lia].
    + eapply Forall_impl; [|exact Irem]. simpl. lia.
  - assert (Bs : seq st < two64N) by lia.
    destruct (step_recover st oc _ F Ikv OK Bs) as [E W']. simpl in E. rewrite E in H.
    inversion H; subst st' r. snoc_trace.
    exists F. constructor; simpl; try assumption.
    + rewrite filter_not_in_app. exact W'.
    + apply Forall_app. split; [exact Irem | apply removed_by_walk_le, OK].
  - inversion H; subst st' r. snoc_trace.
    exists (kv_put ik iv F). constructor; simpl; try assumption.
    + apply wf_put_foreign; assumption.
    + intros x Hx. apply in_or_app. apply in_put in Hx. destruct Hx as [->|Hx]; [right; left; reflexivity | left; apply Ifk, Hx].
    + intros k Hk. destruct (bytes_eqb k ik) eqn:E.
      * apply bytes_eqb_eq in E. subst k. exists iv. apply put_in.
      * apply bytes_eqb_neq in E. apply in_app_or in Hk. destruct Hk as [Hk|[C|[]]]; [|elim E; symmetry; exact C].
        destruct (Ifp k Hk) as [ov Hov]. exists ov. apply put_keeps; assumption.
Qed.

Lemma inv_init : forall regs, inv [] (init regs) [].
Proof.
  intro regs. repeat constructor; simpl; try contradiction.
Qed.

Lemma run_inv : forall regs ops tr st,
  run (init regs) ops = (tr, st) -> seq st < two64N -> Forall op_inert ops -> exists F, inv tr st F.
Proof.
  intro regs. apply run_ind.
  - exists []. apply inv_init.
  - intros tr st o st' r [F I] H B Hin. eapply step_inv; eassumption.
Qed.

(* ids returned by Log strictly increase over the whole history (across Reopen and crashed
   Logs), so none is ever reused; bbolt starts at 1 *)
Lemma ids_fresh : forall regs ops tr st,
  run (init regs) ops = (tr, st) -> seq st < two64N -> Forall op_inert ops ->
  StronglySorted N.lt (logged_ids tr) /\ Forall (fun id => 1 <= id /\ id <= seq st) (logged_ids tr).
Proof.
  intros regs ops tr st H B HI. destruct (run_inv _ _ _ _ H B HI) as [F I].
  destruct (i_ids _ _ _ _ _ I) as [S R]. split; [exact S | apply Forall_map, R].
Qed.

(* the file holds exactly the events logged and not removed, in id order, interleaved with the
   foreign entries F, which are exactly the (last) foreign writes of the history: none was deleted *)
Lemma state_is_live : forall regs ops tr st,
  run (init regs) ops = (tr, st) -> seq st < two64N -> Forall op_inert ops ->
  exists F, wfkv (kv st) (live tr) F /\ ids_ok (live tr) (seq st) /\
            (forall x, In x F -> In (fst x) (injected tr)) /\
            (forall k, In k (injected tr) -> exists ov, In (k, ov) F).
Proof.
  intros regs ops tr st H B HI. destruct (run_inv _ _ _ _ H B HI) as [F I]. exists F.
  split; [apply I|]. split; [eapply inv_live_ok; exact I|]. split; apply I.
Qed.

Lemma recover_step : forall regs ops tr st oc,
  run (init regs) ops = (tr, st) -> seq st < two64N -> Forall op_inert ops ->
  let calls := expected_calls (reg st) oc (live tr) in
  exists kv' F, step st (Recover oc) = (mkState (seq st) kv' (reg st) (gen st) (issued st), RRecovered calls) /\
                wfkv kv' (filter (not_in (removed_by calls)) (live tr)) F.
Proof.
  intros regs ops tr st oc H B HI. destruct (state_is_live _ _ _ _ H B HI) as [F [W [OK _]]].
  eexists. exists F. exact (step_recover st oc _ F W OK B).
Qed.

(* the conclusion of C16_replay *)
Definition replay_spec (tr : trace) (regs : list N) (oc : list (N * outcome)) (calls : list (entry * outcome)) : Prop :=
  (* exactly the walk over the live events *)
  calls = expected_calls regs oc (live tr) /\
  (* only events that were logged and neither committed nor removed by an earlier recovery *)
  (forall c, In c calls -> In (fst c) (logged tr) /\ ~ In (e_id (fst c)) (removed_ids tr)
                           /\ snd c = lookup_oc (e_item (fst c)) oc) /\
  (* in increasing id (= logging) order, each at most once *)
  StronglySorted N.lt (map (fun c => e_id (fst c)) calls) /\
  subseq (map fst calls) (live tr) /\
  (* all of them (that have a handler), unless the process died in a handler, which then is the last call *)
  ((forall e, In e (live tr) -> memN (e_typ e) regs = true -> crashes (lookup_oc (e_item e) oc) = false) ->
     map fst calls = filter (fun e => memN (e_typ e) regs) (live tr)) /\
  (forall pre c post, calls = pre ++ c :: post -> crashes (snd c) = true -> post = []).

Lemma replay_theorem : forall regs ops tr st oc,
  run (init regs) ops = (tr, st) -> seq st < two64N -> Forall op_inert ops ->
  exists st' calls, step st (Recover oc) = (st', RRecovered calls) /\ replay_spec tr (reg st) oc calls.
Proof.
  intros regs ops tr st oc H B HI. destruct (recover_step _ _ _ _ oc H B HI) as [kv' [_ [E _]]].
  eexists. eexists. split; [exact E|].
  destruct (state_is_live _ _ _ _ H B HI) as [_ [_ [[Srt _] _]]].
  unfold replay_spec. split; [reflexivity|]. split; [|split; [|split; [|split]]].
  - intros c Hc. pose proof (expected_calls_sub _ _ _ _ Hc) as Hin. apply in_live in Hin.
    destruct (expected_calls_outcome _ _ _ _ Hc) as [Ho _]. tauto.
  - rewrite <- map_map. eapply subseq_sorted; [apply subseq_map, expected_calls_subseq | exact Srt].
  - apply expected_calls_subseq.
  - intro NC. apply expected_calls_complete. intros c Hc.
    destruct (expected_calls_outcome _ _ _ _ Hc) as [-> Hr]. apply NC; [eapply expected_calls_sub, Hc | exact Hr].
  - apply expected_calls_crash_last.
Qed.

(* C16_removed_iff: after a recovery an event is gone iff its handler succeeded or declared it unnecessary *)
Lemma removed_iff : forall regs ops tr st oc st' calls,
  run (init regs) ops = (tr, st) -> seq st < two64N -> Forall op_inert ops ->
  step st (Recover oc) = (st', RRecovered calls) ->
  (exists F, wfkv (kv st') (live (tr ++ [(Recover oc, RRecovered calls)])) F) /\
  forall e, In e (live tr) ->
    (~ In e (live (tr ++ [(Recover oc, RRecovered calls)])) <->
     exists o, In (e, o) calls /\ (o = OOk \/ o = ONotNeeded)).
Proof.
  intros regs ops tr st oc st' calls H B HI E.
  destruct (recover_step _ _ _ _ oc H B HI) as [kv' [F [E2 W]]].
  rewrite E2 in E. inversion E; subst st' calls. clear E. rewrite live_snoc_recover.
  split; [exists F; exact W|].
  destruct (state_is_live _ _ _ _ H B HI) as [_ [_ [[Srt _] _]]].
  intros e He. rewrite filter_In. unfold not_in. rewrite negb_true_iff.
  destruct (memN (e_id e) (removed_by (expected_calls (reg st) oc (live tr)))) eqn:M.
  - apply memN_In, in_removed_by in M. destruct M as [[x o] [Hc [Eid Rm]]]. simpl in Eid, Rm.
    assert (x = e).
    { apply (NoDup_map_inj e_id (live tr)); [apply sorted_nodup, Srt | apply (expected_calls_sub _ _ _ _ Hc) | exact He | exact Eid]. }
    subst x. split; [intros _ | intros _ [_ C]; discriminate].
    exists o. split; [exact Hc | destruct o; try discriminate; auto].
  - split; [intro N; elim N; auto|]. intros [o [Hc Ho]] _.
    apply not_true_iff_false in M. apply M, memN_In, in_removed_by. exists (e, o).
    destruct Ho as [-> | ->]; auto.
Qed.

(* a foreign entry Recover CAN take for an event (parsable key under /events/, decodable value) is
   handed to its handler although nothing logged it -- the WAL trusts its file *)
Lemma wellformed_foreign_event_is_replayed :
  exists ops oc calls, ~ op_inert (nth 0 ops (Commit 0)) /\
    snd (step (snd (run (init [0]) ops)) (Recover oc)) = RRecovered calls /\
    logged (fst (run (init [0]) ops)) = [] /\ calls <> [].
Proof.
  exists [Inject (s2l "/events/a") (Some (0, 77))], [], [(mkEntry 10 0 77, OOk)].
  split; [|vm_compute; repeat split; try reflexivity; discriminate].
  simpl. intros [_ [H|[H|H]]]; vm_compute in H; discriminate.
Qed.

(* hypotheses are satisfiable and the statements are not vacuous *)
Example wal_example :
  let ops := [Log 0 1 true; Log 1 2 true; Log 0 3 true; Commit 1; Reopen 2 [0; 1];
              Log 1 4 true; Recover [(1, OHandleErr); (4, ONotNeeded)]; Recover []] in
  let '(tr, st) := run (init [0; 1]) ops in
  seq st < two64N /\ logged_ids tr = [1; 2; 3; 6] /\
  map e_item (live tr) = [] /\
  exists c1 c2, nth_error tr 6 = Some (Recover [(1, OHandleErr); (4, ONotNeeded)], RRecovered c1)
                /\ map (fun c => (e_item (fst c), snd c)) c1 = [(1, OHandleErr); (3, OOk); (4, ONotNeeded)]
                /\ nth_error tr 7 = Some (Recover [], RRecovered c2)
                /\ map (fun c => (e_item (fst c), snd c)) c2 = [(1, OOk)].
Proof. vm_compute. repeat split; try reflexivity. eexists. eexists. repeat split. Qed.
