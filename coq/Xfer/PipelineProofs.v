(* Proofs about the file-transfer pipeline model (C29). *)
From Coq Require Import List Arith Lia Permutation.
From Verif Require Import Xfer.Chunks Xfer.ChunksProofs Xfer.Pipeline.
Import ListNotations.

Lemma target_eqb_eq : forall a b, target_eqb a b = true <-> a = b.
Proof.
  intros [x|] [y|]; simpl; split; intro H; try discriminate; try reflexivity.
  - apply Nat.eqb_eq in H. congruence.
  - inversion H. apply Nat.eqb_refl.
Qed.

Lemma dedupe_in : forall ids t, In t (dedupe ids) <-> In t ids.
Proof.
  induction ids as [|x l IH]; intros t; simpl; [tauto|].
  rewrite filter_In, IH. split.
  - intros [H|[H _]]; auto.
  - intros [H|H]; [left; exact H|].
    destruct (target_eqb x t) eqn:E; [left; apply target_eqb_eq; exact E|right; split; [exact H|reflexivity]].
Qed.

Lemma dedupe_nodup : forall ids, NoDup (dedupe ids).
Proof.
  induction ids as [|x l IH]; simpl; constructor.
  - rewrite filter_In. intros [_ H]. rewrite (proj2 (target_eqb_eq x x) eq_refl) in H. discriminate.
  - apply NoDup_filter. exact IH.
Qed.

Lemma insert_perm : forall m l, Permutation (insert m l) (m :: l).
Proof.
  induction l as [|x t IH]; simpl; [reflexivity|].
  destruct (key (m_target m) <=? key (m_target x)); [reflexivity|].
  rewrite IH. apply perm_swap.
Qed.

Lemma insertion_sort_perm : forall {B} (ins : B -> list B -> list B),
  (forall m l, Permutation (ins m l) (m :: l)) -> forall l, Permutation (fold_right ins [] l) l.
Proof.
  intros B ins H l. induction l as [|x t IH]; simpl; [reflexivity|]. rewrite H. constructor. exact IH.
Qed.

Lemma sort_msgs_perm : forall l, Permutation (sort_msgs l) l.
Proof. exact (insertion_sort_perm _ insert_perm). Qed.

Lemma send_chunks_nonempty : forall {A} (chunks : list (list A)) targets behs, chunks <> [] ->
  send_chunks chunks targets behs =
  mkOut true (sort_msgs (map (message behs) (dedupe targets)))
        (fun o => if existsb (target_eqb (Some o)) (dedupe targets)
                  then Some (engine_reads (beh_of behs o) chunks) else None).
Proof. intros A [|c cs] targets behs H; [congruence|reflexivity]. Qed.

(* exactly one result per distinct target (and none for anybody else), for
   every content, target list (missing and duplicated ids included) and engine behaviour *)
Theorem one_result_per_target : forall {A} size (content : list A) targets behs,
  0 < size ->
  let out := send_file size content targets behs in
  Permutation (messages out) (map (message behs) (dedupe targets)) /\
  NoDup (dedupe targets) /\ (forall t, In t (dedupe targets) <-> In t targets).
Proof.
  intros A size content targets behs Hs out. unfold out, send_file.
  rewrite send_chunks_nonempty by (apply to_chunks_nonempty, Hs). cbn [messages].
  split; [apply sort_msgs_perm|]. split; [apply dedupe_nodup|apply dedupe_in].
Qed.

Lemma existsb_target : forall o ts, existsb (target_eqb (Some o)) ts = true <-> In (Some o) ts.
Proof.
  intros o ts. rewrite existsb_exists. split.
  - intros [x [Hin E]]. apply target_eqb_eq in E. subst x. exact Hin.
  - intros H. exists (Some o). split; [exact H|apply target_eqb_eq; reflexivity].
Qed.

Lemma engine_reads_to_chunks : forall {A} b size (content : list A), 0 < size ->
  engine_reads b (to_chunks size content) =
  match b with Drain | DrainErr => content | GiveUp k => firstn k content | Ignore => [] end.
Proof.
  intros A b size content Hs. unfold engine_reads. rewrite (proj1 (chunks_statement size content Hs)). reflexivity.
Qed.

(* delivery: an engine that reads to EOF receives exactly the content (any
   size, the empty file included); one that gives up after k bytes has read the
   first k bytes; a workload that is not a target receives nothing *)
Theorem delivery : forall {A} size (content : list A) targets behs o,
  0 < size ->
  let out := send_file size content targets behs in
  (In (Some o) targets ->
     received out o = Some (match beh_of behs o with
                            | Drain | DrainErr => content
                            | GiveUp k => firstn k content
                            | Ignore => []
                            end)) /\
  (~ In (Some o) targets -> received out o = None).
Proof.
  intros A size content targets behs o Hs out. unfold out, send_file.
  rewrite send_chunks_nonempty by (apply to_chunks_nonempty, Hs). cbn [received].
  rewrite <- (dedupe_in targets), <- existsb_target.
  destruct (existsb (target_eqb (Some o)) (dedupe targets)); split; try congruence.
  intros _. rewrite (engine_reads_to_chunks _ size content Hs). reflexivity.
Qed.

(* the message of a target carries the engine's verdict; an unknown id gets an error *)
Theorem verdicts : forall behs t,
  message behs t = match t with
                   | Some o => mkMsg (Some o) (engine_err (beh_of behs o)) true
                   | None => mkMsg None EOther false
                   end.
Proof. intros behs [o|]; reflexivity. Qed.

(* termination: with the repaired network nothing can block *)
Theorem terminates : forall {A} size (content : list A) targets behs,
  finished (send_file size content targets behs) = true.
Proof.
  intros. unfold send_file, send_chunks. destruct (to_chunks size content); reflexivity.
Qed.

(* before the repair the call still finished when every target existed and every engine read to EOF *)
Theorem orig_finishes_when_all_drain : forall lens targets behs,
  (forall t, In t targets -> exists o, t = Some o /\ (beh_of behs o = Drain \/ beh_of behs o = DrainErr)) ->
  finishes_with false lens targets behs = true.
Proof.
  intros lens targets behs H. unfold finishes_with. apply forallb_forall. intros t Ht.
  apply (proj1 (dedupe_in _ _)) in Ht. destruct (H t Ht) as [o [E Hb]]. subst t. cbn [option_map].
  unfold quiescent_taken, stops_after. destruct Hb as [-> | ->]; apply Nat.leb_le; lia.
Qed.

Definition thirteen : list nat := repeat 2048 13.

(* refutations (each reproduced on the unrepaired code by the harness corpus) *)
Theorem orig_missing_target_blocks : finishes_with false thirteen [Some 0; None] [] = false.
Proof. vm_compute. reflexivity. Qed.

Theorem orig_aborting_engine_blocks :
  finishes_with false thirteen [Some 0; Some 1] [GiveUp 3000] = false /\
  finishes_with false (repeat 2048 12) [Some 0] [GiveUp 10] = false /\
  finishes_with false (repeat 2048 11) [Some 0] [GiveUp 10] = true.
Proof. repeat split; vm_compute; reflexivity. Qed.

(* without the `dispatched` set a target listed m times got every chunk m times *)
Definition dup_stream {A} (m : nat) (chunks : list (list A)) : list (list A) :=
  flat_map (fun ch => repeat ch m) chunks.

Theorem orig_duplicate_garbles :
  engine_reads Drain (dup_stream 2 (to_chunks 2 [1; 2; 3])) = [1; 2; 1; 2; 3; 3] /\
  engine_reads Drain (dup_stream 1 (to_chunks 2 [1; 2; 3])) = [1; 2; 3].
Proof. split; reflexivity. Qed.

(* before the empty-chunk repair Send of an empty file reached no sender: no result at all *)
Theorem orig_empty_file_reports_nothing : forall targets behs,
  messages (send_chunks (@to_chunks_orig nat 2048 []) targets behs) = [] /\
  forall o, received (send_chunks (@to_chunks_orig nat 2048 []) targets behs) o = None.
Proof. intros. split; reflexivity. Qed.

Example transfer_example :
  let out := send_file 2 [10; 20; 30] [Some 1; None; Some 0; Some 1] [GiveUp 1; Drain] in
  messages out = [mkMsg None EOther false; mkMsg (Some 0) EEngine true; mkMsg (Some 1) ENone true] /\
  received out 0 = Some [10] /\ received out 1 = Some [10; 20; 30] /\ received out 2 = None /\
  finished out = true.
Proof. repeat split; reflexivity. Qed.

Example empty_file_example :
  let out := send_file 2048 (@nil nat) [Some 0] [Drain] in
  messages out = [mkMsg (Some 0) ENone true] /\ received out 0 = Some [].
Proof. split; reflexivity. Qed.

(* the outcome does not depend on how the client cut the file into chunks *)
Theorem chunking_independent : forall {A} (c1 c2 : list (list A)) targets behs,
  c1 <> [] -> c2 <> [] -> concat c1 = concat c2 ->
  messages (send_chunks c1 targets behs) = messages (send_chunks c2 targets behs) /\
  finished (send_chunks c1 targets behs) = finished (send_chunks c2 targets behs) /\
  forall o, received (send_chunks c1 targets behs) o = received (send_chunks c2 targets behs) o.
Proof.
  intros A c1 c2 targets behs H1 H2 Hc. rewrite !send_chunks_nonempty by assumption.
  cbn [messages finished received]. unfold engine_reads. rewrite Hc. repeat split.
Qed.
