(* Proofs about the interleaving model of the transfer network (C29):
   every step decreases a measure (so every schedule is finite and bounded),
   no reachable state short of "finished" is stuck, and in a finished state
   every target reported exactly once and every engine read what it had to.

   A step is a move of D, or a move of S_t or E_t that rewrites the record of
   the one target t ([tstep], stated on the fields of the record).  Measure,
   invariant and progress are each settled once for [tstep], field by field,
   and carried to [step] through [upd]. *)
From Coq Require Import List Bool Arith Lia.
From Verif Require Import Xfer.Steps.
Import ListNotations.

Section Proofs.
Variable A : Type.
Variable n : nat.
Variable want_of : nat -> option nat.

Notation tstate := (tstate A).
Notation state := (state A).
Notation step := (step A n want_of).
Notation mu := (mu A n).

(* the sender resumes its loop once the pending write has been consumed; this is what the
   match in st_transfer elaborates to (its alias pattern [r] becomes [a :: l]) *)
Definition resume (r : list A) : sstate A :=
  match r with [] => SIdle A | a :: l => SWriting A (a :: l) end.

(* D puts a chunk into a target's buffer *)
Definition push (ch : list A) (x : tstate) : tstate :=
  mkT A (buf A x ++ [ch]) (sst A x) (started A x) (eng A x) (got A x) (wclosed A x) (rclosed A x) (nmsg A x).

(* what S_t and E_t do to the record of their target; w0 is what E_t wants, bc
   whether D has closed the buffers *)
Inductive tstep (w0 : option nat) (bc : bool) : tstate -> tstate -> Prop :=
  | t_take : forall ch b st e g wc rc nm,
      tstep w0 bc (mkT A (ch :: b) (SIdle A) st e g wc rc nm) (mkT A b (SWriting A ch) true e g wc rc nm)
  | t_idle_closed : forall st e g wc rc nm, bc = true ->
      tstep w0 bc (mkT A [] (SIdle A) st e g wc rc nm) (mkT A [] (SDone A) st e g true rc nm)
  | t_write_fail : forall b rem st e g wc nm,
      tstep w0 bc (mkT A b (SWriting A rem) st e g wc true nm) (mkT A b (SDraining A) st e g true true nm)
  | t_drain : forall ch b st e g wc rc nm,
      tstep w0 bc (mkT A (ch :: b) (SDraining A) st e g wc rc nm) (mkT A b (SDraining A) st e g wc rc nm)
  | t_drain_end : forall st e g wc rc nm, bc = true ->
      tstep w0 bc (mkT A [] (SDraining A) st e g wc rc nm) (mkT A [] (SDone A) st e g wc rc nm)
  | t_transfer : forall b rem st w g wc nm, w <> Some 0 ->
      let k := take A w rem in
      tstep w0 bc (mkT A b (SWriting A rem) st (EReading w) g wc false nm)
                  (mkT A b (resume (skipn k rem)) st (EReading (after w k)) (g ++ firstn k rem) wc false nm)
  | t_estart : forall b ss g wc rc nm,
      tstep w0 bc (mkT A b ss true ENotStarted g wc rc nm) (mkT A b ss true (EReading w0) g wc rc nm)
  | t_eof : forall b ss st w g rc nm, w <> Some 0 -> is_writing A ss = false ->
      tstep w0 bc (mkT A b ss st (EReading w) g true rc nm) (mkT A b ss st EReturned g true rc nm)
  | t_enough : forall b ss st g wc rc nm,
      tstep w0 bc (mkT A b ss st (EReading (Some 0)) g wc rc nm) (mkT A b ss st EReturned g wc rc nm)
  | t_report : forall b ss st g wc rc,
      tstep w0 bc (mkT A b ss st EReturned g wc rc 0) (mkT A b ss st EReturned g wc true 1).

Inductive step_view (s : state) : state -> Prop :=
  | v_send : forall t ch rest,
      dst A s = DSending A ((t, ch) :: rest) -> t < n -> length (buf A (tg A s t)) < cap ->
      step_view s (mkS A (DSending A rest) (upd A (tg A s) t (push ch (tg A s t))) (bclosed A s))
  | v_close : dst A s = DSending A [] -> step_view s (mkS A (DWait A) (tg A s) true)
  | v_finish : dst A s = DWait A -> (forall t, t < n -> reported A (tg A s t) = true) ->
      step_view s (mkS A (DFinished A) (tg A s) (bclosed A s))
  | v_target : forall t x', t < n -> tstep (want_of t) (bclosed A s) (tg A s t) x' ->
      step_view s (mkS A (dst A s) (upd A (tg A s) t x') (bclosed A s)).

(* projections of a record given by its fields *)
Ltac fields := cbn [buf sst started eng got wclosed rclosed nmsg is_writing] in *.

Lemma step_view_of : forall s s', step s s' -> step_view s s'.
Proof.
  intros s s' H. destruct H.
  1: subst x. 1-3: constructor; assumption.
  all: subst x; apply v_target; [assumption|]; destruct (tg A s t); fields; subst.
  all: constructor; assumption.
Qed.

Lemma step_of_tstep : forall s t x', t < n -> tstep (want_of t) (bclosed A s) (tg A s t) x' ->
  exists s', step s s'.
Proof.
  intros s t x' Ht H. remember (tg A s t) as x eqn:E. symmetry in E.
  destruct H; eexists;
    [eapply st_take|eapply st_idle_closed|eapply st_write_fail|eapply st_drain|eapply st_drain_end
    |eapply st_transfer|eapply st_estart|eapply st_eof|eapply st_enough|eapply st_report];
    first [eassumption|reflexivity].
Qed.

Lemma sum_to_ext : forall k f g, (forall t, t < k -> f t = g t) -> sum_to k f = sum_to k g.
Proof.
  induction k as [|k IH]; intros f g H; simpl; [reflexivity|].
  rewrite (IH f g) by (intros; apply H; lia). rewrite H by lia. reflexivity.
Qed.

Lemma upd_same : forall f t x, upd A f t x t = x.
Proof. intros. unfold upd. rewrite Nat.eqb_refl. reflexivity. Qed.
Lemma upd_other : forall f t x u, u <> t -> upd A f t x u = f u.
Proof. intros. unfold upd. destruct (Nat.eqb_spec u t); [congruence|reflexivity]. Qed.

Lemma sum_to_upd : forall k (g : tstate -> nat) (f : nat -> tstate) t x, t < k ->
  sum_to k (fun u => g (upd A f t x u)) + g (f t) = sum_to k (fun u => g (f u)) + g x.
Proof.
  induction k as [|k IH]; intros g f t x Ht; [lia|]. simpl.
  destruct (Nat.eq_dec t k) as [->|Hne].
  - rewrite upd_same, (sum_to_ext k _ (fun u => g (f u))); [lia|].
    intros u Hu. rewrite upd_other by lia. reflexivity.
  - rewrite upd_other by lia. specialize (IH g f t x). lia.
Qed.

Lemma bmu_app : forall (b : list (list A)) ch, bmu A (b ++ [ch]) = bmu A b + (length ch + 3).
Proof. induction b as [|x b IH]; intros ch; simpl; [lia|]. rewrite IH. lia. Qed.

Lemma bmu_cons : forall ch (b : list (list A)), bmu A (ch :: b) = length ch + 3 + bmu A b.
Proof. reflexivity. Qed.

(* a Read takes at least one byte of a non-empty Write *)
Lemma smu_resume : forall w rem, w <> Some 0 ->
  smu A (resume (skipn (take A w rem) rem)) < smu A (SWriting A rem).
Proof.
  intros w rem Hw. pose proof (skipn_length (take A w rem) rem) as L.
  destruct (skipn _ rem); cbn [resume smu length] in *; [lia|].
  destruct w as [[|m]|]; cbn [take] in *; [congruence|lia..].
Qed.

Lemma tstep_decreases : forall w0 bc x x', tstep w0 bc x x' -> tmu A x' < tmu A x.
Proof.
  intros w0 bc x x' H.
  destruct H as [| | | | |b rem st w g wc nm H k| | | |]; unfold tmu, emu; fields;
    rewrite ?bmu_cons; cbn [bmu fold_right Nat.eqb smu]; try lia.
  - (* transfer *) pose proof (smu_resume w rem H). cbn [smu] in *. subst k. lia.
  - (* eof *) destruct (nm =? 0); lia.
  - (* enough *) destruct (nm =? 0); lia.
Qed.

Lemma tmu_push : forall ch x, tmu A (push ch x) = tmu A x + (length ch + 3).
Proof. intros. unfold tmu, emu, push. fields. rewrite bmu_app. lia. Qed.

Theorem step_decreases : forall s s', step s s' -> mu s' < mu s.
Proof.
  intros s s' H. apply step_view_of in H.
  destruct H as [t ch rest Hd Ht Hl|Hd|Hd Hr|t x' Ht H]; unfold Steps.mu; cbn [dst tg].
  - pose proof (sum_to_upd n (tmu A) (tg A s) t (push ch (tg A s t)) Ht). rewrite tmu_push in *.
    rewrite Hd. cbn [dmu imu fold_right snd]. fold (imu A rest). lia.
  - rewrite Hd. cbn. lia.
  - rewrite Hd. cbn. lia.
  - pose proof (sum_to_upd n (tmu A) (tg A s) t x' Ht). pose proof (tstep_decreases _ _ _ _ H). lia.
Qed.

Variable chunks : list (list A).
Hypothesis chunks_nonempty : chunks <> [].
Definition all : list A := concat chunks.

Definition pending (t : nat) (d : dstate A) : list (list A) :=
  match d with
  | DSending _ l => map snd (filter (fun it => Nat.eqb (fst it) t) l)
  | _ => []
  end.
Definition rem_of (x : sstate A) : list A := match x with SWriting _ r => r | _ => [] end.

Definition want_ok (t : nat) (x : tstate) : Prop :=
  match eng A x with
  | ENotStarted => got A x = []
  | EReading w =>
      match want_of t, w with
      | None, None => True
      | Some k, Some m => length (got A x) + m = k
      | _, _ => False
      end
  | EReturned => got A x = reads_spec A (want_of t) all
  end.

Record TI (d : dstate A) (bc : bool) (t : nat) (x : tstate) : Prop := mkTI {
  i_writing : is_writing A (sst A x) = true -> started A x = true;
  i_engstart : eng A x <> ENotStarted -> started A x = true;
  i_rclosed : rclosed A x = true <-> nmsg A x <> 0;
  i_nmsg : nmsg A x <= 1 /\ (nmsg A x <> 0 -> eng A x = EReturned);
  i_wclosed : wclosed A x = true <-> (sst A x = SDraining A \/ sst A x = SDone A);
  i_draining : sst A x = SDraining A -> rclosed A x = true;
  i_done : sst A x = SDone A -> buf A x = [] /\ bc = true;
  i_unstarted : started A x = false -> sst A x = SIdle A /\ (buf A x <> [] \/ pending t d <> []);
  i_data : eng A x <> EReturned ->
           got A x ++ rem_of (sst A x) ++ concat (buf A x) ++ concat (pending t d) = all;
  i_want : want_ok t x }.

Definition GI (d : dstate A) (bc : bool) : Prop :=
  (bc = true <-> (forall l, d <> DSending A l)) /\
  (forall l, d = DSending A l -> Forall (fun it => fst it < n) l).

Definition Inv (s : state) : Prop :=
  GI (dst A s) (bclosed A s) /\ forall t, t < n -> TI (dst A s) (bclosed A s) t (tg A s t).

Lemma rem_of_match : forall l : list A,
  rem_of (match l with [] => SIdle A | r => SWriting A r end) = l.
Proof. destruct l; reflexivity. Qed.

Lemma rem_of_resume : forall r, rem_of (resume r) = r.
Proof. destruct r; reflexivity. Qed.

(* writer.Close() is done exactly when S_t has left its first loop *)
Definition closing (ss : sstate A) : bool :=
  match ss with SDraining _ | SDone _ => true | _ => false end.

Lemma closing_spec : forall ss, ss = SDraining A \/ ss = SDone A <-> closing ss = true.
Proof. destruct ss; cbn; intuition discriminate. Qed.

Lemma closing_resume : forall r, closing (resume r) = false.
Proof. destruct r; reflexivity. Qed.

Lemma pending_head : forall t ch rest,
  pending t (DSending A ((t, ch) :: rest)) = ch :: pending t (DSending A rest).
Proof. intros. cbn [pending filter fst]. rewrite Nat.eqb_refl. reflexivity. Qed.

Lemma pending_other : forall u t ch rest, u <> t ->
  pending u (DSending A ((t, ch) :: rest)) = pending u (DSending A rest).
Proof. intros. cbn [pending filter fst]. destruct (Nat.eqb_spec t u); [congruence|reflexivity]. Qed.

Lemma pending_closed : forall d bc t, GI d bc -> bc = true -> pending t d = [].
Proof. intros d bc t [G _] B. destruct d as [l| |]; [|reflexivity..]. elim (proj1 G B l). reflexivity. Qed.

Lemma firstn_exact : forall (a b : list A), firstn (length a) (a ++ b) = a.
Proof. intros. rewrite firstn_app, Nat.sub_diag, firstn_all. simpl. apply app_nil_r. Qed.

(* After [constructor] on a TI goal whose record is written out, [ti_fields] computes
   the projections and states [i_wclosed] through [closing] (as the proofs do in the
   hypothesis [Hwc]); [obvious] then closes the clauses that read as before the move
   and those decided by the constructors now standing in the record (a premise
   [SDone = SIdle] or [c <> c], a conclusion [true = true]).  What is left is what
   the move has to account for. *)
Ltac ti_fields := unfold want_ok in *; fields; rewrite ?closing_spec; cbn [rem_of closing] in *.
Ltac obvious :=
  try assumption; try (intros; reflexivity); try (intros; discriminate);
  try (intros N; exfalso; apply N; reflexivity).

(* D's moves, seen from a target whose pending chunks stay the same *)
Lemma TI_dispatch : forall d d' bc bc' t x,
  pending t d = pending t d' -> (bc = true -> bc' = true) -> TI d bc t x -> TI d' bc' t x.
Proof.
  intros d d' bc bc' t x P B [Hw He Hrc Hnm Hwc Hdr Hdn Hun Hda Hwa].
  constructor; rewrite <- ?P; try assumption.
  intros E. destruct (Hdn E). auto.
Qed.

Lemma TI_push : forall t ch rest bc x, bc = false ->
  TI (DSending A ((t, ch) :: rest)) bc t x -> TI (DSending A rest) bc t (push ch x).
Proof.
  intros t ch rest bc x B [Hw He Hrc Hnm Hwc Hdr Hdn Hun Hda Hwa]. rewrite pending_head, closing_spec in *.
  constructor; unfold push; ti_fields; obvious.
  - intros E. destruct (Hdn E). congruence.
  - intros E. split; [apply Hun, E|]. left. destruct (buf A x); discriminate.
  - intros E. rewrite concat_app, <- (Hda E). cbn [concat]. rewrite app_nil_r, <- !app_assoc. reflexivity.
Qed.

Lemma TI_tstep : forall d bc t x x',
  GI d bc -> TI d bc t x -> tstep (want_of t) bc x x' -> TI d bc t x'.
Proof.
  intros d bc t x x' G [Hw He Hrc Hnm Hwc Hdr Hdn Hun Hda Hwa] H. rewrite closing_spec in Hwc.
  pose proof (pending_closed d bc t G) as P.
  assert (R : rclosed A x = true -> eng A x = EReturned) by (intros E; apply Hnm, Hrc, E).
  destruct H as [| | | | |b rem st w g wc nm W k| |b ss st w g rc nm W S| |]; ti_fields.
  - (* take *) constructor; ti_fields; obvious.
    intros N. rewrite <- (Hda N). cbn [concat app]. rewrite <- app_assoc. reflexivity.
  - (* idle, buffer closed and empty *) constructor; ti_fields; obvious.
    + auto.
    + intros E. destruct (Hun E) as [_ [N|N]]; elim N; auto.
  - (* write fails: the reader is closed, so the engine has returned *)
    rewrite R in * by reflexivity. constructor; ti_fields; obvious.
    + intros E. rewrite Hw in E by reflexivity. discriminate E.
  - (* drain *) rewrite R in * by auto. constructor; ti_fields; obvious.
    + intros E. destruct (Hun E) as [D _]. discriminate D.
  - (* drain ends *) constructor; ti_fields; obvious.
    + auto.
    + intros E. destruct (Hun E) as [D _]. discriminate D.
  - (* transfer *)
    rewrite Hw in * by reflexivity. constructor; ti_fields; rewrite ?closing_resume; obvious.
    + split; [apply Hnm|]. intros N. apply Hnm in N. discriminate N.
    + intros E. destruct (skipn k rem); discriminate E.
    + intros E. destruct (skipn k rem); discriminate E.
    + intros _. rewrite rem_of_resume, <- app_assoc, (app_assoc (firstn k rem)), firstn_skipn.
      apply Hda. discriminate.
    + subst k. destruct (want_of t), w as [m|]; cbn [after take]; obvious.
      rewrite app_length, firstn_length. lia.
  - (* engine starts *) constructor; ti_fields; obvious.
    + split; [apply Hnm|]. intros N. apply Hnm in N. discriminate N.
    + intros _. apply Hda. discriminate.
    + rewrite Hwa. destruct (want_of t); [reflexivity|exact I].
  - (* engine sees EOF: S_t is done, nothing is left in the buffers *)
    rewrite He in * by discriminate. constructor; ti_fields; obvious.
    + split; [apply Hnm|reflexivity].
    + destruct ss; try discriminate (proj1 Hwc eq_refl).
      * discriminate (R (Hdr eq_refl)).
      * destruct (Hdn eq_refl) as [-> B]. rewrite (P B) in Hda. cbn [concat app] in Hda.
        rewrite app_nil_r in Hda. rewrite <- Hda by discriminate.
        destruct (want_of t), w as [[|m]|]; try contradiction; [|reflexivity].
        symmetry. apply firstn_all2. lia.
  - (* engine has enough *)
    rewrite He in * by discriminate. constructor; ti_fields; obvious.
    + split; [apply Hnm|reflexivity].
    + destruct (want_of t); [|contradiction].
      rewrite <- Hda by discriminate. rewrite <- Hwa, Nat.add_0_r. symmetry. apply firstn_exact.
  - (* report, close the reader *) constructor; ti_fields; obvious.
    + split; [discriminate|reflexivity].
    + split; [constructor|reflexivity].
Qed.

Theorem inv_step : forall s s', Inv s -> step s s' -> Inv s'.
Proof.
  intros s s' [G HT] H. apply step_view_of in H.
  destruct H as [t ch rest Hd Ht Hl|Hd|Hd Hr|t x' Ht H];
    (split; [|intros u Hu; specialize (HT u Hu)]); cbn [dst tg bclosed] in *.
  - (* send *) destruct G as [G1 G2]. rewrite Hd in *. split.
    + rewrite G1. split; intros; congruence.
    + intros l E. injection E as <-. exact (Forall_inv_tail (G2 _ eq_refl)).
  - rewrite Hd in *. destruct (Nat.eq_dec u t) as [->|Hne].
    + rewrite upd_same. apply TI_push; [|exact HT].
      destruct (bclosed A s); [|reflexivity]. elim (proj1 (proj1 G) eq_refl _ eq_refl).
    + rewrite upd_other by exact Hne. revert HT. apply TI_dispatch; [apply pending_other; exact Hne|auto].
  - (* close *) split; [split; [discriminate|reflexivity]|discriminate].
  - rewrite Hd in HT. revert HT. apply TI_dispatch; [reflexivity|auto].
  - (* finish *) rewrite Hd in G. destruct G as [G1 _]. split; [split; [discriminate|]|discriminate].
    intros _. apply G1. discriminate.
  - rewrite Hd in HT. revert HT. apply TI_dispatch; [reflexivity|auto].
  - exact G.
  - destruct (Nat.eq_dec u t) as [->|Hne].
    + rewrite upd_same. exact (TI_tstep _ _ _ _ _ G HT H).
    + rewrite upd_other by exact Hne. exact HT.
Qed.

Lemma filter_row : forall t ch k,
  filter (fun it : nat * list A => Nat.eqb (fst it) t) (map (fun u => (u, ch)) (seq 0 k)) =
  if t <? k then [(t, ch)] else [].
Proof.
  intros t ch k. induction k as [|k IH]; [reflexivity|].
  rewrite seq_S, map_app, filter_app, IH. cbn [Nat.add map filter fst].
  destruct (Nat.ltb_spec t k), (Nat.ltb_spec t (S k)), (Nat.eqb_spec k t) as [->|]; try lia; auto using app_nil_r.
Qed.

Lemma pending_items : forall t cs, t < n -> pending t (DSending A (items_of A n cs)) = cs.
Proof.
  intros t cs Ht. cbn [pending]. induction cs as [|c cs IH]; [reflexivity|].
  unfold items_of in *. cbn [flat_map]. rewrite filter_app, map_app, IH, filter_row.
  destruct (Nat.ltb_spec t n); [reflexivity|lia].
Qed.

Lemma items_targets : forall cs, Forall (fun it : nat * list A => fst it < n) (items_of A n cs).
Proof.
  intros cs. apply Forall_forall. intros [u ch] Hin. unfold items_of in Hin.
  apply in_flat_map in Hin. destruct Hin as [c [_ Hin]]. apply in_map_iff in Hin.
  destruct Hin as [v [E Hv]]. inversion E; subst. apply in_seq in Hv. cbn [fst]. lia.
Qed.

Theorem inv_init : Inv (init A n chunks).
Proof.
  split.
  - split; [split; [discriminate|]|].
    + intros H. exfalso. apply (H (items_of A n chunks)). reflexivity.
    + intros l E. inversion E; subst. apply items_targets.
  - intros t Ht. cbn [init dst tg bclosed].
    constructor; unfold tinit; ti_fields; rewrite ?(pending_items t chunks Ht); obvious.
    + split; [discriminate|intros N; now elim N].
    + split; [lia|intros N; now elim N].
    + auto.
Qed.

Lemma unreported : forall k (f : nat -> tstate),
  (forall t, t < k -> reported A (f t) = true) \/ exists t, t < k /\ nmsg A (f t) = 0.
Proof.
  induction k as [|k IH]; intros f; [left; lia|].
  destruct (nmsg A (f k)) eqn:E; [right; exists k; auto|].
  destruct (IH f) as [R|(t & Ht & R)]; [left|right; exists t; auto].
  intros t Ht. destruct (Nat.eq_dec t k) as [->|]; [|apply R; lia]. unfold reported. rewrite E. reflexivity.
Qed.

(* S_t or E_t can move while chunks wait in the buffer, and, once D has closed the
   buffers and has nothing more for t, until E_t has reported *)
Lemma target_can_move : forall d bc t x, TI d bc t x ->
  buf A x <> [] \/ (bc = true /\ pending t d = [] /\ nmsg A x = 0) ->
  exists x', tstep (want_of t) bc x x'.
Proof.
  intros d bc t [b ss st e g wc rc nm] [Hw He Hrc Hnm Hwc Hdr Hdn Hun Hda Hwa] C.
  rewrite closing_spec in Hwc. ti_fields.
  assert (N : rc = false -> nm = 0).
  { intros ->. destruct (Nat.eq_dec nm 0) as [|E]; [assumption|]. apply Hrc in E. discriminate E. }
  destruct ss as [|rem| |]; ti_fields.
  - destruct b as [|ch b]; [|eexists; apply t_take].
    destruct C as [C|(B & _)]; [now elim C|]. eexists. apply t_idle_closed, B.
  - rewrite Hw in * by reflexivity.
    destruct rc; [eexists; apply t_write_fail|]. rewrite N in * by reflexivity.
    destruct e as [|[[|m]|]|]; eexists;
      [apply t_estart|apply t_enough|apply t_transfer; discriminate..|apply t_report].
  - destruct b as [|ch b]; [|eexists; apply t_drain].
    destruct C as [C|(B & _)]; [now elim C|]. eexists. apply t_drain_end, B.
  - destruct (Hdn eq_refl) as [-> _]. destruct C as [C|(_ & _ & ->)]; [now elim C|].
    rewrite (proj2 Hwc) in * by reflexivity.
    destruct e as [|[[|m]|]|]; eexists;
      [|apply t_enough|apply t_eof; [discriminate|reflexivity]..|apply t_report].
    destruct st; [apply t_estart|]. destruct (Hun eq_refl) as [D _]. discriminate D.
Qed.

Theorem progress : forall s, Inv s -> dst A s <> DFinished A -> exists s', step s s'.
Proof.
  intros s [[G1 G2] HT] Hnf.
  destruct (dst A s) as [[|[t ch] rest]| |] eqn:Hd; [| | |congruence].
  - eexists. apply st_close, Hd.
  - assert (Ht : t < n) by exact (Forall_inv (G2 _ eq_refl)).
    destruct (lt_dec (length (buf A (tg A s t))) cap) as [Hl|Hl].
    + eexists. eapply st_send; eauto.
    + (* the buffer of t is full *)
      destruct (target_can_move _ _ _ _ (HT t Ht)) as [x' H]; [|exact (step_of_tstep _ _ _ Ht H)].
      left. intros E. rewrite E in Hl. apply Hl. unfold cap. cbn. lia.
  - destruct (unreported n (tg A s)) as [R|(t & Ht & R)].
    + eexists. apply st_finish; assumption.
    + destruct (target_can_move _ _ _ _ (HT t Ht)) as [x' H]; [|exact (step_of_tstep _ _ _ Ht H)].
      right. repeat split; [apply G1; discriminate|exact R].
Qed.

Inductive steps : nat -> state -> state -> Prop :=
  | steps_0 : forall s, steps 0 s s
  | steps_S : forall k s s1 s2, step s s1 -> steps k s1 s2 -> steps (S k) s s2.

Theorem steps_bounded : forall k s s', steps k s s' -> k + mu s' <= mu s.
Proof.
  induction 1 as [|k s s1 s2 H1 _ IH]; [lia|]. pose proof (step_decreases _ _ H1). lia.
Qed.

Lemma steps_preserve : forall P : state -> Prop, (forall s s', P s -> step s s' -> P s') ->
  forall k s s', P s -> steps k s s' -> P s'.
Proof. induction 3; eauto. Qed.

Definition all_reported (s : state) : Prop :=
  dst A s = DFinished A -> forall t, t < n -> reported A (tg A s t) = true.

Lemma tstep_reported : forall w0 bc x x', tstep w0 bc x x' -> reported A x = true -> reported A x' = true.
Proof. destruct 1; auto. Qed.

Lemma all_reported_step : forall s s', all_reported s -> step s s' -> all_reported s'.
Proof.
  intros s s' Hr H. apply step_view_of in H.
  destruct H as [t ch rest Hd Ht Hl|Hd|Hd Hrep|t x' Ht H]; intros Hf u Hu; cbn [dst tg] in *;
    try discriminate.
  - exact (Hrep u Hu).
  - specialize (Hr Hf u Hu). destruct (Nat.eq_dec u t) as [->|Hne].
    + rewrite upd_same. exact (tstep_reported _ _ _ _ H Hr).
    + rewrite upd_other by exact Hne. exact Hr.
Qed.

(* the statement about all schedules: from the initial state, whatever the
   order in which the goroutines move,
   (1) an execution has at most mu(init) steps;
   (2) a state that is not finished can always make a step (no deadlock);
   (3) in a finished state every target has reported exactly once, and its
       engine has read exactly what it had to: the whole content, or its first
       k bytes *)
Theorem all_schedules : forall k s,
  steps k (init A n chunks) s ->
  k <= mu (init A n chunks) /\
  (dst A s <> DFinished A -> exists s', step s s') /\
  (dst A s = DFinished A ->
     forall t, t < n -> nmsg A (tg A s t) = 1 /\ got A (tg A s t) = reads_spec A (want_of t) all).
Proof.
  intros k s H. pose proof (steps_preserve Inv inv_step _ _ _ inv_init H) as HI.
  split; [pose proof (steps_bounded _ _ _ H); lia|].
  split; [apply progress; exact HI|].
  intros Hd t Ht.
  assert (Hr : all_reported s).
  { refine (steps_preserve _ all_reported_step _ _ _ _ H). intros E. discriminate E. }
  specialize (Hr Hd t Ht). apply negb_true_iff, Nat.eqb_neq in Hr.
  destruct HI as [_ HT]. destruct (HT t Ht) as [_ _ _ [Hle Hret] _ _ _ _ _ Hwa].
  split; [lia|]. unfold want_ok in Hwa. rewrite (Hret Hr) in Hwa. exact Hwa.
Qed.

End Proofs.
