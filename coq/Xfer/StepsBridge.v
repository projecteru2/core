(* The interleaving model (Steps) and the dataflow model (Pipeline) of the
   transfer network describe the same outcome: what an engine has read when the
   network has finished, under any schedule, is what the dataflow model says. *)
From Coq Require Import List.
From Verif Require Import Xfer.Pipeline Xfer.Steps Xfer.StepsProofs.
Import ListNotations.

(* how much the engine goroutine of a target reads before it returns *)
Definition want_of_target (behs : list beh) (t : target) : option nat :=
  match t with
  | None => Some 0                         (* unknown id: the copy is never started *)
  | Some o =>
      match beh_of behs o with
      | Drain | DrainErr => None
      | GiveUp k => Some k
      | Ignore => Some 0
      end
  end.

Lemma reads_bridge : forall {A} behs o (chunks : list (list A)),
  reads_spec A (want_of_target behs (Some o)) (concat chunks) = engine_reads (beh_of behs o) chunks.
Proof. intros A behs o chunks. unfold want_of_target, reads_spec, engine_reads. destruct (beh_of behs o); reflexivity. Qed.

Corollary transfer_matches_dataflow : forall {A} (chunks : list (list A)) (ts : list target) (behs : list beh),
  chunks <> [] ->
  let n := length ts in
  let want := fun i => want_of_target behs (nth i ts None) in
  forall k s, steps A n want k (init A n chunks) s -> dst A s = DFinished A ->
  forall i o, i < n -> nth i ts None = Some o ->
    got A (tg A s i) = engine_reads (beh_of behs o) chunks.
Proof.
  intros A chunks ts behs Hne n want k s H Hd i o Hi Ho.
  destruct (all_schedules A n want chunks Hne k s H) as (_ & _ & F).
  destruct (F Hd i Hi) as [_ G]. rewrite G. unfold want. rewrite Ho. apply reads_bridge.
Qed.

(* the measure of the initial state: an explicit bound on the length of any execution *)
Example bound_example :
  mu nat 2 (init nat 2 [[1;2;3];[4]]) = 34.
Proof. vm_compute. reflexivity. Qed.
