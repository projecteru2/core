(* Proofs about the chunking model (C29). *)
From Coq Require Import List Bool Arith Lia.
From Verif Require Import Xfer.Chunks.
Import ListNotations.

(* all chunks but the last are full; the last is at most a chunk; at least one chunk *)
Inductive shape {A} (size : nat) : list (list A) -> Prop :=
  | shape_last : forall x, length x <= size -> shape size [x]
  | shape_cons : forall x t, length x = size -> shape size t -> shape size (x :: t).

Lemma chunks_fuel_concat : forall {A} fuel size (c : list A),
  0 < size -> length c <= fuel -> concat (chunks_fuel fuel size c) = c.
Proof.
  induction fuel as [|f IH]; intros size c Hs Hl.
  - destruct c; [reflexivity|exfalso; simpl in Hl; lia].
  - destruct c as [|a c']; [reflexivity|].
    cbn [chunks_fuel concat]. rewrite IH; [apply firstn_skipn|exact Hs|].
    rewrite skipn_length. cbn [length] in *. lia.
Qed.

Lemma chunks_fuel_shape : forall {A} fuel size (c : list A),
  0 < size -> length c <= fuel -> c <> [] ->
  shape size (chunks_fuel fuel size c) /\ Forall (fun ch => ch <> []) (chunks_fuel fuel size c).
Proof.
  induction fuel as [|f IH]; intros size c Hs Hl Hc.
  - destruct c; [congruence|exfalso; simpl in Hl; lia].
  - destruct c as [|a c']; [congruence|].
    cbn [chunks_fuel].
    assert (Hne : firstn size (a :: c') <> []) by (destruct size; [lia|simpl; discriminate]).
    destruct (le_lt_dec (length (a :: c')) size) as [Hle|Hgt].
    + (* last chunk *)
      rewrite (skipn_all2 (a :: c')) by exact Hle.
      rewrite firstn_all2 by exact Hle.
      destruct f; cbn [chunks_fuel]; (split; [apply shape_last; exact Hle|repeat constructor; discriminate]).
    + assert (Hsk : skipn size (a :: c') <> []).
      { intro E. apply (f_equal (@length A)) in E. rewrite skipn_length in E. cbn [length] in E, Hgt. lia. }
      assert (Hl' : length (skipn size (a :: c')) <= f) by (rewrite skipn_length; cbn [length] in *; lia).
      destruct (IH size _ Hs Hl' Hsk) as [Sh Fa].
      split.
      * apply shape_cons; [apply firstn_length_le; lia|exact Sh].
      * constructor; assumption.
Qed.

(* C29_chunks: round trip and shape, for any content and any positive chunk size *)
Theorem chunks_statement : forall {A} size (c : list A), 0 < size ->
  concat (to_chunks size c) = c /\
  shape size (to_chunks size c) /\
  (c <> [] -> Forall (fun ch => ch <> []) (to_chunks size c)).
Proof.
  intros A size c Hs. destruct c as [|a c'].
  - cbn. repeat split; [apply shape_last; simpl; lia|congruence].
  - unfold to_chunks.
    assert (Hne : a :: c' <> []) by discriminate.
    destruct (chunks_fuel_shape (length (a :: c')) size (a :: c') Hs (le_n _) Hne) as [Sh Fa].
    repeat split; [apply chunks_fuel_concat; [exact Hs|apply le_n]|exact Sh|intros _; exact Fa].
Qed.

Lemma shape_all_le : forall {A} size (l : list (list A)), shape size l -> Forall (fun ch => length ch <= size) l.
Proof. induction 1; constructor; auto; lia. Qed.

Lemma shape_nonempty : forall {A} size (l : list (list A)), shape size l -> l <> [].
Proof. destruct 1; discriminate. Qed.

Lemma to_chunks_nonempty : forall {A} size (c : list A), 0 < size -> to_chunks size c <> [].
Proof. intros A size c Hs. exact (shape_nonempty _ _ (proj1 (proj2 (chunks_statement size c Hs)))). Qed.

(* the metadata (ids, destination, owner, mode) and the total size are repeated on every chunk *)
Theorem options_statement : forall {M A} size (meta : M) (c : list A),
  map o_chunk (to_options size meta c) = to_chunks size c /\
  Forall (fun o => o_meta o = meta /\ o_size o = length c) (to_options size meta c).
Proof.
  intros. unfold to_options. split.
  - rewrite map_map. cbn [o_chunk]. apply map_id.
  - apply Forall_forall. intros o Ho. apply in_map_iff in Ho. destruct Ho as [ch [E _]]. subst o. split; reflexivity.
Qed.

(* before the repair an empty file produced no chunk at all: nothing was sent *)
Theorem orig_empty_refuted : forall {A} size, @to_chunks_orig A size [] = [].
Proof. reflexivity. Qed.

(* for a non-empty file the repair changes nothing *)
Theorem orig_same_nonempty : forall {A} size (c : list A), c <> [] -> to_chunks size c = to_chunks_orig size c.
Proof. intros A size [|a c'] H; [congruence|reflexivity]. Qed.

(* the boolean shape check of the harness implies the shape *)
Lemma shape_ok_shape : forall size l, shape_ok size l = true -> shape size l.
Proof.
  induction l as [|x t IH]; intros H; [discriminate|].
  destruct t as [|y t'].
  - apply shape_last. apply Nat.leb_le. exact H.
  - cbn [shape_ok] in H. apply andb_true_iff in H. destruct H as [H1 H2].
    apply shape_cons; [apply Nat.eqb_eq; exact H1|apply IH; exact H2].
Qed.

Example chunks_example : to_chunks 3 [1;2;3;4;5;6;7] = [[1;2;3];[4;5;6];[7]] /\ to_chunks 3 (@nil nat) = [[]]
  /\ to_chunks 3 [1;2;3] = [[1;2;3]].
Proof. repeat split; reflexivity. Qed.
