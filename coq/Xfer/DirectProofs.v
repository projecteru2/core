(* Proofs about the model of Calcium.Send (C29, non-chunked path). *)
From Coq Require Import List Bool Arith Lia.
From Verif Require Import Xfer.Pipeline Xfer.PipelineProofs Xfer.Direct.
Import ListNotations.

(* delivery: the engine is handed the whole content; one that reads to EOF has all of it *)
Theorem direct_delivery : forall {A} (content : list A),
  direct_reads Drain content = content /\ direct_reads DrainErr content = content /\
  forall k, direct_reads (GiveUp k) content = firstn k content.
Proof.
  intros A content. unfold direct_reads, engine_reads. cbn [concat]. rewrite app_nil_r. repeat split; reflexivity.
Qed.

Lemma messages_of_count : forall nfiles behs o f,
  length (filter (fun m => onat_eqb (d_target m) (Some o) && onat_eqb (d_file m) (Some f))
                 (messages_of nfiles behs (Some o))) = if f <? nfiles then 1 else 0.
Proof.
  intros nfiles behs o f. cbn [messages_of]. induction nfiles as [|k IH]; [reflexivity|].
  rewrite seq_S, map_app, filter_app, app_length, IH.
  cbn [Nat.add map filter d_target d_file onat_eqb]. rewrite Nat.eqb_refl. cbn [andb].
  destruct (Nat.ltb_spec f k), (Nat.ltb_spec f (S k)), (Nat.eqb_spec k f); cbn [length]; lia.
Qed.

Lemma messages_of_other : forall nfiles behs id o f,
  id <> Some o ->
  filter (fun m => onat_eqb (d_target m) (Some o) && onat_eqb (d_file m) (Some f)) (messages_of nfiles behs id) = [].
Proof.
  intros nfiles behs id o f Hne. destruct id as [o'|]; cbn [messages_of].
  - induction (seq 0 nfiles) as [|x l IH]; [reflexivity|]. cbn [map filter d_target onat_eqb].
    destruct (Nat.eqb_spec o' o); [congruence|]. cbn [andb]. exact IH.
  - reflexivity.
Qed.

Lemma messages_absent : forall nfiles behs ids o f, ~ In (Some o) ids ->
  filter (fun m => onat_eqb (d_target m) (Some o) && onat_eqb (d_file m) (Some f))
         (flat_map (messages_of nfiles behs) ids) = [].
Proof.
  intros nfiles behs ids o f. induction ids as [|y ys IH]; intros Hx; [reflexivity|].
  cbn [flat_map]. rewrite filter_app.
  rewrite messages_of_other by (intro E; apply Hx; left; exact E).
  apply IH. intro H. apply Hx. right; exact H.
Qed.

(* with distinct ids: exactly one result per (target, file) *)
Theorem direct_one_result : forall nfiles ids behs o f,
  NoDup ids -> In (Some o) ids -> f < nfiles ->
  length (filter (fun m => onat_eqb (d_target m) (Some o) && onat_eqb (d_file m) (Some f))
                 (flat_map (messages_of nfiles behs) ids)) = 1.
Proof.
  intros nfiles ids behs o f Hnd Hin Hf. induction ids as [|id ids IH]; [destruct Hin|].
  cbn [flat_map]. rewrite filter_app, app_length. inversion Hnd as [|x l Hx Hl]; subst.
  destruct Hin as [E|Hin].
  - subst id. rewrite messages_of_count, (messages_absent nfiles behs ids o f Hx).
    destruct (Nat.ltb_spec f nfiles); [reflexivity|lia].
  - rewrite messages_of_other by (intro E; subst id; contradiction). cbn [length]. apply IH; assumption.
Qed.

(* exactly one result per (listed target, file), for ANY id list (repeats included) *)
Theorem direct_one_result_any : forall nfiles ids behs o f,
  In (Some o) ids -> f < nfiles ->
  fst (send_direct nfiles ids behs) = DOk /\
  length (filter (fun m => onat_eqb (d_target m) (Some o) && onat_eqb (d_file m) (Some f))
                 (snd (send_direct nfiles ids behs))) = 1.
Proof.
  intros nfiles ids behs o f Hin Hf. unfold send_direct, send_direct_with.
  destruct ids as [|i0 ids']; [destruct Hin|]. destruct nfiles as [|nf]; [lia|].
  cbn [fst snd]. split; [reflexivity|].
  apply direct_one_result; [apply dedupe_nodup|apply dedupe_in; exact Hin|exact Hf].
Qed.

(* before the repair an id listed twice was served and reported twice *)
Theorem direct_duplicate_refuted :
  snd (send_direct_with false 1 [Some 0; Some 0] []) = [mkDMsg (Some 0) (Some 0) ENone; mkDMsg (Some 0) (Some 0) ENone] /\
  snd (send_direct 1 [Some 0; Some 0] []) = [mkDMsg (Some 0) (Some 0) ENone].
Proof. split; reflexivity. Qed.

(* a target that does not exist gets one error result *)
Theorem direct_missing : forall nfiles behs, messages_of nfiles behs None = [mkDMsg None None EOther].
Proof. reflexivity. Qed.

Theorem direct_validation : forall ids behs nfiles,
  fst (send_direct nfiles [] behs) = DNoIDs /\ (ids <> [] -> fst (send_direct 0 ids behs) = DNoFiles).
Proof. intros. split; [reflexivity|]. destruct ids; [congruence|reflexivity]. Qed.
