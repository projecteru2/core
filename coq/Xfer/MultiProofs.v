(* Proofs about several files on one SendLargeFile input channel (C29). *)
From Coq Require Import List Arith Lia Permutation.
From Verif Require Import Xfer.Chunks Xfer.Pipeline Xfer.PipelineProofs Xfer.Multi.
Import ListNotations.

Lemma rinsert_perm : forall m l, Permutation (rinsert m l) (m :: l).
Proof.
  induction l as [|x t IH]; simpl; [reflexivity|].
  destruct (rle m x); [reflexivity|]. rewrite IH. apply perm_swap.
Qed.

Lemma rsort_perm : forall l, Permutation (rsort l) l.
Proof. exact (insertion_sort_perm _ rinsert_perm). Qed.

Lemma length_flat_results : forall n ts, length (flat_map (results_of n) ts) = n * length ts.
Proof.
  induction ts as [|t ts IH]; simpl; [lia|].
  rewrite app_length, IH. unfold results_of. rewrite map_length, seq_length. lia.
Qed.

(* every (distinct target, file) pair gets a result, nothing else does *)
Theorem multi_results : forall {A} (files : list (list (list A))) targets behs,
  let out := send_files files targets behs in
  mfinished out = true /\
  Permutation (mresults out) (flat_map (results_of (length files)) (dedupe targets)) /\
  length (mresults out) = length files * length (dedupe targets).
Proof.
  intros A files targets behs out. unfold out, send_files, send_files_with. cbn [mfinished mresults].
  split; [reflexivity|]. split; [apply rsort_perm|].
  rewrite (Permutation_length (rsort_perm _)). apply length_flat_results.
Qed.

(* every file is delivered completely to every listed workload whose engine reads to EOF *)
Theorem multi_delivery : forall {A} size (contents : list (list A)) targets behs o f c,
  0 < size -> In (Some o) targets -> nth_error contents f = Some c ->
  mreceived (send_files (map (to_chunks size) contents) targets behs) o f =
    Some (match beh_of behs o with
          | Drain | DrainErr => c
          | GiveUp k => firstn k c
          | Ignore => []
          end).
Proof.
  intros A size contents targets behs o f c Hs Hin Hf.
  unfold send_files, send_files_with. cbn [mreceived].
  rewrite (proj2 (existsb_target o (dedupe targets))) by (apply dedupe_in; exact Hin).
  assert (Hlt : f < length contents) by (apply nth_error_Some; congruence).
  rewrite map_length. replace (f <? length contents) with true by (symmetry; apply Nat.ltb_lt; exact Hlt).
  cbn [andb]. rewrite nth_error_map, Hf. cbn [option_map]. rewrite (engine_reads_to_chunks _ size c Hs). reflexivity.
Qed.

(* before the repair only the first file was delivered and reported *)
Theorem multi_orig_refuted :
  let out := send_files_with false [[[1; 2]]; [[3]]] [Some 0] [] in
  mresults out = [(Some 0, Some 0)] /\ mreceived out 0 1 = None /\
  mresults (send_files [[[1; 2]]; [[3]]] [Some 0] []) = [(Some 0, Some 0); (Some 0, Some 1)] /\
  mreceived (send_files [[[1; 2]]; [[3]]] [Some 0] []) 0 1 = Some [3].
Proof. repeat split; reflexivity. Qed.
