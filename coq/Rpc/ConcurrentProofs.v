(* Independence of concurrent watch streams behind one interceptor (C36):
   the step-wise client of one stream computes exactly the single-stream run, and in
   the interleaved system every stream's component only depends on its own steps. *)
From Coq Require Import List Bool Arith Lia.
From Verif Require Import Rpc.Retry Rpc.RetryProofs Rpc.Concurrent.
Import ListNotations.

Lemma iter_add : forall {A} a b (f : A -> A) x, iter (a + b) f x = iter b f (iter a f x).
Proof. induction a as [|a IH]; intros b f x; [reflexivity|]. cbn [Nat.add iter]. apply IH. Qed.

Lemma cstep_done : forall pl max c f, cs_ph c = PDone f -> cstep pl max c = c.
Proof. intros pl max c f H. unfold cstep. rewrite H. reflexivity. Qed.

Lemma iter_done : forall pl max n c f, cs_ph c = PDone f -> iter n (cstep pl max) c = c.
Proof.
  induction n as [|n IH]; intros c f H; [reflexivity|]. cbn [iter]. rewrite (cstep_done _ _ _ _ H). eapply IH; eauto.
Qed.

Definition phase_of (r : rr) : phase := match r with RMsg _ _ => PIdle | RErr e => PDone e end.

(* a step inside backoff.Retry is one attempt followed by the decision of the loop *)
Lemma cstep_retry : forall pl max left s tr,
  cstep pl max (mkCst s (PRetry left) tr) =
  if cancelled s then mkCst s (PDone FCtxCanceled) (tr ++ [EvLocalOpenFail])
  else
    let '(ev, r, s2) := attempt pl s in
    match r with
    | RMsg _ _ => mkCst s2 PIdle (tr ++ ev)
    | RErr e =>
        if is_timeout e then mkCst s2 (PDone e) (tr ++ ev)
        else if cancelled s2 then mkCst s2 (PDone FCtxCanceled) (tr ++ ev)
        else match left with
             | 0 => mkCst s2 (PDone e) (tr ++ ev)
             | S left' =>
                 if opt_nat_eqb (p_backoff_after pl) (c_idx (cur s2)) then
                   mkCst (set_cancelled s2) (PDone FCtxCanceled) (tr ++ (ev ++ [EvSleep]) ++ [EvCancel])
                 else mkCst s2 (PRetry left') (tr ++ ev ++ [EvSleep])
             end
    end.
Proof.
  intros pl max left s tr. unfold cstep, attempt. cbn [cs_st cs_ph cs_tr].
  destruct (cancelled s); [reflexivity|].
  destruct (open_stream s) as [eo s1]. destruct (raw_recv pl s1) as [[ev r] s2].
  destruct r as [i j|e]; [reflexivity|]. change (timeout_b e) with (is_timeout e).
  destruct (is_timeout e); [reflexivity|]. destruct (cancelled s2); [reflexivity|].
  destruct left; [reflexivity|]. destruct (opt_nat_eqb _ _); [|reflexivity].
  cbn [app]. rewrite <- app_assoc. reflexivity.
Qed.

Lemma retry_steps : forall pl max left s ev r s',
  retry_run pl left s ev r s' ->
  forall tr, exists k, iter k (cstep pl max) (mkCst s (PRetry left) tr) = mkCst s' (phase_of r) (tr ++ ev).
Proof.
  induction 1 as [left s Hc | left s ev r s2 Hc Ha Ho | left s ev e s2 Hc Ha Ht Hc2
                 | left s ev e s2 Hc Ha Ht Hc2 Hb | left s ev e s2 ev' r' s3 Hc Ha Ht Hc2 Hb _ IH];
    intro tr; [exists 1; cbn [iter]; rewrite cstep_retry, Hc ..|].
  - reflexivity.
  - rewrite Ha. destruct r as [i j|e]; [reflexivity|].
    destruct (Ho e eq_refl) as [T|(T & C & ->)]; rewrite T; [reflexivity|rewrite C; reflexivity].
  - rewrite Ha, Ht, Hc2. reflexivity.
  - rewrite Ha, Ht, Hc2, Hb. reflexivity.
  - destruct (IH (tr ++ ev ++ [EvSleep])) as [k Hk]. exists (S k). cbn [iter].
    rewrite cstep_retry, Hc, Ha, Ht, Hc2, Hb, Hk, <- !app_assoc. reflexivity.
Qed.

Lemma recv_steps : forall pl max s ev r s' tr,
  recv_msg pl max s = (ev, r, s') ->
  exists k, iter k (cstep pl max) (mkCst s PIdle tr) = mkCst s' (phase_of r) (tr ++ ev).
Proof.
  intros pl max s ev r s' tr H.
  destruct (recv_msg_inv _ _ _ _ _ _ H) as [[Er Hp]|(ev1 & e & s1 & ev' & Er & Ep & Hl & ->)].
  - exists 1. cbn [iter]. unfold cstep. cbn [cs_st cs_ph cs_tr]. rewrite Er.
    destruct r as [i j|e]; [reflexivity|].
    change (final_eqb e FCtxCanceled || timeout_b e) with (passes e). rewrite (Hp e eq_refl). reflexivity.
  - destruct (retry_steps pl max _ _ _ _ _ Hl (tr ++ ev1 ++ [EvBreak e])) as [k Hk].
    exists (S k). cbn [iter]. unfold cstep at 2. cbn [cs_st cs_ph cs_tr]. rewrite Er.
    change (final_eqb e FCtxCanceled || timeout_b e) with (passes e).
    rewrite Ep, Hk, <- !app_assoc. reflexivity.
Qed.

Lemma caller_steps : forall pl max fuel s ev fin s' tr,
  caller (recv_msg pl max) fuel s = (ev, fin, s') -> fin <> FOutOfFuel ->
  exists k, iter k (cstep pl max) (mkCst s PIdle tr) = mkCst s' (PDone fin) (tr ++ ev).
Proof.
  intros pl max. induction fuel as [|fuel IH]; intros s ev fin s' tr H Hf; cbn [caller] in H.
  - inversion H; subst. congruence.
  - destruct (recv_msg pl max s) as [[ev1 r1] s1] eqn:Er.
    destruct (recv_steps pl max _ _ _ _ tr Er) as [k1 Hk1].
    destruct r1 as [i j|e].
    + destruct (caller (recv_msg pl max) fuel s1) as [[ev' f'] s2] eqn:Ec. inversion H; subst; clear H.
      destruct (IH _ _ _ _ (tr ++ ev1) Ec Hf) as [k2 Hk2].
      exists (k1 + k2). rewrite iter_add, Hk1. cbn [phase_of]. rewrite Hk2, app_assoc. reflexivity.
    + inversion H; subst; clear H. exists k1. exact Hk1.
Qed.

Theorem single_stream_steps : forall m max script pl r t fin,
  need_retry m = true -> run_stream m max script pl r = (t, fin) ->
  exists k s', forall k', k <= k' ->
    iter k' (cstep pl max) (cinit script r) = mkCst s' (PDone fin) t.
Proof.
  intros m max script pl r t fin Hm H.
  destruct (retry_run_statement _ _ _ _ _ _ _ Hm H) as (_ & _ & _ & _ & Hf).
  destruct (watch_run_caller _ _ _ _ _ _ _ Hm H) as (s0 & ev & s' & Hi & -> & Hc).
  destruct (caller_steps pl max _ _ _ _ _ [EvOpen 0 r] Hc Hf) as [k Hk].
  exists k, s'. intros k' Hle. unfold cinit. rewrite Hi.
  replace k' with (k + (k' - k)) by lia. rewrite iter_add, Hk.
  eapply iter_done. reflexivity.
Qed.

Lemma nth_error_update_same : forall {A} k (x : A) l, k < length l -> nth_error (update k x l) k = Some x.
Proof.
  induction k as [|k IH]; intros x l H; destruct l as [|y t]; simpl in *; try lia; [reflexivity|]. apply IH. lia.
Qed.

Lemma nth_error_update_other : forall {A} k j (x : A) l, j <> k -> nth_error (update k x l) j = nth_error l j.
Proof.
  induction k as [|k IH]; intros j x l H; destruct l as [|y t]; simpl; try reflexivity.
  - destruct j; [congruence|reflexivity].
  - destruct j; [reflexivity|]. simpl. apply IH. congruence.
Qed.

Lemma gstep_other : forall max cfgs k j g, j <> k -> nth_error (gstep max cfgs k g) j = nth_error g j.
Proof.
  intros max cfgs k j g H. unfold gstep.
  destruct (nth_error g k); [|reflexivity]. destruct (nth_error cfgs k); [|reflexivity].
  apply nth_error_update_other. exact H.
Qed.

Lemma gstep_same : forall max cfgs k g c cfg,
  nth_error g k = Some c -> nth_error cfgs k = Some cfg ->
  nth_error (gstep max cfgs k g) k = Some (cstep (g_plan cfg) max c).
Proof.
  intros max cfgs k g c cfg Hc Hcfg. unfold gstep. rewrite Hc, Hcfg.
  apply nth_error_update_same. apply nth_error_Some. congruence.
Qed.

Theorem frame : forall max cfgs sched g j c cfg,
  nth_error g j = Some c -> nth_error cfgs j = Some cfg ->
  nth_error (grun max cfgs sched g) j =
    Some (iter (count_occ Nat.eq_dec sched j) (cstep (g_plan cfg) max) c).
Proof.
  intros max cfgs sched. induction sched as [|k sched IH]; intros g j c cfg Hc Hcfg; [exact Hc|].
  unfold grun in *. cbn [fold_left count_occ].
  destruct (Nat.eq_dec k j) as [->|Hne].
  - cbn [iter]. apply IH; [apply gstep_same; assumption|exact Hcfg].
  - apply IH; [rewrite gstep_other by congruence; exact Hc|exact Hcfg].
Qed.

(* independence: any number of concurrent watch streams behind one interceptor, any
   schedule that lets stream j run long enough: stream j ends exactly as it would alone
   (same trace: messages, streams opened, requests re-sent, sleeps; same final error) *)
Theorem independence : forall m max cfgs j cfg t fin,
  need_retry m = true ->
  nth_error cfgs j = Some cfg ->
  run_stream m max (g_script cfg) (g_plan cfg) (g_req cfg) = (t, fin) ->
  exists k s', forall sched, k <= count_occ Nat.eq_dec sched j ->
    nth_error (grun max cfgs sched (ginit cfgs)) j = Some (mkCst s' (PDone fin) t).
Proof.
  intros m max cfgs j cfg t fin Hm Hcfg H.
  destruct (single_stream_steps _ _ _ _ _ _ _ Hm H) as (k & s' & Hk).
  exists k, s'. intros sched Hle.
  assert (Hg : nth_error (ginit cfgs) j = Some (cinit (g_script cfg) (g_req cfg))).
  { unfold ginit. rewrite nth_error_map, Hcfg. reflexivity. }
  rewrite (frame _ _ _ _ _ _ _ Hg Hcfg). f_equal. apply Hk. exact Hle.
Qed.

Example independence_example :
  let cfgs := [mkCfg [mkS 1 EErr; mkS 0 EErr; mkS 0 EErr; mkS 1 EErr] (mkPlan false None) 7;
               mkCfg [mkS 1 EErr; mkS 0 EErr; mkS 0 EErr; mkS 1 EErr] (mkPlan false None) 8] in
  map cs_ph (grun 2 cfgs [0;1;0;1;1;0;0;1;0;1;1;0;0;1;1;0;0;1;0;1;1;0;0;1] (ginit cfgs)) = [PDone FBreak; PDone FBreak] /\
  map (fun c => deliveries (cs_tr c)) (grun 2 cfgs [0;1;0;1;1;0;0;1;0;1;1;0;0;1;1;0;0;1;0;1;1;0;0;1] (ginit cfgs))
    = [[(0,0); (3,0)]; [(0,0); (3,0)]].
Proof. split; vm_compute; reflexivity. Qed.
