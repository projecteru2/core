(* Proofs about the RPC authentication model (C35). *)
From Coq Require Import List Bool Arith String Ascii.
From Verif Require Import Rpc.Auth.
Import ListNotations.
Open Scope string_scope.
Open Scope list_scope.
Open Scope nat_scope.

Lemma lower_ascii_idem : forall c, lower_ascii (lower_ascii c) = lower_ascii c.
Proof.
  (* an upper-case letter is sent to a lower-case one, which is outside the range that moves *)
  intros c. unfold lower_ascii at 2 3.
  destruct ((65 <=? nat_of_ascii c) && (nat_of_ascii c <=? 90)) eqn:E; unfold lower_ascii.
  - apply andb_true_iff in E. destruct E as [E1 E2]. apply Nat.leb_le in E1, E2.
    rewrite nat_ascii_embedding
      by (apply (Nat.le_lt_trans _ (90 + 32)); [apply Nat.add_le_mono_r, E2|apply Nat.ltb_lt; reflexivity]).
    replace (nat_of_ascii c + 32 <=? 90) with false
      by (symmetry; apply Nat.leb_gt, (Nat.lt_le_trans _ (65 + 32)); [apply Nat.ltb_lt; reflexivity|apply Nat.add_le_mono_r, E1]).
    rewrite andb_false_r. reflexivity.
  - rewrite E. reflexivity.
Qed.

Lemma lower_idem : forall s, lower (lower s) = lower s.
Proof. induction s as [|c t IH]; simpl; [reflexivity|]. now rewrite lower_ascii_idem, IH. Qed.

Lemma lower_empty : forall s, lower s = "" -> s = "".
Proof. intros [|c t]; simpl; [reflexivity|discriminate]. Qed.

Lemma is_empty_spec : forall s, is_empty s = true <-> s = "".
Proof. intros [|c t]; simpl; split; congruence. Qed.

Lemma is_empty_false : forall s, is_empty s = false <-> s <> "".
Proof. intros [|c t]; simpl; split; congruence. Qed.

Definition lower_keys (m : md) : md := map (fun kv => (lower (fst kv), snd kv)) m.

Lemma md_get_lower_keys_none : forall k m,
  (forall kv, In kv m -> lower (fst kv) <> k) -> md_get k (lower_keys m) = None.
Proof.
  intros k m; induction m as [|[k' vs] t IH]; intros H; simpl; [reflexivity|].
  destruct (String.eqb_spec k (lower k')) as [E|E].
  - exfalso. apply (H (k', vs)); [left; reflexivity|]. simpl. congruence.
  - apply IH. intros kv Hin. apply H. right; exact Hin.
Qed.

Lemma md_get_after_append : forall k k0 v m,
  (forall kv, In kv m -> lower (fst kv) <> k) ->
  md_get k (lower_keys (md_append m k0 v)) =
    if existsb (fun kv => String.eqb k0 (fst kv)) m then None
    else if String.eqb k (lower k0) then Some [v] else None.
Proof.
  intros k k0 v m; induction m as [|[k' vs] t IH]; intros H.
  - simpl. destruct (String.eqb k (lower k0)); reflexivity.
  - assert (Hk' : lower k' <> k) by (apply (H (k', vs)); left; reflexivity).
    assert (Ht : forall kv, In kv t -> lower (fst kv) <> k) by (intros kv Hin; apply H; right; exact Hin).
    cbn [md_append existsb fst].
    destruct (String.eqb_spec k0 k') as [E|E]; cbn [orb].
    + cbn [lower_keys map fst snd md_get].
      destruct (String.eqb_spec k (lower k')) as [E'|E']; [congruence|].
      apply md_get_lower_keys_none. exact Ht.
    + cbn [lower_keys map fst snd md_get].
      destruct (String.eqb_spec k (lower k')) as [E'|E']; [congruence|].
      apply IH. exact Ht.
Qed.

Lemma valid_key_parts : forall u, valid_key u = true ->
  u <> "" /\ is_std_key (lower u) = false.
Proof.
  intros u H. unfold valid_key in H.
  apply andb_true_iff in H. destruct H as [H H3].
  apply andb_true_iff in H. destruct H as [H1 _].
  split.
  - apply negb_true_iff in H1. apply is_empty_false. exact H1.
  - apply negb_true_iff. exact H3.
Qed.

Lemma std_only_in : forall std kv, std_only std = true -> In kv std -> is_std_key (lower (fst kv)) = true.
Proof. intros std kv H Hin. unfold std_only in H. rewrite forallb_forall in H. apply H. exact Hin. Qed.

Lemma std_keys_differ : forall std us, std_only std = true -> is_std_key (lower us) = false ->
  forall kv, In kv std -> lower (fst kv) <> lower us.
Proof.
  intros std us Hs Hu kv Hin E. pose proof (std_only_in _ _ Hs Hin) as H. rewrite E in H. congruence.
Qed.

Definition matching (us ps uc pc : string) : Prop := lower uc = lower us /\ pc = ps.

Lemma creds_match_spec : forall us ps uc pc, creds_match us ps uc pc = true <-> matching us ps uc pc.
Proof.
  intros. unfold creds_match, matching. rewrite andb_true_iff, !String.eqb_eq. reflexivity.
Qed.

Lemma check_one : forall p ps, check_passwords [p] ps = Accept <-> p = ps.
Proof.
  intros. simpl. destruct (String.eqb_spec p ps); split; intro H; try congruence; reflexivity.
Qed.

Lemma do_auth_with_creds : forall (std : md) us ps uc pc,
  (forall kv, In kv std -> lower (fst kv) <> lower us) -> is_empty uc = false ->
  do_auth us ps (incoming_ctx (server_md std (client_headers uc pc))) =
    if existsb (fun kv => String.eqb (lower uc) (fst kv)) std then RejUser
    else if String.eqb (lower us) (lower uc) then check_passwords [pc] ps else RejUser.
Proof.
  intros std us ps uc pc Hdiff Huc. unfold client_headers. rewrite Huc.
  cbn [get_request_metadata tr_auth_data map fst snd server_md fold_left].
  set (m := md_append std (lower uc) pc).
  assert (Hm : incoming_ctx m = Some m).
  { unfold m. destruct std as [|[k' vs] t]; cbn [md_append]; [reflexivity|].
    destruct (String.eqb (lower uc) k'); reflexivity. }
  rewrite Hm. unfold do_auth. cbn [from_incoming_context].
  change (map (fun kv => (lower (fst kv), snd kv)) m) with (lower_keys m).
  unfold m. rewrite md_get_after_append by exact Hdiff. rewrite lower_idem.
  destruct (existsb _ std); [reflexivity|]. destruct (String.eqb _ _); reflexivity.
Qed.

Lemma collision_not_user : forall (std : md) us uc,
  (forall kv, In kv std -> lower (fst kv) <> lower us) ->
  existsb (fun kv => String.eqb (lower uc) (fst kv)) std = true -> lower uc <> lower us.
Proof.
  intros std us uc Hdiff Hex E. apply existsb_exists in Hex. destruct Hex as [kv [Hin Hk]].
  apply String.eqb_eq in Hk. apply (Hdiff kv Hin). rewrite <- Hk, lower_idem. exact E.
Qed.

Lemma do_auth_decides : forall std us ps uc pc,
  std_only std = true -> valid_key us = true ->
  (do_auth us ps (incoming_ctx (server_md std (client_headers uc pc))) = Accept
   <-> matching us ps uc pc).
Proof.
  intros std us ps uc pc Hstd Hus.
  destruct (valid_key_parts _ Hus) as [Hne Hnstd].
  pose proof (std_keys_differ _ _ Hstd Hnstd) as Hdiff.
  unfold matching. destruct (is_empty uc) eqn:Euc.
  - (* client without credentials *)
    apply is_empty_spec in Euc. subst uc. cbn [client_headers is_empty server_md fold_left].
    split.
    + intro H. exfalso. unfold do_auth, incoming_ctx in H.
      destruct std as [|e std']; [discriminate H|].
      cbn [from_incoming_context] in H.
      change (map (fun kv => (lower (fst kv), snd kv)) (e :: std')) with (lower_keys (e :: std')) in H.
      rewrite md_get_lower_keys_none in H by exact Hdiff. discriminate.
    + intros [E _]. symmetry in E. apply lower_empty in E. congruence.
  - rewrite do_auth_with_creds by assumption.
    destruct (existsb _ std) eqn:Eex.
    + split; [discriminate|]. intros [E _]. exfalso. exact (collision_not_user _ _ _ Hdiff Eex E).
    + destruct (String.eqb_spec (lower us) (lower uc)) as [E|E].
      * rewrite check_one. split; [intros ->; auto|intros [_ H]; exact H].
      * split; [discriminate|]. intros [E' _]. congruence.
Qed.

Lemma rpc_configured : forall k std us ps uc pc, is_empty us = false ->
  rpc k std us ps uc pc = do_auth us ps (incoming_ctx (server_md std (client_headers uc pc))).
Proof.
  intros k std us ps uc pc H. unfold rpc, rpc_with, serve_with. rewrite H.
  destruct k; unfold unary_interceptor, stream_interceptor;
    destruct (do_auth us ps _); reflexivity.
Qed.

(* C35: served iff the caller presents the configured user name (as gRPC
   metadata keys compare, i.e. up to ASCII case) with the configured password;
   for unary and streaming calls, for every transport environment *)
Theorem auth_iff : forall k std us ps uc pc,
  std_only std = true -> valid_key us = true ->
  (rpc k std us ps uc pc = Accept <-> matching us ps uc pc).
Proof.
  intros k std us ps uc pc Hstd Hus.
  destruct (valid_key_parts _ Hus) as [Hne _].
  rewrite rpc_configured by (apply is_empty_false; exact Hne).
  apply do_auth_decides; assumption.
Qed.

Theorem same_credentials_accepted : forall k std u p,
  std_only std = true -> valid_cred u p = true -> rpc k std u p u p = Accept.
Proof.
  intros k std u p Hstd Hv. unfold valid_cred in Hv. apply andb_true_iff in Hv. destruct Hv as [Hk _].
  apply auth_iff; [assumption|assumption|]. split; reflexivity.
Qed.

(* core.go: without a configured user name no interceptor is installed *)
Theorem unconfigured_serves_all : forall k std ps uc pc, rpc k std "" ps uc pc = Accept.
Proof. intros. reflexivity. Qed.

(* right user, wrong password: refused with the password error *)
Theorem reject_kind : forall k std us ps uc pc,
  std_only std = true -> valid_key us = true ->
  lower uc = lower us -> pc <> ps -> rpc k std us ps uc pc = RejPass.
Proof.
  intros k std us ps uc pc Hstd Hus E Hp.
  destruct (valid_key_parts _ Hus) as [Hne Hnstd].
  pose proof (std_keys_differ _ _ Hstd Hnstd) as Hdiff.
  assert (Huc : is_empty uc = false).
  { apply is_empty_false. intros ->. symmetry in E. apply lower_empty in E. congruence. }
  rewrite rpc_configured by (apply is_empty_false; exact Hne).
  rewrite do_auth_with_creds by assumption.
  destruct (existsb _ std) eqn:Eex; [destruct (collision_not_user _ _ _ Hdiff Eex E)|].
  rewrite E, String.eqb_refl. simpl. destruct (String.eqb_spec pc ps); congruence.
Qed.

Lemma accepted_spec : forall v, accepted v = true <-> v = Accept.
Proof. intros []; simpl; split; congruence. Qed.

Definition served_iff_match (us ps uc pc : string) (v : verdict) : Prop :=
  v = Accept <-> (us = "" \/ matching us ps uc pc).

Lemma eqb_iff : forall (a b : bool) (P Q : Prop),
  (a = true <-> P) -> (b = true <-> Q) -> (Bool.eqb a b = true <-> (P <-> Q)).
Proof.
  intros [] [] P Q [A1 A2] [B1 B2]; simpl; split; intro H; try reflexivity; try discriminate.
  - split; intros _; auto.
  - destruct H as [H1 _]. apply B2, H1, A1. reflexivity.
  - destruct H as [_ H2]. apply A2, H2, B1. reflexivity.
  - split; intro X; [apply A2 in X|apply B2 in X]; discriminate.
Qed.

Theorem ok_spec : forall c, in_domain (c_us c) = true ->
  (ok c = true <->
   served_iff_match (c_us c) (c_ps c) (c_uc c) (c_pc c) (obs_unary c) /\
   served_iff_match (c_us c) (c_ps c) (c_uc c) (c_pc c) (obs_stream c)).
Proof.
  intros c Hd. unfold ok, served_iff_match. rewrite Hd.
  assert (He : is_empty (c_us c) || creds_match (c_us c) (c_ps c) (c_uc c) (c_pc c) = true
               <-> (c_us c = "" \/ matching (c_us c) (c_ps c) (c_uc c) (c_pc c))).
  { rewrite orb_true_iff, is_empty_spec, creds_match_spec. reflexivity. }
  rewrite andb_true_iff.
  rewrite (eqb_iff _ _ _ _ (accepted_spec (obs_unary c)) He).
  rewrite (eqb_iff _ _ _ _ (accepted_spec (obs_stream c)) He).
  reflexivity.
Qed.

Theorem ok_on_model : forall std us ps uc pc md',
  std_only std = true ->
  ok (mkCase us ps uc pc md' (rpc Unary std us ps uc pc) (rpc Stream std us ps uc pc)) = true.
Proof.
  intros std us ps uc pc md' Hstd.
  destruct (in_domain us) eqn:Hd; [|unfold ok; cbn [c_us]; rewrite Hd; reflexivity].
  apply ok_spec; [exact Hd|]. cbn [c_us c_ps c_uc c_pc obs_unary obs_stream].
  unfold served_iff_match. unfold in_domain in Hd. apply orb_true_iff in Hd. destruct Hd as [Hus|Hus].
  - apply is_empty_spec in Hus. subst us.
    split; (split; [intros _; left; reflexivity | intros _; reflexivity]).
  - destruct (valid_key_parts _ Hus) as [Hne _].
    split; rewrite auth_iff by assumption; (split; [intro H; right; exact H | intros [H|H]; [congruence|exact H]]).
Qed.

Definition std_example : md :=
  [(":authority", ["bufnet"]); ("content-type", ["application/grpc"]); ("user-agent", ["grpc-go/1.60.1"])].

(* meta[b.username] verbatim: a client with the very same credentials is refused
   as soon as the configured user name contains an upper-case letter *)
Theorem verbatim_refuted : exists std u p,
  std_only std = true /\ valid_cred u p = true /\
  rpc_verbatim Unary std u p u p = RejUser /\ rpc_verbatim Stream std u p u p = RejUser.
Proof. exists std_example, "Admin", "secret". repeat split; vm_compute; reflexivity. Qed.

(* hypotheses of the theorems are satisfiable, and the repaired code accepts the witness *)
Example hyps_satisfiable :
  std_only std_example = true /\ valid_cred "Admin" "secret" = true /\
  rpc Unary std_example "Admin" "secret" "Admin" "secret" = Accept /\
  rpc Stream std_example "Admin" "secret" "aDMIN" "secret" = Accept /\
  rpc Unary std_example "Admin" "secret" "Admin" "Secret" = RejPass /\
  rpc Unary std_example "Admin" "secret" "" "" = RejUser.
Proof. repeat split; vm_compute; reflexivity. Qed.
