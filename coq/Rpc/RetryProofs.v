(* Proofs about the client retry model (C36). *)
From Coq Require Import List Bool Arith Lia.
From Verif Require Import Rpc.Retry.
Import ListNotations.

Lemma deliveries_app : forall a b, deliveries (a ++ b) = deliveries a ++ deliveries b.
Proof. intros. unfold deliveries. apply flat_map_app. Qed.
Lemma requests_app : forall a b, requests (a ++ b) = requests a ++ requests b.
Proof. intros. unfold requests. apply flat_map_app. Qed.
Lemma opens_app : forall a b, opens (a ++ b) = opens a + opens b.
Proof. intros. unfold opens. rewrite requests_app, app_length. reflexivity. Qed.

Definition has_cancel (t : list event) : bool :=
  existsb (fun e => match e with EvCancel => true | _ => false end) t.

(* after a cancellation nothing reaches the server *)
Fixpoint quiet (t : list event) : bool :=
  match t with
  | [] => true
  | EvCancel :: t' => Nat.eqb (opens t') 0 && quiet t'
  | _ :: t' => quiet t'
  end.

Lemma has_cancel_app : forall a b, has_cancel (a ++ b) = has_cancel a || has_cancel b.
Proof. intros. unfold has_cancel. apply existsb_app. Qed.

Lemma quiet_app : forall a b, quiet a = true -> quiet b = true ->
  (has_cancel a = true -> opens b = 0) -> quiet (a ++ b) = true.
Proof.
  induction a as [|e a IH]; intros b Ha Hb Hc; simpl; [exact Hb|].
  destruct e; simpl in *; try (apply IH; assumption).
  apply andb_true_iff in Ha. destruct Ha as [Ha1 Ha2].
  apply andb_true_iff. split.
  - apply Nat.eqb_eq in Ha1. rewrite opens_app, Ha1, (Hc eq_refl). reflexivity.
  - apply IH; [assumption|assumption|]. intros _. apply Hc. reflexivity.
Qed.

Definition pending (s : st) : list (nat * nat) :=
  map (pair (c_idx (cur s))) (seq (c_next (cur s)) (c_total (cur s) - c_next (cur s)))
  ++ all_from (nxt s) (rest s).

Definition drained (s : st) : Prop := c_total (cur s) <= c_next (cur s).

(* in these scenarios the context is only ever cancelled on a drained stream *)
Definition Inv (s : st) : Prop := cancelled s = true -> drained s.

Lemma pending_drained : forall s, drained s -> pending s = all_from (nxt s) (rest s).
Proof.
  intros s H. unfold pending, drained in *.
  replace (c_total (cur s) - c_next (cur s)) with 0 by lia. reflexivity.
Qed.

Lemma length_all_from : forall l i, length (all_from i l) = total_msgs l.
Proof.
  induction l as [|x t IH]; intros i; simpl; [reflexivity|].
  rewrite app_length, IH. unfold msgs_of. rewrite map_length, seq_length. reflexivity.
Qed.

Lemma all_from_split : forall n l i,
  all_from i l = all_from i (firstn n l) ++ all_from (i + n) (skipn n l).
Proof.
  induction n as [|n IH]; intros l i; simpl.
  - rewrite Nat.add_0_r. reflexivity.
  - destruct l as [|x t]; simpl; [reflexivity|].
    rewrite (IH t (S i)). rewrite <- app_assoc. f_equal. f_equal. f_equal. lia.
Qed.

Lemma skipn_add : forall {A} a b (l : list A), skipn (a + b) l = skipn b (skipn a l).
Proof.
  induction a as [|a IH]; intros b l; simpl; [reflexivity|].
  destruct l as [|x t]; simpl; [destruct b; reflexivity|]. apply IH.
Qed.

Lemma deliveries_open_cons : forall i r t, deliveries (EvOpen i r :: t) = deliveries t.
Proof. reflexivity. Qed.

Lemma err_of_cases : forall x, err_of x <> FTimeout -> err_of x = FBreak \/ err_of x = FEOF.
Proof. intros [] H; simpl in *; auto. congruence. Qed.

(* what a piece of the client does to the state and the trace *)
Record frame (s : st) (ev : list event) (s' : st) : Prop := mkFrame {
  fr_pending : deliveries ev ++ pending s' = pending s;
  fr_nxt : nxt s' = nxt s + opens ev;
  fr_rest : rest s' = skipn (opens ev) (rest s);
  fr_sent : sent s' = sent s;
  fr_requests : Forall (eq (sent s)) (requests ev);
  fr_dead : cancelled s = true -> cancelled s' = true /\ opens ev = 0;
  fr_quiet : quiet ev = true;
  fr_cancel : has_cancel ev = true -> cancelled s' = true }.

Lemma frame_seq : forall s ev1 s1 ev2 s2, frame s ev1 s1 -> frame s1 ev2 s2 -> frame s (ev1 ++ ev2) s2.
Proof.
  intros s ev1 s1 ev2 s2 [P1 N1 R1 S1 Q1 M1 U1 H1] [P2 N2 R2 S2 Q2 M2 U2 H2].
  constructor.
  - rewrite deliveries_app, <- app_assoc, P2, P1. reflexivity.
  - rewrite opens_app. lia.
  - rewrite opens_app, skipn_add, <- R1. exact R2.
  - congruence.
  - rewrite requests_app. apply Forall_app. split; [exact Q1|]. rewrite <- S1. exact Q2.
  - intro H. destruct (M1 H) as [C1 O1]. destruct (M2 C1) as [C2 O2]. rewrite opens_app. split; [exact C2|lia].
  - apply quiet_app; [exact U1|exact U2|]. intros Hc. apply M2, H1, Hc.
  - rewrite has_cancel_app. intros Hc. apply orb_true_iff in Hc. destruct Hc as [Hc|Hc]; [apply M2, H1, Hc|apply H2, Hc].
Qed.

Lemma frame_nil : forall s, frame s [] s.
Proof. intros s. constructor; simpl; auto. discriminate. Qed.

(* events that neither reach the server nor deliver nor cancel *)
Definition neutral (e : event) : bool :=
  match e with EvBreak _ | EvSleep | EvLocalOpenFail => true | _ => false end.

Lemma frame_neutral : forall s e, neutral e = true -> frame s [e] s.
Proof. intros s e H. destruct e; try discriminate H; constructor; simpl; auto; discriminate. Qed.

Definition set_cancelled (s : st) : st := mkSt (rest s) (nxt s) true (cur s) (sent s).

Lemma frame_cancel : forall s, frame s [EvCancel] (set_cancelled s).
Proof. intros s. constructor; simpl; auto. Qed.

Lemma frame_open : forall s eo s1, open_stream s = (eo, s1) -> drained s -> cancelled s = false ->
  frame s [eo] s1 /\ cancelled s1 = false /\ eo = EvOpen (nxt s) (sent s).
Proof.
  intros s eo s1 H Hd Hc. unfold open_stream in H.
  destruct (pop (rest s)) as [sc t] eqn:Ep. injection H as <- <-.
  split; [|split; [exact Hc|reflexivity]].
  assert (Hpop : all_from (nxt s) (rest s) = msgs_of (nxt s) sc ++ all_from (S (nxt s)) t /\ t = skipn 1 (rest s)).
  { unfold pop in Ep. destruct (rest s) as [|x l]; injection Ep as <- <-; split; reflexivity. }
  constructor; cbn [deliveries requests opens flat_map app length nxt rest sent cancelled]; auto; try lia; try congruence.
  - rewrite (pending_drained s Hd), (proj1 Hpop). unfold pending, msgs_of. cbn [cur c_idx c_next c_total nxt rest].
    rewrite Nat.sub_0_r. reflexivity.
  - exact (proj2 Hpop).
  - discriminate.
Qed.

Definition err_ok (on_cancel : final) (s' : st) (e : final) : Prop :=
  if cancelled s' then e = on_cancel else e = err_of (c_end (cur s')).

(* The contract shared by RecvMsg on the underlying stream, one attempt of the reopen loop,
   the loop, and retryStream.RecvMsg; they differ in [on_cancel] and in the number [n] of
   streams they may open, all of which they do open when they fail on a live context
   that is not blocked. *)
Record post (on_cancel : final) (n : nat) (s : st) (ev : list event) (r : rr) (s' : st) : Prop := mkPost {
  p_frame : frame s ev s';
  p_bound : opens ev <= n;
  p_inv : Inv s';
  p_res : match r with
          | RMsg i j => deliveries ev = [(i, j)] /\ cancelled s' = false
          | RErr e => deliveries ev = [] /\ drained s' /\ err_ok on_cancel s' e /\
                      (cancelled s' = false -> e <> FTimeout -> opens ev = n)
          end;
  p_dead : cancelled s = true -> r = RErr on_cancel }.

Definition recv_good (c : final) (b0 : nat) (recv : st -> list event * rr * st) : Prop :=
  forall s ev r s', recv s = (ev, r, s') -> Inv s -> post c b0 s ev r s'.

Lemma post_seq : forall c m n s ev1 s1 ev2 r s2,
  frame s ev1 s1 -> deliveries ev1 = [] -> opens ev1 = m -> post c n s1 ev2 r s2 ->
  post c (m + n) s (ev1 ++ ev2) r s2.
Proof.
  intros c m n s ev1 s1 ev2 r s2 F1 D1 O1 [F2 B2 I2 R2 X2].
  constructor.
  - exact (frame_seq _ _ _ _ _ F1 F2).
  - rewrite opens_app. lia.
  - exact I2.
  - rewrite deliveries_app, D1, opens_app, O1. destruct r as [i j|e]; [exact R2|].
    destruct R2 as (D & Dr & E & O). repeat split; auto.
  - intro Hc. apply X2, (fr_dead _ _ _ F1 Hc).
Qed.

Lemma post_stay : forall c s e, Inv s -> drained s -> err_ok c s e -> (cancelled s = true -> e = c) ->
  post c 0 s [] (RErr e) s.
Proof.
  intros c s e HI Hd He Hc.
  constructor; [apply frame_nil|apply le_n|exact HI|repeat split; assumption|].
  intro H. rewrite (Hc H). reflexivity.
Qed.

Lemma post_cancel : forall c n s, drained s -> post c n s [EvCancel] (RErr c) (set_cancelled s).
Proof.
  intros c n s Hd.
  constructor; [apply frame_cancel|apply Nat.le_0_l|intros _; exact Hd| |reflexivity].
  repeat split; [exact Hd|discriminate].
Qed.

(* what RecvMsg hands to its caller without retrying *)
Definition is_timeout (e : final) : bool := final_eqb e FTimeout.
Definition passes (e : final) : bool := final_eqb e FCtxCanceled || is_timeout e.

(* a result of the underlying stream that the wrapper returns as it is: the wrapper
   may open [n >= m] streams, and a genuine failure is returned only when it has *)
Lemma post_own : forall m n s ev r s2, post FStatusCanceled m s ev r s2 -> m <= n ->
  (forall e, r = RErr e -> passes e = true \/ (cancelled s2 = false /\ m = n)) ->
  post FCtxCanceled n s ev r s2.
Proof.
  intros m n s ev r s2 [F B I R X] Hmn Ho. constructor; [exact F|lia|exact I| |].
  - destruct r as [i j|e]; [exact R|]. destruct R as (D & Dr & E & O). unfold err_ok in *.
    destruct (Ho e eq_refl) as [T|[C <-]].
    + destruct (cancelled s2); [subst e; discriminate T|].
      repeat split; auto. intros _ Hn. destruct (c_end (cur s2)); subst e; try discriminate T. elim Hn. reflexivity.
    + rewrite C in *. repeat split; auto.
  - intro Hc. destruct (fr_dead _ _ _ F Hc) as [C _].
    destruct (Ho _ (X Hc)) as [T|[C' _]]; [discriminate T|congruence].
Qed.

Lemma raw_recv_spec : forall pl, recv_good FStatusCanceled 0 (raw_recv pl).
Proof.
  intros pl s ev r s' H HI. unfold raw_recv in H.
  destruct (cancelled s) eqn:Ec.
  { injection H as <- <- <-.
    apply post_stay; [exact HI|apply HI, Ec|unfold err_ok; rewrite Ec; reflexivity|reflexivity]. }
  destruct (c_next (cur s) <? c_total (cur s)) eqn:El.
  - apply Nat.ltb_lt in El. injection H as <- <- <-.
    constructor; [|apply le_n|discriminate|split; reflexivity|congruence].
    constructor; cbn [deliveries requests opens flat_map app length nxt rest sent cancelled]; auto; try congruence.
    unfold pending. cbn [cur c_idx c_next c_total nxt rest].
    replace (c_total (cur s) - c_next (cur s)) with (S (c_total (cur s) - S (c_next (cur s)))) by lia.
    reflexivity.
  - apply Nat.ltb_ge in El.
    assert (stay : forall e, e = err_of (c_end (cur s)) -> post FStatusCanceled 0 s [] (RErr e) s).
    { intros e ->. apply post_stay; [exact HI|exact El|unfold err_ok; rewrite Ec; reflexivity|congruence]. }
    destruct (c_end (cur s)); [| |destruct (p_on_hang pl)]; injection H as <- <- <-;
      try (apply stay; reflexivity).
    (* blocked on a hanging stream when the caller cancels *)
    apply post_cancel. exact El.
Qed.

(* one attempt of the reopen loop: a new stream and the first RecvMsg on it *)
Definition attempt (pl : plan) (s : st) : list event * rr * st :=
  let '(eo, s1) := open_stream s in
  let '(ev, r, s2) := raw_recv pl s1 in (eo :: ev, r, s2).

Lemma attempt_spec : forall pl s ev r s2, attempt pl s = (ev, r, s2) -> cancelled s = false -> drained s ->
  post FStatusCanceled 1 s ev r s2.
Proof.
  intros pl s ev r s2 H Hc Hd. unfold attempt in H.
  destruct (open_stream s) as [eo s1] eqn:Eo. destruct (raw_recv pl s1) as [[ev1 r1] s1'] eqn:Er.
  injection H as <- <- <-.
  destruct (frame_open _ _ _ Eo Hd Hc) as (F & C1 & ->).
  apply (post_seq _ 1 0 _ [_] _ _ _ _ F eq_refl eq_refl), (raw_recv_spec _ _ _ _ _ Er).
  intro Hx. congruence.
Qed.

Lemma attempt_failed : forall pl s ev e s2, attempt pl s = (ev, RErr e, s2) -> cancelled s = false -> drained s ->
  is_timeout e = false -> cancelled s2 = false ->
  frame s (ev ++ [EvSleep]) s2 /\ deliveries (ev ++ [EvSleep]) = [] /\ opens (ev ++ [EvSleep]) = 1 /\
  drained s2 /\ Inv s2.
Proof.
  intros pl s ev e s2 H Hc Hd Ht Hc2.
  destruct (attempt_spec _ _ _ _ _ H Hc Hd) as [F _ I (D & Dr & _ & O) _].
  split; [exact (frame_seq _ _ _ _ _ F (frame_neutral s2 EvSleep eq_refl))|].
  rewrite deliveries_app, opens_app, D, O; auto. intros ->. discriminate Ht.
Qed.

Lemma retry_loop_eq : forall pl left s,
  retry_loop pl left s =
  if cancelled s then ([EvLocalOpenFail], RErr FCtxCanceled, s)
  else
    let '(ev, r, s2) := attempt pl s in
    match r with
    | RMsg _ _ => (ev, r, s2)
    | RErr e =>
        if is_timeout e then (ev, r, s2)
        else if cancelled s2 then (ev, RErr FCtxCanceled, s2)
        else match left with
             | 0 => (ev, r, s2)
             | S left' =>
                 if opt_nat_eqb (p_backoff_after pl) (c_idx (cur s2)) then
                   ((ev ++ [EvSleep]) ++ [EvCancel], RErr FCtxCanceled, set_cancelled s2)
                 else
                   let '(ev', r', s3) := retry_loop pl left' s2 in ((ev ++ [EvSleep]) ++ ev', r', s3)
             end
    end.
Proof.
  intros pl left s. unfold attempt. destruct left; cbn [retry_loop];
  destruct (cancelled s); try reflexivity;
  destruct (open_stream s) as [eo s1]; destruct (raw_recv pl s1) as [[ev r] s2];
  destruct r as [i j|e]; try reflexivity; destruct e; try reflexivity;
  (destruct (cancelled s2); [reflexivity|]);
  (destruct (opt_nat_eqb _ _); [|destruct (retry_loop pl left s2) as [[ev' r'] s3]]);
  cbn [app]; rewrite <- app_assoc; reflexivity.
Qed.

(* the runs of the loop, rule by rule *)
Inductive retry_run (pl : plan) : nat -> st -> list event -> rr -> st -> Prop :=
  | RDead : forall left s, cancelled s = true ->
      retry_run pl left s [EvLocalOpenFail] (RErr FCtxCanceled) s
  | RReturn : forall left s ev r s2, cancelled s = false -> attempt pl s = (ev, r, s2) ->
      (forall e, r = RErr e -> is_timeout e = true \/ (is_timeout e = false /\ cancelled s2 = false /\ left = 0)) ->
      retry_run pl left s ev r s2
  | RCancelled : forall left s ev e s2, cancelled s = false -> attempt pl s = (ev, RErr e, s2) ->
      is_timeout e = false -> cancelled s2 = true ->
      retry_run pl left s ev (RErr FCtxCanceled) s2
  | RSleepCancel : forall left s ev e s2, cancelled s = false -> attempt pl s = (ev, RErr e, s2) ->
      is_timeout e = false -> cancelled s2 = false ->
      opt_nat_eqb (p_backoff_after pl) (c_idx (cur s2)) = true ->
      retry_run pl (S left) s ((ev ++ [EvSleep]) ++ [EvCancel]) (RErr FCtxCanceled) (set_cancelled s2)
  | RAgain : forall left s ev e s2 ev' r' s3, cancelled s = false -> attempt pl s = (ev, RErr e, s2) ->
      is_timeout e = false -> cancelled s2 = false ->
      opt_nat_eqb (p_backoff_after pl) (c_idx (cur s2)) = false ->
      retry_run pl left s2 ev' r' s3 ->
      retry_run pl (S left) s ((ev ++ [EvSleep]) ++ ev') r' s3.

Lemma retry_loop_run : forall pl left s ev r s',
  retry_loop pl left s = (ev, r, s') -> retry_run pl left s ev r s'.
Proof.
  intros pl left. induction left as [|left IH]; intros s ev r s' H; rewrite retry_loop_eq in H;
    (destruct (cancelled s) eqn:Ec; [injection H as <- <- <-; apply RDead, Ec|]);
    destruct (attempt pl s) as [[ev1 r1] s2] eqn:Ea;
    (destruct r1 as [i j|e]; [injection H as <- <- <-; apply (RReturn _ _ _ _ _ _ Ec Ea); discriminate|]);
    (destruct (is_timeout e) eqn:Et;
      [injection H as <- <- <-; apply (RReturn _ _ _ _ _ _ Ec Ea); intros ? [= <-]; auto|]);
    (destruct (cancelled s2) eqn:Ec2; [injection H as <- <- <-; exact (RCancelled _ _ _ _ _ _ Ec Ea Et Ec2)|]).
  - injection H as <- <- <-. apply (RReturn _ _ _ _ _ _ Ec Ea). intros ? [= <-]. auto.
  - destruct (opt_nat_eqb _ _) eqn:Eb.
    + injection H as <- <- <-. exact (RSleepCancel _ _ _ _ _ _ Ec Ea Et Ec2 Eb).
    + destruct (retry_loop pl left s2) as [[ev' r'] s3] eqn:Erl. injection H as <- <- <-.
      exact (RAgain _ _ _ _ _ _ _ _ _ Ec Ea Et Ec2 Eb (IH _ _ _ _ Erl)).
Qed.

Lemma retry_run_spec : forall pl left s ev r s',
  retry_run pl left s ev r s' -> drained s -> Inv s -> post FCtxCanceled (S left) s ev r s'.
Proof.
  induction 1 as [left s Hc | left s ev r s2 Hc Ha Ho | left s ev e s2 Hc Ha Ht Hc2
                 | left s ev e s2 Hc Ha Ht Hc2 Hb | left s ev e s2 ev' r' s3 Hc Ha Ht Hc2 Hb _ IH];
    intros Hd HI.
  - constructor; [apply frame_neutral; reflexivity|apply Nat.le_0_l|exact HI| |reflexivity].
    unfold err_ok. rewrite Hc. repeat split; auto. congruence.
  - apply (post_own 1); [exact (attempt_spec _ _ _ _ _ Ha Hc Hd)|lia|].
    intros e He. destruct (Ho e He) as [T|(_ & C & ->)]; [left; unfold passes; rewrite T; apply orb_true_r|auto].
  - destruct (attempt_spec _ _ _ _ _ Ha Hc Hd) as [F B I (D & Dr & _) _].
    constructor; [exact F|lia|exact I| |congruence].
    unfold err_ok. rewrite Hc2. repeat split; auto. congruence.
  - destruct (attempt_failed _ _ _ _ _ Ha Hc Hd Ht Hc2) as (F & D & O & Dr & _).
    exact (post_seq _ 1 (S left) _ _ _ _ _ _ F D O (post_cancel _ _ _ Dr)).
  - destruct (attempt_failed _ _ _ _ _ Ha Hc Hd Ht Hc2) as (F & D & O & Dr & I).
    exact (post_seq _ 1 (S left) _ _ _ _ _ _ F D O (IH Dr I)).
Qed.

Lemma recv_msg_inv : forall pl max s ev r s', recv_msg pl max s = (ev, r, s') ->
  (raw_recv pl s = (ev, r, s') /\ forall e, r = RErr e -> passes e = true) \/
  (exists ev1 e s1 ev', raw_recv pl s = (ev1, RErr e, s1) /\ passes e = false /\
     retry_run pl max s1 ev' r s' /\ ev = (ev1 ++ [EvBreak e]) ++ ev').
Proof.
  intros pl max s ev r s' H. unfold recv_msg in H.
  destruct (raw_recv pl s) as [[ev1 r1] s1]. destruct r1 as [i j|e].
  { injection H as <- <- <-. left. split; [reflexivity|discriminate]. }
  destruct (passes e) eqn:Ep.
  - left. destruct e; try discriminate Ep; injection H as <- <- <-;
      (split; [reflexivity|intros ? [= <-]; reflexivity]).
  - right. destruct (retry_loop pl max s1) as [[ev' r'] s2] eqn:Erl. apply retry_loop_run in Erl.
    exists ev1, e, s1, ev'. rewrite <- app_assoc.
    destruct e; try discriminate Ep; injection H as <- <- <-; auto.
Qed.

Lemma recv_msg_spec : forall pl max, recv_good FCtxCanceled (S max) (recv_msg pl max).
Proof.
  intros pl max s ev r s' H HI.
  destruct (recv_msg_inv _ _ _ _ _ _ H) as [[Er Hp]|(ev1 & e & s1 & ev' & Er & _ & Hl & ->)];
    pose proof (raw_recv_spec _ _ _ _ _ Er HI) as P.
  - apply (post_own 0); [exact P|lia|auto].
  - destruct P as [F B I (D & Dr & _) _].
    apply (post_seq _ 0 (S max) _ _ s1); [|rewrite deliveries_app, D; reflexivity|rewrite opens_app; change (opens [EvBreak e]) with 0; lia|].
    + exact (frame_seq _ _ _ _ _ F (frame_neutral s1 (EvBreak e) eq_refl)).
    + exact (retry_run_spec _ _ _ _ _ _ Hl Dr I).
Qed.

(* the loop ends with a failing call: [evl] is the trace of that last call *)
Lemma caller_spec : forall c b0 recv, recv_good c b0 recv ->
  forall fuel s ev fin s', caller recv fuel s = (ev, fin, s') -> Inv s -> length (pending s) < fuel ->
  frame s ev s' /\ opens ev <= fuel * b0 /\
  exists sl evp evl, ev = evp ++ evl /\ post c b0 sl evl (RErr fin) s'.
Proof.
  intros c b0 recv Hg. induction fuel as [|fuel IH]; intros s ev fin s' H HI Hf; [lia|].
  cbn [caller] in H. destruct (recv s) as [[ev1 r1] s1] eqn:Er.
  pose proof (Hg _ _ _ _ Er HI) as P1. destruct r1 as [i j|e].
  - destruct (caller recv fuel s1) as [[ev' fin'] s2] eqn:Ec. injection H as <- <- <-.
    destruct P1 as [F1 B1 I1 [D1 C1] _].
    assert (Hlen : length (pending s1) < fuel).
    { rewrite <- (fr_pending _ _ _ F1), D1 in Hf. simpl in Hf. lia. }
    destruct (IH _ _ _ _ Ec I1 Hlen) as (F2 & B2 & sl & evp & evl & -> & Pl).
    split; [exact (frame_seq _ _ _ _ _ F1 F2)|]. split; [rewrite opens_app; lia|].
    exists sl, (ev1 ++ evp), evl. split; [apply app_assoc|exact Pl].
  - injection H as <- <- <-. destruct P1 as [F1 B1 I1 R1 X1].
    split; [exact F1|]. split; [lia|].
    exists s, [], ev1. split; [reflexivity|constructor; assumption].
Qed.

Lemma init_spec : forall script r ev0 s0, init script r = (ev0, s0) ->
  ev0 = [EvOpen 0 r] /\ pending s0 = all_from 0 script /\ nxt s0 = 1 /\ rest s0 = skipn 1 script /\
  sent s0 = r /\ cancelled s0 = false.
Proof.
  intros script r ev0 s0 H. unfold init in H. destruct (pop script) as [sc t] eqn:Ep.
  injection H as <- <-. unfold pending. simpl. rewrite Nat.sub_0_r.
  unfold pop in Ep. destruct script as [|x l]; injection Ep as <- <-; repeat split; reflexivity.
Qed.

Lemma run_stream_caller : forall m max script pl r t fin,
  run_stream m max script pl r = (t, fin) ->
  exists s0 ev s', init script r = ([EvOpen 0 r], s0) /\ t = EvOpen 0 r :: ev /\
    caller (if need_retry m then recv_msg pl max else raw_recv pl) (S (total_msgs script)) s0 = (ev, fin, s').
Proof.
  intros m max script pl r t fin H. unfold run_stream in H.
  destruct (init script r) as [ev0 s0] eqn:Ei. destruct (init_spec _ _ _ _ Ei) as [-> _].
  destruct (caller _ (S (total_msgs script)) s0) as [[ev f] s'] eqn:Ec.
  injection H as <- <-. exists s0, ev, s'. auto.
Qed.

(* everything the theorems below say about a whole run, for either way of receiving *)
Lemma run_spec : forall c b0 recv script r s0 ev fin s',
  recv_good c b0 recv -> c <> FOutOfFuel ->
  init script r = ([EvOpen 0 r], s0) -> caller recv (S (total_msgs script)) s0 = (ev, fin, s') ->
  let t := EvOpen 0 r :: ev in
  (deliveries t = all_from 0 (firstn (opens t) script) /\ Forall (eq r) (requests t) /\ 1 <= opens t /\
   quiet t = true /\ fin <> FOutOfFuel) /\
  opens t = nxt s' /\ opens ev <= S (total_msgs script) * b0 /\ (has_cancel t = true -> fin = c) /\
  exists sl tp tl, t = tp ++ tl /\ post c b0 sl tl (RErr fin) s'.
Proof.
  intros c b0 recv script r s0 ev fin s' Hg Hc0 Hi Hc t.
  destruct (init_spec _ _ _ _ Hi) as (_ & P0 & N0 & R0 & S0 & C0).
  assert (I0 : Inv s0) by (intro Hx; congruence).
  assert (Hlen : length (pending s0) < S (total_msgs script)) by (rewrite P0, length_all_from; lia).
  destruct (caller_spec _ _ _ Hg _ _ _ _ _ Hc I0 Hlen) as ([P N R S Q M U Hh] & B & sl & evp & evl & -> & Pl).
  pose proof Pl as [_ _ _ (_ & Dr & E & _) _]. unfold err_ok in E.
  assert (Hop : opens t = 1 + opens (evp ++ evl)) by reflexivity.
  repeat split.
  - rewrite Hop. change (deliveries t) with (deliveries (evp ++ evl)).
    rewrite (pending_drained _ Dr), P0, (all_from_split (1 + opens (evp ++ evl)) script 0) in P.
    rewrite N, N0, R, R0, <- skipn_add in P. apply app_inv_tail in P. exact P.
  - constructor; [reflexivity|]. rewrite <- S0. exact Q.
  - lia.
  - exact U.
  - destruct (cancelled s'); [congruence|]. destruct (c_end (cur s')); subst fin; discriminate.
  - rewrite Hop, N, N0. reflexivity.
  - exact B.
  - intro Hx. rewrite (Hh Hx) in E. exact E.
  - exists sl, (EvOpen 0 r :: evp), evl. split; [reflexivity|exact Pl].
Qed.

(* watch streams (methods in RPCNeedRetry) *)
Lemma watch_run_caller : forall m max script pl r t fin,
  need_retry m = true -> run_stream m max script pl r = (t, fin) ->
  exists s0 ev s', init script r = ([EvOpen 0 r], s0) /\ t = EvOpen 0 r :: ev /\
    caller (recv_msg pl max) (S (total_msgs script)) s0 = (ev, fin, s').
Proof.
  intros m max script pl r t fin Hm H.
  destruct (run_stream_caller _ _ _ _ _ _ _ H) as (s0 & ev & s' & Hi & Ht & Hc). rewrite Hm in Hc.
  exists s0, ev, s'. auto.
Qed.

Theorem retry_run_statement : forall m max script pl r t fin,
  need_retry m = true -> run_stream m max script pl r = (t, fin) ->
  deliveries t = all_from 0 (firstn (opens t) script) /\
  Forall (eq r) (requests t) /\
  1 <= opens t /\
  quiet t = true /\
  fin <> FOutOfFuel.
Proof.
  intros m max script pl r t fin Hm H.
  destruct (watch_run_caller _ _ _ _ _ _ _ Hm H) as (s0 & ev & s' & Hi & -> & Hc).
  apply (run_spec _ _ _ _ _ _ _ _ _ (recv_msg_spec pl max) ltac:(discriminate) Hi Hc).
Qed.

(* a watch stream whose context was cancelled ends with context.Canceled *)
Theorem retry_run_cancel : forall m max script pl r t fin,
  need_retry m = true -> run_stream m max script pl r = (t, fin) ->
  has_cancel t = true -> fin = FCtxCanceled.
Proof.
  intros m max script pl r t fin Hm H.
  destruct (watch_run_caller _ _ _ _ _ _ _ Hm H) as (s0 & ev & s' & Hi & -> & Hc).
  apply (run_spec _ _ _ _ _ _ _ _ _ (recv_msg_spec pl max) ltac:(discriminate) Hi Hc).
Qed.

(* other streaming calls are passed through: one stream, its messages, its error *)
Theorem passthrough_statement : forall m max script pl r t fin,
  need_retry m = false -> run_stream m max script pl r = (t, fin) ->
  opens t = 1 /\ deliveries t = all_from 0 (firstn 1 script) /\ fin <> FOutOfFuel.
Proof.
  intros m max script pl r t fin Hm H.
  destruct (run_stream_caller _ _ _ _ _ _ _ H) as (s0 & ev & s' & Hi & -> & Hc). rewrite Hm in Hc.
  destruct (run_spec _ _ _ _ _ _ _ _ _ (raw_recv_spec pl) ltac:(discriminate) Hi Hc) as ((D & _ & _ & _ & Nf) & _ & B & _).
  assert (O : opens (EvOpen 0 r :: ev) = 1) by (change (S (opens ev) = 1); lia).
  rewrite O in D. auto.
Qed.

(* at most Max+1 new streams are opened, each carrying the recorded request *)
Theorem recv_msg_budget : forall pl max s ev r s', Inv s ->
  recv_msg pl max s = (ev, r, s') ->
  opens ev <= S max /\ Forall (eq (sent s)) (requests ev).
Proof.
  intros pl max s ev r s' HI H. destruct (recv_msg_spec _ _ _ _ _ _ H HI) as [F B _ _ _].
  split; [exact B|exact (fr_requests _ _ _ F)].
Qed.

(* when the call fails although the context is alive and the stream is not
   blocked, all Max+1 attempts were made, none of them delivered anything, and
   the error returned is the one of the last attempt's stream *)
Theorem recv_msg_exhausted : forall pl max s ev e s', Inv s ->
  recv_msg pl max s = (ev, RErr e, s') -> cancelled s' = false -> e <> FTimeout ->
  opens ev = S max /\ deliveries ev = [] /\ e = err_of (c_end (cur s')) /\ (e = FBreak \/ e = FEOF).
Proof.
  intros pl max s ev e s' HI H Hc Hn.
  destruct (recv_msg_spec _ _ _ _ _ _ H HI) as [_ _ _ (D & _ & E & O) _].
  unfold err_ok in E. rewrite Hc in E.
  repeat split; auto. subst e. destruct (c_end (cur s')); simpl in *; auto. congruence.
Qed.

(* a call made after the caller cancelled reaches the server with nothing and
   returns context.Canceled *)
Theorem recv_msg_cancelled : forall pl max s ev r s', Inv s -> cancelled s = true ->
  recv_msg pl max s = (ev, r, s') -> opens ev = 0 /\ r = RErr FCtxCanceled.
Proof.
  intros pl max s ev r s' HI Hc H. destruct (recv_msg_spec _ _ _ _ _ _ H HI) as [F _ _ _ X].
  split; [apply (fr_dead _ _ _ F Hc)|exact (X Hc)].
Qed.

(* a successful call returns exactly one message, the next one owed *)
Theorem recv_msg_delivers : forall pl max s ev i j s', Inv s ->
  recv_msg pl max s = (ev, RMsg i j, s') -> pending s = (i, j) :: pending s'.
Proof.
  intros pl max s ev i j s' HI H. destruct (recv_msg_spec _ _ _ _ _ _ H HI) as [F _ _ [D _] _].
  rewrite <- (fr_pending _ _ _ F), D. reflexivity.
Qed.

Theorem unary_facts : forall left script idx r t fin,
  unary_loop left script idx r = (t, fin) ->
  1 <= opens t /\ opens t <= S left /\ Forall (eq r) (requests t) /\
  (fin = FNone \/ (fin = FBreak /\ opens t = S left)).
Proof.
  induction left as [|left IH]; intros script idx r t fin H; cbn [unary_loop] in H;
    destruct (pop script) as [sc tl]; destruct (0 <? s_msgs sc);
    try (injection H as <- <-; unfold opens; simpl; repeat split; auto; lia).
  destruct (unary_loop left tl (S idx) r) as [ev f] eqn:Eu. injection H as <- <-.
  destruct (IH _ _ _ _ _ Eu) as (A & B & C & D).
  unfold opens in *. simpl. repeat split; auto; try lia.
  destruct D as [D|[D1 D2]]; [left; exact D|right; split; [exact D1|lia]].
Qed.

(* with the budget client.dial configures (Max = 0) a unary call is invoked exactly once *)
Theorem unary_once : forall script pl r t fin, run MUnary 0 script pl r = (t, fin) -> opens t = 1.
Proof.
  intros script pl r t fin H. cbn [run] in H.
  destruct (unary_facts _ _ _ _ _ _ H) as (A & B & _). lia.
Qed.

(* with a positive budget NewUnaryRetry does re-invoke unary calls (by design) *)
Example unary_retried_with_budget :
  opens (fst (run MUnary 2 [mkS 0 EErr; mkS 1 EErr] (mkPlan false None) the_req)) = 2.
Proof. vm_compute. reflexivity. Qed.

(* concrete runs (the first two are corpus cases of the harness) *)
Example run_example_budget0 :
  run MWorkloadStatus 0 [mkS 2 EErr; mkS 1 EEOF; mkS 0 EErr] (mkPlan false None) 7 =
  ([EvOpen 0 7; EvDeliver 0 0; EvDeliver 0 1; EvBreak FBreak; EvOpen 1 7; EvDeliver 1 0;
    EvBreak FEOF; EvOpen 2 7], FBreak).
Proof. vm_compute. reflexivity. Qed.

Example run_example_cancel_in_backoff :
  run MWatchService 2 [mkS 1 EErr; mkS 0 EErr; mkS 3 EErr] (mkPlan false (Some 1)) 7 =
  ([EvOpen 0 7; EvDeliver 0 0; EvBreak FBreak; EvOpen 1 7; EvSleep; EvCancel], FCtxCanceled).
Proof. vm_compute. reflexivity. Qed.

Example run_example_cancel_on_hang :
  run MWatchService 2 [mkS 2 EHang; mkS 5 EErr] (mkPlan true None) 7 =
  ([EvOpen 0 7; EvDeliver 0 0; EvDeliver 0 1; EvCancel; EvBreak FStatusCanceled; EvLocalOpenFail], FCtxCanceled).
Proof. vm_compute. reflexivity. Qed.

(* linking the client state to the server script *)
Record Link (script : list sscript) (s : st) : Prop := mkLink {
  l_rest : rest s = skipn (nxt s) script;
  l_nxt : 1 <= nxt s;
  l_end : c_end (cur s) = s_end (nth_script script (nxt s - 1));
  l_total : c_total (cur s) = s_msgs (nth_script script (nxt s - 1)) }.

Lemma pop_skipn : forall k (l : list sscript),
  pop (skipn k l) = (nth k l (mkS 0 EErr), skipn (S k) l).
Proof.
  induction k as [|k IH]; intros l.
  - destruct l; reflexivity.
  - destruct l as [|x l]; [reflexivity|]. cbn [skipn nth]. apply IH.
Qed.

Lemma link_init : forall script r ev0 s0, init script r = (ev0, s0) -> Link script s0.
Proof.
  intros script r ev0 s0 H. unfold init in H. change script with (skipn 0 script) in H at 1.
  rewrite pop_skipn in H. injection H as <- <-.
  constructor; cbn [rest nxt cur c_idx c_end c_total s_msgs s_end Nat.sub]; try reflexivity; lia.
Qed.

Lemma link_open : forall script s eo s1, Link script s -> open_stream s = (eo, s1) -> Link script s1.
Proof.
  intros script s eo s1 [R N E T] H. unfold open_stream in H. rewrite R, pop_skipn in H.
  injection H as <- <-. constructor; cbn [rest nxt cur c_idx c_end c_total s_msgs s_end];
    rewrite ?Nat.sub_succ, ?Nat.sub_0_r; try reflexivity; lia.
Qed.

Lemma link_cancel : forall script s, Link script s -> Link script (set_cancelled s).
Proof. intros script s [R N E T]. constructor; assumption. Qed.

Lemma link_raw : forall script pl s ev r s', Link script s -> raw_recv pl s = (ev, r, s') -> Link script s'.
Proof.
  intros script pl s ev r s' L H. unfold raw_recv in H.
  destruct (cancelled s); [injection H as <- <- <-; exact L|].
  destruct (c_next (cur s) <? c_total (cur s)).
  - injection H as <- <- <-. destruct L. constructor; assumption.
  - destruct (c_end (cur s)); [| |destruct (p_on_hang pl)]; injection H as <- <- <-;
      try exact L. exact (link_cancel _ _ L).
Qed.

Lemma link_attempt : forall script pl s ev r s2, Link script s -> attempt pl s = (ev, r, s2) -> Link script s2.
Proof.
  intros script pl s ev r s2 L H. unfold attempt in H.
  destruct (open_stream s) as [eo s1] eqn:Eo. destruct (raw_recv pl s1) as [[ev1 r1] s1'] eqn:Er.
  injection H as <- <- <-. exact (link_raw _ _ _ _ _ _ (link_open _ _ _ _ L Eo) Er).
Qed.

Lemma link_retry : forall script pl left s ev r s', retry_run pl left s ev r s' -> Link script s -> Link script s'.
Proof. induction 1; intro L; eauto using link_attempt, link_cancel. Qed.

Lemma link_recv_msg : forall script pl max s ev r s', Link script s -> recv_msg pl max s = (ev, r, s') -> Link script s'.
Proof.
  intros script pl max s ev r s' L H.
  destruct (recv_msg_inv _ _ _ _ _ _ H) as [[Er _]|(ev1 & e & s1 & ev' & Er & _ & Hl & _)].
  - exact (link_raw _ _ _ _ _ _ L Er).
  - exact (link_retry _ _ _ _ _ _ _ Hl (link_raw _ _ _ _ _ _ L Er)).
Qed.

Lemma link_caller : forall script recv,
  (forall s ev r s', Link script s -> recv s = (ev, r, s') -> Link script s') ->
  forall fuel s ev fin s', Link script s -> caller recv fuel s = (ev, fin, s') -> Link script s'.
Proof.
  intros script recv Hr. induction fuel as [|fuel IH]; intros s ev fin s' L H; cbn [caller] in H.
  - injection H as _ _ <-. exact L.
  - destruct (recv s) as [[ev1 r1] s1] eqn:Er. pose proof (Hr _ _ _ _ L Er) as L1.
    destruct r1 as [i j|e]; [|injection H as _ _ <-; exact L1].
    destruct (caller recv fuel s1) as [[ev' f'] s2] eqn:Ec. injection H as _ _ <-. exact (IH _ _ _ _ L1 Ec).
Qed.

(* exhausted budget, whole run: a watch stream that ends with anything but
   context.Canceled, and is not blocked for ever, ends with the error of the LAST
   stream that reached the server (script entry opens-1: status error or io.EOF),
   its last RecvMsg having made all Max+1 attempts without receiving anything *)
Theorem retry_run_exhausted : forall m max script pl r t fin,
  need_retry m = true -> run_stream m max script pl r = (t, fin) ->
  fin <> FCtxCanceled -> fin <> FTimeout ->
  fin = err_of (s_end (nth_script script (opens t - 1))) /\ (fin = FBreak \/ fin = FEOF) /\
  exists tp tl, t = tp ++ tl /\ opens tl = S max /\ deliveries tl = [].
Proof.
  intros m max script pl r t fin Hm H Hnc Hnt.
  destruct (watch_run_caller _ _ _ _ _ _ _ Hm H) as (s0 & ev & s' & Hi & -> & Hc).
  destruct (run_spec _ _ _ _ _ _ _ _ _ (recv_msg_spec pl max) ltac:(discriminate) Hi Hc)
    as (_ & Hop & _ & _ & sl & tp & tl & Ht & [_ _ _ (D & _ & E & O) _]).
  pose proof (link_caller script _ (link_recv_msg script pl max) _ _ _ _ _ (link_init _ _ _ _ Hi) Hc) as [_ _ Le _].
  unfold err_ok in E. destruct (cancelled s'); [congruence|].
  rewrite Hop, <- Le, <- E. split; [reflexivity|]. split; [subst fin; apply err_of_cases, Hnt|].
  exists tp, tl. auto.
Qed.
