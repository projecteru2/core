(* C36: whole-run characterisation of a watch stream without cancellation and
   without hanging streams: which streams are opened ("no earlier window": the
   client neither gives up early nor goes on longer than its budget), and the
   boolean reflection [ok] of the harness accepts the model on every such input. *)
From Coq Require Import List Bool Arith Lia.
From Verif Require Import Rpc.Retry Rpc.RetryProofs.
Import ListNotations.

Definition plain : plan := mkPlan false None.
Definition NoHang (script : list sscript) : Prop := forall i, s_end (nth_script script i) <> EHang.
Definition nonempty (script : list sscript) (i : nat) : Prop := 0 < s_msgs (nth_script script i).

Lemma empty_fail_of : forall script i, NoHang script -> s_msgs (nth_script script i) = 0 ->
  empty_fail (nth_script script i) = true.
Proof.
  intros script i Hn H. unfold empty_fail. rewrite H. simpl.
  specialize (Hn i). destruct (s_end (nth_script script i)); try reflexivity. congruence.
Qed.

Lemma nonempty_not_empty_fail : forall script i, nonempty script i -> empty_fail (nth_script script i) = false.
Proof.
  intros script i H. unfold nonempty in H. unfold empty_fail.
  destruct (s_msgs (nth_script script i)); [lia|reflexivity].
Qed.

Lemma raw_plain : forall script s ev r s',
  NoHang script -> Link script s -> cancelled s = false -> raw_recv plain s = (ev, r, s') ->
  cancelled s' = false /\ nxt s' = nxt s /\
  match r with
  | RMsg _ _ => c_next (cur s) < c_total (cur s)
  | RErr e => c_total (cur s) <= c_next (cur s) /\ (e = FBreak \/ e = FEOF) /\ s' = s
  end.
Proof.
  intros script s ev r s' Hn L Hc H. unfold raw_recv in H. rewrite Hc in H.
  destruct (c_next (cur s) <? c_total (cur s)) eqn:E.
  - inversion H; subst; clear H. apply Nat.ltb_lt in E. cbn [cancelled nxt]. auto.
  - apply Nat.ltb_ge in E. destruct L as [_ _ Le _].
    destruct (c_end (cur s)) eqn:Ee.
    + inversion H; subst. repeat split; auto.
    + inversion H; subst. repeat split; auto.
    + exfalso. apply (Hn (nxt s - 1)). rewrite <- Le. reflexivity.
Qed.

Lemma attempt_plain : forall script s ev r s2,
  NoHang script -> Link script s -> cancelled s = false -> attempt plain s = (ev, r, s2) ->
  cancelled s2 = false /\ nxt s2 = S (nxt s) /\
  match r with
  | RMsg _ _ => nonempty script (nxt s)
  | RErr e => empty_fail (nth_script script (nxt s)) = true /\ (e = FBreak \/ e = FEOF)
  end.
Proof.
  intros script s ev r s2 Hn L Hc H. unfold attempt in H.
  destruct (open_stream s) as [eo s1] eqn:Eo. pose proof (link_open _ _ _ _ L Eo) as L1.
  assert (Hs1 : cancelled s1 = false /\ nxt s1 = S (nxt s) /\ c_next (cur s1) = 0).
  { unfold open_stream in Eo. destruct (pop (rest s)). injection Eo as _ <-. auto. }
  destruct Hs1 as (Hc1 & Hn1 & Hnext1).
  destruct (raw_recv plain s1) as [[ev1 r1] s1'] eqn:Er. injection H as _ <- <-.
  destruct (raw_plain _ _ _ _ _ Hn L1 Hc1 Er) as (Hc2 & Hn2 & Hr).
  pose proof (l_total _ _ L1) as Lt. rewrite Hn1, Nat.sub_succ, Nat.sub_0_r in Lt.
  rewrite Hn2, Hn1. split; [exact Hc2|]. split; [reflexivity|].
  destruct r1 as [i j|e].
  - unfold nonempty. lia.
  - destruct Hr as (Hd & He & _). split; [apply empty_fail_of; [exact Hn|lia]|exact He].
Qed.

Definition opened_empty (script : list sscript) (a b : nat) : Prop :=
  forall i, a <= i < b -> empty_fail (nth_script script i) = true.

Lemma retry_plain : forall script left s ev r s',
  retry_run plain left s ev r s' -> NoHang script -> Link script s -> cancelled s = false ->
  cancelled s' = false /\ nxt s' <= nxt s + S left /\
  match r with
  | RMsg _ _ => nonempty script (nxt s' - 1)
  | RErr e => opened_empty script (nxt s) (nxt s') /\ nxt s' = nxt s + S left /\ (e = FBreak \/ e = FEOF)
  end.
Proof.
  induction 1 as [left s Hc | left s ev r s2 Hc Ha Ho | left s ev e s2 Hc Ha Ht Hc2
                 | left s ev e s2 Hc Ha Ht Hc2 Hb | left s ev e s2 ev' r' s3 Hc Ha Ht Hc2 Hb _ IH];
    intros Hn L Hc0; [congruence| | | |];
    destruct (attempt_plain _ _ _ _ _ Hn L Hc Ha) as (C2 & N2 & R); [| congruence | discriminate Hb |].
  - rewrite N2, ?Nat.sub_succ, ?Nat.sub_0_r.
    split; [exact C2|]. split; [lia|].
    destruct r as [i j|e]; [exact R|]. destruct R as [E B].
    destruct (Ho e eq_refl) as [T|(_ & _ & ->)]; [destruct B; subst e; discriminate T|].
    split; [|split; [lia|exact B]]. intros i Hi. replace i with (nxt s) by lia. exact E.
  - destruct R as [E _].
    destruct (IH Hn (link_attempt _ _ _ _ _ _ L Ha) C2) as (C3 & Hle & Hres). rewrite N2 in *.
    split; [exact C3|]. split; [lia|].
    destruct r' as [i j|e']; [exact Hres|]. destruct Hres as (A & B & C). split; [|split; [lia|exact C]].
    intros i Hi. destruct (Nat.eq_dec i (nxt s)) as [->|Hne]; [exact E|apply A; lia].
Qed.

Lemma recv_plain : forall script max s ev r s',
  NoHang script -> Link script s -> cancelled s = false ->
  recv_msg plain max s = (ev, r, s') ->
  cancelled s' = false /\
  match r with
  | RMsg _ _ =>
      nxt s' = nxt s \/
      (nxt s' <= nxt s + S max /\ nonempty script (nxt s' - 1))
  | RErr e =>
      nxt s' = nxt s + S max /\ opened_empty script (nxt s) (nxt s') /\
      e = err_of (s_end (nth_script script (nxt s' - 1)))
  end.
Proof.
  intros script max s ev r s' Hn L Hc H.
  destruct (recv_msg_inv _ _ _ _ _ _ H) as [[Er Hp]|(ev1 & e & s1 & ev' & Er & _ & Hl & ->)];
    destruct (raw_plain _ _ _ _ _ Hn L Hc Er) as (Hc1 & Hn1 & Hr).
  - destruct r as [i j|e]; [split; [exact Hc1|left; exact Hn1]|].
    destruct Hr as (_ & [->| ->] & _); discriminate (Hp _ eq_refl).
  - destruct Hr as (_ & _ & ->).
    destruct (retry_plain _ _ _ _ _ _ Hl Hn L Hc) as (Hc2 & Hle & Hres).
    split; [exact Hc2|]. destruct r as [i j|e'].
    + right. split; assumption.
    + destruct Hres as (A & B & C). split; [exact B|]. split; [exact A|].
      (* the error is the ending of the last opened stream *)
      pose proof (link_retry _ _ _ _ _ _ _ Hl L) as [_ _ Le _].
      assert (HI : Inv s) by (intro Hx; congruence).
      assert (Hnt : e' <> FTimeout) by (destruct C; subst; discriminate).
      destruct (recv_msg_exhausted _ _ _ _ _ _ HI H Hc2 Hnt) as (_ & _ & Ee & _).
      rewrite Ee, Le. reflexivity.
Qed.

Lemma all_empty_spec : forall script n p,
  all_empty script p n = true <-> (forall i, p <= i < p + n -> empty_fail (nth_script script i) = true).
Proof.
  intros script. induction n as [|n IH]; intros p; cbn [all_empty].
  - split; [intros _ i Hi; lia|reflexivity].
  - rewrite andb_true_iff, IH. split.
    + intros [H0 H1] i Hi. destruct (Nat.eq_dec i p) as [->|Hne]; [exact H0|apply H1; lia].
    + intros H. split; [apply H; lia|intros i Hi; apply H; lia].
Qed.

Lemma window_broken : forall script max p i,
  p <= i <= p + max -> nonempty script i -> all_empty script p (S max) = false.
Proof.
  intros script max p i Hi Hne. destruct (all_empty script p (S max)) eqn:E; [|reflexivity].
  rewrite all_empty_spec in E. specialize (E i ltac:(lia)).
  rewrite (nonempty_not_empty_fail _ _ Hne) in E. discriminate.
Qed.

Lemma no_early_window_spec : forall script max cnt a,
  (forall p, a <= p < a + cnt -> all_empty script p (S max) = false) ->
  no_early_window script max a cnt = true.
Proof.
  intros script max. induction cnt as [|cnt IH]; intros a H; cbn [no_early_window]; [reflexivity|].
  rewrite (H a) by lia. cbn [negb andb]. apply IH. intros p Hp. apply H. lia.
Qed.

(* invariant of the caller's loop: every window of max+1 streams that starts at or
   before the current stream (the initial one apart) contains a stream that delivered *)
Record WInv (script : list sscript) (max : nat) (s : st) : Prop := mkW {
  w_link : Link script s;
  w_alive : cancelled s = false;
  w_windows : forall p, 1 <= p <= nxt s - 1 -> all_empty script p (S max) = false }.

Lemma winv_step : forall script max s ev i j s',
  NoHang script -> WInv script max s -> recv_msg plain max s = (ev, RMsg i j, s') -> WInv script max s'.
Proof.
  intros script max s ev i j s' Hn [L Hc Hw] H.
  destruct (recv_plain _ _ _ _ _ _ Hn L Hc H) as (Hc' & Hr).
  pose proof (link_recv_msg _ _ _ _ _ _ _ L H) as L'.
  constructor; try assumption. intros p Hp.
  destruct Hr as [Hsame|(Hle & Hne)]; [apply Hw; lia|].
  destruct (le_lt_dec p (nxt s - 1)) as [Hold|Hnew]; [apply Hw; lia|].
  (* the window starts at a stream opened by this call: it reaches the one that delivered *)
  apply (window_broken script max p (nxt s' - 1)); [lia|exact Hne].
Qed.

Lemma caller_plain : forall script max fuel s ev fin s',
  NoHang script -> WInv script max s ->
  caller (recv_msg plain max) fuel s = (ev, fin, s') -> fin <> FOutOfFuel ->
  let n := nxt s' in
  S (S max) <= n /\
  all_empty script (n - S max) (S max) = true /\
  no_early_window script max 1 (n - S max - 1) = true /\
  fin = err_of (s_end (nth_script script (n - 1))).
Proof.
  intros script max. induction fuel as [|fuel IH]; intros s ev fin s' Hn W H Hf; cbn [caller] in H.
  - inversion H; subst. congruence.
  - destruct (recv_msg plain max s) as [[ev1 r1] s1] eqn:Er. destruct r1 as [i j|e].
    + destruct (caller (recv_msg plain max) fuel s1) as [[ev' f'] s2] eqn:Ec. inversion H; subst; clear H.
      apply (IH s1 ev' fin s' Hn (winv_step _ _ _ _ _ _ _ Hn W Er) Ec Hf).
    + inversion H; subst; clear H. destruct W as [L Hc Hw].
      destruct (recv_plain _ _ _ _ _ _ Hn L Hc Er) as (_ & Hnx & Hemp & Hfin).
      pose proof (l_nxt _ _ L) as Hn1. cbv zeta.
      split; [lia|]. split; [|split; [|exact Hfin]].
      * apply all_empty_spec. intros i Hi. apply Hemp. lia.
      * apply no_early_window_spec. intros p Hp. apply Hw. lia.
Qed.

Theorem plain_run_shape : forall m max script r t fin,
  need_retry m = true -> NoHang script -> run_stream m max script plain r = (t, fin) ->
  let n := opens t in
  S (S max) <= n /\
  all_empty script (n - S max) (S max) = true /\
  no_early_window script max 1 (n - S max - 1) = true /\
  fin = err_of (s_end (nth_script script (n - 1))).
Proof.
  intros m max script r t fin Hm Hn H.
  destruct (watch_run_caller _ _ _ _ _ _ _ Hm H) as (s0 & ev & s' & Hi & -> & Hc).
  destruct (run_spec _ _ _ _ _ _ _ _ _ (recv_msg_spec plain max) ltac:(discriminate) Hi Hc)
    as ((_ & _ & _ & _ & Hf) & Hop & _).
  destruct (init_spec _ _ _ _ Hi) as (_ & _ & N0 & _ & _ & C0).
  assert (W0 : WInv script max s0).
  { constructor; [exact (link_init _ _ _ _ Hi)|exact C0|intros p Hp; lia]. }
  cbv zeta. rewrite Hop. exact (caller_plain _ _ _ _ _ _ _ Hn W0 Hc Hf).
Qed.

Lemma pair_list_eqb_refl : forall l, list_eqb pair_eqb l l = true.
Proof.
  induction l as [|[a b] l IH]; [reflexivity|]. cbn [list_eqb]. rewrite IH. unfold pair_eqb. cbn [fst snd].
  rewrite !Nat.eqb_refl. reflexivity.
Qed.

Lemma all_from_default : forall l i e, all_from i (map (fun _ : nat => mkS 0 e) l) = [].
Proof. induction l as [|x l IH]; intros i e; [reflexivity|]. cbn [map all_from]. rewrite IH. reflexivity. Qed.

Lemma all_from_map_nth : forall script n i,
  all_from i (map (nth_script script) (seq 0 n)) = all_from i (firstn n script).
Proof.
  induction script as [|x t IH]; intros n i.
  - rewrite firstn_nil. cbn [all_from].
    rewrite (map_ext (nth_script []) (fun _ => mkS 0 EErr)) by (intros k; unfold nth_script; destruct k; reflexivity).
    apply all_from_default.
  - destruct n as [|n]; [reflexivity|].
    cbn [seq map firstn all_from]. change (nth_script (x :: t) 0) with x. f_equal.
    rewrite <- seq_shift, map_map.
    rewrite (map_ext (fun k => nth_script (x :: t) (S k)) (nth_script t)) by (intros k; reflexivity).
    apply IH.
Qed.

Lemma nohang_no_hang_before : forall script n, NoHang script -> has_hang_before script n = false.
Proof.
  intros script n Hn. unfold has_hang_before.
  destruct (existsb _ (firstn n script)) eqn:E; [|reflexivity]. exfalso.
  apply existsb_exists in E. destruct E as [sc [Hin Hh]].
  assert (Hin' : In sc script) by (rewrite <- (firstn_skipn n script); apply in_or_app; left; exact Hin).
  apply (In_nth _ _ (mkS 0 EErr)) in Hin'. destruct Hin' as [k [_ Ek]].
  apply (Hn k). unfold nth_script. rewrite Ek. destruct (s_end sc); try discriminate. reflexivity.
Qed.

Theorem ok_on_model_plain : forall m max script t fin,
  need_retry m = true -> NoHang script -> run m max script plain the_req = (t, fin) ->
  ok (mkCase m max script plain (deliveries t) fin (opens t) (map (Nat.eqb the_req) (requests t))) = true.
Proof.
  intros m max script t fin Hm Hn H.
  assert (Hrs : run_stream m max script plain the_req = (t, fin)) by (destruct m; try discriminate; exact H).
  destruct (retry_run_statement _ _ _ _ _ _ _ Hm Hrs) as (Dl & Q & _).
  destruct (plain_run_shape _ _ _ _ _ _ Hm Hn Hrs) as (A1 & A2 & A3 & A4).
  unfold ok. cbn [c_script obs_opened c_max c_meth obs_delivered obs_reqok obs_final c_plan].
  assert (Hd : list_eqb pair_eqb (deliveries t) (all_from 0 (map (nth_script script) (seq 0 (opens t)))) = true).
  { rewrite all_from_map_nth, <- Dl. apply pair_list_eqb_refl. }
  assert (Hq : forallb (fun b : bool => b) (map (Nat.eqb the_req) (requests t)) = true).
  { apply forallb_forall. intros b Hb. apply in_map_iff in Hb. destruct Hb as [x [E Hx]]. subst b.
    rewrite Forall_forall in Q. rewrite <- (Q x Hx). apply Nat.eqb_refl. }
  assert (Hl : Nat.eqb (length (map (Nat.eqb the_req) (requests t))) (opens t) = true).
  { rewrite map_length. unfold opens. apply Nat.eqb_refl. }
  assert (H1 : (1 <=? opens t) = true) by (apply Nat.leb_le; lia).
  assert (Hex : (S (S max) <=? opens t) = true) by (apply Nat.leb_le; exact A1).
  assert (Hfin : final_eqb fin (err_of (s_end (nth_script script (opens t - 1)))) = true).
  { rewrite <- A4. destruct fin; reflexivity. }
  destruct m; try discriminate Hm; cbn [need_retry plain p_on_hang p_backoff_after andb];
    rewrite Hd, Hq, Hl, H1, (nohang_no_hang_before _ _ Hn), Hex, A2, A3, Hfin; reflexivity.
Qed.

Example nohang_example : NoHang [mkS 2 EErr; mkS 1 EEOF; mkS 0 EErr].
Proof. intros [|[|[|[|i]]]]; discriminate. Qed.
