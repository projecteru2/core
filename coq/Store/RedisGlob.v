(* The Redis key patterns of store/redis as glob patterns.

   Uses the glob matcher and escapeGlob model of coq/Names/Model.v (C24).  Shows that escapeGlob(prefix) ++ "*" is exactly a prefix
   test for every prefix, and that the five key patterns the Redis store builds
   select exactly the structural matches used by the models. *)
From Coq Require Import List Bool String Ascii.
From Verif Require Import Base.GoStr Names.Model Store.KVPrims Store.Ops Store.KeyStrings.
Import ListNotations.
Local Open Scope string_scope.

Lemma has_prefix_s2l : forall a b, has_prefix (s2l a) (s2l b) = String.prefix a b.
Proof.
  induction a as [|x a IH]; intros b; destruct b as [|y b]; simpl; try reflexivity.
  destruct (ascii_dec x y) as [E|E].
  - subst. rewrite Ascii.eqb_refl. apply IH.
  - apply Ascii.eqb_neq in E. rewrite E. reflexivity.
Qed.
Lemma s2l_app : forall a b, s2l (a ++ b) = (s2l a ++ s2l b)%list.
Proof. induction a; intros; simpl; [reflexivity | f_equal; apply IHa]. Qed.
Lemma escape_app : forall a b, escape_glob (a ++ b)%list = (escape_glob a ++ escape_glob b)%list.
Proof. induction a as [|c t IH]; intros; simpl; [reflexivity|]. destruct (is_meta c); simpl; rewrite IH; reflexivity. Qed.

Lemma glob_escape : forall p q s,
  glob (escape_glob p ++ q)%list s = has_prefix p s && glob q (skipn (List.length p) s).
Proof.
  induction p as [|c t IH]; intros q s.
  - simpl. reflexivity.
  - cbn [escape_glob]. destruct (is_meta c) eqn:M.
    + cbn [app glob]. change (Ascii.eqb backslash star) with false. change (Ascii.eqb backslash qmark) with false.
      change (Ascii.eqb backslash lbracket) with false. change (Ascii.eqb backslash backslash) with true. cbn iota.
      destruct s as [|x s']; [reflexivity|]. cbn [has_prefix List.length skipn]. rewrite IH, andb_assoc. reflexivity.
    + unfold is_meta in M. apply orb_false_iff in M. destruct M as [M M4]. apply orb_false_iff in M. destruct M as [M M3].
      apply orb_false_iff in M. destruct M as [M1 M2].
      cbn [app glob]. rewrite M1, M2, M3, M4.
      destruct s as [|x s']; [reflexivity|]. cbn [has_prefix List.length skipn]. rewrite IH, andb_assoc. reflexivity.
Qed.
Lemma glob_star_all : forall s, glob [star] s = true.
Proof. intro s. cbn [glob]. rewrite Ascii.eqb_refl. induction s as [|x s IH]; [reflexivity|]. cbn [glob orb]. exact IH. Qed.
Lemma glob_escaped_prefix : forall p s, glob (escape_glob (s2l p) ++ [star])%list (s2l s) = String.prefix p s.
Proof. intros. rewrite glob_escape, glob_star_all, andb_true_r. apply has_prefix_s2l. Qed.

Definition star_s : bytes := [star].
Definition pat_pods : bytes := (s2l "/pod/info/" ++ star_s)%list.                                   (* fmt.Sprintf(podInfoKey, "*") *)
Definition pat_nodepod (p : name) : bytes := (s2l "/node/" ++ escape_glob (s2l p) ++ s2l ":pod/" ++ star_s)%list.
Definition pat_nodewl (n : name) : bytes := (s2l "/node/" ++ escape_glob (s2l n) ++ s2l ":workloads/" ++ star_s)%list.
Definition pat_proc (a e : name) : bytes := (escape_glob (s2l ("/processing/" ++ a ++ "/" ++ e)) ++ s2l "/*")%list.
(* filepath.Join(prefix, app, entry, node) drops empty elements *)
Definition deploy_path (a e n : name) : string :=
  "/deploy" ++ (if String.eqb a "" then "" else
     "/" ++ a ++ (if String.eqb e "" then "" else "/" ++ e ++ (if String.eqb n "" then "" else "/" ++ n))).
Definition pat_deploy (a e n : name) : bytes := (escape_glob (s2l (deploy_path a e n)) ++ s2l "/*")%list.

Lemma app_assoc_s : forall a b c : string, (a ++ b) ++ c = a ++ (b ++ c).
Proof. induction a; intros; simpl; [reflexivity | f_equal; apply IHa]. Qed.
Lemma deploy_path_slash : forall a e n, deploy_path a e n ++ "/" = pfx_deploy a e n.
Proof.
  intros. unfold deploy_path, pfx_deploy.
  destruct (String.eqb a ""); [reflexivity|].
  destruct (String.eqb e ""); [cbn; rewrite !app_assoc_s; reflexivity|].
  destruct (String.eqb n ""); cbn; rewrite !app_assoc_s; cbn; rewrite ?app_assoc_s; reflexivity.
Qed.

Lemma pat_nodepod_eq : forall p, pat_nodepod p = (escape_glob (s2l (pfx_nodepod p)) ++ [star])%list.
Proof. intros. unfold pat_nodepod, pfx_nodepod, star_s. rewrite !s2l_app, !escape_app, <- !app_assoc. reflexivity. Qed.
Lemma pat_nodewl_eq : forall n, pat_nodewl n = (escape_glob (s2l (pfx_nodewl n)) ++ [star])%list.
Proof. intros. unfold pat_nodewl, pfx_nodewl, star_s. rewrite !s2l_app, !escape_app, <- !app_assoc. reflexivity. Qed.
Lemma pat_proc_eq : forall a e, pat_proc a e = (escape_glob (s2l (pfx_proc a e)) ++ [star])%list.
Proof.
  intros. unfold pat_proc, pfx_proc.
  replace ("/processing/" ++ a ++ "/" ++ e ++ "/") with (("/processing/" ++ a ++ "/" ++ e) ++ "/")
    by (cbn; rewrite !app_assoc_s; reflexivity).
  rewrite (s2l_app _ "/"), escape_app, <- app_assoc. reflexivity.
Qed.
Lemma pat_deploy_eq : forall a e n, pat_deploy a e n = (escape_glob (s2l (pfx_deploy a e n)) ++ [star])%list.
Proof. intros. unfold pat_deploy. rewrite <- deploy_path_slash, s2l_app, escape_app, <- app_assoc. reflexivity. Qed.

(* every Redis key pattern selects exactly the structural matches -- for key and
   parameter names without '/' and ':'; glob metacharacters in names are harmless
   because the store escapes them *)
Definition redis_patterns_exact_stmt : Prop :=
  forall k, key_safe k = true ->
    glob pat_pods (s2l (render k)) = is_pod_key k /\
    (forall p, no_sep p = true -> glob (pat_nodepod p) (s2l (render k)) = nodepod_under p k) /\
    (forall n, no_sep n = true -> glob (pat_nodewl n) (s2l (render k)) = nodewl_under n k) /\
    (forall a e, no_sep a = true -> no_sep e = true -> glob (pat_proc a e) (s2l (render k)) = proc_under a e k) /\
    (forall a e n, no_sep a = true -> no_sep e = true -> no_sep n = true ->
       (a = "" -> e = "") -> (e = "" -> n = "") ->
       glob (pat_deploy a e n) (s2l (render k)) = deploy_under a e n k).
Lemma redis_patterns_exact_holds : redis_patterns_exact_stmt.
Proof.
  intros k S. repeat split; intros.
  - change pat_pods with (escape_glob (s2l pfx_pods) ++ [star])%list. rewrite glob_escaped_prefix. apply scan_pods_exact; assumption.
  - rewrite pat_nodepod_eq, glob_escaped_prefix. apply scan_nodepod_exact; assumption.
  - rewrite pat_nodewl_eq, glob_escaped_prefix. apply scan_nodewl_exact; assumption.
  - rewrite pat_proc_eq, glob_escaped_prefix. apply scan_proc_exact; assumption.
  - rewrite pat_deploy_eq, glob_escaped_prefix. apply scan_deploy_exact; assumption.
Qed.
(* without the escaping a name containing '*' would select foreign keys *)
Example unescaped_star_leaks :
  glob (s2l "/node/" ++ s2l "n*" ++ s2l ":workloads/" ++ star_s)%list (s2l (render (KNodeWl "n1" "w0"))) = true
  /\ glob (pat_nodewl "n*") (s2l (render (KNodeWl "n1" "w0"))) = false.
Proof. split; vm_compute; reflexivity. Qed.
