(* The etcd store model refines the abstract specification. *)
From Coq Require Import List Bool ZArith Lia.
From Verif Require Import Base.ListFacts.
From Verif Require Import Store.KVPrims Store.KVLemmas Store.Ops Store.Status Store.Spec Store.EtcdModel Store.Case.
Import ListNotations.
Local Open Scope Z_scope.

Definition mapv {V W} (f : V -> W) (m : list (key * V)) : list (key * W) :=
  map (fun kv => (fst kv, f (snd kv))) m.

Section Mapv.
  Context {V W : Type} (f : V -> W).
  Lemma lookup_mapv : forall m k, lookup (mapv f m) k = option_map f (lookup m k).
  Proof. induction m as [|[k0 v0] t IH]; intro k; simpl; [reflexivity|]. destruct (key_eqb k k0); [reflexivity | apply IH]. Qed.
  Lemma mem_mapv : forall m k, mem (mapv f m) k = mem m k.
  Proof. intros. unfold mem. rewrite lookup_mapv. destruct (lookup m k); reflexivity. Qed.
  Lemma put_mapv : forall m k v, put (mapv f m) k (f v) = mapv f (put m k v).
  Proof. induction m as [|[k0 v0] t IH]; intros k v; simpl; [reflexivity|].
    destruct (key_eqb k k0); simpl; [reflexivity | f_equal; apply IH]. Qed.
  Lemma filter_key_mapv : forall (p : key -> bool) m,
    filter (fun kv => p (fst kv)) (mapv f m) = mapv f (filter (fun kv => p (fst kv)) m).
  Proof. induction m as [|[k0 v0] t IH]; simpl; [reflexivity|]. destruct (p k0); simpl; [f_equal|]; apply IH. Qed.
  Lemma del_mapv : forall m k, del (mapv f m) k = mapv f (del m k).
  Proof. intros. unfold del. apply (filter_key_mapv (fun x => negb (key_eqb k x))). Qed.
  Lemma ins_mapv : forall x m, ins (fst x, f (snd x)) (mapv f m) = mapv f (ins x m).
  Proof. intros x. induction m as [|[k0 v0] t IH]; simpl; [reflexivity|].
    destruct (key_leb (fst x) k0); simpl; [reflexivity | f_equal; apply IH]. Qed.
  Lemma isort_mapv : forall m, isort (mapv f m) = mapv f (isort m).
  Proof. induction m as [|x t IH]; simpl; [reflexivity|]. rewrite IH. apply ins_mapv. Qed.
  Lemma scan_mapv : forall m p, scan (mapv f m) p = mapv f (scan m p).
  Proof. intros. unfold scan. rewrite filter_key_mapv. apply isort_mapv. Qed.
  Lemma keys_mapv : forall m, map fst (mapv f m) = map fst m.
  Proof. intros. unfold mapv. rewrite map_map. reflexivity. Qed.
End Mapv.

Lemma mapv_put : forall {V W} (f g : V -> W) (m : list (key * V)) k e0,
  NoDup (map fst m) -> lookup m k = Some e0 ->
  (forall k' e, In (k', e) m -> k' <> k -> g e = f e) ->
  mapv g m = put (mapv f m) k (g e0).
Proof.
  induction m as [|[k0 e] t IH]; intros k e0 ND L AG; [discriminate|].
  inversion ND as [|? ? NI ND']; subst. cbn [mapv map fst snd put]. cbn [lookup] in L.
  destruct (key_eqb k k0) eqn:E.
  - apply key_eqb_eq in E. subst k0. inversion L; subst e0. f_equal.
    apply map_ext_in. intros [k' e'] HI. cbn. f_equal. apply (AG k' e'); [right; exact HI|].
    intro; subst. apply NI. apply (in_map fst _ _ HI).
  - rewrite (AG k0 e (or_introl eq_refl)) by (intro; subst; rewrite key_eqb_refl in E; discriminate).
    f_equal. apply IH; auto. intros k' e' HI. apply (AG k' e'). right. exact HI.
Qed.

Definition abs_entry (ls : list (N * lease)) (e : eentry) : sentry :=
  mkS (e_val e) (match e_lease e with
                 | Some id => option_map l_exp (lookup_lease ls id)
                 | None => None
                 end).
Definition abs_kv (ls : list (N * lease)) (kv : list (key * eentry)) := mapv (abs_entry ls) kv.
Definition abs (s : estate) : sstate := mkRS (abs_kv (e_leases s) (e_kv s)) (e_now s).

Lemma view_abs : forall s, s_view (abs s) = e_view s.
Proof. intros. unfold s_view, e_view, abs, abs_kv, mapv. simpl. rewrite map_map. reflexivity. Qed.
Lemma mem_abs : forall s k, s_mem (abs s) k = mem (e_kv s) k.
Proof. intros. unfold s_mem, abs, abs_kv. simpl. apply mem_mapv. Qed.
Lemma lookup_view : forall s k, lookup (e_view s) k = option_map e_val (lookup (e_kv s) k).
Proof. intros. unfold e_view. apply (lookup_mapv e_val). Qed.

Fixpoint exec_list (kv : list (key * eentry)) (l : list top) : list (key * eentry) * list tresp :=
  match l with
  | [] => (kv, [])
  | o :: t => let '(kv1, r) := exec_top kv o in
              let '(kv2, rs) := exec_list kv1 t in (kv2, r :: rs)
  end.
Lemma exec_top_txn : forall kv c th el,
  exec_top kv (TTxn c th el) =
  let ok := forallb (eval_cmp kv) c in
  let '(kv', rs) := exec_list kv (if ok then th else el) in (kv', RsTxn ok rs).
Proof. reflexivity. Qed.
Lemma e_txn_eq : forall s c th el,
  e_txn s c th el =
  let ok := forallb (eval_cmp (e_kv s)) c in
  let '(kv', rs) := exec_list (e_kv s) (if ok then th else el) in
  (mkES kv' (e_leases s) (e_next s) (e_now s), ok, rs).
Proof.
  intros. unfold e_txn. rewrite exec_top_txn. cbv zeta.
  destruct (exec_list (e_kv s) (if forallb (eval_cmp (e_kv s)) c then th else el)). reflexivity.
Qed.

Definition puts_of (data : list (key * value)) : list top := map (fun d => TPut (fst d) (snd d) None) data.
Definition e_puts (kv : list (key * eentry)) (data : list (key * value)) :=
  fold_left (fun kv d => e_put kv (fst d) (snd d) None) data kv.
Lemma exec_list_puts : forall data kv, fst (exec_list kv (puts_of data)) = e_puts kv data.
Proof.
  induction data as [|d t IH]; intro kv; simpl; [reflexivity|].
  specialize (IH (e_put kv (fst d) (snd d) None)).
  destruct (exec_list (e_put kv (fst d) (snd d) None) (puts_of t)). simpl in *. exact IH.
Qed.
Lemma exec_list_app : forall l1 l2 kv,
  fst (exec_list kv (l1 ++ l2)) = fst (exec_list (fst (exec_list kv l1)) l2).
Proof.
  induction l1 as [|o t IH]; intros l2 kv; simpl; [reflexivity|].
  destruct (exec_top kv o) as [kv1 r]. specialize (IH l2 kv1).
  destruct (exec_list kv1 (t ++ l2)), (exec_list kv1 t). simpl in *. exact IH.
Qed.
Lemma exec_list_dels : forall ks kv, fst (exec_list kv (map TDel ks)) = fold_left (fun kv k => del kv k) ks kv.
Proof.
  induction ks as [|k t IH]; intro kv; simpl; [reflexivity|].
  specialize (IH (del kv k)). destruct (exec_list (del kv k) (map TDel t)). simpl in *. exact IH.
Qed.

Lemma version_zero : forall kv k, (version kv k =? 0) = negb (mem kv k).
Proof. intros. unfold version, mem. destruct (lookup kv k); reflexivity. Qed.
Lemma conds_create : forall kv data,
  forallb (eval_cmp kv) (map (fun d : key * value => CVer0 (fst d) true) data) = negb (existsb (mem kv) (map fst data)).
Proof.
  induction data as [|d t IH]; simpl; [reflexivity|].
  rewrite version_zero, IH. destruct (mem kv (fst d)); reflexivity.
Qed.
Lemma conds_update : forall kv data,
  forallb (eval_cmp kv) (map (fun d : key * value => CVer0 (fst d) false) data) = forallb (mem kv) (map fst data).
Proof.
  induction data as [|d t IH]; simpl; [reflexivity|].
  rewrite version_zero, IH, negb_involutive. reflexivity.
Qed.

Lemma abs_e_put : forall ls kv k v, abs_kv ls (e_put kv k v None) = put (abs_kv ls kv) k (mkS v None).
Proof. intros. unfold e_put, abs_kv. rewrite <- put_mapv. reflexivity. Qed.
Definition with_kv (s : estate) kv := mkES kv (e_leases s) (e_next s) (e_now s).
Lemma with_kv_id : forall s, with_kv s (e_kv s) = s.
Proof. destruct s; reflexivity. Qed.
Lemma abs_puts : forall data s kv,
  s_puts (mkRS (abs_kv (e_leases s) kv) (e_now s)) data = abs (with_kv s (e_puts kv data)).
Proof.
  induction data as [|d t IH]; intros s kv; simpl; [reflexivity|].
  unfold s_put at 1. simpl. rewrite <- abs_e_put. apply IH.
Qed.
Lemma abs_dels : forall ks s kv,
  s_dels (mkRS (abs_kv (e_leases s) kv) (e_now s)) ks = abs (with_kv s (fold_left (fun kv k => del kv k) ks kv)).
Proof.
  induction ks as [|k t IH]; intros s kv; simpl; [reflexivity|].
  unfold abs_kv at 1. rewrite del_mapv. apply IH.
Qed.
Lemma mem_abs_kv : forall ls kv k, mem (abs_kv ls kv) k = mem kv k.
Proof. intros. apply mem_mapv. Qed.

Lemma existsb_mem_abs : forall s l, existsb (s_mem (abs s)) l = existsb (mem (e_kv s)) l.
Proof. induction l as [|k t IH]; simpl; [reflexivity|]. rewrite mem_abs, IH. reflexivity. Qed.
Lemma forallb_mem_abs : forall s l, forallb (s_mem (abs s)) l = forallb (mem (e_kv s)) l.
Proof. induction l as [|k t IH]; simpl; [reflexivity|]. rewrite mem_abs, IH. reflexivity. Qed.

Lemma abs_eq : forall s, abs s = mkRS (abs_kv (e_leases s) (e_kv s)) (e_now s).
Proof. reflexivity. Qed.

(* batchPut with its version conditions: all puts, or nothing *)
Definition batch_ok (kv : list (key * eentry)) (ks : list key) (lim : option bool) : bool :=
  match lim with
  | Some true => negb (existsb (mem kv) ks)
  | Some false => forallb (mem kv) ks
  | None => true
  end.
Lemma batch_put_eq : forall s d t lim,
  e_batch_put s (d :: t) lim =
  (if batch_ok (e_kv s) (map fst (d :: t)) lim then with_kv s (e_puts (e_kv s) (d :: t)) else s,
   inl (batch_ok (e_kv s) (map fst (d :: t)) lim)).
Proof.
  intros. unfold e_batch_put. rewrite e_txn_eq. cbv zeta.
  replace (forallb (eval_cmp (e_kv s)) _) with (batch_ok (e_kv s) (map fst (d :: t)) lim)
    by (destruct lim as [[|]|]; [rewrite conds_create | rewrite conds_update |]; reflexivity).
  destruct (batch_ok (e_kv s) (map fst (d :: t)) lim).
  - pose proof (exec_list_puts (d :: t) (e_kv s)) as P. unfold puts_of in P.
    destruct (exec_list (e_kv s) _) as [kv' rs]. simpl in P. subst kv'. reflexivity.
  - simpl. destruct s; reflexivity.
Qed.

Lemma e_puts_app : forall kv d1 d2, e_puts kv (d1 ++ d2) = e_puts (e_puts kv d1) d2.
Proof. intros. unfold e_puts. apply fold_left_app. Qed.
(* the compare-and-decrement transaction: it commits iff the counter still holds the value read *)
Lemma decr_txn : forall s data dk v x,
  e_txn s [CVal dk true v] (map (fun kv : key * value => TPut (fst kv) (snd kv) None) data ++ [TPut dk (VCnt x) None]) [TGet dk] =
  if match lookup (e_kv s) dk with Some e => value_eqb (e_val e) v | None => false end
  then (with_kv s (e_puts (e_kv s) (data ++ [(dk, VCnt x)])), true,
        snd (exec_list (e_kv s) (map (fun kv : key * value => TPut (fst kv) (snd kv) None) data ++ [TPut dk (VCnt x) None])))
  else (s, false, [RsGet (lookup (e_kv s) dk)]).
Proof.
  intros. rewrite e_txn_eq. cbv zeta. cbn [forallb eval_cmp]. rewrite andb_true_r.
  destruct (match lookup (e_kv s) dk with Some e => value_eqb (e_val e) v | None => false end).
  - pose proof (exec_list_app (puts_of data) [TPut dk (VCnt x) None] (e_kv s)) as P.
    rewrite exec_list_puts in P. cbn [exec_list exec_top fst] in P. unfold puts_of in P.
    destruct (exec_list (e_kv s) _) as [kv' rs]. cbn [fst snd] in *. subst kv'. rewrite e_puts_app. reflexivity.
  - cbn [exec_list exec_top]. destruct s; reflexivity.
Qed.
Lemma lookup_lease_filter : forall (p : N -> bool) ls id,
  lookup_lease (filter (fun il : N * lease => p (fst il)) ls) id = if p id then lookup_lease ls id else None.
Proof.
  induction ls as [|[i l] t IH]; intro id; simpl; [destruct (p id); reflexivity|].
  destruct (p i) eqn:P; simpl.
  - destruct (N.eqb id i) eqn:E; [apply N.eqb_eq in E; subst; rewrite P; reflexivity | apply IH].
  - destruct (N.eqb id i) eqn:E; [apply N.eqb_eq in E; subst; rewrite IH, P; reflexivity | apply IH].
Qed.
Lemma tick_entry : forall ls now' e,
  negb (match e_lease e with Some i => lease_dead ls now' i | None => false end) =
  negb (match s_exp (abs_entry ls e) with Some x => x <=? now' | None => false end)
  /\ (negb (match e_lease e with Some i => lease_dead ls now' i | None => false end) = true ->
      abs_entry (filter (fun il : N * lease => negb (lease_dead ls now' (fst il))) ls) e = abs_entry ls e).
Proof.
  intros. unfold abs_entry. destruct (e_lease e) as [id|]; cbn [s_exp]; [|split; reflexivity].
  rewrite (lookup_lease_filter (fun i => negb (lease_dead ls now' i))).
  unfold lease_dead. destruct (lookup_lease ls id) as [l|] eqn:LL; cbn [option_map].
  - split; [reflexivity|]. intro H. rewrite H. reflexivity.
  - split; [reflexivity|]. intros _. reflexivity.
Qed.
Lemma tick_abs : forall s d, abs (e_tick s d) = r_tick (abs s) d.
Proof.
  intros s d. unfold e_tick, r_tick, abs. cbn [r_kv r_now e_kv e_leases e_now]. f_equal.
  induction (e_kv s) as [|[k e] t IH]; [reflexivity|].
  cbn [filter abs_kv mapv map fst snd].
  destruct (tick_entry (e_leases s) (e_now s + d) e) as [A B].
  rewrite <- A.
  destruct (negb match e_lease e with Some i => lease_dead (e_leases s) (e_now s + d) i | None => false end) eqn:AL.
  - cbn [abs_kv mapv map fst snd]. rewrite (B eq_refl). f_equal. exact IH.
  - exact IH.
Qed.

Record inv (s : estate) : Prop := mkInv {
  inv_nodup : NoDup (map fst (e_kv s));
  inv_lease_lt : forall k e id, In (k, e) (e_kv s) -> e_lease e = Some id -> (id < e_next s)%N;
  inv_table_lt : forall id l, In (id, l) (e_leases s) -> (id < e_next s)%N;
  inv_inj : forall k1 e1 k2 e2 id, In (k1, e1) (e_kv s) -> In (k2, e2) (e_kv s) ->
            e_lease e1 = Some id -> e_lease e2 = Some id -> k1 = k2;
  inv_ttl : forall id l, In (id, l) (e_leases s) -> l_ttl l <> 0
}.

Lemma inv_init : inv e_init.
Proof. constructor; simpl; try constructor; intros; contradiction. Qed.

Lemma in_put : forall {V} (m : list (key * V)) k v k' v',
  In (k', v') (put m k v) -> (k', v') = (k, v) \/ In (k', v') m.
Proof.
  induction m as [|[k0 v0] t IH]; intros k v k' v' H; simpl in *.
  - destruct H; [left; auto | tauto].
  - destruct (key_eqb k k0); simpl in H.
    + destruct H; [left; auto | right; right; assumption].
    + destruct H as [H | H]; [right; left; assumption|]. apply IH in H. tauto.
Qed.
Lemma in_del : forall {V} (m : list (key * V)) k x, In x (del m k) -> In x m.
Proof. intros V m k x H. unfold del in H. apply filter_In in H. tauto. Qed.

(* the invariant only looks at: key uniqueness, which leased entries there are,
   which lease ids with which granted ttl, and a bound on the ids *)
Lemma inv_mono : forall s s', inv s ->
  NoDup (map fst (e_kv s')) -> (e_next s <= e_next s')%N ->
  (forall k e, In (k, e) (e_kv s') -> In (k, e) (e_kv s) \/ e_lease e = None) ->
  (forall id l, In (id, l) (e_leases s') -> exists l0, In (id, l0) (e_leases s) /\ l_ttl l = l_ttl l0) ->
  inv s'.
Proof.
  intros s s' [I1 I2 I3 I4 I5] ND LE KV LS. constructor; [exact ND | | | |].
  - intros k e id HI HL. destruct (KV _ _ HI) as [H | H]; [|congruence]. specialize (I2 _ _ _ H HL). lia.
  - intros id l H. destruct (LS _ _ H) as [l0 [H0 _]]. specialize (I3 _ _ H0). lia.
  - intros k1 e1 k2 e2 id H1 H2 L1 L2.
    destruct (KV _ _ H1) as [A | A]; [|congruence]. destruct (KV _ _ H2) as [B | B]; [|congruence]. eauto.
  - intros id l H. destruct (LS _ _ H) as [l0 [H0 E]]. rewrite E. eauto.
Qed.
Lemma inv_put_none : forall s k v, inv s -> inv (with_kv s (e_put (e_kv s) k v None)).
Proof.
  intros s k v I. apply (inv_mono s _ I); simpl; eauto using N.le_refl.
  - apply nodup_put, I.
  - intros k' e' H. apply in_put in H. destruct H as [H | H]; [inversion H; subst; right; reflexivity | left; assumption].
Qed.
Lemma inv_puts : forall data s, inv s -> inv (with_kv s (e_puts (e_kv s) data)).
Proof.
  induction data as [|d t IH]; intros s I; simpl; [rewrite with_kv_id; exact I|].
  exact (IH _ (inv_put_none s (fst d) (snd d) I)).
Qed.
Lemma inv_del : forall s k, inv s -> inv (with_kv s (del (e_kv s) k)).
Proof.
  intros s k I. apply (inv_mono s _ I); simpl; eauto using N.le_refl.
  - apply nodup_del, I.
  - intros k' e' H. left. eapply in_del; eauto.
Qed.
Lemma inv_dels : forall ks s, inv s -> inv (with_kv s (fold_left (fun kv k => del kv k) ks (e_kv s))).
Proof.
  induction ks as [|k t IH]; intros s I; simpl; [rewrite with_kv_id; exact I|].
  exact (IH _ (inv_del s k I)).
Qed.
Lemma inv_tick : forall s d, inv s -> inv (e_tick s d).
Proof.
  intros s d I. apply (inv_mono s _ I); simpl.
  - apply NoDup_map_filter, I.
  - apply N.le_refl.
  - intros k e H. left. apply filter_In in H. apply H.
  - intros id l H. exists l. apply filter_In in H. split; [apply H | reflexivity].
Qed.

Lemma put_same : forall {V} (m : list (key * V)) k x, lookup m k = Some x -> put m k x = m.
Proof.
  induction m as [|[k0 v0] t IH]; intros k x H; simpl in *; [discriminate|].
  destruct (key_eqb k k0) eqn:E.
  - apply key_eqb_eq in E. inversion H. subst. reflexivity.
  - f_equal. apply IH. exact H.
Qed.
Lemma lookup_lease_in : forall ls id l, lookup_lease ls id = Some l -> In (id, l) ls.
Proof.
  induction ls as [|[i l0] t IH]; intros id l H; simpl in *; [discriminate|].
  destruct (N.eqb id i) eqn:E; [apply N.eqb_eq in E; inversion H; subst; left; reflexivity | right; apply IH; exact H].
Qed.
Lemma abs_kv_ext : forall ls1 ls2 kv,
  (forall k e, In (k, e) kv -> abs_entry ls1 e = abs_entry ls2 e) -> abs_kv ls1 kv = abs_kv ls2 kv.
Proof.
  intros. unfold abs_kv, mapv. apply map_ext_in. intros [k e] HI. simpl. f_equal. eapply H; eauto.
Qed.

(* after Grant: the new lease is attached to nothing *)
Lemma abs_kv_grant : forall s ttl, inv s ->
  abs_kv ((e_next s, mkL ttl (e_now s + ttl)) :: e_leases s) (e_kv s) = abs_kv (e_leases s) (e_kv s).
Proof.
  intros s ttl I. apply abs_kv_ext. intros k e HI. unfold abs_entry.
  destruct (e_lease e) as [id|] eqn:L; [|reflexivity]. simpl.
  destruct (N.eqb id (e_next s)) eqn:E; [|reflexivity].
  apply N.eqb_eq in E. subst. pose proof (inv_lease_lt s I _ _ _ HI L). lia.
Qed.
Lemma revoke_fresh : forall s ttl, inv s ->
  e_revoke (mkES (e_kv s) ((e_next s, mkL ttl (e_now s + ttl)) :: e_leases s) (N.succ (e_next s)) (e_now s)) (e_next s)
  = mkES (e_kv s) (e_leases s) (N.succ (e_next s)) (e_now s).
Proof.
  intros s ttl I. unfold e_revoke. simpl. rewrite N.eqb_refl. simpl. f_equal; apply filter_all.
  - intros [k e] HI. simpl. unfold attached. destruct (e_lease e) as [i|] eqn:L; [|reflexivity].
    destruct (N.eqb i (e_next s)) eqn:E; [|reflexivity]. apply N.eqb_eq in E. subst.
    pose proof (inv_lease_lt s I _ _ _ HI L). lia.
  - intros [i l] HI. simpl. destruct (N.eqb (e_next s) i) eqn:E; [|reflexivity]. apply N.eqb_eq in E. subst.
    pose proof (inv_table_lt s I _ _ HI). lia.
Qed.
Lemma inv_bump : forall s, inv s -> inv (mkES (e_kv s) (e_leases s) (N.succ (e_next s)) (e_now s)).
Proof. intros s I. apply (inv_mono s _ I); simpl; eauto using N.le_succ_diag_r. apply I. Qed.

Lemma txn_simple : forall s1 ek sk v id,
  e_txn s1 [CVer0 ek false] [TPut sk v (Some id)] [] =
  if mem (e_kv s1) ek then (with_kv s1 (e_put (e_kv s1) sk v (Some id)), true, [RsPut]) else (s1, false, []).
Proof.
  intros. rewrite e_txn_eq. cbn [forallb eval_cmp]. rewrite version_zero, negb_involutive, andb_true_r.
  destruct (mem (e_kv s1) ek); cbn; [reflexivity | destruct s1; reflexivity].
Qed.

Lemma txn_tree : forall s1 ek sk v id e0 o,
  lookup (e_kv s1) sk = Some e0 -> e_lease e0 = Some o ->
  e_txn s1 [CVer0 ek false]
    [TTxn [CVer0 sk false]
       [TTxn [CLeaseNe0 sk]
          [TTxn [CVal sk true v] [TGet sk] [TPut sk v (Some id)]]
          [TPut sk v (Some id)]]
       [TPut sk v (Some id)]] [] =
  if mem (e_kv s1) ek then
    if value_eqb (e_val e0) v
    then (s1, true, [RsTxn true [RsTxn true [RsTxn true [RsGet (Some e0)]]]])
    else (with_kv s1 (e_put (e_kv s1) sk v (Some id)), true, [RsTxn true [RsTxn true [RsTxn false [RsPut]]]])
  else (s1, false, []).
Proof.
  intros s1 ek sk v id e0 o L0 LE. destruct s1 as [kv ls nx nw]. cbn [e_kv] in L0. rewrite e_txn_eq. cbn [e_kv e_leases e_next e_now]. cbn [forallb eval_cmp]. rewrite version_zero, negb_involutive, andb_true_r.
  assert (M : mem kv sk = true) by (unfold mem; rewrite L0; reflexivity).
  destruct (mem kv ek); [|reflexivity].
  cbn [exec_list]. rewrite exec_top_txn. cbn [forallb eval_cmp]. rewrite version_zero, M. cbn [negb andb].
  cbn [exec_list]. rewrite exec_top_txn. cbn [forallb eval_cmp]. rewrite L0, LE. cbn [andb].
  cbn [exec_list]. rewrite exec_top_txn. cbn [forallb eval_cmp]. rewrite L0. rewrite andb_true_r.
  destruct (value_eqb (e_val e0) v); cbn; [rewrite L0; reflexivity | reflexivity].
Qed.

Lemma put_lease_state : forall s sk v ttl, inv s -> ttl <> 0 ->
  let sP := mkES (e_put (e_kv s) sk v (Some (e_next s)))
                 ((e_next s, mkL ttl (e_now s + ttl)) :: e_leases s) (N.succ (e_next s)) (e_now s) in
  inv sP /\ abs sP = s_put (abs s) sk v (Some (e_now s + ttl)).
Proof.
  intros s sk v ttl I T sP. split.
  - destruct I as [I1 I2 I3 I4 I5]. constructor; cbn [e_kv e_leases e_next e_now sP].
    + apply nodup_put. exact I1.
    + intros k e id H L. unfold e_put in H. apply in_put in H. destruct H as [H | H].
      * inversion H; subst. cbn in L. inversion L. lia.
      * specialize (I2 _ _ _ H L). lia.
    + intros id l [H | H]; [inversion H; lia | specialize (I3 _ _ H); lia].
    + intros k1 e1 k2 e2 id H1 H2 L1 L2. unfold e_put in H1, H2. apply in_put in H1. apply in_put in H2.
      destruct H1 as [H1 | H1], H2 as [H2 | H2].
      * inversion H1; inversion H2; subst; reflexivity.
      * inversion H1; subst. cbn in L1. inversion L1; subst. specialize (I2 _ _ _ H2 L2). lia.
      * inversion H2; subst. cbn in L2. inversion L2; subst. specialize (I2 _ _ _ H1 L1). lia.
      * eauto.
    + intros id l [H | H]; [inversion H; subst; exact T | eauto].
  - unfold abs, s_put. cbn [e_kv e_leases e_now sP r_kv r_now]. f_equal.
    unfold e_put, abs_kv. rewrite <- put_mapv. f_equal.
    + apply (abs_kv_grant s ttl I).
    + unfold abs_entry. cbn. rewrite N.eqb_refl. reflexivity.
Qed.

Definition ka_upd (o : N) (now : Z) (il : N * lease) : N * lease :=
  if N.eqb o (fst il) then (fst il, mkL (l_ttl (snd il)) (now + l_ttl (snd il))) else il.
Lemma lookup_lease_upd : forall o now ls i,
  lookup_lease (map (ka_upd o now) ls) i =
  if N.eqb i o then option_map (fun l => mkL (l_ttl l) (now + l_ttl l)) (lookup_lease ls i) else lookup_lease ls i.
Proof.
  induction ls as [|[j lj] t IH]; intro i; simpl; [destruct (N.eqb i o); reflexivity|].
  unfold ka_upd at 1. simpl. destruct (N.eqb o j) eqn:OJ; simpl.
  - apply N.eqb_eq in OJ. subst j. destruct (N.eqb i o) eqn:IO; [reflexivity|]. rewrite IH, IO. reflexivity.
  - destruct (N.eqb i j) eqn:IJ.
    + apply N.eqb_eq in IJ. subst j. rewrite N.eqb_sym, OJ. reflexivity.
    + apply IH.
Qed.
Lemma abs_kv_keepalive : forall ls o now sk e0 l kv,
  NoDup (map fst kv) -> (forall k e, In (k, e) kv -> e_lease e = Some o -> k = sk) ->
  lookup kv sk = Some e0 -> e_lease e0 = Some o -> lookup_lease ls o = Some l ->
  abs_kv (map (ka_upd o now) ls) kv = put (abs_kv ls kv) sk (mkS (e_val e0) (Some (now + l_ttl l))).
Proof.
  intros ls o now sk e0 l kv ND ONLY L0 LE LL.
  replace (mkS (e_val e0) (Some (now + l_ttl l))) with (abs_entry (map (ka_upd o now) ls) e0)
    by (unfold abs_entry; rewrite LE, lookup_lease_upd, N.eqb_refl, LL; reflexivity).
  apply mapv_put; auto. intros k e HI NK. unfold abs_entry. destruct (e_lease e) as [i|] eqn:Li; [|reflexivity].
  rewrite lookup_lease_upd. destruct (N.eqb i o) eqn:IO; [|reflexivity].
  apply N.eqb_eq in IO. subst i. destruct (NK (ONLY k e HI Li)).
Qed.

Lemma keepalive_state : forall s sk e0 o l, inv s ->
  lookup (e_kv s) sk = Some e0 -> e_lease e0 = Some o -> lookup_lease (e_leases s) o = Some l ->
  let sR := mkES (e_kv s) (e_leases s) (N.succ (e_next s)) (e_now s) in
  snd (e_keepalive sR o) = true /\ inv (fst (e_keepalive sR o)) /\
  abs (fst (e_keepalive sR o)) = s_put (abs s) sk (e_val e0) (Some (e_now s + l_ttl l)).
Proof.
  intros s sk e0 o l I L0 LE LL sR. unfold e_keepalive. cbn [e_leases e_kv e_next e_now sR]. rewrite LL. cbn [fst snd].
  split; [reflexivity|]. split.
  - apply (inv_mono s _ I); simpl; eauto using N.le_succ_diag_r; [apply I|].
    intros id l' H. apply in_map_iff in H. destruct H as [[j lj] [H1 H2]]. exists lj.
    cbn in H1. destruct (N.eqb o j); inversion H1; subst; auto.
  - unfold abs, s_put. cbn [e_kv e_leases e_now r_kv r_now]. f_equal.
    apply (abs_kv_keepalive (e_leases s) o (e_now s) sk e0 l (e_kv s)); auto.
    + apply I.
    + intros k e HI Le. apply (inv_inj s I k e sk e0 o); auto. apply lookup_in. exact L0.
Qed.

Lemma abs_bump : forall s, abs (mkES (e_kv s) (e_leases s) (N.succ (e_next s)) (e_now s)) = abs s.
Proof. reflexivity. Qed.
Lemma bind_with_ttl_abs : forall s ek sk v ttl, inv s -> ttl <> 0 ->
  inv (fst (e_bind_with_ttl s ek sk v ttl)) /\
  (if mem (e_kv s) ek
   then snd (e_bind_with_ttl s ek sk v ttl) = inl None /\
        abs (fst (e_bind_with_ttl s ek sk v ttl)) = s_put (abs s) sk v (Some (e_now s + ttl))
   else snd (e_bind_with_ttl s ek sk v ttl) = inl (Some ECount) /\
        abs (fst (e_bind_with_ttl s ek sk v ttl)) = abs s).
Proof.
  intros s ek sk v ttl I T.
  unfold e_bind_with_ttl, e_grant. cbv beta iota zeta.
  set (s1 := mkES (e_kv s) ((e_next s, mkL ttl (e_now s + ttl)) :: e_leases s) (N.succ (e_next s)) (e_now s)).
  destruct (put_lease_state s sk v ttl I T) as [IP AP].
  destruct (is_ttl_changed s1 sk ttl) eqn:CH.
  - rewrite txn_simple. cbn [e_kv s1]. destruct (mem (e_kv s) ek) eqn:M; cbn [negb fst snd].
    + auto.
    + unfold s1. rewrite revoke_fresh by exact I. auto using inv_bump.
  - unfold is_ttl_changed in CH. cbn [e_kv e_leases s1] in CH.
    assert (TZ : (ttl =? 0) = false) by (apply Z.eqb_neq; exact T).
    destruct (lookup (e_kv s) sk) as [e0|] eqn:L0; [|rewrite TZ in CH; discriminate].
    destruct (e_lease e0) as [o|] eqn:LE; [|rewrite TZ in CH; discriminate].
    assert (ON : N.eqb o (e_next s) = false).
    { apply N.eqb_neq. pose proof (inv_lease_lt s I _ _ _ (lookup_in _ _ _ L0) LE). lia. }
    cbn [lookup_lease] in CH. rewrite ON in CH.
    destruct (lookup_lease (e_leases s) o) as [l|] eqn:LL.
    2: { apply negb_false_iff in CH. apply Z.eqb_eq in CH. congruence. }
    apply negb_false_iff in CH. apply Z.eqb_eq in CH.
    rewrite (txn_tree s1 ek sk v (e_next s) e0 o L0 LE). cbn [e_kv s1].
    destruct (mem (e_kv s) ek) eqn:M.
    + destruct (value_eqb (e_val e0) v) eqn:VE; cbn [negb fst snd].
      * apply value_eqb_eq in VE. rewrite LE. cbn [lease_opt_eqb]. rewrite ON.
        unfold s1. rewrite revoke_fresh by exact I.
        destruct (keepalive_state s sk e0 o l I L0 LE LL) as [K1 [K2 K3]].
        destruct (e_keepalive (mkES (e_kv s) (e_leases s) (N.succ (e_next s)) (e_now s)) o) as [s4 found].
        cbn [fst snd] in *. subst found. split; [exact K2 | split; [reflexivity|]].
        rewrite K3, VE, CH. reflexivity.
      * auto.
    + cbn [negb fst snd]. unfold s1. rewrite revoke_fresh by exact I.
      auto using inv_bump.
Qed.

Lemma bind_without_ttl_abs : forall s sk v, inv s ->
  inv (fst (e_bind_without_ttl s sk v)) /\ snd (e_bind_without_ttl s sk v) = inl None /\
  abs (fst (e_bind_without_ttl s sk v)) = s_put (abs s) sk v None.
Proof.
  intros s sk v I. unfold e_bind_without_ttl.
  pose proof (inv_put_none s sk v I) as IP.
  assert (AP : abs (with_kv s (e_put (e_kv s) sk v None)) = s_put (abs s) sk v None)
    by (unfold abs, s_put; cbn [with_kv e_kv e_leases e_now r_kv r_now]; rewrite abs_e_put; reflexivity).
  destruct (is_ttl_changed s sk 0) eqn:CH; [cbn [fst snd]; auto|].
  rewrite e_txn_eq. cbv zeta. cbn [forallb eval_cmp]. rewrite version_zero, negb_involutive, andb_true_r.
  unfold is_ttl_changed in CH. unfold mem.
  destruct (lookup (e_kv s) sk) as [e0|] eqn:L0; [|cbn [exec_list exec_top fst snd]; auto].
  cbn [exec_list]. rewrite exec_top_txn. cbn [forallb eval_cmp]. rewrite L0, andb_true_r.
  destruct (value_eqb (e_val e0) v) eqn:VE; cbn [negb exec_list exec_top fst snd]; [|auto].
  (* the value is the one bound already and no live lease is attached: the entry stays as it is *)
  fold (with_kv s (e_kv s)). rewrite with_kv_id. split; [exact I | split; [reflexivity|]].
  apply value_eqb_eq in VE.
  assert (AE : abs_entry (e_leases s) e0 = mkS v None).
  { unfold abs_entry. rewrite VE. destruct (e_lease e0) as [o|] eqn:LE; [|reflexivity].
    destruct (lookup_lease (e_leases s) o) as [l|] eqn:LL; [|reflexivity].
    apply negb_false_iff in CH. apply Z.eqb_eq in CH.
    exfalso. eapply (inv_ttl s I); [apply lookup_lease_in; exact LL | exact CH]. }
  unfold s_put, abs at 2. cbn [r_kv r_now]. rewrite put_same; [reflexivity|].
  unfold abs_kv. rewrite lookup_mapv, L0. cbn. rewrite AE. reflexivity.
Qed.

(* BindStatus as a whole: what SetNodeStatus (ttl > 0) and SetWorkloadStatus do with it *)
Lemma bind_status_refines : forall s ek sk v ttl, inv s ->
  (if ttl =? 0 then (s_put (abs s) sk v None, ROk PUnit)
   else if mem (e_kv s) ek then (s_put (abs s) sk v (Some (e_now s + ttl)), ROk PUnit)
   else (abs s, RErr ECount))
  = (abs (fst (res_of_bind (e_bind_status s ek sk v ttl))), snd (res_of_bind (e_bind_status s ek sk v ttl)))
  /\ inv (fst (res_of_bind (e_bind_status s ek sk v ttl))).
Proof.
  intros s ek sk v ttl I. unfold e_bind_status. destruct (ttl =? 0) eqn:Z0.
  - destruct (bind_without_ttl_abs s sk v I) as [IB [R AB]].
    destruct (e_bind_without_ttl s sk v) as [s' r]. cbn [fst snd] in *. subst r. cbn [res_of_bind fst snd].
    rewrite AB. split; auto.
  - apply Z.eqb_neq in Z0. destruct (bind_with_ttl_abs s ek sk v ttl I Z0) as [IB AB].
    destruct (e_bind_with_ttl s ek sk v ttl) as [s' r]. cbn [fst snd] in *.
    destruct (mem (e_kv s) ek); destruct AB as [-> AB]; cbn [res_of_bind fst snd]; rewrite AB; split; auto.
Qed.

Lemma batch_create_refines : forall s data, inv s ->
  exists s' r, e_batch_create s data = (s', r) /\ s_create (abs s) data = (abs s', r) /\ inv s'.
Proof.
  intros s data I. unfold e_batch_create, s_create. destruct data as [|d t]; [exists s, (Some EOther); auto|].
  rewrite batch_put_eq. cbn [batch_ok]. rewrite existsb_mem_abs.
  destruct (existsb (mem (e_kv s)) (map fst (d :: t))); cbn [negb]; [exists s, (Some EExists); auto|].
  exists (with_kv s (e_puts (e_kv s) (d :: t))), None.
  split; [reflexivity|]. split; [rewrite abs_eq, abs_puts; reflexivity | apply inv_puts; exact I].
Qed.
Lemma batch_update_refines : forall s data, inv s ->
  exists s' r, e_batch_update s data = (s', r) /\ s_update (abs s) data = (abs s', r) /\ inv s'.
Proof.
  intros s data I. unfold e_batch_update, s_update. destruct data as [|d t]; [exists s, (Some EOther); auto|].
  rewrite batch_put_eq. cbn [batch_ok]. rewrite forallb_mem_abs.
  destruct (forallb (mem (e_kv s)) (map fst (d :: t))); [|exists s, (Some ENotExists); auto].
  exists (with_kv s (e_puts (e_kv s) (d :: t))), None.
  split; [reflexivity|]. split; [rewrite abs_eq, abs_puts; reflexivity | apply inv_puts; exact I].
Qed.
Lemma batch_delete_refines : forall s ks, inv s ->
  s_dels (abs s) ks = abs (e_batch_delete s ks) /\ inv (e_batch_delete s ks).
Proof.
  intros s ks I. unfold e_batch_delete. rewrite e_txn_eq. cbn [forallb]. cbv zeta.
  pose proof (exec_list_dels ks (e_kv s)) as P.
  destruct (exec_list (e_kv s) (map TDel ks)) as [kv' rs]. cbn [fst] in P. subst kv'.
  split; [rewrite abs_eq, abs_dels; reflexivity | apply (inv_dels ks s I)].
Qed.
Lemma delete_refines : forall s k, inv s ->
  s_dels (abs s) [k] = abs (fst (e_delete s k)) /\ inv (fst (e_delete s k)).
Proof.
  intros s k I. unfold e_delete. cbn [fst]. split; [|apply (inv_del s k I)].
  unfold abs, abs_kv. simpl. rewrite del_mapv. reflexivity.
Qed.
Lemma dels_absent : forall s k, mem (e_kv s) k = false -> s_dels (abs s) [k] = abs s.
Proof.
  intros s k M. unfold s_dels. cbn [fold_left]. unfold abs. cbn [r_kv r_now]. f_equal.
  apply del_absent. unfold abs_kv. rewrite lookup_mapv. unfold mem in M. destruct (lookup (e_kv s) k); [discriminate | reflexivity].
Qed.
(* BatchCreateAndDecr, sequentially: the counter must be there and hold a number *)
Lemma create_and_decr_refines : forall s data dk, inv s ->
  match lookup (e_view s) dk with
  | None => e_batch_create_and_decr s data dk = (s, Some ENotExists)
  | Some (VCnt c) =>
      exists s', e_batch_create_and_decr s data dk = (s', None) /\
                 s_puts (abs s) (data ++ [(dk, VCnt (c - 1))]) = abs s' /\ inv s'
  | Some _ => e_batch_create_and_decr s data dk = (s, Some EOther)
  end.
Proof.
  intros s data dk I. rewrite lookup_view. unfold e_batch_create_and_decr.
  destruct (lookup (e_kv s) dk) as [e|] eqn:L; simpl; [|reflexivity].
  destruct (e_val e) eqn:EV; try reflexivity.
  rewrite decr_txn, L, EV. cbn [value_eqb]. rewrite Z.eqb_refl.
  eexists. split; [reflexivity|]. split; [rewrite (abs_eq s), abs_puts; reflexivity | apply inv_puts; exact I].
Qed.

Theorem estep_refines : forall s o, inv s ->
  spec_step (abs s) o = (abs (fst (estep s o)), snd (estep s o)) /\ inv (fst (estep s o)).
Proof.
  intros s o I. unfold spec_step, estep. rewrite view_abs.
  destruct o; cbn [read_op]; auto.
  - (* AddPod *)
    destruct (batch_create_refines s [(KPod p, VPod p d)] I) as (s' & r & -> & -> & I'). destruct r; split; auto.
  - (* RemovePod *)
    destruct (v_get_nodes_by_pod (e_view s) p [] true) as [[|x t]|e]; auto.
    rewrite mem_abs. destruct (delete_refines s (KPod p) I) as [DA ID]. unfold e_delete in *. cbn [fst] in *. cbv beta iota zeta.
    destruct (mem (e_kv s) (KPod p)) eqn:M.
    + rewrite DA. split; [reflexivity | exact ID].
    + rewrite <- (dels_absent s (KPod p) M) at 1. rewrite DA. split; [reflexivity | exact ID].
  - (* AddNode *)
    unfold v_get_one. destruct (lookup (e_view s) (KPod (n_pod nd))) as [[]|]; auto.
    destruct (batch_create_refines s (add_node_data nd ca cert key) I) as (s' & r & -> & -> & I'). destruct r; split; auto.
  - (* RemoveNode *) destruct (batch_delete_refines s (remove_node_keys n p) I) as [-> I']. split; auto.
  - (* UpdateNodes *)
    destruct (update_nodes_data l) as [|d t]; [auto|].
    rewrite batch_put_eq, (abs_eq s), abs_puts. split; [reflexivity | apply inv_puts; exact I].
  - (* SetNodeStatus *)
    unfold e_set_node_status. destruct (ttl =? 0) eqn:Z0; [auto|].
    destruct (ttl <? 0); [destruct (delete_refines s (KNStatus n) I) as [-> I']; split; auto|].
    rewrite mem_abs. pose proof (bind_status_refines s (KNode n) (KNStatus n) (VNSt n p) ttl I) as B.
    rewrite Z0 in B. exact B.
  - (* AddWorkload *)
    unfold e_ops_workload. destruct (w_parse w) as [[a e]|]; [|auto].
    destruct pr as [p0|].
    + pose proof (create_and_decr_refines s (workload_data w a e) (proc_key p0) I) as CD.
      destruct (lookup (e_view s) (proc_key p0)) as [[]|]; try (rewrite CD; split; [reflexivity | exact I]).
      destruct CD as (s' & -> & -> & I'). split; auto.
    + destruct (batch_create_refines s (workload_data w a e) I) as (s' & r & -> & -> & I'). destruct r; split; auto.
  - (* UpdateWorkload *)
    unfold e_ops_workload. destruct (w_parse w) as [[a e]|]; [|auto].
    destruct (batch_update_refines s (workload_data w a e) I) as (s' & r & -> & -> & I'). destruct r; split; auto.
  - (* RemoveWorkload *)
    destruct (w_parse w) as [[a e]|]; [|auto].
    destruct (batch_delete_refines s (clean_keys w a e) I) as [-> I']. split; auto.
  - (* SetWorkloadStatus *)
    unfold e_set_workload_status. destruct (status_args_bad a e n); [auto|].
    rewrite mem_abs. apply bind_status_refines, I.
  - (* CreateProcessing *)
    destruct (batch_create_refines s [(proc_key pr, VCnt cnt)] I) as (s' & r & -> & -> & I'). destruct r; split; auto.
  - (* DeleteProcessing *) destruct (delete_refines s (proc_key pr) I) as [-> I']. split; auto.
  - (* Advance *) cbn [fst snd]. rewrite tick_abs. split; [reflexivity | apply inv_tick; exact I].
Qed.

Lemma abs_init : abs e_init = s_init.
Proof. reflexivity. Qed.

Theorem erun_refines : forall h s, inv s ->
  run spec_step (abs s) h = (abs (fst (run estep s h)), snd (run estep s h)) /\ inv (fst (run estep s h)).
Proof.
  induction h as [|o t IH]; intros s I; cbn [run]; [split; [reflexivity | exact I]|].
  destruct (estep_refines s o I) as [E IE]. rewrite E.
  destruct (estep s o) as [s1 r]. cbn [fst snd] in *.
  destruct (IH s1 IE) as [E2 I2]. rewrite E2.
  destruct (run estep s1 t) as [s2 rs]. cbn [fst snd] in *. split; [reflexivity | exact I2].
Qed.

Lemma spec_failed_create_noop : forall s o s' e,
  Case.is_create o = true -> spec_step s o = (s', RErr e) -> s' = s.
Proof.
  intros s o s' e C H. destruct o; try discriminate C; unfold spec_step in H; cbn [read_op] in H.
  - unfold s_create in H. destruct (existsb (s_mem s) (map fst [(KPod p, VPod p d)])); inversion H; reflexivity.
  - destruct (lookup (s_view s) (KPod (n_pod nd))) as [[]|]; try (inversion H; reflexivity).
    unfold s_create in H. destruct (add_node_data nd ca cert key); [inversion H; reflexivity|].
    destruct (existsb (s_mem s) (map fst (p :: l))); inversion H; reflexivity.
  - destruct (w_parse w) as [[a b]|]; [|inversion H; reflexivity].
    destruct pr as [p0|].
    + destruct (lookup (s_view s) (proc_key p0)) as [[]|]; inversion H; reflexivity.
    + unfold s_create in H. destruct (workload_data w a b); [inversion H; reflexivity|].
      destruct (existsb (s_mem s) (map fst (p :: l))); inversion H; reflexivity.
  - unfold s_create in H. destruct (existsb (s_mem s) (map fst [(proc_key pr, VCnt cnt)])); inversion H; reflexivity.
Qed.
