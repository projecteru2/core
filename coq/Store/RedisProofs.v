(* On redis-safe operation instances the Redis store model takes
   exactly the step of the abstract specification (same state, same result up
   to the error kind). *)
From Coq Require Import List Bool ZArith String Lia Permutation FinFun.
From Verif Require Import Base.ListFacts.
From Verif Require Import Store.KVPrims Store.KVLemmas Store.Ops Store.Status Store.Spec
  Store.RedisModel Store.EtcdProofs.
Import ListNotations.
Local Open Scope Z_scope.

Definition sim {X} (a b : X + err) : Prop :=
  match a, b with inl x, inl y => x = y | inr _, inr _ => True | _, _ => False end.
Definition res_equiv (a b : result) : Prop :=
  match a, b with
  | ROk p, ROk q => p = q
  | RErr _, RErr _ => True
  | RPanic, RPanic => True
  | _, _ => False
  end.
Lemma res_equiv_refl : forall r, res_equiv r r.
Proof. destruct r; simpl; auto. Qed.
Lemma sim_refl : forall {X} (a : X + err), sim a a.
Proof. destruct a; simpl; auto. Qed.

Lemma sim_res : forall {X} (f : X + err -> result) a b,
  (forall e e', res_equiv (f (inr e)) (f (inr e'))) -> sim a b -> res_equiv (f a) (f b).
Proof. intros X f [x|e] [y|e'] F S; simpl in S; try contradiction; [subst; apply res_equiv_refl | apply F]. Qed.

Lemma combine_snd : forall {A B} (l1 : list A) (l2 : list B),
  List.length l2 = List.length l1 -> map snd (combine l1 l2) = l2.
Proof. induction l1 as [|a t IH]; destruct l2 as [|b u]; simpl; intro H; try discriminate; auto. f_equal. apply IH. lia. Qed.
Lemma combine_fst_snd : forall {A B} (l : list (A * B)), combine (map fst l) (map snd l) = l.
Proof. induction l as [|[a b] t IH]; simpl; [reflexivity | f_equal; exact IH]. Qed.
Lemma take_limit_map : forall {A B} (f : A -> B) limit l, take_limit limit (map f l) = map f (take_limit limit l).
Proof. intros. unfold take_limit. destruct (0 <? limit); [apply firstn_map | reflexivity]. Qed.
Lemma in_take_limit : forall {A} limit (l : list A) x, In x (take_limit limit l) -> In x l.
Proof. intros A limit l x. unfold take_limit. destruct (0 <? limit); [apply in_firstn | auto]. Qed.
Lemma nodup_take_limit : forall {A} limit (l : list A), NoDup l -> NoDup (take_limit limit l).
Proof. intros A limit l. unfold take_limit. destruct (0 <? limit); [apply nodup_firstn | auto]. Qed.
Lemma nodup_b_NoDup : forall l, nodup_b l = true -> NoDup l.
Proof.
  induction l as [|a t IH]; intro H; simpl in H; [constructor|]. apply andb_true_iff in H. destruct H as [H1 H2].
  constructor; [|auto]. intro HI. apply negb_true_iff in H1.
  assert (existsb (name_eqb a) t = true) by (apply existsb_exists; exists a; split; [exact HI | apply name_eqb_refl]).
  congruence.
Qed.
Lemma do_get_nodes_ext : forall f g vals flt all, (forall n, f n = g n) -> do_get_nodes f vals flt all = do_get_nodes g vals flt all.
Proof.
  intros f g vals flt all E. unfold do_get_nodes. destruct (unmarshal_nodes vals); [|reflexivity].
  f_equal. f_equal. apply map_ext. intro nd. unfold node_view. rewrite E. reflexivity.
Qed.
Lemma attach_ext : forall g1 g2 ns sk ws, (forall k, g1 k = g2 k) ->
  attach_additions g1 ns sk ws = attach_additions g2 ns sk ws.
Proof.
  intros g1 g2 ns sk. induction ws as [|w t IH]; intro E; simpl; [reflexivity|].
  rewrite IH by exact E. destruct (nassoc (w_id w) sk) as [k|]; [rewrite E|]; reflexivity.
Qed.
Lemma collect_nodup : forall ws sk seen sk' names,
  NoDup seen -> collect_additions ws sk seen = inl (sk', names) -> NoDup names.
Proof.
  induction ws as [|w t IH]; intros sk seen sk' names N H; simpl in H.
  - inversion H; subst. exact N.
  - destruct (w_parse w) as [[a e]|]; [|discriminate]. eapply IH; [|exact H].
    destruct (existsb (name_eqb (w_node w)) seen) eqn:E; [exact N|].
    apply NoDup_snoc; [exact N|]. intro H1.
    assert (existsb (name_eqb (w_node w)) seen = true) by (apply existsb_exists; exists (w_node w); split; [exact H1 | apply name_eqb_refl]).
    congruence.
Qed.
Lemma view_mapv : forall s, s_view s = mapv s_val (r_kv s).
Proof. reflexivity. Qed.

(* the read methods of the Redis store on a state with unique keys, against
   [Ops.read_op] on its view *)
Section Reads.
  Variable s : rstate.
  Hypothesis ND : NoDup (map fst (r_kv s)).
  Local Notation v := (s_view s).

  Lemma nd_view : NoDup (map fst v).
  Proof. rewrite view_mapv, keys_mapv. exact ND. Qed.
  Lemma r_get_view : forall k, r_get s k = lookup v k.
  Proof. intro k. unfold r_get. rewrite view_mapv, lookup_mapv. reflexivity. Qed.
  Lemma has_status_eq : forall n, r_has_status s n = v_has_status v n.
  Proof.
    intro n. unfold r_has_status, v_has_status, r_get_one, v_get_one. rewrite r_get_view.
    destruct (lookup v (KNStatus n)); reflexivity.
  Qed.

  Lemma r_get_multi_spec : forall ks acc, NoDup ks -> (forall k, In k ks -> ~ In k (map fst acc)) ->
    match v_get_multi v ks with
    | inl vals => r_get_multi s ks acc = inl (acc ++ combine ks vals) /\ List.length vals = List.length ks
    | inr _ => exists e, r_get_multi s ks acc = inr e
    end.
  Proof.
    induction ks as [|k t IH]; intros acc NDk DIS; simpl.
    - rewrite app_nil_r. auto.
    - rewrite r_get_view. unfold v_get_one. destruct (lookup v k) as [x|] eqn:L; [|eauto].
      inversion NDk as [|? ? NI NDt]; subst.
      rewrite put_absent by (apply DIS; left; reflexivity).
      assert (D' : forall k0, In k0 t -> ~ In k0 (map fst (acc ++ [(k, x)]))).
      { intros k0 H0 HI. rewrite map_app in HI. apply in_app_or in HI. destruct HI as [HI | [HI | []]].
        - eapply DIS; [right; exact H0 | exact HI].
        - simpl in HI. subst. contradiction. }
      specialize (IH (acc ++ [(k, x)]) NDt D').
      destruct (v_get_multi v t) as [vals|e]; [|exact IH].
      destruct IH as [IH1 IH2]. split; [|simpl; lia]. rewrite IH1, <- app_assoc. reflexivity.
  Qed.
  Lemma get_multi_vals : forall ks, NoDup ks ->
    match v_get_multi v ks with
    | inl vals => exists kvs, r_get_multi s ks [] = inl kvs /\ map snd kvs = vals
    | inr _ => exists e, r_get_multi s ks [] = inr e
    end.
  Proof.
    intros ks NDk. pose proof (r_get_multi_spec ks [] NDk (fun _ _ H => H)) as P.
    destruct (v_get_multi v ks) as [vals|e]; [|exact P].
    destruct P as [P1 P2]. exists (combine ks vals). split; [exact P1 | apply combine_snd; exact P2].
  Qed.
  Lemma get_multi_of_list : forall kvs, (forall k x, In (k, x) kvs -> lookup v k = Some x) ->
    v_get_multi v (map fst kvs) = inl (map snd kvs).
  Proof.
    induction kvs as [|[k x] t IH]; intro H; simpl; [reflexivity|].
    unfold v_get_one. rewrite (H k x (or_introl eq_refl)). rewrite IH; [reflexivity|].
    intros k0 x0 H0. apply H. right. exact H0.
  Qed.

  Lemma nodup_scan : forall p, NoDup (map fst (v_range v p)).
  Proof.
    intro p. unfold v_range, scan.
    eapply Permutation_NoDup; [apply Permutation_map, Permutation_sym, isort_perm|]. apply NoDup_map_filter, nd_view.
  Qed.
  Lemma in_scan : forall p k x, In (k, x) (v_range v p) -> p k = true /\ lookup v k = Some x.
  Proof.
    intros p k x H. apply (Permutation_in _ (isort_perm _)), filter_In in H. destruct H as [H P].
    split; [exact P | apply in_nodup_lookup; [exact nd_view | exact H]].
  Qed.
  Lemma r_scan_view : forall p, r_scan s p = map fst (v_range v p).
  Proof. intro p. unfold r_scan, v_range. rewrite view_mapv, scan_mapv, keys_mapv. reflexivity. Qed.

  Lemma by_pattern_eq : forall p limit, r_by_pattern s p limit = inl (take_limit limit (v_range v p)).
  Proof.
    intros p limit. unfold r_by_pattern. rewrite r_scan_view, take_limit_map.
    set (kvs := take_limit limit (v_range v p)).
    assert (NDk : NoDup (map fst kvs)).
    { unfold kvs. rewrite <- take_limit_map. apply nodup_take_limit, nodup_scan. }
    assert (LK : forall k x, In (k, x) kvs -> lookup v k = Some x).
    { intros k x H. apply (in_scan p). eapply in_take_limit. exact H. }
    pose proof (r_get_multi_spec (map fst kvs) [] NDk (fun _ _ H => H)) as P.
    rewrite (get_multi_of_list kvs LK) in P. destruct P as [P _]. rewrite P. simpl.
    rewrite combine_fst_snd. reflexivity.
  Qed.

  Lemma nodes_of_pod_eq : forall p flt all, r_nodes_of_pod s p flt all = v_nodes_of_pod v p flt all.
  Proof.
    intros. unfold r_nodes_of_pod, v_nodes_of_pod. rewrite by_pattern_eq. unfold take_limit. simpl.
    apply do_get_nodes_ext, has_status_eq.
  Qed.
  Lemma all_pods_eq : r_all_pods s = v_all_pods v.
  Proof. unfold r_all_pods, v_all_pods. rewrite by_pattern_eq. reflexivity. Qed.
  Lemma nodes_of_pods_eq : forall ps flt all, r_nodes_of_pods s ps flt all = v_nodes_of_pods v ps flt all.
  Proof. induction ps as [|p t IH]; intros; simpl; [reflexivity|]. rewrite nodes_of_pod_eq, IH. reflexivity. Qed.
  Lemma get_nodes_by_pod_eq : forall p flt all, r_get_nodes_by_pod s p flt all = v_get_nodes_by_pod v p flt all.
  Proof.
    intros. unfold r_get_nodes_by_pod, v_get_nodes_by_pod. rewrite nodes_of_pod_eq, all_pods_eq.
    destruct (negb (name_eqb p ""%string)); [reflexivity|]. destruct (v_all_pods v); [apply nodes_of_pods_eq | reflexivity].
  Qed.

  Lemma get_nodes_sim : forall ns, NoDup ns -> sim (r_get_nodes s ns) (v_get_nodes v ns).
  Proof.
    intros ns N. unfold r_get_nodes, v_get_nodes.
    assert (NK : NoDup (map KNode ns)) by (apply Injective_map_NoDup; [intros x y E; inversion E; reflexivity | exact N]).
    pose proof (get_multi_vals (map KNode ns) NK) as P.
    destruct (v_get_multi v (map KNode ns)) as [vals|e].
    - destruct P as [kvs [P1 P2]]. rewrite P1, P2. rewrite (do_get_nodes_ext _ (v_has_status v)) by (apply has_status_eq).
      apply sim_refl.
    - destruct P as [e' P]. rewrite P. exact I.
  Qed.

  Lemma bind_additions_sim : forall ws, sim (r_bind_additions s ws) (v_bind_additions v ws).
  Proof.
    intro ws. unfold r_bind_additions, v_bind_additions, bind_additions.
    destruct (collect_additions ws [] []) as [[sk names]|e] eqn:C; [|exact I].
    assert (N : NoDup names) by (eapply collect_nodup; [constructor | exact C]).
    pose proof (get_nodes_sim names N) as G.
    destruct (r_get_nodes s names) as [ns1|e1], (v_get_nodes v names) as [ns2|e2]; simpl in G; try contradiction; [|exact I].
    subst ns2. rewrite (attach_ext (r_get s) (lookup v)) by (apply r_get_view). apply sim_refl.
  Qed.
  Lemma sim_bind : forall {X Y} (a b : X + err) (f g : X -> Y + err),
    sim a b -> (forall x, sim (f x) (g x)) ->
    sim (match a with inl x => f x | inr e => inr e end) (match b with inl x => g x | inr e => inr e end).
  Proof. intros X Y a b f g S F. destruct a, b; simpl in *; try contradiction; [subst; apply F | exact I]. Qed.

  Lemma get_workloads_sim : forall ids, NoDup ids -> sim (r_get_workloads s ids) (v_get_workloads v ids).
  Proof.
    intros ids N. unfold r_get_workloads, v_get_workloads.
    assert (NK : NoDup (map KWl ids)) by (apply Injective_map_NoDup; [intros x y E; inversion E; reflexivity | exact N]).
    pose proof (get_multi_vals (map KWl ids) NK) as P.
    destruct (v_get_multi v (map KWl ids)) as [vals|e].
    - destruct P as [kvs [P1 P2]]. rewrite P1, P2. destruct (unmarshal_workloads vals); [apply bind_additions_sim | exact I].
    - destruct P as [e' P]. rewrite P. exact I.
  Qed.
  Lemma list_sim : forall p limit flt, sim (r_list s p limit flt) (v_list v p limit flt).
  Proof.
    intros. unfold r_list, v_list. rewrite by_pattern_eq.
    destruct (unmarshal_workloads (map snd (take_limit limit (v_range v p)))); [apply bind_additions_sim | exact I].
  Qed.

  Lemma read_refines : forall o r, redis_safe s o = true -> read_op v o = Some r ->
    fst (rstep s o) = s /\ res_equiv (snd (rstep s o)) r.
  Proof.
    assert (ONE : forall x : name, NoDup [x]) by (intro x; constructor; [simpl; tauto | constructor]).
    assert (ERR : forall e e' : err, res_equiv (RErr e) (RErr e')) by (intros; exact I).
    intros o r SAFE R. destruct o; cbn [read_op] in R; try discriminate R; cbn [rstep fst snd];
      try (destruct (list_prefix a e n) as [[a' e'] n']); inversion R; subst; cbn [fst snd]; (split; [try reflexivity|]).
    - (* GetPod *) unfold r_get_one. destruct (r_get s (KPod p)) as [[]|]; reflexivity.
    - unfold r_get_one, v_get_one. rewrite r_get_view. destruct (lookup v (KPod p)) as [[]|]; simpl; auto.
    - (* GetAllPods *) rewrite all_pods_eq. apply res_equiv_refl.
    - (* GetNode *) apply (sim_res res_first_node), get_nodes_sim, ONE. exact ERR.
    - (* GetNodes *) apply (sim_res res_nodes), get_nodes_sim, nodup_b_NoDup, SAFE. exact ERR.
    - (* GetNodesByPod *) rewrite get_nodes_by_pod_eq. apply res_equiv_refl.
    - (* GetNodeStatus *) unfold r_get_one. destruct (r_get s (KNStatus n)) as [[]|]; reflexivity.
    - unfold r_get_one, v_get_one. rewrite r_get_view. destruct (lookup v (KNStatus n)) as [[]|]; simpl; auto.
    - (* LoadNodeCert *) rewrite !r_get_view. apply res_equiv_refl.
    - (* GetWorkload *) apply (sim_res res_first_wl), get_workloads_sim, ONE. exact ERR.
    - (* GetWorkloads *) apply (sim_res res_wls), get_workloads_sim, nodup_b_NoDup, SAFE. exact ERR.
    - (* GetWorkloadStatus *) apply (sim_res res_first_wl_status), get_workloads_sim, ONE. exact ERR.
    - (* ListWorkloads *) apply (sim_res res_wls), list_sim. exact ERR.
    - (* ListNodeWorkloads *) apply (sim_res res_wls), list_sim. exact ERR.
    - (* GetDeployStatus *) rewrite !by_pattern_eq. reflexivity.
    - rewrite !by_pattern_eq. reflexivity.
  Qed.
End Reads.

Lemma r_set_put : forall s k v, r_set s k v 0 = s_put s k v None.
Proof. reflexivity. Qed.
Lemma r_set_put_ttl : forall s k v ttl, 0 < ttl -> r_set s k v ttl = s_put s k v (Some (r_now s + ttl)).
Proof. intros. unfold r_set, s_put. replace (0 <? ttl) with true by (symmetry; apply Z.ltb_lt; assumption). reflexivity. Qed.
Lemma multi_set_puts : forall data s, r_multi_set s data = s_puts s data.
Proof. induction data as [|d t IH]; intro s; simpl; [reflexivity | apply IH]. Qed.
Lemma batch_delete_dels : forall ks s, r_batch_delete s ks = s_dels s ks.
Proof. induction ks as [|k t IH]; intro s; simpl; [reflexivity | apply IH]. Qed.

Lemma mem_put_other : forall {V} (m : list (key * V)) k k' x, key_eqb k' k = false -> mem (put m k x) k' = mem m k'.
Proof. intros. unfold mem. rewrite lookup_put_other by assumption. reflexivity. Qed.

(* MULTI{SETNX...} when none of the (distinct) keys exists = atomic create *)
Lemma setnx_fold_absent : forall data s ok,
  NoDup (map fst data) -> (forall k, In k (map fst data) -> mem (r_kv s) k = false) ->
  fold_left (fun acc kv => let '(s, ok) := acc in
                           let '(s1, c) := r_setnx s (fst kv) (snd kv) in (s1, ok && c)) data (s, ok)
  = (s_puts s data, ok).
Proof.
  induction data as [|d t IH]; intros s ok N A; simpl; [reflexivity|].
  inversion N as [|? ? NI Nt]; subst.
  unfold r_setnx at 2. rewrite (A (fst d)) by (left; reflexivity). rewrite andb_true_r.
  change (mkRS (put (r_kv s) (fst d) (mkS (snd d) None)) (r_now s)) with (s_put s (fst d) (snd d) None).
  apply IH; [exact Nt|]. intros k H. unfold s_put. cbn [r_kv]. rewrite mem_put_other.
  - apply A. right. exact H.
  - apply key_eqb_false. intro E. subst. contradiction.
Qed.
(* ... and when all of them exist nothing changes *)
Lemma setnx_fold_present : forall data s ok,
  (forall k, In k (map fst data) -> mem (r_kv s) k = true) ->
  fold_left (fun acc kv => let '(s, ok) := acc in
                           let '(s1, c) := r_setnx s (fst kv) (snd kv) in (s1, ok && c)) data (s, ok)
  = (s, match data with [] => ok | _ => false end).
Proof.
  induction data as [|d t IH]; intros s ok A; simpl; [reflexivity|].
  unfold r_setnx at 2. rewrite (A (fst d)) by (left; reflexivity). rewrite andb_false_r.
  rewrite IH by (intros k H; apply A; right; exact H). destruct t; reflexivity.
Qed.
(* BatchCreateAndDecr runs the same SETNX loop and drops the results *)
Lemma setnx_fold_fst : forall data s ok,
  fst (fold_left (fun acc kv => let '(s, ok) := acc in
                                let '(s1, c) := r_setnx s (fst kv) (snd kv) in (s1, ok && c)) data (s, ok))
  = fold_left (fun s kv => fst (r_setnx s (fst kv) (snd kv))) data s.
Proof.
  induction data as [|d t IH]; intros s ok; simpl; [reflexivity|].
  destruct (r_setnx s (fst d) (snd d)) as [s1 c]. apply IH.
Qed.
Lemma setnx_ignore_absent : forall data s,
  NoDup (map fst data) -> (forall k, In k (map fst data) -> mem (r_kv s) k = false) ->
  fold_left (fun s kv => fst (r_setnx s (fst kv) (snd kv))) data s = s_puts s data.
Proof. intros data s N A. rewrite <- (setnx_fold_fst data s true), (setnx_fold_absent data s true N A). reflexivity. Qed.

Lemma batch_create_safe : forall s data, data <> [] -> NoDup (map fst data) -> all_or_none s data = true ->
  r_batch_create s data = s_create s data.
Proof.
  intros s data NE N AON. unfold r_batch_create, s_create, all_or_none in *.
  destruct data as [|d t]; [contradiction|].
  destruct (existsb (s_mem s) (map fst (d :: t))) eqn:EX.
  - rewrite orb_false_r in AON.
    rewrite setnx_fold_present by (apply forallb_forall; exact AON). reflexivity.
  - rewrite setnx_fold_absent; [reflexivity | exact N | apply existsb_false_in; exact EX].
Qed.

Lemma batch_create_one : forall s k x, r_batch_create s [(k, x)] = s_create s [(k, x)].
Proof.
  intros. apply batch_create_safe; [discriminate | exact (NoDup_cons k (@in_nil _ k) (NoDup_nil _))|].
  unfold all_or_none. simpl. destruct (s_mem s k); reflexivity.
Qed.

Lemma exists_count : forall s ks, (r_exists s ks =? Z.of_nat (List.length ks)) = forallb (s_mem s) ks.
Proof.
  intros s ks. unfold r_exists.
  assert (G : forall ks n, fold_left (fun n k => if mem (r_kv s) k then n + 1 else n) ks n <= n + Z.of_nat (List.length ks)
              /\ (fold_left (fun n k => if mem (r_kv s) k then n + 1 else n) ks n = n + Z.of_nat (List.length ks)
                  <-> forallb (s_mem s) ks = true)).
  { induction ks0 as [|k t IH]; intro n; simpl List.length; simpl fold_left; simpl forallb.
    - split; [lia | split; [reflexivity | intro; lia]].
    - unfold s_mem at 1. destruct (mem (r_kv s) k); simpl.
      + destruct (IH (n + 1)) as [I1 I2]. split; [lia|]. rewrite <- I2. lia.
      + destruct (IH n) as [I1 I2]. split; [lia|]. split; [intro; lia | intro; discriminate]. }
  destruct (G ks 0) as [_ G2]. simpl in G2.
  destruct (forallb (s_mem s) ks) eqn:F.
  - apply Z.eqb_eq. apply G2. reflexivity.
  - apply Z.eqb_neq. intro E. apply G2 in E. discriminate.
Qed.
Lemma batch_update_safe : forall s data, data <> [] -> r_batch_update s data = s_update s data.
Proof.
  intros s data NE. unfold r_batch_update, s_update. destruct data as [|d t]; [contradiction|].
  rewrite <- (map_length fst (d :: t)), exists_count.
  destruct (forallb (s_mem s) (map fst (d :: t))); simpl; [rewrite multi_set_puts|]; reflexivity.
Qed.

Lemma put_nonempty : forall {V} (m : list (key * V)) k x, put m k x <> [].
Proof. intros V m k x. destruct m as [|[k0 v0] t]; simpl; [discriminate|]. destruct (key_eqb k k0); discriminate. Qed.
Lemma nodup_dput_if : forall d k sx, NoDup (map fst d) -> NoDup (map fst (dput_if d k sx)).
Proof. intros. unfold dput_if. destruct (name_eqb sx ""%string); [assumption | apply nodup_put; assumption]. Qed.
Lemma nodup_add_node : forall nd ca cert ky, NoDup (map fst (add_node_data nd ca cert ky)).
Proof.
  intros. unfold add_node_data, dput.
  repeat first [apply nodup_put | apply nodup_dput_if]. constructor.
Qed.
Lemma nodup_workload : forall w a e, NoDup (map fst (workload_data w a e)).
Proof. intros. unfold workload_data, dput. repeat apply nodup_put. constructor. Qed.
Lemma update_nodes_nonempty : forall l, l <> [] -> update_nodes_data l <> [].
Proof.
  intros l NE. destruct (exists_last NE) as [l' [[[[nd ca] cert] ky] ->]].
  unfold update_nodes_data. rewrite fold_left_app. cbn [fold_left]. unfold dput_if, dput.
  destruct (name_eqb ca ""%string), (name_eqb cert ""%string), (name_eqb ky ""%string); apply put_nonempty.
Qed.

Lemma put_comm_present : forall {V} (m : list (key * V)) k1 k2 v1 v2,
  key_eqb k1 k2 = false -> mem m k1 = true -> put (put m k1 v1) k2 v2 = put (put m k2 v2) k1 v1.
Proof.
  induction m as [|[k0 v0] t IH]; intros k1 k2 v1 v2 NE M; [discriminate|].
  unfold mem in M. cbn [lookup] in M.
  assert (NE' : key_eqb k2 k1 = false) by (rewrite key_eqb_sym; exact NE).
  destruct (key_eqb k1 k0) eqn:E1.
  - apply key_eqb_eq in E1. subst k0. cbn [put]. rewrite key_eqb_refl, NE'. cbn [put]. rewrite NE', key_eqb_refl. reflexivity.
  - cbn [put]. rewrite E1. destruct (key_eqb k2 k0) eqn:E2.
    + apply key_eqb_eq in E2. subst k0. cbn [put]. rewrite key_eqb_refl, NE. reflexivity.
    + cbn [put]. rewrite E1, E2. f_equal. apply IH; [exact NE | unfold mem; exact M].
Qed.

Lemma s_puts_app : forall d1 d2 s, s_puts s (d1 ++ d2) = s_puts (s_puts s d1) d2.
Proof. intros. unfold s_puts. apply fold_left_app. Qed.
Lemma mem_s_put_other : forall s k k' v ex, key_eqb k' k = false -> mem (r_kv (s_put s k v ex)) k' = mem (r_kv s) k'.
Proof. intros. unfold s_put. cbn [r_kv]. apply mem_put_other. assumption. Qed.
Lemma puts_comm : forall data s dk x,
  mem (r_kv s) dk = true -> (forall k, In k (map fst data) -> key_eqb dk k = false) ->
  s_puts (s_put s dk x None) data = s_put (s_puts s data) dk x None.
Proof.
  induction data as [|d t IH]; intros s dk x M NE; simpl; [reflexivity|].
  assert (E : key_eqb dk (fst d) = false) by (apply NE; left; reflexivity).
  replace (s_put (s_put s dk x None) (fst d) (snd d) None) with (s_put (s_put s (fst d) (snd d) None) dk x None).
  - apply IH.
    + rewrite mem_s_put_other; assumption.
    + intros k H. apply NE. right. exact H.
  - unfold s_put. cbn [r_kv r_now]. f_equal. symmetry. apply put_comm_present; assumption.
Qed.

Lemma create_and_decr_safe : forall s data dk c,
  lookup (r_kv s) dk = Some (mkS (VCnt c) None) -> NoDup (map fst data) ->
  existsb (s_mem s) (map fst data) = false -> (forall k, In k (map fst data) -> key_eqb dk k = false) ->
  r_batch_create_and_decr s data dk = (s_puts s (data ++ [(dk, VCnt (c - 1))]), None).
Proof.
  intros s data dk c L N EX NE. unfold r_batch_create_and_decr, r_decr. rewrite L.
  change (mkRS (put (r_kv s) dk (mkS (VCnt (c - 1)) None)) (r_now s)) with (s_put s dk (VCnt (c - 1)) None).
  rewrite setnx_ignore_absent; [|exact N|].
  - rewrite s_puts_app. simpl. rewrite puts_comm; [reflexivity | unfold mem; rewrite L; reflexivity | exact NE].
  - intros k H. rewrite mem_s_put_other.
    + apply (existsb_false_in _ _ EX). exact H.
    + rewrite key_eqb_sym. apply NE. exact H.
Qed.

Lemma same_step : forall a b : sstate * result, a = b -> fst a = fst b /\ res_equiv (snd a) (snd b).
Proof. intros a b ->. split; [reflexivity | apply res_equiv_refl]. Qed.

(* apart from the error kind of a missing key, a redis-safe write is the specified step itself *)
Theorem rstep_refines : forall s o, NoDup (map fst (r_kv s)) -> redis_safe s o = true ->
  fst (rstep s o) = fst (spec_step s o) /\ res_equiv (snd (rstep s o)) (snd (spec_step s o)).
Proof.
  intros s o ND SAFE. unfold spec_step.
  destruct (read_op (s_view s) o) as [r|] eqn:R; [apply (read_refines s ND o r SAFE R)|].
  destruct o; cbn [read_op] in R; try discriminate R;
    try (destruct (list_prefix a e n) as [[? ?] ?]; discriminate R); cbn [rstep redis_safe] in *.
  - (* AddPod *) apply same_step. rewrite batch_create_one. reflexivity.
  - (* RemovePod *)
    rewrite (get_nodes_by_pod_eq s ND).
    destruct (v_get_nodes_by_pod (s_view s) p [] true) as [[|x t]|e]; try (apply same_step; reflexivity).
    unfold s_mem. destruct (mem (r_kv s) (KPod p)) eqn:M; cbn [negb Z.eqb Pos.eqb]; apply same_step; [reflexivity|].
    f_equal. unfold r_del. rewrite del_absent; [destruct s; reflexivity|].
    unfold mem in M. destruct (lookup (r_kv s) (KPod p)); [discriminate | reflexivity].
  - (* AddNode *)
    unfold r_get_one. rewrite (r_get_view s).
    destruct (lookup (s_view s) (KPod (n_pod nd))) as [[]|]; try (apply same_step; reflexivity); [|split; [reflexivity | exact I]].
    apply same_step. rewrite batch_create_safe; [reflexivity | apply put_nonempty | apply nodup_add_node | exact SAFE].
  - (* RemoveNode *) apply same_step. rewrite batch_delete_dels. reflexivity.
  - (* UpdateNodes *)
    assert (NE : l <> []) by (destruct l; discriminate).
    pose proof (update_nodes_nonempty l NE) as NE2. apply same_step. unfold r_batch_put. rewrite multi_set_puts.
    destruct (update_nodes_data l); [contradiction | reflexivity].
  - (* SetNodeStatus *)
    apply same_step. unfold r_set_node_status.
    destruct (ttl =? 0) eqn:Z0; [reflexivity|]. destruct (ttl <? 0) eqn:ZN; [reflexivity|].
    assert (T : 0 < ttl) by (apply Z.eqb_neq in Z0; apply Z.ltb_ge in ZN; lia).
    replace (0 <? ttl) with true in SAFE by (symmetry; apply Z.ltb_lt; exact T).
    rewrite SAFE, r_set_put_ttl by exact T. reflexivity.
  - (* AddWorkload *)
    apply same_step. unfold r_ops_workload. destruct (w_parse w) as [[a e]|]; [|reflexivity].
    destruct pr as [p0|].
    + destruct (lookup (r_kv s) (proc_key p0)) as [[[] [ex|]]|] eqn:L; try discriminate SAFE.
      apply negb_true_iff in SAFE.
      rewrite (create_and_decr_safe s (workload_data w a e) (proc_key p0) z L (nodup_workload w a e) SAFE).
      * rewrite view_mapv, lookup_mapv, L. reflexivity.
      * intros k H. unfold workload_data, dput in H.
        repeat (apply in_keys_put in H; destruct H as [H | H]; [subst; reflexivity|]). contradiction.
    + rewrite batch_create_safe; [reflexivity | apply put_nonempty | apply nodup_workload | exact SAFE].
  - (* UpdateWorkload *)
    apply same_step. unfold r_ops_workload. destruct (w_parse w) as [[a e]|]; [|reflexivity].
    rewrite batch_update_safe by apply put_nonempty. reflexivity.
  - (* RemoveWorkload *)
    apply same_step. destruct (w_parse w) as [[a e]|]; [|reflexivity]. rewrite batch_delete_dels. reflexivity.
  - (* SetWorkloadStatus *)
    apply same_step. unfold r_set_workload_status, r_bind_status.
    destruct (status_args_bad a e n); [reflexivity|].
    destruct (ttl =? 0) eqn:Z0; [apply Z.eqb_eq in Z0; subst ttl; reflexivity|].
    assert (T : 0 < ttl) by (apply Z.eqb_neq in Z0; apply Z.leb_le in SAFE; lia).
    change 1 with (Z.of_nat (List.length [KWl (ws_id st)])). rewrite exists_count. cbn [negb andb forallb]. rewrite andb_true_r.
    destruct (s_mem s (KWl (ws_id st))); cbn [negb res_of_bind]; [rewrite r_set_put_ttl by exact T|]; reflexivity.
  - (* CreateProcessing *) apply same_step. rewrite batch_create_one. reflexivity.
  - (* DeleteProcessing *) apply same_step. rewrite batch_delete_dels. reflexivity.
  - (* Advance *) apply same_step. reflexivity.
Qed.

(* What a step of the specification may write:
   apart from the clock, every operation leaves the state alone, puts a batch,
   deletes a batch or puts one entry, and only under keys of its [footprint]. *)
Definition footprint (o : op) : list key :=
  match o with
  | OAddPod p _ | ORemovePod p => [KPod p]
  | OAddNode nd ca cert ky => map fst (add_node_data nd ca cert ky)
  | ORemoveNode n p => remove_node_keys n p
  | OUpdateNodes l => map fst (update_nodes_data l)
  | OSetNodeStatus n _ _ => [KNStatus n]
  | OSetWorkloadStatus st a e n _ => [KStatus a e n (ws_id st)]
  | OAddWorkload w pr =>
      match w_parse w with
      | Some (a, e) => map fst (workload_data w a e) ++ match pr with Some p => [proc_key p] | None => [] end
      | None => []
      end
  | OUpdateWorkload w => match w_parse w with Some (a, e) => map fst (workload_data w a e) | None => [] end
  | ORemoveWorkload w => match w_parse w with Some (a, e) => clean_keys w a e | None => [] end
  | OCreateProcessing pr _ | ODeleteProcessing pr => [proc_key pr]
  | _ => []
  end.
Inductive writes (s : sstate) (ks : list key) : sstate -> Prop :=
| w_none : writes s ks s
| w_puts d : incl (map fst d) ks -> writes s ks (s_puts s d)
| w_dels l : incl l ks -> writes s ks (s_dels s l)
| w_put k v ex : In k ks -> writes s ks (s_put s k v ex).

Lemma advance_dec : forall o, {d | o = OAdvance d} + {forall d, o <> OAdvance d}.
Proof. destruct o; try (right; discriminate). left. eauto. Qed.

Lemma writes_create : forall s ks d, incl (map fst d) ks -> writes s ks (fst (s_create s d)).
Proof.
  intros s ks d H. unfold s_create. destruct d; [apply w_none|].
  destruct (existsb _ _); [apply w_none | apply w_puts; exact H].
Qed.
Lemma writes_update : forall s ks d, incl (map fst d) ks -> writes s ks (fst (s_update s d)).
Proof.
  intros s ks d H. unfold s_update. destruct d; [apply w_none|].
  destruct (forallb _ _); [apply w_puts; exact H | apply w_none].
Qed.
Lemma fst_res_ok : forall {S} ok (x : S * option err),
  fst (match x with (s, None) => (s, ROk ok) | (s, Some e) => (s, RErr e) end) = fst x.
Proof. intros S ok [s [e|]]; reflexivity. Qed.

#[local] Hint Resolve w_none w_puts w_dels w_put incl_refl in_eq writes_create writes_update : writes.
Lemma spec_step_writes : forall s o, (forall d, o <> OAdvance d) -> writes s (footprint o) (fst (spec_step s o)).
Proof.
  intros s o NA. unfold spec_step, res_unit. destruct (read_op (s_view s) o); [apply w_none|].
  destruct o; cbn [footprint fst]; rewrite ?fst_res_ok; auto with writes.
  - destruct (v_get_nodes_by_pod _ _ _ _) as [[|]|]; cbn [fst]; auto with writes.
    destruct (s_mem s (KPod p)); cbn [fst]; auto with writes.
  - destruct (lookup _ _) as [[]|]; rewrite ?fst_res_ok; auto with writes.
  - destruct (update_nodes_data l); cbn [fst]; auto with writes.
  - destruct (ttl =? 0), (ttl <? 0), (s_mem s (KNode n)); cbn [fst]; auto with writes.
  - destruct (w_parse w) as [[a e]|], pr as [p|]; cbn [fst]; auto with writes.
    + destruct (lookup _ _) as [[]|]; cbn [fst]; auto with writes.
    + rewrite fst_res_ok, app_nil_r. auto with writes.
  - destruct (w_parse w) as [[a e]|]; rewrite ?fst_res_ok; auto with writes.
  - destruct (w_parse w) as [[a e]|]; cbn [fst]; auto with writes.
  - destruct (status_args_bad a e n), (ttl =? 0), (s_mem s (KWl (ws_id st))); cbn [fst]; auto with writes.
  - destruct (NA d eq_refl).
Qed.

Lemma nodup_s_puts : forall data s, NoDup (map fst (r_kv s)) -> NoDup (map fst (r_kv (s_puts s data))).
Proof. induction data as [|d t IH]; intros s N; simpl; [exact N|]. apply IH. unfold s_put. cbn [r_kv]. apply nodup_put. exact N. Qed.
Lemma nodup_s_dels : forall ks s, NoDup (map fst (r_kv s)) -> NoDup (map fst (r_kv (s_dels s ks))).
Proof. induction ks as [|k t IH]; intros s N; simpl; [exact N|]. apply IH. cbn [r_kv]. apply nodup_del. exact N. Qed.
Lemma spec_nodup : forall s o, NoDup (map fst (r_kv s)) -> NoDup (map fst (r_kv (fst (spec_step s o)))).
Proof.
  intros s o N. destruct (advance_dec o) as [[d ->] | NA]; [apply NoDup_map_filter; exact N|].
  destruct (spec_step_writes s o NA); [exact N | apply nodup_s_puts, N | apply nodup_s_dels, N | apply nodup_put, N].
Qed.

Theorem rrun_refines : forall h s, NoDup (map fst (r_kv s)) -> safe_history s h = true ->
  fst (run rstep s h) = fst (run spec_step s h) /\
  Forall2 res_equiv (snd (run rstep s h)) (snd (run spec_step s h)).
Proof.
  induction h as [|o t IH]; intros s N SH; cbn [run]; [split; [reflexivity | constructor]|].
  cbn [safe_history] in SH. apply andb_true_iff in SH. destruct SH as [S1 S2].
  destruct (rstep_refines s o N S1) as [E1 E2]. pose proof (spec_nodup s o N) as N1.
  destruct (rstep s o) as [s1 r1]. destruct (spec_step s o) as [s1' r1']. cbn [fst snd] in *. subst s1'.
  destruct (IH s1 N1 S2) as [F1 F2].
  destruct (run rstep s1 t) as [s2 rs]. destruct (run spec_step s1 t) as [s2' rs']. cbn [fst snd] in *.
  split; [exact F1 | constructor; assumption].
Qed.
