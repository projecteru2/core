(* The order in which Redis SCAN returns keys is not specified (the
   models use miniredis' sorted order).  This file leaves the order open. *)
From Coq Require Import List ZArith Lia Permutation.
From Verif Require Import Store.KVPrims Store.Ops Store.Spec
  Store.RedisModel Store.RedisProofs.
Import ListNotations.
Local Open Scope Z_scope.

(* getByKeyPattern with the order of SCAN left open: under a positive limit the
   Go code keeps the first [limit] keys of whatever order the server returned;
   [choose] is that oracle (miniredis: the sorted order, KVPrims.r_scan). *)
Definition r_by_pattern_o (choose : list key -> list key) (s : rstate) (p : key -> bool) (limit : Z)
  : list (key * value) + err :=
  r_get_multi s (if 0 <? limit then choose (r_scan s p) else r_scan s p) [].

Definition valid_choice (limit : Z) (l c : list key) : Prop :=
  NoDup c /\ incl c l /\ List.length c = Nat.min (Z.to_nat limit) (List.length l).

Lemma by_pattern_o_sorted : forall s p limit,
  r_by_pattern_o (firstn (Z.to_nat limit)) s p limit = r_by_pattern s p limit.
Proof. intros. unfold r_by_pattern_o, r_by_pattern, take_limit. destruct (0 <? limit); reflexivity. Qed.

Section Oracle.
  Variable s : rstate.
  Hypothesis ND : NoDup (map fst (r_kv s)).
  Local Notation v := (s_view s).

  Lemma get_multi_present : forall c, (forall k, In k c -> exists x, lookup v k = Some x) ->
    exists vals, v_get_multi v c = inl vals /\ List.length vals = List.length c.
  Proof.
    induction c as [|k t IH]; intro H; simpl; [exists []; auto|].
    destruct (H k (or_introl eq_refl)) as [x L]. unfold v_get_one. rewrite L.
    destruct IH as [vals [E LN]]; [intros k0 H0; apply H; right; exact H0|].
    rewrite E. exists (x :: vals). simpl. auto.
  Qed.

  (* whatever order SCAN returns, a limited read fetches exactly min(limit, matches)
     records -- as many as the etcd range read with WithLimit -- all of them matches *)
  Theorem by_pattern_o_size : forall choose p limit, 0 < limit ->
    valid_choice limit (r_scan s p) (choose (r_scan s p)) ->
    exists kvs, r_by_pattern_o choose s p limit = inl kvs /\
      map fst kvs = choose (r_scan s p) /\
      (forall k x, In (k, x) kvs -> p k = true /\ lookup v k = Some x) /\
      List.length kvs = List.length (take_limit limit (v_range v p)).
  Proof.
    intros choose p limit LP [NDc [INC LEN]]. unfold r_by_pattern_o.
    replace (0 <? limit) with true by (symmetry; apply Z.ltb_lt; exact LP).
    set (c := choose (r_scan s p)) in *.
    assert (PRES : forall k, In k c -> exists x, lookup v k = Some x /\ p k = true).
    { intros k H. apply INC in H. rewrite (r_scan_view s) in H. apply in_map_iff in H.
      destruct H as [[k0 x] [E HI]]. simpl in E. subst k0. exists x. apply and_comm, (in_scan s ND p), HI. }
    destruct (get_multi_present c) as [vals [GM LV]]; [intros k H; destruct (PRES k H) as [x [L _]]; eauto|].
    pose proof (r_get_multi_spec s c [] NDc (fun _ _ H => H)) as SP. rewrite GM in SP. destruct SP as [SP _].
    exists (combine c vals). simpl in SP. split; [exact SP|]. split.
    - clear -LV. revert vals LV. induction c as [|k t IH]; destruct vals; simpl; intro; try discriminate; auto. f_equal. apply IH. lia.
    - split.
      + intros k x HI. assert (HK : In k c) by (eapply in_combine_l; eauto).
        destruct (PRES k HK) as [x' [L P]]. split; [exact P|].
        (* the value paired with k is the looked-up one *)
        clear -GM HI. revert vals GM HI. induction c as [|k0 t IH]; intros vals GM HI; [destruct vals; contradiction|].
        simpl in GM. unfold v_get_one in GM. destruct (lookup (s_view s) k0) as [x0|] eqn:L0; [|discriminate].
        destruct (v_get_multi (s_view s) t) as [r|] eqn:GT; [|discriminate]. inversion GM; subst.
        simpl in HI. destruct HI as [HI | HI]; [inversion HI; subst; exact L0 | eapply IH; eauto].
      + rewrite combine_length, LV, Nat.min_id, LEN. unfold take_limit.
        replace (0 <? limit) with true by (symmetry; apply Z.ltb_lt; exact LP).
        rewrite firstn_length, (r_scan_view s), map_length. reflexivity.
  Qed.

  (* without truncation every order fetches the same set *)
  Theorem by_pattern_o_full : forall choose p limit, 0 < limit ->
    valid_choice limit (r_scan s p) (choose (r_scan s p)) ->
    (List.length (r_scan s p) <= Z.to_nat limit)%nat ->
    Permutation (choose (r_scan s p)) (r_scan s p).
  Proof.
    intros choose p limit LP [NDc [INC LEN]] LE.
    rewrite Nat.min_r in LEN by exact LE.
    apply NoDup_Permutation_bis; auto. lia.
  Qed.
End Oracle.

Definition scan_oracle_stmt : Prop :=
  forall (s : rstate), NoDup (map fst (r_kv s)) ->
  forall choose p limit, 0 < limit -> valid_choice limit (r_scan s p) (choose (r_scan s p)) ->
    (exists kvs, r_by_pattern_o choose s p limit = inl kvs /\
       map fst kvs = choose (r_scan s p) /\
       (forall k x, In (k, x) kvs -> p k = true /\ lookup (s_view s) k = Some x) /\
       List.length kvs = List.length (take_limit limit (v_range (s_view s) p))) /\
    ((List.length (r_scan s p) <= Z.to_nat limit)%nat -> Permutation (choose (r_scan s p)) (r_scan s p)).
Lemma scan_oracle_holds : scan_oracle_stmt.
Proof.
  intros s ND choose p limit LP VC. split.
  - apply by_pattern_o_size; assumption.
  - intro LE. eapply by_pattern_o_full; eauto.
Qed.
