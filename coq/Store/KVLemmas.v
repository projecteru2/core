(* Facts about the boolean equalities and the association maps of KVPrims. *)
From Coq Require Import List Bool ZArith Permutation.
From Verif Require Import Base.ListFacts.
From Verif Require Import Base.RunLib Store.KVPrims.
Import ListNotations.

Lemma name_eqb_refl : forall a, name_eqb a a = true.
Proof. intro; apply String.eqb_refl. Qed.
Lemma name_eqb_eq : forall a b, name_eqb a b = true -> a = b.
Proof. intros a b H; apply String.eqb_eq; exact H. Qed.
Lemma name_eqb_neq : forall a b, name_eqb a b = false -> a <> b.
Proof. intros a b H; apply String.eqb_neq; exact H. Qed.

(* a true conjunction of boolean equalities gives the component-wise equalities *)
Create HintDb eqb.
#[local] Hint Resolve name_eqb_eq Bool.eqb_prop : eqb.
#[local] Hint Resolve -> Z.eqb_eq : eqb.

Lemma key_eqb_refl : forall k, key_eqb k k = true.
Proof. destruct k; simpl; rewrite ?name_eqb_refl; reflexivity. Qed.
Lemma key_eqb_eq : forall a b, key_eqb a b = true -> a = b.
Proof.
  destruct a, b; simpl; intro H; try discriminate; repeat (apply andb_prop in H; destruct H as [H ?]); f_equal; auto with eqb.
Qed.
Lemma key_eqb_sym : forall a b, key_eqb a b = key_eqb b a.
Proof.
  intros a b. destruct (key_eqb a b) eqn:E.
  - apply key_eqb_eq in E. subst. symmetry. apply key_eqb_refl.
  - destruct (key_eqb b a) eqn:E2; [|reflexivity].
    apply key_eqb_eq in E2. subst. rewrite key_eqb_refl in E. discriminate.
Qed.
Lemma key_eqb_neq : forall a b, key_eqb a b = false -> a <> b.
Proof. intros a b H E. subst. rewrite key_eqb_refl in H. discriminate. Qed.
Lemma key_eqb_false : forall a b, a <> b -> key_eqb a b = false.
Proof. intros a b H. destruct (key_eqb a b) eqn:E; [apply key_eqb_eq in E; contradiction | reflexivity]. Qed.

Lemma pairn_eqb_eq : forall a b : name * name, pair_eqb name_eqb name_eqb a b = true -> a = b.
Proof. intros [a1 a2] [b1 b2]; unfold pair_eqb; simpl; rewrite andb_true_iff; intros [H1 H2]; f_equal; auto with eqb. Qed.
Lemma pairn_eqb_refl : forall a : name * name, pair_eqb name_eqb name_eqb a a = true.
Proof. intros [a1 a2]; unfold pair_eqb; simpl; rewrite !name_eqb_refl; reflexivity. Qed.
Lemma labels_eqb_eq : forall a b, labels_eqb a b = true -> a = b.
Proof.
  unfold labels_eqb. induction a as [|x t IH]; destruct b as [|y u]; simpl; intro H; try discriminate; auto.
  apply andb_true_iff in H. destruct H as [H1 H2]. apply pairn_eqb_eq in H1. apply IH in H2. subst. reflexivity.
Qed.
Lemma labels_eqb_refl : forall a, labels_eqb a a = true.
Proof. unfold labels_eqb. induction a as [|x t IH]; simpl; auto. rewrite pairn_eqb_refl, IH. reflexivity. Qed.
Lemma parse_eqb_eq : forall a b : option (name * name), option_eqb (pair_eqb name_eqb name_eqb) a b = true -> a = b.
Proof. intros [a|] [b|]; simpl; intro H; try discriminate; [f_equal; apply pairn_eqb_eq, H | reflexivity]. Qed.
#[local] Hint Resolve labels_eqb_eq parse_eqb_eq : eqb.
Lemma ndata_eqb_eq : forall a b, ndata_eqb a b = true -> a = b.
Proof.
  intros [a1 a2 a3 a4 a5 a6] [b1 b2 b3 b4 b5 b6]; unfold ndata_eqb; simpl; intro H.
  repeat (apply andb_prop in H; destruct H as [H ?]); f_equal; auto with eqb.
Qed.
Lemma ndata_eqb_refl : forall a, ndata_eqb a a = true.
Proof. intros [a1 a2 a3 a4 a5 a6]; unfold ndata_eqb; simpl.
  rewrite !name_eqb_refl, labels_eqb_refl, !Bool.eqb_reflx. reflexivity. Qed.
Lemma wdata_eqb_eq : forall a b, wdata_eqb a b = true -> a = b.
Proof.
  intros [a1 a2 a3 a4 a5] [b1 b2 b3 b4 b5]; unfold wdata_eqb; simpl; intro H.
  repeat (apply andb_prop in H; destruct H as [H ?]); f_equal; auto with eqb.
Qed.
Lemma wdata_eqb_refl : forall a, wdata_eqb a a = true.
Proof. intros [a1 a2 a3 a4 a5]; unfold wdata_eqb; simpl.
  rewrite !name_eqb_refl, labels_eqb_refl. destruct a3; simpl; rewrite ?pairn_eqb_refl; reflexivity. Qed.
Lemma wstat_eqb_eq : forall a b, wstat_eqb a b = true -> a = b.
Proof.
  intros [a1 a2 a3] [b1 b2 b3]; unfold wstat_eqb; simpl; intro H.
  repeat (apply andb_prop in H; destruct H as [H ?]); f_equal; auto with eqb.
Qed.
Lemma wstat_eqb_refl : forall a, wstat_eqb a a = true.
Proof. intros [a1 a2 a3]; unfold wstat_eqb; simpl. rewrite name_eqb_refl, !Bool.eqb_reflx. reflexivity. Qed.
#[local] Hint Resolve ndata_eqb_eq wdata_eqb_eq wstat_eqb_eq : eqb.
Lemma value_eqb_eq : forall a b, value_eqb a b = true -> a = b.
Proof.
  destruct a, b; simpl; intro H; try discriminate; f_equal; auto with eqb;
    apply andb_prop in H; destruct H; auto with eqb.
Qed.
Lemma value_eqb_refl : forall a, value_eqb a a = true.
Proof.
  destruct a; simpl; rewrite ?name_eqb_refl, ?ndata_eqb_refl, ?wdata_eqb_refl, ?wstat_eqb_refl, ?Z.eqb_refl; reflexivity.
Qed.

Section MapLemmas.
  Context {V : Type}.
  Implicit Types m : list (key * V).

  Lemma lookup_put_same : forall m k v, lookup (put m k v) k = Some v.
  Proof.
    induction m as [|[k' v'] t IH]; intros; simpl.
    - rewrite key_eqb_refl. reflexivity.
    - destruct (key_eqb k k') eqn:E; simpl; [rewrite key_eqb_refl; reflexivity | rewrite E; apply IH].
  Qed.
  Lemma lookup_put_other : forall m k k' v, key_eqb k' k = false -> lookup (put m k v) k' = lookup m k'.
  Proof.
    induction m as [|[k0 v0] t IH]; intros k k' v H; simpl.
    - rewrite H. reflexivity.
    - destruct (key_eqb k k0) eqn:E; simpl.
      + apply key_eqb_eq in E. subst. rewrite H. reflexivity.
      + destruct (key_eqb k' k0); [reflexivity | apply IH; exact H].
  Qed.
  Lemma lookup_del_same : forall m k, lookup (del m k) k = None.
  Proof.
    induction m as [|[k0 v0] t IH]; intros k; simpl; [reflexivity|].
    destruct (key_eqb k k0) eqn:E; simpl; [apply IH | rewrite E; apply IH].
  Qed.
  Lemma lookup_del_other : forall m k k', key_eqb k' k = false -> lookup (del m k) k' = lookup m k'.
  Proof.
    induction m as [|[k0 v0] t IH]; intros k k' H; simpl; [reflexivity|].
    destruct (key_eqb k k0) eqn:E; simpl.
    - apply key_eqb_eq in E. subst. rewrite H. apply IH; exact H.
    - destruct (key_eqb k' k0); [reflexivity | apply IH; exact H].
  Qed.
  Lemma del_absent : forall m k, lookup m k = None -> del m k = m.
  Proof.
    induction m as [|[k0 v0] t IH]; intros k H; simpl in *; [reflexivity|].
    destruct (key_eqb k k0) eqn:E; [discriminate|]. simpl. f_equal. apply IH. exact H.
  Qed.
  Lemma mem_lookup : forall m k, mem m k = match lookup m k with Some _ => true | None => false end.
  Proof. reflexivity. Qed.

  Lemma lookup_in : forall m k v, lookup m k = Some v -> In (k, v) m.
  Proof.
    induction m as [|[k0 v0] t IH]; intros k v H; simpl in *; [discriminate|].
    destruct (key_eqb k k0) eqn:E.
    - apply key_eqb_eq in E. inversion H. subst. left. reflexivity.
    - right. apply IH. exact H.
  Qed.
  Lemma lookup_none_notin : forall m k, lookup m k = None -> ~ In k (map fst m).
  Proof.
    induction m as [|[k0 v0] t IH]; intros k H; simpl in *; [tauto|].
    destruct (key_eqb k k0) eqn:E; [discriminate|].
    intros [H1 | H1]; [subst; rewrite key_eqb_refl in E; discriminate | eapply IH; eauto].
  Qed.
  Lemma notin_lookup_none : forall m k, ~ In k (map fst m) -> lookup m k = None.
  Proof.
    induction m as [|[k0 v0] t IH]; intros k H; simpl in *; [reflexivity|].
    destruct (key_eqb k k0) eqn:E.
    - apply key_eqb_eq in E. subst. tauto.
    - apply IH. tauto.
  Qed.
  Lemma in_nodup_lookup : forall m k v, NoDup (map fst m) -> In (k, v) m -> lookup m k = Some v.
  Proof.
    induction m as [|[k0 v0] t IH]; intros k v ND H; simpl in *; [tauto|].
    inversion ND; subst. destruct H as [H | H].
    - inversion H; subst. rewrite key_eqb_refl. reflexivity.
    - destruct (key_eqb k k0) eqn:E.
      + apply key_eqb_eq in E. subst. exfalso. apply H2. apply in_map_iff. exists (k0, v). auto.
      + apply IH; auto.
  Qed.

  Lemma keys_put_present : forall m k v, In k (map fst m) -> map fst (put m k v) = map fst m.
  Proof.
    induction m as [|[k0 v0] t IH]; intros k v H; simpl in *; [tauto|].
    destruct (key_eqb k k0) eqn:E; simpl.
    - apply key_eqb_eq in E. subst. reflexivity.
    - f_equal. apply IH. destruct H; [subst; rewrite key_eqb_refl in E; discriminate | assumption].
  Qed.
  Lemma put_absent : forall m k v, ~ In k (map fst m) -> put m k v = m ++ [(k, v)].
  Proof.
    induction m as [|[k0 v0] t IH]; intros k v H; simpl in *; [reflexivity|].
    destruct (key_eqb k k0) eqn:E; [apply key_eqb_eq in E; subst; tauto|].
    f_equal. apply IH. tauto.
  Qed.
  Lemma keys_put_absent : forall m k v, ~ In k (map fst m) -> map fst (put m k v) = map fst m ++ [k].
  Proof. intros m k v H. rewrite (put_absent m k v H), map_app. reflexivity. Qed.
  Lemma in_keys_put : forall m k v x, In x (map fst (put m k v)) -> x = k \/ In x (map fst m).
  Proof.
    induction m as [|[k0 v0] t IH]; intros k v x H; simpl in *.
    - destruct H; [left; auto | tauto].
    - destruct (key_eqb k k0) eqn:E; simpl in *.
      + apply key_eqb_eq in E. subst. destruct H; auto.
      + destruct H as [H | H]; [right; left; exact H|]. apply IH in H. tauto.
  Qed.
  Lemma nodup_put : forall m k v, NoDup (map fst m) -> NoDup (map fst (put m k v)).
  Proof.
    induction m as [|[k0 v0] t IH]; intros k v ND; simpl in *.
    - constructor; [simpl; tauto | constructor].
    - destruct (key_eqb k k0) eqn:E; simpl.
      + apply key_eqb_eq in E. subst. exact ND.
      + inversion ND; subst. constructor; [|apply IH; assumption].
        intro HI. apply in_keys_put in HI. destruct HI as [HI | HI]; [|contradiction].
        subst. rewrite key_eqb_refl in E. discriminate.
  Qed.
  Lemma nodup_del : forall m k, NoDup (map fst m) -> NoDup (map fst (del m k)).
  Proof. intros. apply NoDup_map_filter. assumption. Qed.

  Lemma ins_perm : forall x m, Permutation (ins x m) (x :: m).
  Proof.
    intros x. induction m as [|y t IH]; simpl; [reflexivity|].
    destruct (key_leb (fst x) (fst y)); [reflexivity|]. rewrite IH. apply perm_swap.
  Qed.
  Lemma isort_perm : forall m, Permutation (isort m) m.
  Proof. induction m as [|x t IH]; simpl; [reflexivity|]. rewrite ins_perm, IH. reflexivity. Qed.
End MapLemmas.

Lemma nodup_firstn : forall {A} n (l : list A), NoDup l -> NoDup (firstn n l).
Proof.
  induction n as [|n IH]; intros [|a t] N; simpl; [constructor ..|]. inversion N; subst.
  constructor; [intro H; apply in_firstn in H; contradiction | apply IH; assumption].
Qed.
