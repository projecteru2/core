(* When is "one batch = one transaction" (EtcdModel) exact for
   meta/etcd.go doBatchOp with its split into commits of at most 125 operations? *)
From Coq Require Import List Bool ZArith String Lia Permutation.
From Verif Require Import Store.KVPrims Store.KVLemmas Store.Ops
  Store.EtcdModel Store.EtcdProofs Store.BatchOp.
Import ListNotations.

Definition sum_len {A} (f : etxn -> list A) (ps : list etxn) : nat := List.length (flat_map f ps).

Lemma pack_fits : forall L ps cur ci ct ce,
  ci + sum_len t_if ps <= L -> ct + sum_len t_then ps <= L -> ce + sum_len t_else ps <= L ->
  pack L cur ci ct ce ps = [cur ++ ps].
Proof.
  intros L. induction ps as [|p t IH]; intros cur ci ct ce H1 H2 H3; cbn [pack].
  - rewrite app_nil_r. reflexivity.
  - unfold sum_len in *. cbn [flat_map] in *. rewrite app_length in *.
    replace (Nat.ltb L (ci + List.length (t_if p))) with false by (symmetry; apply Nat.ltb_ge; lia).
    replace (Nat.ltb L (ct + List.length (t_then p))) with false by (symmetry; apply Nat.ltb_ge; lia).
    replace (Nat.ltb L (ce + List.length (t_else p))) with false by (symmetry; apply Nat.ltb_ge; lia).
    cbn [orb]. rewrite IH by lia. rewrite <- app_assoc. reflexivity.
Qed.
Lemma pack_concat : forall L ps cur ci ct ce, List.concat (pack L cur ci ct ce ps) = cur ++ ps.
Proof.
  intros L. induction ps as [|p t IH]; intros; cbn [pack].
  - cbn. rewrite app_nil_r. reflexivity.
  - destruct (_ || _ || _); cbn [List.concat]; rewrite IH; [reflexivity | rewrite <- app_assoc; reflexivity].
Qed.

Lemma split_put_txns : forall L data lim, 1 <= L -> flat_map (split_txn L) (put_txns data lim) = put_txns data lim.
Proof.
  intros L data lim HL. induction data as [|d t IH]; [reflexivity|].
  cbn [put_txns map flat_map]. unfold split_txn at 1. cbn [t_then List.length].
  replace (Nat.leb 1 L) with true by (symmetry; apply Nat.leb_le; exact HL). cbn [app]. f_equal. exact IH.
Qed.
Lemma if_put_txns : forall data eq, flat_map t_if (put_txns data (Some eq)) = map (fun kv : key * value => CVer0 (fst kv) eq) data.
Proof. induction data as [|d t IH]; intros; [reflexivity|]. cbn. f_equal. apply IH. Qed.
Lemma if_put_txns_none : forall data, flat_map t_if (put_txns data None) = [].
Proof. induction data as [|d t IH]; [reflexivity|]. cbn. exact IH. Qed.
Lemma then_put_txns : forall data lim, flat_map t_then (put_txns data lim) = map (fun kv : key * value => TPut (fst kv) (snd kv) None) data.
Proof. induction data as [|d t IH]; intros; [reflexivity|]. cbn. f_equal. apply IH. Qed.
Lemma else_put_txns : forall data lim, flat_map t_else (put_txns data lim) = [].
Proof. induction data as [|d t IH]; intros; [reflexivity|]. cbn. apply IH. Qed.
Lemma sum_if_put : forall data lim, sum_len t_if (put_txns data lim) <= List.length data.
Proof. intros. unfold sum_len. destruct lim; [rewrite if_put_txns, map_length | rewrite if_put_txns_none]; cbn; lia. Qed.

Lemma do_batch_put : forall L order s data lim, data <> [] ->
  do_batch_op L order s (put_txns data lim) = Some (run_commits s (order (commits L (put_txns data lim)))).
Proof. intros L order s [|d t] lim NE; [contradiction | reflexivity]. Qed.

(* a batch of at most 125 keys is exactly one transaction: the model of EtcdModel.e_batch_put *)
Definition small_batch_stmt : Prop :=
  forall (order : list (list etxn) -> list (list etxn)) (s : estate) (data : list (key * value)) (lim : option bool),
    (forall l, Permutation (order l) l) ->
    data <> [] -> List.length data <= txn_limit ->
    match do_batch_op txn_limit order s (put_txns data lim), e_batch_put s data lim with
    | Some (s1, ok1), (s2, inl ok2) => s1 = s2 /\ ok1 = ok2
    | _, _ => False
    end.
Lemma small_batch_holds : small_batch_stmt.
Proof.
  intros order s data lim PO NE LEN. rewrite do_batch_put by exact NE. unfold e_batch_put.
  destruct data as [|d t]; [contradiction|]. set (data := d :: t) in *.
  unfold commits. rewrite split_put_txns by (apply Nat.leb_le; reflexivity).
  rewrite pack_fits.
  - cbn [app]. assert (O1 : order [put_txns data lim] = [put_txns data lim]).
    { apply Permutation_length_1_inv. apply Permutation_sym. apply PO. }
    rewrite O1. cbn [run_commits]. unfold commit_group. rewrite then_put_txns, else_put_txns.
    assert (IFS : flat_map t_if (put_txns data lim) =
                  match lim with Some eq => map (fun kv : key * value => CVer0 (fst kv) eq) data | None => [] end).
    { destruct lim; [apply if_put_txns | apply if_put_txns_none]. }
    rewrite IFS.
    destruct (e_txn s match lim with Some eq => map (fun kv : key * value => CVer0 (fst kv) eq) data | None => [] end
                    (map (fun kv : key * value => TPut (fst kv) (snd kv) None) data) []) as [[s' ok] rs].
    split; [reflexivity | apply andb_true_r].
  - pose proof (sum_if_put data lim). lia.
  - unfold sum_len. rewrite then_put_txns, map_length. lia.
  - unfold sum_len. rewrite else_put_txns. cbn. apply Nat.le_0_l.
Qed.

Definition vw (kv : list (key * eentry)) : view := mapv e_val kv.
Lemma vw_e_put : forall kv k v k', lookup (vw (e_put kv k v None)) k' = if key_eqb k' k then Some v else lookup (vw kv) k'.
Proof.
  intros. unfold vw. rewrite !lookup_mapv. unfold e_put. destruct (key_eqb k' k) eqn:E.
  - apply key_eqb_eq in E. subst. rewrite lookup_put_same. reflexivity.
  - rewrite lookup_put_other by exact E. reflexivity.
Qed.
Lemma lookup_view_e_put : forall kv k v k', 
  lookup (e_view (mkES (e_put kv k v None) [] 0%N 0%Z)) k' =
  if key_eqb k' k then Some v else lookup (e_view (mkES kv [] 0%N 0%Z)) k'.
Proof. exact vw_e_put. Qed.
Lemma vw_e_puts : forall d kv k, NoDup (map fst d) ->
  lookup (vw (e_puts kv d)) k = match lookup d k with Some v => Some v | None => lookup (vw kv) k end.
Proof.
  induction d as [|[k0 v0] t IH]; intros kv k N; [reflexivity|].
  change (e_puts kv ((k0, v0) :: t)) with (e_puts (e_put kv k0 v0 None) t). cbn [lookup].
  inversion N as [|? ? NI Nt]; subst. rewrite IH by exact Nt.
  destruct (key_eqb k k0) eqn:E.
  - apply key_eqb_eq in E. subst. rewrite (notin_lookup_none t k0 NI). rewrite vw_e_put, key_eqb_refl. reflexivity.
  - destruct (lookup t k); [reflexivity|]. rewrite vw_e_put, E. reflexivity.
Qed.
Lemma lookup_perm : forall (d d' : list (key * value)) k, NoDup (map fst d) -> Permutation d d' -> lookup d k = lookup d' k.
Proof.
  intros d d' k N P. assert (N' : NoDup (map fst d')) by (eapply Permutation_NoDup; [apply Permutation_map; exact P | exact N]).
  destruct (lookup d k) as [v|] eqn:L.
  - symmetry. apply in_nodup_lookup; [exact N'|]. eapply Permutation_in; [exact P|]. apply lookup_in. exact L.
  - destruct (lookup d' k) as [v'|] eqn:L'; [|reflexivity].
    apply lookup_in in L'. apply (Permutation_in _ (Permutation_sym P)) in L'.
    rewrite (in_nodup_lookup d k v' N L') in L. discriminate.
Qed.

Lemma flat_map_nil : forall {A B} (f : A -> list B) l, (forall x, In x l -> f x = []) -> flat_map f l = [].
Proof.
  induction l as [|a t IH]; intro H; [reflexivity|]. cbn [flat_map].
  rewrite (H a (or_introl eq_refl)). apply IH. intros x Hx. apply H. right. exact Hx.
Qed.
Definition cond_free (g : list etxn) : Prop := flat_map t_if g = [] /\ flat_map t_else g = [].
Lemma commit_cond_free : forall s g, cond_free g ->
  commit_group s g = (with_kv s (fst (exec_list (e_kv s) (flat_map t_then g))), true).
Proof.
  intros s g [CI CE]. unfold commit_group. rewrite e_txn_eq, CI, CE. cbv zeta. cbn [forallb].
  destruct (exec_list (e_kv s) (flat_map t_then g)). reflexivity.
Qed.
Lemma run_commits_cond_free : forall gs s, Forall cond_free gs ->
  run_commits s gs = (with_kv s (fst (exec_list (e_kv s) (flat_map t_then (List.concat gs)))), true).
Proof.
  induction gs as [|g t IH]; intros s F; cbn [run_commits List.concat flat_map].
  - cbn. rewrite with_kv_id. reflexivity.
  - inversion F; subst. rewrite (commit_cond_free s g) by assumption. rewrite IH by assumption.
    rewrite flat_map_app, exec_list_app. reflexivity.
Qed.
Lemma perm_concat : forall {A} (l l' : list (list A)), Permutation l l' -> Permutation (List.concat l) (List.concat l').
Proof.
  intros A l l' P. induction P; cbn [List.concat]; auto.
  - apply Permutation_app_head. exact IHP.
  - rewrite !app_assoc. apply Permutation_app_tail. apply Permutation_app_comm.
  - eapply Permutation_trans; eauto.
Qed.

(* UpdateNodes-style batches: whatever the number of keys and the order in which
   the commits land, the key-value content afterwards is that of one transaction *)
Definition big_put_stmt : Prop :=
  forall (order : list (list etxn) -> list (list etxn)) (s : estate) (data : list (key * value)),
    (forall l, Permutation (order l) l) -> data <> [] -> NoDup (map fst data) ->
    match do_batch_op txn_limit order s (put_txns data None) with
    | Some (s1, ok) =>
        ok = true /\ e_leases s1 = e_leases s /\ e_now s1 = e_now s /\
        forall k, lookup (e_view s1) k = lookup (e_view (fst (e_batch_put s data None))) k
    | None => False
    end.
Lemma big_put_holds : big_put_stmt.
Proof.
  intros order s data PO NE ND. rewrite do_batch_put by exact NE.
  set (gs := order (commits txn_limit (put_txns data None))).
  assert (CC : List.concat (commits txn_limit (put_txns data None)) = put_txns data None).
  { unfold commits. rewrite pack_concat, split_put_txns by (apply Nat.leb_le; reflexivity). reflexivity. }
  assert (PC : Permutation (List.concat gs) (put_txns data None)).
  { rewrite <- CC. apply perm_concat. apply PO. }
  assert (CF : Forall cond_free gs).
  { apply Forall_forall. intros g HG.
    split; apply flat_map_nil; intros t HT;
      (assert (IN : In t (put_txns data None)) by (eapply Permutation_in; [exact PC|]; apply in_concat; exists g; split; assumption));
      apply in_map_iff in IN; destruct IN as [x [<- _]]; reflexivity. }
  rewrite (run_commits_cond_free gs s CF).
  (* the operations executed are a permutation of the puts of data *)
  unfold put_txns in PC. apply Permutation_map_inv in PC. destruct PC as [d' [E PD]].
  fold (put_txns d' None) in E. rewrite E, then_put_txns.
  pose proof (exec_list_puts d' (e_kv s)) as Q. unfold puts_of in Q. rewrite Q.
  split; [reflexivity|]. split; [reflexivity|]. split; [reflexivity|].
  intro k. destruct data as [|d0 t0]; [contradiction|].
  rewrite batch_put_eq. cbn [batch_ok fst].
  change (e_view (with_kv s (e_puts (e_kv s) d'))) with (vw (e_puts (e_kv s) d')).
  change (e_view (with_kv s (e_puts (e_kv s) (d0 :: t0)))) with (vw (e_puts (e_kv s) (d0 :: t0))).
  assert (ND' : NoDup (map fst d')) by (eapply Permutation_NoDup; [apply Permutation_map; exact PD | exact ND]).
  rewrite (vw_e_puts d' _ k ND'), (vw_e_puts (d0 :: t0) _ k ND).
  rewrite (lookup_perm (d0 :: t0) d' k ND PD). reflexivity.
Qed.

Lemma length_put_le : forall {V} (m : list (key * V)) k v, List.length (put m k v) <= S (List.length m).
Proof.
  induction m as [|[k0 v0] t IH]; intros; cbn; [lia|]. destruct (key_eqb k k0); cbn; [lia|]. specialize (IH k v). lia.
Qed.
(* every conditioned batch a Store method builds is far below the limit *)
Definition conditioned_batches_small_stmt : Prop :=
  (forall nd ca cert ky, List.length (add_node_data nd ca cert ky) <= 5) /\
  (forall w a e, List.length (workload_data w a e) <= 3).
Lemma conditioned_batches_small_holds : conditioned_batches_small_stmt.
Proof.
  split; intros.
  - unfold add_node_data, dput, dput_if.
    repeat match goal with |- context [if ?c then _ else _] => destruct c end;
    repeat (eapply Nat.le_trans; [apply length_put_le|]; apply le_n_S); cbn; lia.
  - unfold workload_data, dput.
    repeat (eapply Nat.le_trans; [apply length_put_le|]; apply le_n_S); cbn; lia.
Qed.

(* beyond the limit a conditioned batch would not be atomic (shown with limit 2):
   the first commit creates its keys although the second one fails *)
Local Open Scope string_scope.
Example split_loses_atomicity :
  let s := fst (e_batch_put e_init [(KPod "c", VPod "c" "")] None) in
  match do_batch_op 2 (fun l => l) s (put_txns [(KPod "a", VPod "a" ""); (KPod "b", VPod "b" ""); (KPod "c", VPod "c" "")] (Some true)) with
  | Some (s', ok) => ok = false /\ mem (e_kv s') (KPod "a") = true
  | None => False
  end.
Proof. vm_compute. split; reflexivity. Qed.
