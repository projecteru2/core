(* Property C25 over the abstract specification, transferred to
   the etcd store model through the refinement of EtcdProofs and, on redis-safe
   histories, to the Redis store model through that of RedisProofs. *)
From Coq Require Import List Bool ZArith String Lia.
From Verif Require Import Store.KVPrims Store.KVLemmas Store.Ops Store.Status Store.Spec
  Store.EtcdModel Store.RedisModel Store.Case Store.EtcdProofs Store.RedisProofs Store.C23Proofs.
Import ListNotations.
Local Open Scope Z_scope.

Definition is_status_key (k : key) : bool :=
  match k with KNStatus _ | KStatus _ _ _ _ => true | _ => false end.

Definition quiet (sk : key) (o : op) : bool :=
  match o with
  | OSetNodeStatus n _ _ => negb (key_eqb sk (KNStatus n))
  | OSetWorkloadStatus st a e n _ => negb (key_eqb sk (KStatus a e n (ws_id st)))
  | ORemoveWorkload w =>
      match w_parse w with
      | Some (a, e) => negb (key_eqb sk (KStatus a e (w_node w) (w_id w)))
      | None => true
      end
  | _ => true
  end.
Definition elapsed (h : list op) : Z :=
  fold_right (fun o acc => match o with OAdvance d => d + acc | _ => acc end) 0 h.
Definition advances_nonneg (h : list op) : Prop :=
  forall d, In (OAdvance d) h -> 0 <= d.

Definition nonstatus (ks : list key) : Prop := forall k, In k ks -> is_status_key k = false.
Lemma nonstatus_put : forall (d : list (key * value)) k v,
  nonstatus (map fst d) -> is_status_key k = false -> nonstatus (map fst (put d k v)).
Proof. intros d k v N K x H. apply in_keys_put in H. destruct H; [subst; exact K | apply N; exact H]. Qed.
Lemma nonstatus_dput_if : forall d k s,
  nonstatus (map fst d) -> is_status_key k = false -> nonstatus (map fst (dput_if d k s)).
Proof. intros. unfold dput_if. destruct (name_eqb s ""%string); [assumption | apply nonstatus_put; assumption]. Qed.
Lemma nonstatus_nil : nonstatus [].
Proof. intros k H. contradiction. Qed.
Lemma nonstatus_add_node : forall nd ca cert ky, nonstatus (map fst (add_node_data nd ca cert ky)).
Proof.
  intros. unfold add_node_data, dput.
  repeat first [reflexivity | exact nonstatus_nil | apply nonstatus_put | apply nonstatus_dput_if].
Qed.
Lemma nonstatus_update_nodes : forall l, nonstatus (map fst (update_nodes_data l)).
Proof.
  intro l. unfold update_nodes_data.
  assert (N : nonstatus (map fst (@nil (key * value)))) by exact nonstatus_nil. revert N. generalize (@nil (key * value)).
  induction l as [|[[[nd ca] cert] ky] t IH]; intros d N; simpl; [exact N|].
  apply IH. unfold dput.
  repeat first [reflexivity | exact N | apply nonstatus_dput_if | apply nonstatus_put].
Qed.
Lemma nonstatus_workload : forall w a e, nonstatus (map fst (workload_data w a e)).
Proof.
  intros. unfold workload_data, dput.
  repeat first [reflexivity | exact nonstatus_nil | apply nonstatus_put].
Qed.

Lemma quiet_footprint : forall sk o, is_status_key sk = true -> quiet sk o = true -> ~ In sk (footprint o).
Proof.
  intros sk o S Q H.
  assert (NS : forall ks, nonstatus ks -> ~ In sk ks) by (intros ks N HI; rewrite (N sk HI) in S; discriminate).
  assert (SELF : negb (key_eqb sk sk) <> true) by (rewrite key_eqb_refl; discriminate).
  destruct o; cbn [footprint quiet] in H, Q; try exact H.
  - destruct H as [<-|[]]. discriminate S.
  - destruct H as [<-|[]]. discriminate S.
  - exact (NS _ (nonstatus_add_node _ _ _ _) H).
  - cbn in H. repeat (destruct H as [<-|H]; [discriminate S|]). exact H.
  - exact (NS _ (nonstatus_update_nodes _) H).
  - destruct H as [<-|[]]. exact (SELF Q).
  - destruct (w_parse w) as [[a e]|]; [|exact H]. apply in_app_or in H. destruct H as [H|H].
    + exact (NS _ (nonstatus_workload _ _ _) H).
    + destruct pr; [destruct H as [<-|[]]; discriminate S | exact H].
  - destruct (w_parse w) as [[a e]|]; [exact (NS _ (nonstatus_workload _ _ _) H) | exact H].
  - destruct (w_parse w) as [[a e]|]; [|exact H]. destruct H as [<-|H]; [exact (SELF Q)|].
    cbn in H. repeat (destruct H as [<-|H]; [discriminate S|]). exact H.
  - destruct H as [<-|[]]. exact (SELF Q).
  - destruct H as [<-|[]]. discriminate S.
  - destruct H as [<-|[]]. discriminate S.
Qed.

Lemma lookup_s_puts : forall data s k, ~ In k (map fst data) ->
  lookup (r_kv (s_puts s data)) k = lookup (r_kv s) k.
Proof.
  induction data as [|d t IH]; intros s k N; simpl; [reflexivity|].
  rewrite IH by (intro H; apply N; right; exact H).
  apply lookup_put_other, key_eqb_false. intro E. apply N. left. symmetry. exact E.
Qed.
Lemma lookup_s_dels : forall ks s k, ~ In k ks -> lookup (r_kv (s_dels s ks)) k = lookup (r_kv s) k.
Proof.
  induction ks as [|k0 t IH]; intros s k N; simpl; [reflexivity|].
  rewrite IH by (intro H; apply N; right; exact H).
  apply lookup_del_other, key_eqb_false. intro E. apply N. left. symmetry. exact E.
Qed.
Lemma writes_frame : forall s ks s' k, writes s ks s' -> ~ In k ks -> lookup (r_kv s') k = lookup (r_kv s) k.
Proof.
  intros s ks s' k W N. destruct W as [|d H|l H|k0 v ex H].
  - reflexivity.
  - apply lookup_s_puts. intro HI. exact (N (H _ HI)).
  - apply lookup_s_dels. intro HI. exact (N (H _ HI)).
  - apply lookup_put_other, key_eqb_false. intro E. subst. exact (N H).
Qed.
Lemma now_s_puts : forall data s, r_now (s_puts s data) = r_now s.
Proof. induction data as [|d t IH]; intro s; simpl; [reflexivity | rewrite IH; reflexivity]. Qed.
Lemma now_s_dels : forall ks s, r_now (s_dels s ks) = r_now s.
Proof. induction ks as [|k t IH]; intro s; simpl; [reflexivity | rewrite IH; reflexivity]. Qed.
Lemma writes_now : forall s ks s', writes s ks s' -> r_now s' = r_now s.
Proof. intros s ks s' W. destruct W; [reflexivity | apply now_s_puts | apply now_s_dels | reflexivity]. Qed.

Definition live_at (now : Z) (x : sentry) : bool :=
  negb (match s_exp x with Some e => e <=? now | None => false end).
Definition visible (now : Z) (o : option sentry) : option sentry :=
  match o with Some x => if live_at now x then Some x else None | None => None end.

Lemma lookup_filter : forall {V} (f : V -> bool) (m : list (key * V)) k, NoDup (map fst m) ->
  lookup (filter (fun kv => f (snd kv)) m) k =
  match lookup m k with Some x => if f x then Some x else None | None => None end.
Proof.
  induction m as [|[k0 v0] t IH]; intros k N; [reflexivity|].
  inversion N as [|? ? NI Nt]; subst. cbn [filter lookup snd]. destruct (key_eqb k k0) eqn:E.
  - apply key_eqb_eq in E. subst k0. destruct (f v0); cbn [lookup].
    + rewrite key_eqb_refl. reflexivity.
    + rewrite IH, (notin_lookup_none t k NI) by exact Nt. reflexivity.
  - destruct (f v0); cbn [lookup]; rewrite ?E; apply IH; exact Nt.
Qed.
Lemma lookup_tick : forall s d k, NoDup (map fst (r_kv s)) ->
  lookup (r_kv (r_tick s d)) k = visible (r_now s + d) (lookup (r_kv s) k).
Proof. intros s d k N. exact (lookup_filter (live_at (r_now s + d)) (r_kv s) k N). Qed.

Lemma visible_mono : forall n m x, n <= m -> visible m (visible n x) = visible m x.
Proof.
  intros n m [[v [e|]]|] H; unfold visible, live_at; cbn [s_exp negb]; try reflexivity.
  destruct (e <=? n) eqn:A; cbn [negb]; [|reflexivity].
  apply Z.leb_le in A. replace (e <=? m) with true by (symmetry; apply Z.leb_le; lia). reflexivity.
Qed.
Lemma visible_live : forall n v ex, match ex with Some e => n < e | None => True end ->
  visible n (Some (mkS v ex)) = Some (mkS v ex).
Proof.
  intros n v [e|] H; unfold visible, live_at; cbn [s_exp]; [|reflexivity].
  replace (e <=? n) with false by (symmetry; apply Z.leb_gt; exact H). reflexivity.
Qed.
Lemma visible_dead : forall n v e, e <= n -> visible n (Some (mkS v (Some e))) = None.
Proof.
  intros n v e H. unfold visible, live_at. cbn [s_exp].
  replace (e <=? n) with true by (symmetry; apply Z.leb_le; exact H). reflexivity.
Qed.

Lemma elapsed_cons : forall o t, elapsed (o :: t) = elapsed [o] + elapsed t.
Proof. intros. unfold elapsed. destruct o; cbn [fold_right]; lia. Qed.
Lemma elapsed_quiet : forall o, (forall d, o <> OAdvance d) -> elapsed [o] = 0.
Proof. intros o NA. destruct o; try reflexivity. destruct (NA d eq_refl). Qed.
Lemma elapsed_nonneg : forall h, advances_nonneg h -> 0 <= elapsed h.
Proof.
  induction h as [|o t IH]; intro AN; [reflexivity|].
  assert (0 <= elapsed t) by (apply IH; intros d H; apply AN; right; exact H).
  rewrite elapsed_cons. destruct o; try exact H.
  specialize (AN d (or_introl eq_refl)). unfold elapsed at 1. cbn [fold_right]. lia.
Qed.

Lemma spec_step_status : forall s o sk x,
  is_status_key sk = true -> NoDup (map fst (r_kv s)) -> quiet sk o = true ->
  lookup (r_kv s) sk = x -> visible (r_now s) x = x ->
  lookup (r_kv (fst (spec_step s o))) sk = visible (r_now s + elapsed [o]) x /\
  r_now (fst (spec_step s o)) = r_now s + elapsed [o].
Proof.
  intros s o sk x S N Q L V. destruct (advance_dec o) as [[d ->] | NA].
  - cbn [spec_step read_op fst elapsed fold_right]. rewrite Z.add_0_r. unfold spec_step. cbn [read_op fst].
    split; [rewrite lookup_tick, L by exact N|]; reflexivity.
  - pose proof (spec_step_writes s o NA) as W. rewrite (elapsed_quiet o NA), Z.add_0_r, V.
    split; [rewrite (writes_frame _ _ _ sk W (quiet_footprint sk o S Q)); exact L | exact (writes_now _ _ _ W)].
Qed.

(* C25 on the abstract specification: a status entry that nothing touches
   is there exactly until the clock reaches its deadline *)
Theorem spec_status_after : forall h s sk x,
  is_status_key sk = true -> NoDup (map fst (r_kv s)) ->
  forallb (quiet sk) h = true -> advances_nonneg h ->
  lookup (r_kv s) sk = x -> visible (r_now s) x = x ->
  lookup (r_kv (fst (run spec_step s h))) sk = visible (r_now s + elapsed h) x.
Proof.
  induction h as [|o t IH]; intros s sk x S N Q AN L V; cbn [run fst].
  - cbn [elapsed fold_right]. rewrite Z.add_0_r, V. exact L.
  - cbn [forallb] in Q. apply andb_true_iff in Q. destruct Q as [Q1 Q2].
    assert (ANt : advances_nonneg t) by (intros d H; apply AN; right; exact H).
    assert (ANo : advances_nonneg [o]) by (intros d [H|[]]; apply AN; left; exact H).
    pose proof (elapsed_nonneg t ANt) as Et. pose proof (elapsed_nonneg [o] ANo) as Eo.
    destruct (spec_step_status s o sk x S N Q1 L V) as [L1 NW]. pose proof (spec_nodup s o N) as N1.
    destruct (spec_step s o) as [s1 r]. cbn [fst] in L1, NW, N1.
    specialize (IH s1 sk _ S N1 Q2 ANt L1). destruct (run spec_step s1 t) as [s2 rs]. cbn [fst] in *.
    rewrite (elapsed_cons o t), Z.add_assoc, <- NW, IH; [|rewrite NW]; apply visible_mono; lia.
Qed.

Lemma spec_node_report : forall s n p ttl, 0 < ttl ->
  spec_step s (OSetNodeStatus n p ttl) =
  if s_mem s (KNode n) then (s_put s (KNStatus n) (VNSt n p) (Some (r_now s + ttl)), ROk PUnit)
  else (s, RErr ECount).
Proof.
  intros. unfold spec_step. cbn [read_op].
  replace (ttl =? 0) with false by (symmetry; apply Z.eqb_neq; lia).
  replace (ttl <? 0) with false by (symmetry; apply Z.ltb_ge; lia). reflexivity.
Qed.
Lemma spec_workload_report : forall s st a e n ttl, status_args_bad a e n = false ->
  spec_step s (OSetWorkloadStatus st a e n ttl) =
  if ttl =? 0 then (s_put s (KStatus a e n (ws_id st)) (VWSt st) None, ROk PUnit)
  else if s_mem s (KWl (ws_id st))
       then (s_put s (KStatus a e n (ws_id st)) (VWSt st) (Some (r_now s + ttl)), ROk PUnit)
       else (s, RErr ECount).
Proof. intros. unfold spec_step. cbn [read_op]. rewrite H. reflexivity. Qed.

Lemma lookup_s_view : forall s k, lookup (s_view s) k = option_map s_val (lookup (r_kv s) k).
Proof. intros. unfold s_view. apply (lookup_mapv s_val). Qed.

Lemma etcd_reach_inv : forall h, inv (fst (run estep e_init h)).
Proof. intro h. apply (erun_refines h e_init inv_init). Qed.
Lemma abs_nodup : forall s, inv s -> NoDup (map fst (r_kv (abs s))).
Proof. intros s I. unfold abs, abs_kv. cbn [r_kv]. rewrite keys_mapv. apply I. Qed.

Lemma etcd_reported : forall s1 t sk v ex h,
  inv s1 -> abs s1 = s_put t sk v ex -> is_status_key sk = true ->
  forallb (quiet sk) h = true -> advances_nonneg h ->
  match ex with Some e => r_now t < e | None => True end ->
  lookup (e_view (fst (run estep s1 h))) sk =
  option_map s_val (visible (r_now t + elapsed h) (Some (mkS v ex))).
Proof.
  intros s1 t sk v ex h I A S Q AN B. destruct (erun_refines h s1 I) as [E _].
  rewrite <- view_abs, lookup_s_view. f_equal.
  replace (abs (fst (run estep s1 h))) with (fst (run spec_step (abs s1) h)) by (rewrite E; reflexivity).
  replace (r_now t) with (r_now (abs s1)) by (rewrite A; reflexivity).
  apply spec_status_after; auto using abs_nodup; rewrite A; cbn [s_put r_kv r_now].
  - apply lookup_put_same.
  - apply visible_live. exact B.
Qed.
Lemma get_node_status : forall s n,
  snd (estep s (OGetNodeStatus n)) =
  match lookup (e_view s) (KNStatus n) with
  | Some (VNSt n' p') => ROk (PNSt n' p' true) | Some _ => RErr EOther | None => RErr ECount
  end.
Proof. intros. unfold estep. cbn [read_op]. unfold v_get_one. destruct (lookup _ _) as [[]|]; reflexivity. Qed.

Definition C25_etcd_node_stmt : Prop :=
  forall (h0 : list op) (n p : name) (ttl : Z),
    let s := fst (run estep e_init h0) in
    0 < ttl ->
    (* accepted iff the node exists *)
    (snd (estep s (OSetNodeStatus n p ttl)) = ROk PUnit <-> mem (e_kv s) (KNode n) = true) /\
    (* visible at every time before last report + ttl, whatever else happens, unless the
       status is re-reported or deleted (negative ttl) *)
    (mem (e_kv s) (KNode n) = true ->
     forall h, forallb (quiet (KNStatus n)) h = true -> advances_nonneg h -> elapsed h < ttl ->
       snd (estep (fst (run estep (fst (estep s (OSetNodeStatus n p ttl))) h)) (OGetNodeStatus n))
       = ROk (PNSt n p true)).
Lemma C25_etcd_node_holds : C25_etcd_node_stmt.
Proof.
  intros h0 n p ttl s T. pose proof (etcd_reach_inv h0) as I. fold s in I.
  destruct (estep_refines s (OSetNodeStatus n p ttl) I) as [E I1].
  rewrite (spec_node_report (abs s) n p ttl T), mem_abs in E.
  destruct (mem (e_kv s) (KNode n)); apply pair_equal_spec in E; destruct E as [E1 E2]; rewrite <- E2.
  - split; [split; reflexivity|]. intros _ h Q AN EL.
    rewrite get_node_status, (etcd_reported _ _ _ _ _ h I1 (eq_sym E1) eq_refl Q AN), visible_live;
      [reflexivity | | ]; cbn [r_now abs]; lia.
  - split; [split; discriminate | discriminate].
Qed.

Definition C25_etcd_node_expires_stmt : Prop :=
  forall (h0 : list op) (n p : name) (ttl : Z) (h : list op),
    let s := fst (run estep e_init h0) in
    0 < ttl -> mem (e_kv s) (KNode n) = true ->
    forallb (quiet (KNStatus n)) h = true -> advances_nonneg h -> ttl <= elapsed h ->
    snd (estep (fst (run estep (fst (estep s (OSetNodeStatus n p ttl))) h)) (OGetNodeStatus n)) = RErr ECount.
Lemma C25_etcd_node_expires_holds : C25_etcd_node_expires_stmt.
Proof.
  intros h0 n p ttl h s T M Q AN EL. pose proof (etcd_reach_inv h0) as I. fold s in I.
  destruct (estep_refines s (OSetNodeStatus n p ttl) I) as [E I1].
  rewrite (spec_node_report (abs s) n p ttl T), mem_abs, M in E. apply pair_equal_spec in E. destruct E as [E1 _].
  rewrite get_node_status, (etcd_reported _ _ _ _ _ h I1 (eq_sym E1) eq_refl Q AN), visible_dead;
    [reflexivity | | ]; cbn [r_now abs]; lia.
Qed.

Definition C25_etcd_workload_stmt : Prop :=
  forall (h0 : list op) (st : wstat) (a e n : name) (ttl : Z),
    let s := fst (run estep e_init h0) in
    let report := OSetWorkloadStatus st a e n ttl in
    let sk := KStatus a e n (ws_id st) in
    status_args_bad a e n = false -> 0 <= ttl ->
    (* ttl > 0: accepted iff the workload exists; ttl = 0: accepted *)
    (0 < ttl -> (snd (estep s report) = ROk PUnit <-> mem (e_kv s) (KWl (ws_id st)) = true)) /\
    (ttl = 0 -> snd (estep s report) = ROk PUnit) /\
    (* after an accepted report the status record stays until the ttl has elapsed
       (ttl 0: forever) unless it is re-reported or the workload is removed *)
    (snd (estep s report) = ROk PUnit ->
     forall h, forallb (quiet sk) h = true -> advances_nonneg h -> (0 < ttl -> elapsed h < ttl) ->
       lookup (e_view (fst (run estep (fst (estep s report)) h))) sk = Some (VWSt st)).
Lemma C25_etcd_workload_holds : C25_etcd_workload_stmt.
Proof.
  intros h0 st a e n ttl s report sk B T. subst sk. pose proof (etcd_reach_inv h0) as I. fold s in I.
  destruct (estep_refines s report I) as [E I1]. unfold report in E.
  rewrite (spec_workload_report (abs s) st a e n ttl B), mem_abs in E. fold report in E.
  destruct (ttl =? 0) eqn:Z0.
  - apply Z.eqb_eq in Z0. apply pair_equal_spec in E; destruct E as [E1 E2].
    split; [intro; lia|]. split; [intro; symmetry; exact E2|]. intros _ h Q AN _.
    rewrite (etcd_reported _ _ _ _ _ h I1 (eq_sym E1) eq_refl Q AN Logic.I). reflexivity.
  - apply Z.eqb_neq in Z0. assert (TP : 0 < ttl) by lia. split; [|split; [intro; lia|]].
    + intros _. destruct (mem (e_kv s) (KWl (ws_id st))); apply pair_equal_spec in E; destruct E as [_ E2];
        rewrite <- E2; split; intro; congruence.
    + intros OK h Q AN EL. specialize (EL TP).
      destruct (mem (e_kv s) (KWl (ws_id st))); apply pair_equal_spec in E; destruct E as [E1 E2]; [|congruence].
      rewrite (etcd_reported _ _ _ _ _ h I1 (eq_sym E1) eq_refl Q AN), visible_live;
        [reflexivity | | ]; cbn [r_now abs]; lia.
Qed.

Lemma get_workload_status_reads_record : forall (v : view) id w a e,
  lookup v (KWl id) = Some (VWl w) -> w_parse w = Some (a, e) ->
  (exists nd, lookup v (KNode (w_node w)) = Some (VNode nd) /\ n_name nd = w_node w) ->
  read_op v (OGetWorkloadStatus id) =
  Some (ROk (PWSt (match lookup v (KStatus a e (w_node w) (w_id w)) with
                   | Some (VWSt s) => Some s
                   | _ => None
                   end))).
Proof.
  intros v id w a e LW P [nd [LN NN]]. cbn [read_op]. f_equal.
  unfold v_get_workloads. cbn [map v_get_multi]. unfold v_get_one. rewrite LW. cbn [unmarshal_workloads option_map].
  unfold v_bind_additions, bind_additions. cbn [collect_additions]. rewrite P. cbn [existsb app nput].
  unfold v_get_nodes. cbn [map v_get_multi]. unfold v_get_one. rewrite LN.
  unfold do_get_nodes. cbn [unmarshal_nodes option_map filter labels_filter forallb map orb].
  cbn [attach_additions existsb node_view nv_d]. rewrite NN, name_eqb_refl. cbn [orb negb nassoc].
  rewrite name_eqb_refl. cbn [res_first_wl_status wv_st]. reflexivity.
Qed.

Definition workload_status_api_stmt : Prop :=
  forall (s : estate) (id : name) (w : wdata) (a e : name) (st : wstat),
    lookup (e_view s) (KWl id) = Some (VWl w) -> w_parse w = Some (a, e) -> w_id w = id ->
    (exists nd, lookup (e_view s) (KNode (w_node w)) = Some (VNode nd) /\ n_name nd = w_node w) ->
    lookup (e_view s) (KStatus a e (w_node w) id) = Some (VWSt st) ->
    estep s (OGetWorkloadStatus id) = (s, ROk (PWSt (Some st))).
Lemma workload_status_api_holds : workload_status_api_stmt.
Proof.
  intros s id w a e st LW P ID ND LS. unfold estep.
  rewrite (get_workload_status_reads_record (e_view s) id w a e LW P ND). rewrite ID, LS. reflexivity.
Qed.


Local Open Scope string_scope.
(* the Redis store accepts a node status with a positive TTL for a node that does not exist *)
Definition C25_redis_node_refuted_stmt : Prop :=
  exists (h0 : list op) (n p : name) (ttl : Z),
    let s := fst (run rstep r_init h0) in
    0 < ttl /\ mem (r_kv s) (KNode n) = false /\
    snd (rstep s (OSetNodeStatus n p ttl)) = ROk PUnit /\
    snd (rstep (fst (rstep s (OSetNodeStatus n p ttl))) (OGetNodeStatus n)) = ROk (PNSt n p true).
Lemma C25_redis_node_refuted_holds : C25_redis_node_refuted_stmt.
Proof. exists [], "n0", "p0", 3. vm_compute. repeat split; reflexivity. Qed.

(* workload status on Redis: accepted iff the workload exists (ttl > 0) *)
Definition C25_redis_workload_accept_stmt : Prop :=
  forall (s : rstate) (st : wstat) (a e n : name) (ttl : Z),
    status_args_bad a e n = false -> 0 < ttl ->
    (snd (rstep s (OSetWorkloadStatus st a e n ttl)) = ROk PUnit <-> mem (r_kv s) (KWl (ws_id st)) = true).
Lemma C25_redis_workload_accept_holds : C25_redis_workload_accept_stmt.
Proof.
  intros s st a e n ttl B T. cbn [rstep]. unfold r_set_workload_status, r_bind_status, r_exists. rewrite B.
  replace (ttl =? 0)%Z with false by (symmetry; apply Z.eqb_neq; lia). cbn [negb andb fold_left].
  destruct (mem (r_kv s) (KWl (ws_id st))); cbn; split; intro; congruence.
Qed.

Example C25_hypotheses_satisfiable :
  let h0 := [OAddPod "p0" "d"; OAddNode (mkN "n0" "verif://n0" "p0" [] false false) "" "" ""] in
  snd (run estep e_init (h0 ++ [OSetNodeStatus "n0" "p0" 5; OAdvance 4; OGetNodeStatus "n0"; OAdvance 1; OGetNodeStatus "n0"]))
  = [ROk (PPod "p0" "d"); ROk (PNode (mkNV (mkN "n0" "verif://n0" "p0" [] false false) true));
     ROk PUnit; ROk PUnit; ROk (PNSt "n0" "p0" true); ROk PUnit; RErr ECount].
Proof. vm_compute. reflexivity. Qed.

Local Open Scope Z_scope.
Lemma redis_reported : forall (h0 : list op) (report : op) (h : list op) sk v ex,
  let s := fst (run rstep r_init h0) in
  safe_history s_init (h0 ++ report :: h) = true ->
  (redis_safe s report = true -> spec_step s report = (s_put s sk v ex, ROk PUnit)) ->
  is_status_key sk = true -> forallb (quiet sk) h = true -> advances_nonneg h ->
  match ex with Some e => r_now s < e | None => True end ->
  snd (rstep s report) = ROk PUnit /\
  lookup (r_kv (fst (run rstep (fst (rstep s report)) h))) sk = visible (r_now s + elapsed h) (Some (mkS v ex)).
Proof.
  intros h0 report h sk v ex s SH SP K Q AN B.
  rewrite safe_history_app in SH. apply andb_true_iff in SH. destruct SH as [S0 S1].
  cbn [safe_history] in S1. apply andb_true_iff in S1. destruct S1 as [S1 S2].
  destruct (redis_refines_spec_partial_holds h0 S0) as [E0 _]. fold s in E0. rewrite <- E0 in S1, S2.
  assert (N : NoDup (map fst (r_kv s))) by (rewrite E0; apply spec_run_nodup; apply nodup_init).
  destruct (rstep_refines s report N S1) as [F1 F2]. rewrite (SP S1) in F1, F2, S2. cbn [fst snd] in F1, F2, S2.
  split.
  - destruct (snd (rstep s report)) as [p|e|]; cbn in F2; try contradiction. subst. reflexivity.
  - rewrite F1. set (s1 := s_put s sk v ex) in *.
    assert (N1 : NoDup (map fst (r_kv s1))) by (apply nodup_put; exact N).
    destruct (rrun_refines h s1 N1 S2) as [E1 _]. rewrite E1.
    apply (spec_status_after h s1); auto; [apply lookup_put_same | apply visible_live; exact B].
Qed.
Lemma safe_node_report : forall s n p ttl, 0 < ttl -> redis_safe s (OSetNodeStatus n p ttl) = true ->
  spec_step s (OSetNodeStatus n p ttl) = (s_put s (KNStatus n) (VNSt n p) (Some (r_now s + ttl)), ROk PUnit).
Proof.
  intros s n p ttl T SF. cbn [redis_safe] in SF.
  replace (0 <? ttl) with true in SF by (symmetry; apply Z.ltb_lt; exact T).
  rewrite (spec_node_report s n p ttl T), SF. reflexivity.
Qed.

Definition C25_redis_node_partial_stmt : Prop :=
  forall (h0 : list op) (n p : name) (ttl : Z) (h : list op),
    let s := fst (run rstep r_init h0) in
    let report := OSetNodeStatus n p ttl in
    0 < ttl -> safe_history s_init (h0 ++ report :: h) = true ->
    forallb (quiet (KNStatus n)) h = true -> advances_nonneg h -> elapsed h < ttl ->
    snd (rstep s report) = ROk PUnit /\
    snd (rstep (fst (run rstep (fst (rstep s report)) h)) (OGetNodeStatus n)) = ROk (PNSt n p true).
Lemma C25_redis_node_partial_holds : C25_redis_node_partial_stmt.
Proof.
  intros h0 n p ttl h s report T SH Q AN EL.
  destruct (redis_reported h0 report h _ _ _ SH (safe_node_report s n p ttl T) eq_refl Q AN) as [R1 R2]; [fold s; lia|].
  fold s in R2. split; [exact R1|]. rewrite visible_live in R2 by lia.
  cbn [rstep]. unfold r_get_one, r_get. rewrite R2. reflexivity.
Qed.

Definition C25_redis_node_expires_partial_stmt : Prop :=
  forall (h0 : list op) (n p : name) (ttl : Z) (h : list op),
    let s := fst (run rstep r_init h0) in
    let report := OSetNodeStatus n p ttl in
    0 < ttl -> safe_history s_init (h0 ++ report :: h) = true ->
    forallb (quiet (KNStatus n)) h = true -> advances_nonneg h -> ttl <= elapsed h ->
    is_err (snd (rstep (fst (run rstep (fst (rstep s report)) h)) (OGetNodeStatus n))) = true.
Lemma C25_redis_node_expires_partial_holds : C25_redis_node_expires_partial_stmt.
Proof.
  intros h0 n p ttl h s report T SH Q AN EL.
  destruct (redis_reported h0 report h _ _ _ SH (safe_node_report s n p ttl T) eq_refl Q AN) as [_ R2]; [fold s; lia|].
  fold s in R2. rewrite visible_dead in R2 by lia.
  cbn [rstep]. unfold r_get_one, r_get. rewrite R2. reflexivity.
Qed.

Definition C25_redis_workload_partial_stmt : Prop :=
  forall (h0 : list op) (st : wstat) (a e n : name) (ttl : Z) (h : list op),
    let s := fst (run rstep r_init h0) in
    let report := OSetWorkloadStatus st a e n ttl in
    let sk := KStatus a e n (ws_id st) in
    status_args_bad a e n = false -> 0 <= ttl ->
    safe_history s_init (h0 ++ report :: h) = true ->
    (0 < ttl -> mem (r_kv s) (KWl (ws_id st)) = true) ->
    forallb (quiet sk) h = true -> advances_nonneg h -> (0 < ttl -> elapsed h < ttl) ->
    snd (rstep s report) = ROk PUnit /\
    option_map s_val (lookup (r_kv (fst (run rstep (fst (rstep s report)) h))) sk) = Some (VWSt st).
Lemma C25_redis_workload_partial_holds : C25_redis_workload_partial_stmt.
Proof.
  intros h0 st a e n ttl h s report sk B T SH EX Q AN EL.
  pose proof (spec_workload_report s st a e n ttl B) as SP. fold report in SP.
  destruct (ttl =? 0) eqn:Z0.
  - destruct (redis_reported h0 report h sk _ None SH (fun _ => SP) eq_refl Q AN I) as [R1 R2].
    split; [exact R1 | fold s in R2; rewrite R2; reflexivity].
  - apply Z.eqb_neq in Z0. assert (TP : 0 < ttl) by lia. unfold s_mem in SP. rewrite (EX TP) in SP.
    destruct (redis_reported h0 report h sk _ _ SH (fun _ => SP) eq_refl Q AN) as [R1 R2]; [fold s; lia|].
    specialize (EL TP). fold s in R2. rewrite visible_live in R2 by lia.
    split; [exact R1 | rewrite R2; reflexivity].
Qed.
