(* C23 under two concurrent writers. *)
From Coq Require Import List ZArith String Lia.
From Verif Require Import Store.KVPrims Store.KVLemmas Store.Ops Store.Status Store.Spec
  Store.EtcdModel Store.RedisModel Store.EtcdProofs Store.Concurrent.
Import ListNotations.
Local Open Scope Z_scope.

Lemma cad_alone : forall data dk s,
  e_batch_create_and_decr s data dk =
  match cad_step data dk s CadStart with
  | (s1, pc1) => match cad_step data dk s1 pc1 with
                 | (s2, CadDone r) => (s2, r)
                 | (s2, _) => (s2, Some EOther)
                 end
  end.
Proof.
  intros data dk s. unfold e_batch_create_and_decr. cbn [cad_step].
  destruct (lookup (e_kv s) dk) as [e|] eqn:L; [|reflexivity].
  cbn [cad_step]. destruct (e_val e) eqn:EV; try reflexivity.
  rewrite decr_txn, L, EV. cbn [value_eqb]. rewrite Z.eqb_refl. reflexivity.
Qed.
Lemma upd_alone : forall data s,
  r_batch_update s data =
  match upd_step data s UpdStart with
  | (s1, pc1) => match upd_step data s1 pc1 with
                 | (s2, UpdDone r) => (s2, r)
                 | (s2, _) => (s2, Some EOther)
                 end
  end.
Proof.
  intros data s. unfold r_batch_update. cbn [upd_step].
  destruct (negb (r_exists s (map fst data) =? Z.of_nat (List.length data))); reflexivity.
Qed.

Definition commit (dk : key) (s : estate) (x : Z) (d : list (key * value)) : estate :=
  with_kv s (e_puts (e_kv s) (d ++ [(dk, VCnt (x - 1))])).

Lemma commit_counter : forall dk s x d,
  exists e, lookup (e_kv (commit dk s x d)) dk = Some e /\ e_val e = VCnt (x - 1).
Proof.
  intros. unfold commit. cbn [e_kv with_kv]. rewrite e_puts_app. cbn [e_puts fold_left fst snd]. unfold e_put.
  eexists. split; [apply lookup_put_same | reflexivity].
Qed.
Lemma cad_read : forall d dk s e, lookup (e_kv s) dk = Some e -> cad_step d dk s CadStart = (s, CadRead (e_val e)).
Proof. intros. cbn [cad_step]. rewrite H. reflexivity. Qed.
Lemma cad_txn_ok : forall d dk s e x, lookup (e_kv s) dk = Some e -> e_val e = VCnt x ->
  cad_step d dk s (CadRead (VCnt x)) = (commit dk s x d, CadDone None).
Proof.
  intros d dk s e x L EV. cbn [cad_step]. rewrite decr_txn, L, EV. cbn [value_eqb]. rewrite Z.eqb_refl. reflexivity.
Qed.
Lemma cad_txn_stale : forall d dk s e x y, lookup (e_kv s) dk = Some e -> e_val e = VCnt x -> y <> x ->
  cad_step d dk s (CadRead (VCnt y)) = (s, CadRead (VCnt x)).
Proof.
  intros d dk s e x y L EV NE. cbn [cad_step]. rewrite decr_txn, L, EV. cbn [value_eqb].
  replace (x =? y) with false by (symmetry; apply Z.eqb_neq; lia). rewrite EV. reflexivity.
Qed.

(* three own steps suffice: a client reads, may find its read stale once (the other
   client committed in between), and commits *)
Definition pot (c : Z) (pc : cad_pc) : nat :=
  match pc with
  | CadStart => 3
  | CadRead v => if value_eqb v (VCnt c) then 2 else 1
  | _ => 0
  end.
Definition before (c : Z) (pc : cad_pc) : Prop := pc = CadStart \/ pc = CadRead (VCnt c).
Definition between (c : Z) (pc : cad_pc) : Prop := pc = CadStart \/ pc = CadRead (VCnt c) \/ pc = CadRead (VCnt (c - 1)).

(* the reachable configurations of clients A and B started on counter value c in
   s0, by who has committed *)
Inductive inv2 (dA dB : list (key * value)) (dk : key) (s0 : estate) (c : Z) : estate -> cad_pc -> cad_pc -> Prop :=
| I2_none pa pb : before c pa -> before c pb -> inv2 dA dB dk s0 c s0 pa pb
| I2_a pb : between c pb -> inv2 dA dB dk s0 c (commit dk s0 c dA) (CadDone None) pb
| I2_b pa : between c pa -> inv2 dA dB dk s0 c (commit dk s0 c dB) pa (CadDone None)
| I2_ab : inv2 dA dB dk s0 c (commit dk (commit dk s0 c dA) (c - 1) dB) (CadDone None) (CadDone None)
| I2_ba : inv2 dA dB dk s0 c (commit dk (commit dk s0 c dB) (c - 1) dA) (CadDone None) (CadDone None).

Lemma inv2_sym : forall dA dB dk s0 c s pa pb, inv2 dA dB dk s0 c s pa pb -> inv2 dB dA dk s0 c s pb pa.
Proof. intros dA dB dk s0 c s pa pb I. destruct I; [apply I2_none | apply I2_b | apply I2_a | apply I2_ba | apply I2_ab]; assumption. Qed.

Lemma inv2_stepA : forall dA dB dk s0 e0 c, lookup (e_kv s0) dk = Some e0 -> e_val e0 = VCnt c ->
  forall s pa pb, inv2 dA dB dk s0 c s pa pb ->
  inv2 dA dB dk s0 c (fst (cad_step dA dk s pa)) (snd (cad_step dA dk s pa)) pb /\
  (pot c (snd (cad_step dA dk s pa)) <= Nat.pred (pot c pa))%nat.
Proof.
  intros dA dB dk s0 e0 c L0 V0 s pa pb I. destruct (commit_counter dk s0 c dB) as [eB [LB VB]].
  assert (NE : value_eqb (VCnt (c - 1)) (VCnt c) = false) by (cbn; apply Z.eqb_neq; lia).
  assert (EQ : value_eqb (VCnt c) (VCnt c) = true) by (cbn; apply Z.eqb_refl).
  destruct I as [pa pb PA PB | pb PB | pa PA | |].
  - destruct PA as [-> | ->].
    + rewrite (cad_read dA dk s0 e0 L0), V0. cbn [fst snd pot]. rewrite EQ.
      split; [apply I2_none; [right; reflexivity | exact PB] | cbn; lia].
    + rewrite (cad_txn_ok dA dk s0 e0 c L0 V0). cbn [fst snd pot].
      split; [apply I2_a; destruct PB as [-> | ->]; [left | right; left]; reflexivity | lia].
  - split; [apply I2_a; exact PB | cbn; lia].
  - destruct PA as [-> | [-> | ->]].
    + rewrite (cad_read dA dk _ eB LB), VB. cbn [fst snd pot]. rewrite NE.
      split; [apply I2_b; right; right; reflexivity | cbn; lia].
    + rewrite (cad_txn_stale dA dk _ eB (c - 1) c LB VB) by lia. cbn [fst snd pot]. rewrite NE, EQ.
      split; [apply I2_b; right; right; reflexivity | cbn; lia].
    + rewrite (cad_txn_ok dA dk _ eB (c - 1) LB VB). cbn [fst snd pot]. split; [apply I2_ba | lia].
  - split; [apply I2_ab | cbn; lia].
  - split; [apply I2_ba | cbn; lia].
Qed.
Lemma pot_zero_done : forall dA dB dk s0 c s pa pb, inv2 dA dB dk s0 c s pa pb -> pot c pa = 0%nat -> pa = CadDone None.
Proof.
  intros dA dB dk s0 c s pa pb I P.
  assert (NE : value_eqb (VCnt (c - 1)) (VCnt c) = false) by (cbn; apply Z.eqb_neq; lia).
  assert (EQ : value_eqb (VCnt c) (VCnt c) = true) by (cbn; apply Z.eqb_refl).
  destruct I as [pa pb PA PB | pb PB | pa PA | |]; auto.
  - destruct PA as [-> | ->]; cbn [pot] in P; rewrite ?EQ in P; discriminate.
  - destruct PA as [-> | [-> | ->]]; cbn [pot] in P; rewrite ?EQ, ?NE in P; discriminate.
Qed.
Fixpoint count (b : bool) (l : list bool) : nat :=
  match l with [] => 0 | x :: t => (if Bool.eqb x b then 1 else 0) + count b t end.
Lemma erun2_pot : forall dA dB dk s0 e0 c, lookup (e_kv s0) dk = Some e0 -> e_val e0 = VCnt c ->
  forall sched s pa pb, inv2 dA dB dk s0 c s pa pb ->
  exists s' pa' pb', erun2 s (ECad dA dk pa) (ECad dB dk pb) sched = (s', ECad dA dk pa', ECad dB dk pb') /\
    inv2 dA dB dk s0 c s' pa' pb' /\
    (pot c pa' <= pot c pa - count true sched)%nat /\ (pot c pb' <= pot c pb - count false sched)%nat.
Proof.
  intros dA dB dk s0 e0 c L0 V0. induction sched as [|b t IH]; intros s pa pb I.
  - exists s, pa, pb. cbn. repeat split; auto; lia.
  - destruct b; cbn [erun2 eclient_step count Bool.eqb].
    + destruct (inv2_stepA dA dB dk s0 e0 c L0 V0 s pa pb I) as [I' P].
      destruct (cad_step dA dk s pa) as [s1 pa1]. cbn [fst snd] in *.
      destruct (IH s1 pa1 pb I') as [s' [pa' [pb' [E [J [Q1 Q2]]]]]].
      exists s', pa', pb'. repeat split; auto; lia.
    + destruct (inv2_stepA dB dA dk s0 e0 c L0 V0 s pb pa (inv2_sym _ _ _ _ _ _ _ _ I)) as [I' P].
      destruct (cad_step dB dk s pb) as [s1 pb1]. cbn [fst snd] in *.
      destruct (IH s1 pa pb1 (inv2_sym _ _ _ _ _ _ _ _ I')) as [s' [pa' [pb' [E [J [Q1 Q2]]]]]].
      exists s', pa', pb'. repeat split; auto; lia.
Qed.

(* every interleaving of two AddWorkload calls on one counter: when both have
   returned, both succeeded and the store is exactly what one of the two
   sequential orders produces *)
Definition add_add_linearizable_stmt : Prop :=
  forall (s0 : estate) (wA wB : wdata) (p : proc) (cA cB : eclient) (c : Z) (e0 : eentry) (sched : list bool),
    lookup (e_kv s0) (proc_key p) = Some e0 -> e_val e0 = VCnt c ->
    cad_client wA p = Some cA -> cad_client wB p = Some cB ->
    let '(s', c1, c2) := erun2 s0 cA cB sched in
    forall r1 r2, eclient_result c1 = Some r1 -> eclient_result c2 = Some r2 ->
      r1 = ROk PUnit /\ r2 = ROk PUnit /\
      (abs s' = fst (run spec_step (abs s0) [OAddWorkload wA (Some p); OAddWorkload wB (Some p)]) \/
       abs s' = fst (run spec_step (abs s0) [OAddWorkload wB (Some p); OAddWorkload wA (Some p)])).

Lemma spec_add_proc : forall t w p a e x, w_parse w = Some (a, e) ->
  lookup (s_view t) (proc_key p) = Some (VCnt x) ->
  spec_step t (OAddWorkload w (Some p)) = (s_puts t (workload_data w a e ++ [(proc_key p, VCnt (x - 1))]), ROk PUnit).
Proof. intros. unfold spec_step. cbn [read_op]. rewrite H, H0. reflexivity. Qed.
Lemma abs_commit : forall dk s x d, abs (commit dk s x d) = s_puts (abs s) (d ++ [(dk, VCnt (x - 1))]).
Proof. intros. unfold commit. rewrite (abs_eq s), abs_puts. reflexivity. Qed.
Lemma view_counter : forall s dk e x, lookup (e_kv s) dk = Some e -> e_val e = VCnt x ->
  lookup (s_view (abs s)) dk = Some (VCnt x).
Proof. intros. rewrite view_abs, lookup_view, H. cbn. rewrite H0. reflexivity. Qed.

Lemma seq_two : forall s0 w1 w2 p a1 e1 a2 e2 e0 c,
  w_parse w1 = Some (a1, e1) -> w_parse w2 = Some (a2, e2) ->
  lookup (e_kv s0) (proc_key p) = Some e0 -> e_val e0 = VCnt c ->
  abs (commit (proc_key p) (commit (proc_key p) s0 c (workload_data w1 a1 e1)) (c - 1) (workload_data w2 a2 e2))
  = fst (run spec_step (abs s0) [OAddWorkload w1 (Some p); OAddWorkload w2 (Some p)]).
Proof.
  intros s0 w1 w2 p a1 e1 a2 e2 e0 c P1 P2 L0 V0. cbn [run].
  rewrite (spec_add_proc (abs s0) w1 p a1 e1 c P1 (view_counter s0 _ e0 c L0 V0)).
  rewrite <- abs_commit.
  destruct (commit_counter (proc_key p) s0 c (workload_data w1 a1 e1)) as [e1' [L1 V1]].
  rewrite (spec_add_proc _ w2 p a2 e2 (c - 1) P2 (view_counter _ _ e1' (c - 1) L1 V1)).
  cbn [fst]. rewrite <- abs_commit. reflexivity.
Qed.

Lemma add_add_linearizable_holds : add_add_linearizable_stmt.
Proof.
  intros s0 wA wB p cA cB c e0 sched L0 V0 CA CB.
  unfold cad_client in CA, CB.
  destruct (w_parse wA) as [[aA eA]|] eqn:PA; [|discriminate]. destruct (w_parse wB) as [[aB eB]|] eqn:PB; [|discriminate].
  inversion CA; subst cA. inversion CB; subst cB. clear CA CB.
  set (dA := workload_data wA aA eA). set (dB := workload_data wB aB eB). set (dk := proc_key p).
  assert (I2 : inv2 dA dB dk s0 c s0 CadStart CadStart) by (apply I2_none; left; reflexivity).
  destruct (erun2_pot dA dB dk s0 e0 c L0 V0 sched s0 CadStart CadStart I2) as [s' [pa [pb [E [J _]]]]].
  rewrite E. intros r1 r2 R1 R2. cbn [eclient_result] in R1, R2.
  destruct J as [pa pb PA' PB' | pb PB' | pa PA' | |].
  - destruct PA' as [-> | ->]; discriminate R1.
  - destruct PB' as [-> | [-> | ->]]; discriminate R2.
  - destruct PA' as [-> | [-> | ->]]; discriminate R1.
  - inversion R1; inversion R2. split; [reflexivity|]. split; [reflexivity|]. left.
    apply (seq_two s0 wA wB p aA eA aB eB e0 c PA PB L0 V0).
  - inversion R1; inversion R2. split; [reflexivity|]. split; [reflexivity|]. right.
    apply (seq_two s0 wB wA p aB eB aA eA e0 c PB PA L0 V0).
Qed.

(* any schedule that gives each client three steps lets both return *)
Definition add_add_terminates_stmt : Prop :=
  forall (s0 : estate) (wA wB : wdata) (p : proc) (cA cB : eclient) (c : Z) (e0 : eentry) (sched : list bool),
    lookup (e_kv s0) (proc_key p) = Some e0 -> e_val e0 = VCnt c ->
    cad_client wA p = Some cA -> cad_client wB p = Some cB ->
    (3 <= count true sched)%nat -> (3 <= count false sched)%nat ->
    let '(s', c1, c2) := erun2 s0 cA cB sched in
    eclient_result c1 = Some (ROk PUnit) /\ eclient_result c2 = Some (ROk PUnit).
Lemma add_add_terminates_holds : add_add_terminates_stmt.
Proof.
  intros s0 wA wB p cA cB c e0 sched L0 V0 CA CB T1 T2.
  unfold cad_client in CA, CB.
  destruct (w_parse wA) as [[aA eA]|]; [|discriminate]. destruct (w_parse wB) as [[aB eB]|]; [|discriminate].
  inversion CA; subst cA. inversion CB; subst cB.
  set (dA := workload_data wA aA eA). set (dB := workload_data wB aB eB). set (dk := proc_key p).
  assert (I2 : inv2 dA dB dk s0 c s0 CadStart CadStart) by (apply I2_none; left; reflexivity).
  destruct (erun2_pot dA dB dk s0 e0 c L0 V0 sched s0 CadStart CadStart I2) as [s' [pa [pb [E [J [Q1 Q2]]]]]].
  rewrite E. cbn [pot] in Q1, Q2.
  assert (PA : pa = CadDone None) by (eapply pot_zero_done; [exact J | lia]).
  assert (PB : pb = CadDone None) by (eapply pot_zero_done; [apply inv2_sym; exact J | lia]).
  subst. split; reflexivity.
Qed.

Lemma erun2_done : forall o1 o2 r1 r2 sched s,
  erun2 s (EAtomic o1 (Some r1)) (EAtomic o2 (Some r2)) sched = (s, EAtomic o1 (Some r1), EAtomic o2 (Some r2)).
Proof. induction sched as [|[] t IH]; intro s; [reflexivity | apply IH | apply IH]. Qed.
Lemma atomic_second : forall o1 o2 r1 sched s1,
  erun2 s1 (EAtomic o1 (Some r1)) (EAtomic o2 None) sched = (s1, EAtomic o1 (Some r1), EAtomic o2 None) \/
  erun2 s1 (EAtomic o1 (Some r1)) (EAtomic o2 None) sched =
    (fst (estep s1 o2), EAtomic o1 (Some r1), EAtomic o2 (Some (snd (estep s1 o2)))).
Proof.
  intros o1 o2 r1. induction sched as [|b t IH]; intro s1; [left; reflexivity|].
  destruct b; cbn [erun2 eclient_step]; [apply IH|]. right. destruct (estep s1 o2) as [s2 r2]. apply erun2_done.
Qed.
Lemma atomic_first : forall o1 o2 r2 sched s1,
  erun2 s1 (EAtomic o1 None) (EAtomic o2 (Some r2)) sched = (s1, EAtomic o1 None, EAtomic o2 (Some r2)) \/
  erun2 s1 (EAtomic o1 None) (EAtomic o2 (Some r2)) sched =
    (fst (estep s1 o1), EAtomic o1 (Some (snd (estep s1 o1))), EAtomic o2 (Some r2)).
Proof.
  intros o1 o2 r2. induction sched as [|b t IH]; intro s1; [left; reflexivity|].
  destruct b; cbn [erun2 eclient_step]; [|apply IH]. right. destruct (estep s1 o1) as [s2 r1]. apply erun2_done.
Qed.
Definition atomic_pair_linearizable_stmt : Prop :=
  forall (s : estate) (o1 o2 : op) (sched : list bool),
    let '(s', c1, c2) := erun2 s (EAtomic o1 None) (EAtomic o2 None) sched in
    forall r1 r2, eclient_result c1 = Some r1 -> eclient_result c2 = Some r2 ->
      (s', [r1; r2]) = run estep s [o1; o2] \/ (s', [r2; r1]) = run estep s [o2; o1].
Lemma atomic_pair_linearizable_holds : atomic_pair_linearizable_stmt.
Proof.
  intros s o1 o2 sched. destruct sched as [|b t]; [cbn; intros; discriminate|].
  destruct b; cbn [erun2 eclient_step].
  - destruct (estep s o1) as [s1 r1] eqn:E1.
    destruct (atomic_second o1 o2 r1 t s1) as [H | H]; rewrite H; cbn [eclient_result]; intros x y X Y; [discriminate|].
    inversion X; inversion Y; subst. left. cbn [run]. rewrite E1. destruct (estep s1 o2). reflexivity.
  - destruct (estep s o2) as [s1 r2] eqn:E2.
    destruct (atomic_first o1 o2 r2 t s1) as [H | H]; rewrite H; cbn [eclient_result]; intros x y X Y; [discriminate|].
    inversion X; inversion Y; subst. right. cbn [run]. rewrite E2. destruct (estep s1 o1). reflexivity.
Qed.

Local Open Scope string_scope.
Definition cw (id : name) (lbl : labels) : wdata := mkW id "a0_e0_s" (Some ("a0", "e0")) "n0" lbl.
Definition cproc : proc := mkP "a0" "e0" "n0" "i0".
Definition csetup : list op :=
  [OAddPod "p0" "d"; OAddNode (mkN "n0" "verif://n0" "p0" [] false false) "" "" "";
   OCreateProcessing cproc 3; OAddWorkload (cw "w0" []) None].

(* redis: RemoveWorkload between the EXISTS and the MULTI of UpdateWorkload: both
   calls succeed and the removed workload is back -- the outcome of neither order *)
Definition redis_update_window_stmt : Prop :=
  exists (setup : list op) (w w' : wdata) (cl : rclient),
    upd_client w = Some cl /\
    let s := rrun_ops r_init setup in
    let '(s', c1, c2) := rrun2 s cl (RAtomic (ORemoveWorkload w') None) [true; false; true] in
    rclient_result c1 = Some (ROk PUnit) /\ rclient_result c2 = Some (ROk PUnit) /\
    kv_eqb (s_view s') (s_view (rrun_ops s [OUpdateWorkload w; ORemoveWorkload w'])) = false /\
    kv_eqb (s_view s') (s_view (rrun_ops s [ORemoveWorkload w'; OUpdateWorkload w])) = false.
Lemma redis_update_window_holds : redis_update_window_stmt.
Proof.
  exists csetup, (cw "w0" [("l", "y")]), (cw "w0" []), (RUpd (workload_data (cw "w0" [("l", "y")]) "a0" "e0") UpdStart).
  split; [reflexivity|]. vm_compute. repeat split; reflexivity.
Qed.

(* etcd: DeleteProcessing between the Get and the Txn of BatchCreateAndDecr: the
   compare fails and the Else-Get returns no key.  Before the repair (85b2a9b) the
   Go code indexed Kvs[0] and panicked; now the call fails with ErrKeyNotExists,
   which is the outcome of the sequential order delete; add. *)
Definition etcd_decr_delete_window_closed_stmt : Prop :=
  let w := cw "w1" [] in
  let s := erun_ops e_init csetup in
  forall cl, cad_client w cproc = Some cl ->
    let '(s', c1, c2) := erun2 s cl (EAtomic (ODeleteProcessing cproc) None) [true; false; true] in
    eclient_result c1 = Some (RErr ENotExists) /\ eclient_result c2 = Some (ROk PUnit) /\
    (s', [ROk PUnit; RErr ENotExists]) = run estep s [ODeleteProcessing cproc; OAddWorkload w (Some cproc)].
Lemma etcd_decr_delete_window_closed_holds : etcd_decr_delete_window_closed_stmt.
Proof. unfold etcd_decr_delete_window_closed_stmt. cbv zeta. intros cl H. inversion H; subst cl. vm_compute. repeat split; reflexivity. Qed.

Lemma cad_start_missing : forall d dk s, lookup (e_kv s) dk = None -> cad_step d dk s CadStart = (s, CadDone (Some ENotExists)).
Proof. intros. cbn [cad_step]. rewrite H. reflexivity. Qed.
Lemma cad_txn_missing : forall d dk s y, lookup (e_kv s) dk = None ->
  cad_step d dk s (CadRead (VCnt y)) = (s, CadDone (Some ENotExists)).
Proof. intros d dk s y L. cbn [cad_step]. rewrite decr_txn, L. reflexivity. Qed.
Definition del_state (s : estate) (dk : key) : estate := fst (e_delete s dk).
Lemma del_state_missing : forall s dk, lookup (e_kv (del_state s dk)) dk = None.
Proof. intros. unfold del_state, e_delete. cbn [fst e_kv]. apply lookup_del_same. Qed.
Lemma estep_delete_proc : forall s p, estep s (ODeleteProcessing p) = (del_state s (proc_key p), ROk PUnit).
Proof. reflexivity. Qed.

(* the reachable configurations of AddWorkload (data dA, counter value c in s0)
   against DeleteProcessing of its counter *)
Inductive inv_ad (dA : list (key * value)) (p : proc) (s0 : estate) (c : Z) : estate -> cad_pc -> eclient -> Prop :=
| Iad_none pa : before c pa -> inv_ad dA p s0 c s0 pa (EAtomic (ODeleteProcessing p) None)
| Iad_a : inv_ad dA p s0 c (commit (proc_key p) s0 c dA) (CadDone None) (EAtomic (ODeleteProcessing p) None)
| Iad_d pa : before c pa ->
    inv_ad dA p s0 c (del_state s0 (proc_key p)) pa (EAtomic (ODeleteProcessing p) (Some (ROk PUnit)))
| Iad_ad : inv_ad dA p s0 c (del_state (commit (proc_key p) s0 c dA) (proc_key p)) (CadDone None)
                  (EAtomic (ODeleteProcessing p) (Some (ROk PUnit)))
| Iad_da : inv_ad dA p s0 c (del_state s0 (proc_key p)) (CadDone (Some ENotExists))
                  (EAtomic (ODeleteProcessing p) (Some (ROk PUnit))).

Section AddDel.
  Variables (dA : list (key * value)) (p : proc) (s0 : estate) (e0 : eentry) (c : Z).
  Hypothesis L0 : lookup (e_kv s0) (proc_key p) = Some e0.
  Hypothesis V0 : e_val e0 = VCnt c.

  Lemma inv_ad_step : forall b s pa cd, inv_ad dA p s0 c s pa cd ->
    match b with
    | true => inv_ad dA p s0 c (fst (cad_step dA (proc_key p) s pa)) (snd (cad_step dA (proc_key p) s pa)) cd
    | false => inv_ad dA p s0 c (fst (eclient_step s cd)) pa (snd (eclient_step s cd))
    end.
  Proof.
    intros b s pa cd I.
    destruct I as [pa PA | | pa PA | |]; destruct b; cbn [eclient_step]; try rewrite estep_delete_proc; cbn [fst snd].
    - destruct PA as [-> | ->].
      + rewrite (cad_read dA (proc_key p) s0 e0 L0), V0. apply Iad_none. right. reflexivity.
      + rewrite (cad_txn_ok dA (proc_key p) s0 e0 c L0 V0). apply Iad_a.
    - apply Iad_d. exact PA.
    - apply Iad_a.
    - apply Iad_ad.
    - destruct PA as [-> | ->].
      + rewrite (cad_start_missing dA (proc_key p) _ (del_state_missing s0 (proc_key p))). apply Iad_da.
      + rewrite (cad_txn_missing dA (proc_key p) _ c (del_state_missing s0 (proc_key p))). apply Iad_da.
    - apply Iad_d. exact PA.
    - apply Iad_ad.
    - apply Iad_ad.
    - apply Iad_da.
    - apply Iad_da.
  Qed.

  Lemma erun2_inv_ad : forall sched s pa cd, inv_ad dA p s0 c s pa cd ->
    exists s' pa' cd', erun2 s (ECad dA (proc_key p) pa) cd sched = (s', ECad dA (proc_key p) pa', cd') /\ inv_ad dA p s0 c s' pa' cd'.
  Proof.
    induction sched as [|b t IH]; intros s pa cd I; [exists s, pa, cd; auto|].
    pose proof (inv_ad_step b s pa cd I) as I'. destruct b; cbn [erun2 eclient_step].
    - destruct (cad_step dA (proc_key p) s pa) as [s1 pa1]. apply IH. exact I'.
    - destruct (eclient_step s cd) as [s1 cd1]. apply IH. exact I'.
  Qed.
End AddDel.

Lemma estep_add_commit : forall s w p a e e0 c, w_parse w = Some (a, e) ->
  lookup (e_kv s) (proc_key p) = Some e0 -> e_val e0 = VCnt c ->
  estep s (OAddWorkload w (Some p)) = (commit (proc_key p) s c (workload_data w a e), ROk PUnit).
Proof.
  intros s w p a e e0 c P L V. unfold estep. cbn [read_op]. unfold e_ops_workload. rewrite P.
  rewrite cad_alone, (cad_read _ _ s e0 L), V, (cad_txn_ok _ _ s e0 c L V). reflexivity.
Qed.
Lemma estep_add_missing : forall s w p a e, w_parse w = Some (a, e) -> lookup (e_kv s) (proc_key p) = None ->
  estep s (OAddWorkload w (Some p)) = (s, RErr ENotExists).
Proof.
  intros s w p a e P L. unfold estep. cbn [read_op]. unfold e_ops_workload. rewrite P.
  unfold e_batch_create_and_decr. rewrite L. reflexivity.
Qed.

(* every interleaving of AddWorkload-with-processing and DeleteProcessing on the
   same counter ends like one of the two sequential orders *)
Definition add_del_linearizable_stmt : Prop :=
  forall (s0 : estate) (w : wdata) (p : proc) (cA : eclient) (c : Z) (e0 : eentry) (sched : list bool),
    lookup (e_kv s0) (proc_key p) = Some e0 -> e_val e0 = VCnt c ->
    cad_client w p = Some cA ->
    let '(s', c1, c2) := erun2 s0 cA (EAtomic (ODeleteProcessing p) None) sched in
    forall r1 r2, eclient_result c1 = Some r1 -> eclient_result c2 = Some r2 ->
      (s', [r1; r2]) = run estep s0 [OAddWorkload w (Some p); ODeleteProcessing p] \/
      (s', [r2; r1]) = run estep s0 [ODeleteProcessing p; OAddWorkload w (Some p)].
Lemma add_del_linearizable_holds : add_del_linearizable_stmt.
Proof.
  intros s0 w p cA c e0 sched L0 V0 CA. unfold cad_client in CA.
  destruct (w_parse w) as [[a e]|] eqn:P; [|discriminate]. inversion CA; subst cA. clear CA.
  set (dA := workload_data w a e).
  assert (I : inv_ad dA p s0 c s0 CadStart (EAtomic (ODeleteProcessing p) None)) by (apply Iad_none; left; reflexivity).
  destruct (erun2_inv_ad dA p s0 e0 c L0 V0 sched s0 CadStart _ I) as [s' [pa [cd [E J]]]]. rewrite E.
  intros r1 r2 R1 R2. cbn [eclient_result] in R1.
  destruct J as [pa PA | | pa PA | |]; cbn [eclient_result] in R2; try discriminate R2.
  - destruct PA as [-> | ->]; discriminate R1.
  - inversion R1; inversion R2; subst. left. cbn [run].
    rewrite (estep_add_commit s0 w p a e e0 c P L0 V0), estep_delete_proc. reflexivity.
  - inversion R1; inversion R2; subst. right. cbn [run].
    rewrite estep_delete_proc, (estep_add_missing _ w p a e P (del_state_missing s0 (proc_key p))). reflexivity.
Qed.

Lemma rrun2_done : forall o1 o2 r1 r2 sched s,
  rrun2 s (RAtomic o1 (Some r1)) (RAtomic o2 (Some r2)) sched = (s, RAtomic o1 (Some r1), RAtomic o2 (Some r2)).
Proof. induction sched as [|[] t IH]; intro s; [reflexivity | apply IH | apply IH]. Qed.
Lemma ratomic_second : forall o1 o2 r1 sched s1,
  rrun2 s1 (RAtomic o1 (Some r1)) (RAtomic o2 None) sched = (s1, RAtomic o1 (Some r1), RAtomic o2 None) \/
  rrun2 s1 (RAtomic o1 (Some r1)) (RAtomic o2 None) sched =
    (fst (rstep s1 o2), RAtomic o1 (Some r1), RAtomic o2 (Some (snd (rstep s1 o2)))).
Proof.
  intros o1 o2 r1. induction sched as [|b t IH]; intro s1; [left; reflexivity|].
  destruct b; cbn [rrun2 rclient_step]; [apply IH|]. right. destruct (rstep s1 o2) as [s2 r2]. apply rrun2_done.
Qed.
Lemma ratomic_first : forall o1 o2 r2 sched s1,
  rrun2 s1 (RAtomic o1 None) (RAtomic o2 (Some r2)) sched = (s1, RAtomic o1 None, RAtomic o2 (Some r2)) \/
  rrun2 s1 (RAtomic o1 None) (RAtomic o2 (Some r2)) sched =
    (fst (rstep s1 o1), RAtomic o1 (Some (snd (rstep s1 o1))), RAtomic o2 (Some r2)).
Proof.
  intros o1 o2 r2. induction sched as [|b t IH]; intro s1; [left; reflexivity|].
  destruct b; cbn [rrun2 rclient_step]; [|apply IH]. right. destruct (rstep s1 o1) as [s2 r1]. apply rrun2_done.
Qed.
(* redis: every writing method except BatchUpdate is one MULTI block or one command *)
Definition ratomic_pair_linearizable_stmt : Prop :=
  forall (s : rstate) (o1 o2 : op) (sched : list bool),
    let '(s', c1, c2) := rrun2 s (RAtomic o1 None) (RAtomic o2 None) sched in
    forall r1 r2, rclient_result c1 = Some r1 -> rclient_result c2 = Some r2 ->
      (s', [r1; r2]) = run rstep s [o1; o2] \/ (s', [r2; r1]) = run rstep s [o2; o1].
Lemma ratomic_pair_linearizable_holds : ratomic_pair_linearizable_stmt.
Proof.
  intros s o1 o2 sched. destruct sched as [|b t]; [cbn; intros; discriminate|].
  destruct b; cbn [rrun2 rclient_step].
  - destruct (rstep s o1) as [s1 r1] eqn:E1.
    destruct (ratomic_second o1 o2 r1 t s1) as [H | H]; rewrite H; cbn [rclient_result]; intros x y X Y; [discriminate|].
    inversion X; inversion Y; subst. left. cbn [run]. rewrite E1. destruct (rstep s1 o2). reflexivity.
  - destruct (rstep s o2) as [s1 r2] eqn:E2.
    destruct (ratomic_first o1 o2 r2 t s1) as [H | H]; rewrite H; cbn [rclient_result]; intros x y X Y; [discriminate|].
    inversion X; inversion Y; subst. right. cbn [run]. rewrite E2. destruct (rstep s1 o1). reflexivity.
Qed.
