(* The string level of the key space.

   The store models use structured keys; [KVPrims.render] is the string the Go
   code builds (validated on every correspondence run against the real key
   strings).  This file proves, for names without the separators '/' and ':',
   that rendering is injective (distinct structured keys are distinct strings,
   so a structured map is a faithful picture of the string-keyed store) and that
   every prefix read of the etcd store / every "prefix*" pattern of the Redis
   store selects exactly the keys the structural predicates of Ops select --
   including names that are string prefixes of one another (n1 / n10), which is
   what the explicit trailing '/' of the Go code is for. *)
From Coq Require Import List Bool String Ascii.
From Verif Require Import Store.KVPrims Store.Ops.
Import ListNotations.
Local Open Scope string_scope.

(* characters that must not occur in names: the separators of the key formats *)
Definition sep_char (c : ascii) : bool :=
  Ascii.eqb c "/"%char || Ascii.eqb c ":"%char.
Fixpoint no_sep (s : string) : bool :=
  match s with EmptyString => true | String c t => negb (sep_char c) && no_sep t end.
Definition safe_name (s : name) : bool := negb (String.eqb s "") && no_sep s.

Lemma split_unique : forall (c : ascii) (a b x y : string),
  sep_char c = true -> no_sep a = true -> no_sep b = true ->
  a ++ String c x = b ++ String c y -> a = b /\ x = y.
Proof.
  intros c. induction a as [|ca ta IH]; intros b x y SC NA NB H; destruct b as [|cb tb]; simpl in *.
  - inversion H. auto.
  - inversion H; subst. apply andb_true_iff in NB. destruct NB as [NB _]. rewrite SC in NB. discriminate.
  - inversion H; subst. apply andb_true_iff in NA. destruct NA as [NA _]. rewrite SC in NA. discriminate.
  - inversion H; subst. apply andb_true_iff in NA. apply andb_true_iff in NB.
    destruct (IH tb x y SC (proj2 NA) (proj2 NB) H2) as [E1 E2]. subst. auto.
Qed.
Lemma app_inv_head_s : forall (a x y : string), a ++ x = a ++ y -> x = y.
Proof. induction a; simpl; intros x y H; [exact H | inversion H; auto]. Qed.
Lemma no_sep_not_split : forall (c : ascii) (b y a : string),
  sep_char c = true -> no_sep a = true -> a <> b ++ String c y.
Proof.
  intros c b. induction b as [|cb tb IH]; intros y a SC NA H; destruct a as [|ca ta]; simpl in *; try discriminate.
  - inversion H; subst. apply andb_true_iff in NA. destruct NA as [NA _]. rewrite SC in NA. discriminate.
  - inversion H; subst. apply andb_true_iff in NA. eapply IH; [exact SC | exact (proj2 NA) | reflexivity].
Qed.

Definition key_safe (k : key) : bool :=
  match k with
  | KPod p => no_sep p
  | KNode n | KCa n | KCert n | KKey n | KNStatus n | KWl n => no_sep n
  | KNodePod p n | KNodeWl p n => no_sep p && no_sep n
  | KDeploy a e n i | KStatus a e n i | KProc a e n i => no_sep a && no_sep e && no_sep n && no_sep i
  | KOther _ => false
  end.

Lemma sep_slash : sep_char "/"%char = true. Proof. reflexivity. Qed.
Lemma sep_colon : sep_char ":"%char = true. Proof. reflexivity. Qed.

Ltac peel H :=
  repeat match type of H with
  | String _ _ = String _ _ => first [ discriminate H | injection H; clear H; intro H ]
  end.
Ltac hyps :=
  repeat match goal with
  | H : _ && _ = true |- _ => apply andb_true_iff in H; destruct H
  end.
Ltac split_all :=
  repeat match goal with
  | H : ?a ++ String ?c ?x = ?b ++ String ?c ?y |- _ =>
      apply split_unique in H; [destruct H; subst | first [exact sep_slash | exact sep_colon] | assumption | assumption]
  end.
Ltac absurd_split :=
  match goal with
  | H : ?a = ?b ++ String ?c ?y |- _ =>
      exfalso; eapply (no_sep_not_split c b y a); [first [exact sep_slash | exact sep_colon] | assumption | exact H]
  | H : ?b ++ String ?c ?y = ?a |- _ =>
      exfalso; eapply (no_sep_not_split c b y a); [first [exact sep_slash | exact sep_colon] | assumption | symmetry; exact H]
  end.

Theorem render_injective : forall k1 k2,
  key_safe k1 = true -> key_safe k2 = true -> render k1 = render k2 -> k1 = k2.
Proof.
  intros k1 k2 S1 S2 H.
  destruct k1; try discriminate S1; destruct k2; try discriminate S2; simpl in S1, S2; hyps;
    simpl in H; peel H;
    try (split_all; try reflexivity; try discriminate; fail);
    try absurd_split;
    try (split_all; repeat match goal with H : String _ _ = String _ _ |- _ => injection H; clear H; intro H end; subst; reflexivity).
Qed.


Lemma prefix_app_same : forall a b c, String.prefix (a ++ b) (a ++ c) = String.prefix b c.
Proof. induction a as [|x t IH]; intros; simpl; [reflexivity|]. destruct (ascii_dec x x); [apply IH | contradiction]. Qed.
Lemma sep_not_nosep : forall c t, sep_char c = true -> no_sep (String c t) = false.
Proof. intros. simpl. rewrite H. reflexivity. Qed.
Lemma prefix_split : forall (c : ascii) (p q x y : string),
  sep_char c = true -> no_sep p = true -> no_sep q = true ->
  String.prefix (p ++ String c x) (q ++ String c y) = String.eqb p q && String.prefix x y.
Proof.
  intros c. induction p as [|cp tp IH]; intros q x y SC NP NQ; destruct q as [|cq tq]; simpl in *.
  - destruct (ascii_dec c c); [reflexivity | contradiction].
  - destruct (ascii_dec c cq); [|reflexivity]. subst. apply andb_true_iff in NQ. destruct NQ as [NQ _]. rewrite SC in NQ. discriminate.
  - destruct (ascii_dec cp c); [|reflexivity]. subst. apply andb_true_iff in NP. destruct NP as [NP _]. rewrite SC in NP. discriminate.
  - apply andb_true_iff in NP. apply andb_true_iff in NQ. destruct NP as [_ NP], NQ as [_ NQ].
    destruct (ascii_dec cp cq) as [E|E].
    + subst. rewrite Ascii.eqb_refl. apply IH; assumption.
    + apply Ascii.eqb_neq in E. rewrite E. reflexivity.
Qed.
Lemma prefix_nosep_false : forall (c : ascii) (p x n : string),
  sep_char c = true -> no_sep n = true -> String.prefix (p ++ String c x) n = false.
Proof.
  intros c. induction p as [|cp tp IH]; intros x n SC NN; destruct n as [|cn tn]; simpl in *; try reflexivity.
  - destruct (ascii_dec c cn); [|reflexivity]. subst. apply andb_true_iff in NN. destruct NN as [NN _]. rewrite SC in NN. discriminate.
  - destruct (ascii_dec cp cn); [|reflexivity]. apply andb_true_iff in NN. apply IH; [exact SC | exact (proj2 NN)].
Qed.
Lemma prefix_empty : forall s, String.prefix "" s = true.
Proof. destruct s; reflexivity. Qed.

(* the prefixes the Go code builds (after ListWorkloads' normalisation: an empty
   component empties the following ones, filepath.Join drops empty components) *)
Definition pfx_pods : string := "/pod/info/".
Definition pfx_nodepod (p : name) : string := "/node/" ++ p ++ ":pod/".
Definition pfx_nodewl (n : name) : string := "/node/" ++ n ++ ":workloads/".
Definition pfx_proc (a e : name) : string := "/processing/" ++ a ++ "/" ++ e ++ "/".
Definition pfx_deploy (a e n : name) : string :=
  "/deploy/" ++ (if String.eqb a "" then "" else
     a ++ "/" ++ (if String.eqb e "" then "" else e ++ "/" ++ (if String.eqb n "" then "" else n ++ "/"))).

Ltac pfx :=
  cbn;
  repeat first
    [ rewrite prefix_split by (first [exact sep_slash | exact sep_colon | assumption])
    | rewrite prefix_nosep_false by (first [exact sep_slash | exact sep_colon | assumption]) ];
  cbn; rewrite ?prefix_empty, ?andb_false_r, ?andb_true_r; try reflexivity.

Theorem scan_pods_exact : forall k, key_safe k = true -> String.prefix pfx_pods (render k) = is_pod_key k.
Proof. intros k S. destruct k; simpl in S; try discriminate S; hyps; unfold pfx_pods; pfx. Qed.

Theorem scan_nodepod_exact : forall p k, no_sep p = true -> key_safe k = true ->
  String.prefix (pfx_nodepod p) (render k) = nodepod_under p k.
Proof. intros p k P S. destruct k; simpl in S; try discriminate S; hyps; unfold pfx_nodepod, nodepod_under, name_eqb; pfx. Qed.

Theorem scan_nodewl_exact : forall n k, no_sep n = true -> key_safe k = true ->
  String.prefix (pfx_nodewl n) (render k) = nodewl_under n k.
Proof. intros n k P S. destruct k; simpl in S; try discriminate S; hyps; unfold pfx_nodewl, nodewl_under, name_eqb; pfx. Qed.

Theorem scan_proc_exact : forall a e k, no_sep a = true -> no_sep e = true -> key_safe k = true ->
  String.prefix (pfx_proc a e) (render k) = proc_under a e k.
Proof. intros a e k A E S. destruct k; simpl in S; try discriminate S; hyps; unfold pfx_proc, proc_under, name_eqb; pfx. Qed.

Theorem scan_deploy_exact : forall a e n k,
  no_sep a = true -> no_sep e = true -> no_sep n = true ->
  (a = "" -> e = "") -> (e = "" -> n = "") -> key_safe k = true ->
  String.prefix (pfx_deploy a e n) (render k) = deploy_under a e n k.
Proof.
  intros a e n k A E N AE EN S.
  destruct k; simpl in S; try discriminate S; hyps; unfold pfx_deploy, deploy_under, wild, name_eqb;
    try (cbn; reflexivity).
  destruct (String.eqb a "") eqn:A0.
  - apply String.eqb_eq in A0. rewrite (AE A0), (EN (AE A0)). cbn. apply prefix_empty.
  - destruct (String.eqb e "") eqn:E0.
    + apply String.eqb_eq in E0. rewrite (EN E0). cbn.
      rewrite prefix_split by (first [exact sep_slash | assumption]). cbn. rewrite prefix_empty, !andb_true_r. reflexivity.
    + destruct (String.eqb n "") eqn:N0; cbn;
        repeat rewrite prefix_split by (first [exact sep_slash | assumption]); cbn;
        rewrite ?prefix_empty, ?andb_true_r, ?andb_assoc; reflexivity.
Qed.

(* why the Go code appends the explicit '/': without it the range read of one
   entrypoint also covers every entrypoint whose name merely starts with it *)
Example prefix_without_slash_leaks :
  String.prefix "/processing/a0/e0" (render (KProc "a0" "e0-t" "n0" "i0")) = true
  /\ String.prefix (pfx_proc "a0" "e0") (render (KProc "a0" "e0-t" "n0" "i0")) = false.
Proof. split; reflexivity. Qed.

Definition scans_exact_stmt : Prop :=
  forall k, key_safe k = true ->
    String.prefix pfx_pods (render k) = is_pod_key k /\
    (forall p, no_sep p = true -> String.prefix (pfx_nodepod p) (render k) = nodepod_under p k) /\
    (forall n, no_sep n = true -> String.prefix (pfx_nodewl n) (render k) = nodewl_under n k) /\
    (forall a e, no_sep a = true -> no_sep e = true -> String.prefix (pfx_proc a e) (render k) = proc_under a e k) /\
    (forall a e n, no_sep a = true -> no_sep e = true -> no_sep n = true ->
       (a = "" -> e = "") -> (e = "" -> n = "") ->
       String.prefix (pfx_deploy a e n) (render k) = deploy_under a e n k).
Lemma scans_exact_holds : scans_exact_stmt.
Proof.
  intros k S. repeat split; intros.
  - apply scan_pods_exact; assumption.
  - apply scan_nodepod_exact; assumption.
  - apply scan_nodewl_exact; assumption.
  - apply scan_proc_exact; assumption.
  - apply scan_deploy_exact; assumption.
Qed.
Definition render_injective_stmt : Prop :=
  forall k1 k2, key_safe k1 = true -> key_safe k2 = true -> render k1 = render k2 -> k1 = k2.
