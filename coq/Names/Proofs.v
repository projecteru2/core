(* Proofs about Names/Model.v (C24). *)
From Coq Require Import List Bool Arith NArith String Ascii Lia.
From Verif Require Import Base.GoStr Base.GoStrLemmas Names.Model Base.ListFacts.
Import ListNotations.
Open Scope list_scope.

(* split a goal [Forall P [a; b; ...]] into its element goals, nothing else *)
Ltac fa := repeat match goal with
                  | |- Forall _ (_ :: _) => constructor
                  | |- Forall _ [] => constructor
                  end.


Definition no_lead_slash (app : bytes) : Prop := forall c t, app = c :: t -> c <> slash.

Lemma trim_left_noop : forall s, no_lead_slash s -> trim_left [slash] s = s.
Proof.
  intros [|c t] H; [reflexivity|]. simpl.
  destruct (Ascii.eqb c slash) eqn:E; [|reflexivity].
  apply Ascii.eqb_eq in E. elim (H c t eq_refl). exact E.
Qed.

Lemma parse_name_splits : forall name sa entry ident,
  split_on underscore (trim_left [slash] name) = sa ++ [entry; ident] -> sa <> [] ->
  parse_name name = Some (join [underscore] sa, entry, ident).
Proof.
  intros name sa entry ident E N. unfold parse_name. rewrite E, app_length. cbn [List.length].
  assert (1 <= List.length sa) by (destruct sa; [congruence | simpl; lia]).
  replace (Nat.leb 3 (List.length sa + 2)) with true by (symmetry; apply Nat.leb_le; lia).
  replace (List.length sa + 2 - 2) with (List.length sa + 0) by lia.
  replace (List.length sa + 2 - 1) with (List.length sa + 1) by lia.
  rewrite firstn_app_2, !app_nth2_plus. simpl firstn. rewrite app_nil_r. reflexivity.
Qed.

Lemma name_roundtrip : forall app entry ident,
  no_lead_slash app -> no_byte underscore entry -> no_byte underscore ident ->
  parse_name (make_name app entry ident) = Some (app, entry, ident).
Proof.
  intros app entry ident Ha He Hi. unfold make_name.
  change (join [underscore] [app; entry; ident]) with (app ++ underscore :: (entry ++ underscore :: ident)).
  rewrite (parse_name_splits _ (split_on underscore app) entry ident).
  - rewrite join_split. reflexivity.
  - rewrite trim_left_noop.
    + rewrite split_on_app_gen, (split_on_app underscore entry ident He), (split_on_none underscore ident Hi).
      reflexivity.
    + destruct app as [|a app']; intros c t E; inversion E; subst; [discriminate | exact (Ha c app' eq_refl)].
  - apply split_on_nonnil.
Qed.

Lemma key_element_safe : forall n, nonempty n = true -> key_element n = true -> safe_elem n.
Proof.
  intros n Hn Hk. unfold key_element in Hk. rewrite !andb_true_iff, !negb_true_iff in Hk. destruct Hk as [[Hd Hdd] Hs].
  repeat split; try assumption. destruct n; discriminate.
Qed.

Lemma valid_app_safe : forall n, valid_app n = true -> safe_elem n.
Proof.
  intros n H. unfold valid_app, validate_app in H.
  destruct (nonempty n) eqn:E1; simpl in H; [|discriminate].
  destruct (key_element n) eqn:E2; simpl in H; [|discriminate].
  apply key_element_safe; assumption.
Qed.
Lemma valid_node_safe : forall n, valid_node n = true -> safe_elem n.
Proof. exact valid_app_safe. Qed.
Lemma valid_entry_safe : forall n, valid_entry n = true -> safe_elem n /\ no_byte underscore n.
Proof.
  intros n H. unfold valid_entry, validate_entry in H.
  destruct (nonempty n) eqn:E1; simpl in H; [|discriminate].
  destruct (mem_byte underscore n) eqn:E3; [discriminate|].
  destruct (key_element n) eqn:E2; simpl in H; [|discriminate].
  split; [apply key_element_safe; assumption | exact E3].
Qed.

Lemma safe_no_lead_slash : forall n, safe_elem n -> no_lead_slash n.
Proof.
  intros n [_ [Hs _]] c t -> C. subst c. unfold no_byte in Hs. simpl in Hs. discriminate.
Qed.

Lemma accepted_roundtrip : forall app entry ident,
  validate_deploy app entry = 0%N -> no_byte underscore ident ->
  parse_name (make_name app entry ident) = Some (app, entry, ident).
Proof.
  intros app entry ident V Hi. unfold validate_deploy in V.
  destruct (validate_app app) eqn:Va; [|discriminate].
  assert (A : valid_app app = true) by (unfold valid_app; rewrite Va; reflexivity).
  assert (E : valid_entry entry = true) by (unfold valid_entry; rewrite V; reflexivity).
  apply name_roundtrip; [apply safe_no_lead_slash, valid_app_safe, A | apply valid_entry_safe, E | exact Hi].
Qed.


Definition deploy_elem : bytes := s2l "deploy".

Lemma deploy_elem_safe : safe_elem deploy_elem.
Proof. unfold safe_elem, no_byte. repeat split; try reflexivity. discriminate. Qed.

Definition status_elem : bytes := s2l "status".
Lemma status_elem_safe : safe_elem status_elem.
Proof. unfold safe_elem, no_byte. repeat split; try reflexivity. discriminate. Qed.

Lemma safe_nonempty : forall e, safe_elem e -> GoStrLemmas.nonempty e = true.
Proof. intros [|c e] [H _]; [congruence | reflexivity]. Qed.

(* the lemmas hold for any root "/" ++ r with r an ordinary element ("deploy", "status") *)
Lemma join_path_root : forall r es, safe_elem r -> Forall safe_or_empty es ->
  join_path ((slash :: r) :: es) = slash :: join [slash] (r :: filter GoStrLemmas.nonempty es).
Proof.
  intros r es Hr F.
  assert (E : join_path ((slash :: r) :: es) = clean (slash :: join [slash] (r :: es))).
  { destruct es as [|e es']; reflexivity. }
  rewrite E, clean_rooted; [|constructor; [right; exact Hr | exact F]].
  destruct r as [|c r']; [destruct Hr; congruence | reflexivity].
Qed.
Lemma join_path_deploy : forall es, Forall safe_or_empty es ->
  join_path (deploy_prefix :: es) = slash :: join [slash] (deploy_elem :: filter GoStrLemmas.nonempty es).
Proof. intros es F. exact (join_path_root deploy_elem es deploy_elem_safe F). Qed.

Lemma join_path_safe : forall r es, Forall safe_elem (r :: es) ->
  join_path ((slash :: r) :: es) = slash :: join [slash] (r :: es).
Proof.
  intros r es F. inversion F as [|? ? Hr Fs]; subst.
  rewrite (join_path_root r es Hr) by (eapply Forall_impl; [|exact Fs]; intros e H; right; exact H).
  replace (filter GoStrLemmas.nonempty es) with es; [reflexivity|].
  clear F. induction Fs as [|e es He _ IH]; [reflexivity|]. cbn [filter]. rewrite (safe_nonempty e He), <- IH. reflexivity.
Qed.

(* a workload record as the stores see it *)
Record names := mkNames { nm_app : bytes; nm_entry : bytes; nm_ident : bytes; nm_node : bytes; nm_id : bytes }.
Definition names_of (a : addc) : names :=
  mkNames (s2l (a_app a)) (s2l (a_entry a)) (s2l (a_ident a)) (s2l (a_node a)) (s2l (a_id a)).
Definition wl_of_names (x : names) : wl := mkWl (nm_id x) (make_name (nm_app x) (nm_entry x) (nm_ident x)) (nm_node x).

(* accepted by validation; id and suffix as the system generates them *)
Definition good (x : names) : Prop :=
  valid_app (nm_app x) = true /\ valid_entry (nm_entry x) = true /\ valid_node (nm_node x) = true /\
  safe_elem (nm_id x) /\ no_byte underscore (nm_ident x).

Definition gkey (r : bytes) (x : names) : bytes :=
  slash :: join [slash] [r; nm_app x; nm_entry x; nm_node x; nm_id x].
Definition key_of (x : names) : bytes := gkey deploy_elem x.

Lemma gkey_elems_safe : forall r x, safe_elem r -> good x ->
  Forall safe_elem [r; nm_app x; nm_entry x; nm_node x; nm_id x].
Proof.
  intros r x Hr [Va [Ve [Vn [Sid _]]]].
  fa; [exact Hr | apply valid_app_safe, Va | apply valid_entry_safe, Ve | apply valid_node_safe, Vn | exact Sid].
Qed.

Lemma obj_key_good : forall r x, safe_elem r -> good x -> obj_key (slash :: r) (wl_of_names x) = Some (gkey r x).
Proof.
  intros r x Hr G. unfold obj_key, wl_of_names. cbn [w_name w_node w_id].
  pose proof (gkey_elems_safe r x Hr G) as S. destruct G as [Ha [He [_ [_ Hi]]]].
  rewrite name_roundtrip; [| apply safe_no_lead_slash, valid_app_safe, Ha | apply valid_entry_safe, He | exact Hi].
  rewrite join_path_safe by exact S. reflexivity.
Qed.
Lemma deploy_key_good : forall x, good x -> deploy_key (wl_of_names x) = Some (key_of x).
Proof. intros x G. exact (obj_key_good deploy_elem x deploy_elem_safe G). Qed.

(* effective filter of ListWorkloads: names after the first empty one are ignored *)
Definition eff (app entry node : bytes) : list bytes :=
  match app with
  | [] => []
  | _ => match entry with
         | [] => [app]
         | _ => match node with [] => [app; entry] | _ => [app; entry; node] end
         end
  end.

Definition ok_or_empty (e : bytes) : Prop := e = [] \/ safe_elem e.

Lemma filter_key_eff : forall r app entry node, safe_elem r ->
  ok_or_empty app -> ok_or_empty entry -> ok_or_empty node ->
  filter_key (slash :: r) app entry node = slash :: join [slash] (r :: eff app entry node) ++ [slash].
Proof.
  intros r app entry node Hr Ha He Hn. unfold filter_key. rewrite (join_path_root r _ Hr).
  - (* the non-empty ones among the masked names are the effective filter *)
    destruct app, entry, node; reflexivity.
  - (* each masked name is the given one or empty *)
    destruct app, entry; fa; try assumption; left; reflexivity.
Qed.
Lemma list_key_eff : forall app entry node,
  ok_or_empty app -> ok_or_empty entry -> ok_or_empty node ->
  list_key app entry node = slash :: join [slash] (deploy_elem :: eff app entry node) ++ [slash].
Proof. intros. exact (filter_key_eff deploy_elem app entry node deploy_elem_safe H H0 H1). Qed.

Lemma safe_no_slash : forall e, safe_elem e -> no_byte slash e.
Proof. intros e [_ [H _]]. exact H. Qed.

Lemma eff_no_slash : forall app entry node,
  ok_or_empty app -> ok_or_empty entry -> ok_or_empty node -> Forall (no_byte slash) (eff app entry node).
Proof.
  intros app entry node Ha He Hn.
  assert (NS : forall e, ok_or_empty e -> no_byte slash e) by (intros e [->|H]; [reflexivity | apply safe_no_slash; exact H]).
  unfold eff. destruct app, entry, node; fa; apply NS; assumption.
Qed.

(* "created under those names": the names equal the non-ignored filter names *)
Definition under_names (app entry node : bytes) (x : names) : Prop :=
  exists r, [nm_app x; nm_entry x; nm_node x] = eff app entry node ++ r.

Lemma under_names_cases : forall app entry node x,
  under_names app entry node x <->
  match app with
  | [] => True
  | _ => nm_app x = app /\
         match entry with
         | [] => True
         | _ => nm_entry x = entry /\ match node with [] => True | _ => nm_node x = node end
         end
  end.
Proof.
  intros app entry node x. unfold under_names, eff.
  destruct app; [split; [trivial | intros _; eexists; reflexivity]|].
  destruct entry; [split; [intros [r E]; inversion E; auto | intros [<- _]; eexists; reflexivity]|].
  destruct node; (split; [intros [r E]; inversion E; auto|]).
  - intros [<- [<- _]]. eexists. reflexivity.
  - intros [<- [<- <-]]. exists []. reflexivity.
Qed.

Lemma under_names_pair : forall app entry x, safe_elem app -> safe_elem entry ->
  (under_names app entry [] x <-> nm_app x = app /\ nm_entry x = entry).
Proof.
  intros app entry x [Na _] [Ne _]. rewrite under_names_cases.
  destruct app; [congruence|]. destruct entry; [congruence|]. tauto.
Qed.

Lemma gkey_elems_noslash : forall r x, safe_elem r -> good x ->
  Forall (no_byte slash) [r; nm_app x; nm_entry x; nm_node x; nm_id x].
Proof. intros r x Hr G. eapply Forall_impl; [exact safe_no_slash | exact (gkey_elems_safe r x Hr G)]. Qed.

(* a key under root r2 against the filter prefix under root r1, element by element *)
Lemma gprefix_components : forall r1 r2 app entry node x, safe_elem r1 -> safe_elem r2 ->
  ok_or_empty app -> ok_or_empty entry -> ok_or_empty node -> good x ->
  (has_prefix (filter_key (slash :: r1) app entry node) (gkey r2 x) = true <->
   exists rr, rr <> [] /\ [r2; nm_app x; nm_entry x; nm_node x; nm_id x] = (r1 :: eff app entry node) ++ rr).
Proof.
  intros r1 r2 app entry node x H1 H2 Ha He Hn G.
  rewrite filter_key_eff by assumption. unfold gkey. cbn [has_prefix List.app]. rewrite Ascii.eqb_refl. cbn [andb].
  apply prefix_components; try discriminate.
  - constructor; [apply safe_no_slash, H1 | apply eff_no_slash; assumption].
  - apply gkey_elems_noslash; assumption.
Qed.

Lemma gprefix_iff_names : forall r app entry node x, safe_elem r ->
  ok_or_empty app -> ok_or_empty entry -> ok_or_empty node -> good x ->
  (has_prefix (filter_key (slash :: r) app entry node) (gkey r x) = true <-> under_names app entry node x).
Proof.
  intros r app entry node x Hr Ha He Hn G. rewrite gprefix_components by assumption. unfold under_names. split.
  - (* the remainder is not empty: its last element is the id *)
    intros [rr [Nr E]]. destruct (exists_last Nr) as [rr' [z ->]]. injection E as E.
    change (_ :: _ :: _ :: [nm_id x]) with ([nm_app x; nm_entry x; nm_node x] ++ [nm_id x]) in E. rewrite app_assoc in E.
    exists rr'. apply (app_inj_tail _ _ _ _ E).
  - intros [rr E]. exists (rr ++ [nm_id x]). split; [destruct rr; discriminate|].
    cbn [List.app]. f_equal. rewrite app_assoc, <- E. reflexivity.
Qed.
Lemma prefix_iff_names : forall app entry node x,
  ok_or_empty app -> ok_or_empty entry -> ok_or_empty node -> good x ->
  (has_prefix (list_key app entry node) (key_of x) = true <-> under_names app entry node x).
Proof. intros. exact (gprefix_iff_names deploy_elem app entry node x deploy_elem_safe H H0 H1 H2). Qed.

(* redis: an escaped literal followed by '*' is a prefix test *)

Lemma glob_star_any : forall s, glob [star] s = true.
Proof.
  intro s. cbn [glob]. rewrite Ascii.eqb_refl.
  induction s as [|x s IH]; [reflexivity|]. cbn [glob]. cbn [orb]. exact IH.
Qed.

Lemma glob_escaped : forall c p s,
  glob (backslash :: c :: p) s = match s with x :: s' => Ascii.eqb c x && glob p s' | [] => false end.
Proof. reflexivity. Qed.
Lemma glob_plain : forall c p s, is_meta c = false ->
  glob (c :: p) s = match s with x :: s' => Ascii.eqb c x && glob p s' | [] => false end.
Proof.
  intros c p s M. unfold is_meta in M. rewrite !orb_false_iff in M. destruct M as [[[H1 H2] H3] H4].
  cbn [glob]. rewrite H1, H2, H3, H4. reflexivity.
Qed.

Lemma glob_escape_prefix : forall p s, glob (escape_glob p ++ [star]) s = has_prefix p s.
Proof.
  induction p as [|c p IH]; intro s; [apply glob_star_any|].
  cbn [escape_glob]. destruct (is_meta c) eqn:M; cbn [List.app].
  - rewrite glob_escaped. destruct s; [reflexivity|]. cbn [has_prefix]. rewrite IH. reflexivity.
  - rewrite (glob_plain _ _ _ M). destruct s; [reflexivity|]. cbn [has_prefix]. rewrite IH. reflexivity.
Qed.

(* after the repair both stores test the same thing, for every name *)
Lemma under_any : forall b p k, under b p k = has_prefix p k.
Proof. intros [|] p k; cbn [under]; [reflexivity | apply glob_escape_prefix]. Qed.


Definition processing_elem : bytes := s2l "processing".
Lemma processing_elem_safe : safe_elem processing_elem.
Proof. unfold safe_elem, no_byte. repeat split; try reflexivity. discriminate. Qed.

Definition pnames (p : proc) : names := mkNames (p_app p) (p_entry p) [] (p_node p) (p_ident p).
(* names accepted by validation; the ident is system generated *)
Definition good_proc (p : proc) : Prop :=
  valid_app (p_app p) = true /\ valid_entry (p_entry p) = true /\ valid_node (p_node p) = true /\ safe_elem (p_ident p).
Lemma good_proc_good : forall p, good_proc p -> good (pnames p).
Proof. intros p [A [B [C D]]]. unfold good, pnames. cbn. repeat split; try assumption; apply D. Qed.

Lemma proc_key_good : forall p, good_proc p -> proc_key p = gkey processing_elem (pnames p).
Proof.
  intros p G. unfold proc_key. change processing_prefix with (slash :: processing_elem).
  apply join_path_safe. exact (gkey_elems_safe processing_elem (pnames p) processing_elem_safe (good_proc_good p G)).
Qed.

Lemma root_key2 : forall r app entry, safe_elem r -> safe_elem app -> safe_elem entry ->
  join_path [slash :: r; app; entry] ++ [slash] = filter_key (slash :: r) app entry [].
Proof.
  intros r app entry Hr Sa Se.
  rewrite filter_key_eff by (assumption || (right; assumption) || (left; reflexivity)).
  rewrite join_path_safe by (fa; assumption).
  destruct app; [destruct Sa; congruence|]. destruct entry; [destruct Se; congruence|]. reflexivity.
Qed.

Lemma gkey_node : forall r x, safe_elem r -> good x -> key_node (gkey r x) = nm_node x.
Proof.
  intros r x Hr G. unfold key_node, gkey.
  rewrite split_on_sep, split_join; [reflexivity | discriminate | apply gkey_elems_noslash; assumption].
Qed.

(* the one key space built by AddWorkload and CreateProcessing *)

Definition entry_of (x : names) : bytes * item := (key_of x, IW (wl_of_names x)).
Definition pentry (p : proc) : bytes * item := (proc_key p, IP p).
Definition space (xs : list names) (ps : list proc) : kspace := map entry_of xs ++ map pentry ps.

Lemma gkey_inj : forall r1 r2 x y, safe_elem r1 -> safe_elem r2 -> good x -> good y ->
  gkey r1 x = gkey r2 y -> r1 = r2 /\ nm_id x = nm_id y.
Proof.
  intros r1 r2 x y H1 H2 Gx Gy E. unfold gkey in E. apply (f_equal (@tl ascii)) in E. cbn [tl] in E.
  apply join_inj in E; try discriminate; try (apply gkey_elems_noslash; assumption).
  inversion E. split; reflexivity.
Qed.
Lemma key_of_id : forall x y, good x -> good y -> key_of x = key_of y -> nm_id x = nm_id y.
Proof. intros x y Gx Gy E. apply (gkey_inj deploy_elem deploy_elem x y deploy_elem_safe deploy_elem_safe Gx Gy E). Qed.

Lemma roots_differ : deploy_elem <> processing_elem.
Proof. discriminate. Qed.

Lemma gprefix_cross : forall r1 r2 app entry node x, safe_elem r1 -> safe_elem r2 -> r1 <> r2 ->
  ok_or_empty app -> ok_or_empty entry -> ok_or_empty node -> good x ->
  has_prefix (filter_key (slash :: r1) app entry node) (gkey r2 x) = false.
Proof.
  intros r1 r2 app entry node x H1 H2 Ne Ha He Hn G. apply not_true_is_false. intro E.
  apply gprefix_components in E; try assumption. destruct E as [rr [_ E]]. inversion E. congruence.
Qed.

Lemma has_key_In : forall k s, has_key k s = true <-> In k (map fst s).
Proof.
  induction s as [|[k' i] s IH]; simpl; [split; [discriminate | tauto]|].
  rewrite orb_true_iff, bytes_eqb_eq, IH. split; intros [H|H]; auto.
Qed.

Lemma has_key_app : forall k a b, has_key k (a ++ b) = has_key k a || has_key k b.
Proof.
  induction a as [|[k' i] a IH]; intro b; [reflexivity|]. cbn [List.app has_key]. rewrite IH. apply orb_assoc.
Qed.

Lemma has_key_false : forall x pre, good x -> Forall good pre -> ~ In (nm_id x) (map nm_id pre) ->
  has_key (key_of x) (map entry_of pre) = false.
Proof.
  intros x pre G F N. apply not_true_is_false. intro H.
  apply has_key_In in H. rewrite map_map in H. apply in_map_iff in H. destruct H as [y [E Hy]].
  rewrite Forall_forall in F. apply N, in_map_iff. exists y. split; [|exact Hy].
  apply key_of_id; auto.
Qed.
Lemma has_id_false : forall id pre, ~ In id (map nm_id pre) -> has_id id (map entry_of pre) = false.
Proof.
  intros id pre N. induction pre as [|y pre IH]; [reflexivity|].
  cbn [map has_id entry_of wl_of_names w_id]. apply orb_false_iff. split.
  - apply bytes_eqb_neq. intro E. apply N. left. symmetry. exact E.
  - apply IH. intro C. apply N. right. exact C.
Qed.

(* a marker's key is new when its ident is: the workloads' keys stand under another root *)
Lemma proc_key_fresh : forall p xs pre, good_proc p -> Forall good xs -> Forall good_proc pre ->
  ~ In (p_ident p) (map p_ident pre) -> has_key (proc_key p) (space xs pre) = false.
Proof.
  intros p xs pre Gp Fx Fpre Nin. rewrite Forall_forall in Fx, Fpre. apply not_true_is_false. intro H.
  apply has_key_In in H. unfold space in H. rewrite map_app, !map_map, (proc_key_good p Gp) in H.
  apply in_app_or in H. destruct H as [H|H]; apply in_map_iff in H; destruct H as [y [E Hy]]; cbn [fst entry_of pentry] in E.
  - apply gkey_inj in E; auto using deploy_elem_safe, processing_elem_safe, good_proc_good.
    apply roots_differ, E.
  - rewrite (proc_key_good y (Fpre y Hy)) in E.
    apply gkey_inj in E; auto using processing_elem_safe, good_proc_good.
    apply Nin, in_map_iff. exists y. split; [apply E | exact Hy].
Qed.

Fixpoint build_names (s : kspace) (xs : list names) : kspace * list bool :=
  match xs with
  | [] => (s, [])
  | x :: t => let '(s', okb) := add_workload s (wl_of_names x) in
              let '(fin, oks) := build_names s' t in (fin, okb :: oks)
  end.
Lemma build_is_build_names : forall adds s, build s adds = build_names s (map names_of adds).
Proof.
  induction adds as [|a adds IH]; intro s; [reflexivity|]. simpl.
  change (wl_of a) with (wl_of_names (names_of a)).
  destruct (add_workload s (wl_of_names (names_of a))) as [s' okb]. rewrite IH. reflexivity.
Qed.

Fixpoint build_procs_n (s : kspace) (l : list proc) : kspace * list bool :=
  match l with
  | [] => (s, [])
  | p :: t => let '(s', okb) := add_proc s p in let '(fin, oks) := build_procs_n s' t in (fin, okb :: oks)
  end.
Lemma build_procs_is_n : forall pcs s, build_procs s pcs = build_procs_n s (map proc_of pcs).
Proof.
  induction pcs as [|p pcs IH]; intro s; [reflexivity|]. simpl.
  destruct (add_proc s (proc_of p)) as [s' okb]. rewrite IH. reflexivity.
Qed.

Lemma NoDup_map_mid : forall (A B : Type) (f : A -> B) pre x xs,
  NoDup (map f (pre ++ x :: xs)) -> ~ In (f x) (map f pre).
Proof.
  intros A B f pre x xs ND C. rewrite map_app in ND. apply NoDup_remove_2 in ND. apply ND, in_or_app. left. exact C.
Qed.

Lemma build_good : forall xs pre, Forall good pre -> Forall good xs -> NoDup (map nm_id (pre ++ xs)) ->
  build_names (map entry_of pre) xs = (map entry_of (pre ++ xs), map (fun _ => true) xs).
Proof.
  induction xs as [|x xs IH]; intros pre Fp Fx ND.
  - simpl. rewrite app_nil_r. reflexivity.
  - inversion Fx as [|? ? Gx Fxs]; subst. simpl. unfold add_workload.
    pose proof (NoDup_map_mid _ _ _ _ _ _ ND) as Nin.
    rewrite (deploy_key_good x Gx), (has_key_false x pre Gx Fp Nin). cbn [w_id wl_of_names].
    rewrite (has_id_false _ pre Nin). cbn [orb].
    change (map entry_of pre ++ [(key_of x, IW (wl_of_names x))]) with (map entry_of pre ++ map entry_of [x]).
    rewrite <- map_app, (IH (pre ++ [x])), <- app_assoc; [reflexivity | | exact Fxs | rewrite <- app_assoc; exact ND].
    apply Forall_app. split; [exact Fp | constructor; [exact Gx | constructor]].
Qed.

Lemma build_procs_good : forall ps xs pre, Forall good xs -> Forall good_proc pre -> Forall good_proc ps ->
  NoDup (map p_ident (pre ++ ps)) ->
  build_procs_n (space xs pre) ps = (space xs (pre ++ ps), map (fun _ => true) ps).
Proof.
  induction ps as [|p ps IH]; intros xs pre Fx Fpre Fps ND.
  - simpl. rewrite app_nil_r. reflexivity.
  - inversion Fps as [|? ? Gp Fps']; subst. cbn [build_procs_n]. unfold add_proc at 1. cbv zeta.
    rewrite (proc_key_fresh p xs pre Gp Fx Fpre (NoDup_map_mid _ _ _ _ _ _ ND)).
    replace (space xs pre ++ [(proc_key p, IP p)]) with (space xs (pre ++ [p]))
      by (unfold space; rewrite map_app, app_assoc; reflexivity).
    rewrite (IH xs (pre ++ [p])), <- app_assoc; [reflexivity | exact Fx | | exact Fps' | rewrite <- app_assoc; exact ND].
    apply Forall_app. split; [exact Fpre | constructor; [exact Gp | constructor]].
Qed.

Lemma build_all_good : forall xs ps, Forall good xs -> NoDup (map nm_id xs) ->
  Forall good_proc ps -> NoDup (map p_ident ps) ->
  build_names [] xs = (space xs [], map (fun _ => true) xs) /\
  build_procs_n (space xs []) ps = (space xs ps, map (fun _ => true) ps).
Proof.
  intros xs ps Fx NDx Fp NDp. split.
  - unfold space. simpl. rewrite app_nil_r. exact (build_good xs [] (Forall_nil _) Fx NDx).
  - exact (build_procs_good ps xs [] Fx (Forall_nil _) Fp NDp).
Qed.


Lemma filter_none : forall (A : Type) (f : A -> bool) l, (forall x, In x l -> f x = false) -> filter f l = [].
Proof. exact (@ListFacts.filter_none). Qed.

Lemma ids_of_map_entries : forall xs, ids_of (map entry_of xs) = Some (map nm_id xs).
Proof. induction xs as [|x xs IH]; [reflexivity|]. cbn [map ids_of entry_of]. rewrite IH. reflexivity. Qed.

Lemma ids_of_entries : forall (f : bytes -> bool) xs,
  ids_of (filter (fun kw => f (fst kw)) (map entry_of xs)) = Some (map nm_id (filter (fun x => f (key_of x)) xs)).
Proof. intros f xs. rewrite filter_map_comm. apply ids_of_map_entries. Qed.

(* on either store, the test of a key against a filter prefix under the same root has the value of
   any boolean that decides "created under those names" *)
Lemma under_decides : forall b r app entry node x (s : bool), safe_elem r ->
  ok_or_empty app -> ok_or_empty entry -> ok_or_empty node -> good x ->
  (s = true <-> under_names app entry node x) ->
  under b (filter_key (slash :: r) app entry node) (gkey r x) = s.
Proof.
  intros b r app entry node x s Hr Ha He Hn G S. rewrite under_any. apply eq_true_iff_eq.
  rewrite gprefix_iff_names by assumption. symmetry. exact S.
Qed.

Lemma markers_not_listed : forall b ps app entry node, Forall good_proc ps ->
  ok_or_empty app -> ok_or_empty entry -> ok_or_empty node ->
  filter (fun kw => under b (list_key app entry node) (fst kw)) (map pentry ps) = [].
Proof.
  intros b ps app entry node F Ha He Hn. apply filter_none. intros kw Hk.
  apply in_map_iff in Hk. destruct Hk as [p [<- Hp]]. rewrite Forall_forall in F. specialize (F p Hp).
  rewrite under_any. change (fst (pentry p)) with (proc_key p). rewrite (proc_key_good p F).
  exact (gprefix_cross deploy_elem processing_elem app entry node (pnames p) deploy_elem_safe processing_elem_safe
           roots_differ Ha He Hn (good_proc_good p F)).
Qed.
Lemma proc_filter_key_root : forall app entry, safe_elem app -> safe_elem entry ->
  proc_filter_key app entry = filter_key (slash :: processing_elem) app entry [].
Proof. intros app entry Sa Se. exact (root_key2 processing_elem app entry processing_elem_safe Sa Se). Qed.

Lemma workloads_not_processing : forall b xs app entry, Forall good xs -> safe_elem app -> safe_elem entry ->
  filter (fun kw => under b (proc_filter_key app entry) (fst kw)) (map entry_of xs) = [].
Proof.
  intros b xs app entry F Sa Se. apply filter_none. intros kw Hk.
  apply in_map_iff in Hk. destruct Hk as [x [<- Hx]]. rewrite Forall_forall in F. specialize (F x Hx).
  rewrite under_any. change (fst (entry_of x)) with (key_of x).
  rewrite (proc_filter_key_root app entry Sa Se).
  apply (gprefix_cross processing_elem deploy_elem app entry [] x processing_elem_safe deploy_elem_safe);
    try (right; assumption); try (left; reflexivity); try assumption.
  intro C. apply roots_differ. symmetry. exact C.
Qed.

Lemma listed_entries : forall b xs ps app entry node (sel : names -> bool),
  Forall good xs -> Forall good_proc ps -> ok_or_empty app -> ok_or_empty entry -> ok_or_empty node ->
  (forall x, sel x = true <-> under_names app entry node x) ->
  filter (fun kw => under b (list_key app entry node) (fst kw)) (space xs ps) = map entry_of (filter sel xs).
Proof.
  intros b xs ps app entry node sel F Fp Ha He Hn Sel. unfold space.
  rewrite filter_app, (markers_not_listed b ps app entry node Fp Ha He Hn), app_nil_r, filter_map_comm. f_equal.
  apply filter_ext_in. intros x Hx. rewrite Forall_forall in F.
  exact (under_decides b deploy_elem app entry node x (sel x) deploy_elem_safe Ha He Hn (F x Hx) (Sel x)).
Qed.

(* ListWorkloads, on both stores: exactly the workloads created under the (non-ignored) names *)
Lemma isolation : forall b xs ps app entry node (sel : names -> bool),
  Forall good xs -> Forall good_proc ps -> ok_or_empty app -> ok_or_empty entry -> ok_or_empty node ->
  (forall x, sel x = true <-> under_names app entry node x) ->
  list_workloads b (space xs ps) app entry node = Some (map nm_id (filter sel xs)).
Proof.
  intros b xs ps app entry node sel F Fp Ha He Hn Sel. unfold list_workloads. cbv zeta.
  rewrite (listed_entries b xs ps app entry node sel F Fp Ha He Hn Sel). apply ids_of_map_entries.
Qed.

Lemma status_key_list_key : forall app entry, safe_elem app -> safe_elem entry ->
  status_key app entry = list_key app entry [].
Proof. intros app entry Sa Se. exact (root_key2 deploy_elem app entry deploy_elem_safe Sa Se). Qed.

Lemma key_node_key_of : forall x, good x -> key_node (key_of x) = nm_node x.
Proof. intros x G. exact (gkey_node deploy_elem x deploy_elem_safe G). Qed.

(* the deployed part of GetDeployStatus: the nodes of exactly the workloads of (app, entry) *)
Lemma status_nodes_spec : forall b xs ps app entry (sel : names -> bool),
  Forall good xs -> Forall good_proc ps -> safe_elem app -> safe_elem entry ->
  (forall x, sel x = true <-> (nm_app x = app /\ nm_entry x = entry)) ->
  status_nodes b (space xs ps) app entry = map nm_node (filter sel xs).
Proof.
  intros b xs ps app entry sel F Fp Sa Se Sel. unfold status_nodes. cbv zeta.
  rewrite status_key_list_key by assumption.
  rewrite (listed_entries b xs ps app entry [] sel F Fp (or_intror Sa) (or_intror Se) (or_introl eq_refl))
    by (intro x; rewrite under_names_pair by assumption; apply Sel).
  rewrite map_map. apply map_ext_in. intros x Hx. apply filter_In in Hx.
  rewrite Forall_forall in F. apply key_node_key_of, F, Hx.
Qed.

(* doLoadProcessing: exactly the counters filed under (app, entry), with their node *)
Lemma proc_counts_spec : forall b xs ps app entry (sel : proc -> bool),
  Forall good xs -> Forall good_proc ps -> safe_elem app -> safe_elem entry ->
  (forall p, sel p = true <-> (p_app p = app /\ p_entry p = entry)) ->
  proc_counts b (space xs ps) app entry = map (fun p => (p_node p, p_count p)) (filter sel ps).
Proof.
  intros b xs ps app entry sel F Fp Sa Se Sel. unfold proc_counts, space. cbv zeta.
  rewrite filter_app, (workloads_not_processing b xs app entry F Sa Se). cbn [List.app].
  rewrite (proc_filter_key_root app entry Sa Se).
  induction Fp as [|p ps Gp _ IH]; [reflexivity|].
  pose proof (good_proc_good p Gp) as G.
  cbn [map filter]. change (fst (pentry p)) with (proc_key p). rewrite (proc_key_good p Gp).
  rewrite (under_decides b processing_elem app entry [] (pnames p) (sel p) processing_elem_safe
             (or_intror Sa) (or_intror Se) (or_introl eq_refl) G)
    by (rewrite under_names_pair by assumption; apply Sel).
  destruct (sel p); [|exact IH].
  cbn [flat_map map pentry snd fst List.app]. rewrite IH, (proc_key_good p Gp), (gkey_node processing_elem _ processing_elem_safe G).
  reflexivity.
Qed.

(* GetDeployStatus: per node, the workloads created under (app, entry) plus the in-flight counters
   created under (app, entry) -- nothing of any other application or entrypoint; both stores *)
Lemma deploy_status_total : forall b xs ps app entry (selw : names -> bool) (selp : proc -> bool),
  Forall good xs -> Forall good_proc ps ->
  valid_app app = true -> valid_entry entry = true ->
  (forall x, selw x = true <-> (nm_app x = app /\ nm_entry x = entry)) ->
  (forall p, selp p = true <-> (p_app p = app /\ p_entry p = entry)) ->
  deploy_status b (space xs ps) app entry =
  agg (map (fun x => (nm_node x, 1%N)) (filter selw xs) ++ map (fun p => (p_node p, p_count p)) (filter selp ps)).
Proof.
  intros b xs ps app entry selw selp F Fp Va Ve Sw Sp. unfold deploy_status.
  pose proof (valid_app_safe _ Va) as Sa. destruct (valid_entry_safe _ Ve) as [Se _].
  rewrite (status_nodes_spec b xs ps app entry selw F Fp Sa Se Sw).
  rewrite (proc_counts_spec b xs ps app entry selp F Fp Sa Se Sp).
  rewrite map_map. reflexivity.
Qed.

(* WorkloadStatusStream on etcd: exactly the workloads created under the (non-ignored) names *)
Lemma stream_etcd : forall xs app entry node (sel : names -> bool),
  Forall good xs -> ok_or_empty app -> ok_or_empty entry -> ok_or_empty node ->
  (forall x, sel x = true <-> under_names app entry node x) ->
  stream_ids (map wl_of_names xs) app entry node = map nm_id (filter sel xs).
Proof.
  intros xs app entry node sel F Ha He Hn Sel. unfold stream_ids. cbv zeta. rewrite Forall_forall in F.
  rewrite filter_map_comm, map_map. cbn [wl_of_names w_id]. f_equal.
  apply filter_ext_in. intros x Hx. change status_prefix with (slash :: status_elem).
  rewrite (obj_key_good status_elem x status_elem_safe (F x Hx)).
  exact (under_decides Etcd status_elem app entry node x (sel x) status_elem_safe Ha He Hn (F x Hx) (Sel x)).
Qed.

Definition valid_or_empty (valid : bytes -> bool) (n : bytes) : Prop := n = [] \/ valid n = true.
Lemma voe_app : forall n, valid_or_empty valid_app n -> ok_or_empty n.
Proof. intros n [->|H]; [left; reflexivity | right; apply valid_app_safe; exact H]. Qed.
Lemma voe_entry : forall n, valid_or_empty valid_entry n -> ok_or_empty n.
Proof. intros n [->|H]; [left; reflexivity | right; apply valid_entry_safe; exact H]. Qed.
Lemma voe_node : forall n, valid_or_empty valid_node n -> ok_or_empty n.
Proof. intros n [->|H]; [left; reflexivity | right; apply valid_node_safe; exact H]. Qed.

Definition built (xs : list names) (ps : list proc) : kspace :=
  fst (build_procs_n (fst (build_names [] xs)) ps).

Lemma built_space : forall xs ps, Forall good xs -> NoDup (map nm_id xs) ->
  Forall good_proc ps -> NoDup (map p_ident ps) ->
  built xs ps = space xs ps /\
  snd (build_names [] xs) = map (fun _ => true) xs /\
  snd (build_procs_n (fst (build_names [] xs)) ps) = map (fun _ => true) ps.
Proof.
  intros xs ps Fx NDx Fp NDp. destruct (build_all_good xs ps Fx NDx Fp NDp) as [E1 E2].
  unfold built. rewrite E1. cbn [fst snd]. rewrite E2. cbn [fst snd]. auto.
Qed.

Lemma isolation_built : forall b xs ps app entry node (sel : names -> bool),
  Forall good xs -> NoDup (map nm_id xs) -> Forall good_proc ps -> NoDup (map p_ident ps) ->
  valid_or_empty valid_app app -> valid_or_empty valid_entry entry -> valid_or_empty valid_node node ->
  (forall x, sel x = true <-> under_names app entry node x) ->
  list_workloads b (built xs ps) app entry node = Some (map nm_id (filter sel xs)).
Proof.
  intros b xs ps app entry node sel Fx NDx Fp NDp Ha He Hn Sel.
  destruct (built_space xs ps Fx NDx Fp NDp) as [-> _].
  apply isolation; auto using voe_app, voe_entry, voe_node.
Qed.

Lemma deploy_status_built : forall b xs ps app entry (selw : names -> bool) (selp : proc -> bool),
  Forall good xs -> NoDup (map nm_id xs) -> Forall good_proc ps -> NoDup (map p_ident ps) ->
  valid_app app = true -> valid_entry entry = true ->
  (forall x, selw x = true <-> (nm_app x = app /\ nm_entry x = entry)) ->
  (forall p, selp p = true <-> (p_app p = app /\ p_entry p = entry)) ->
  deploy_status b (built xs ps) app entry =
  agg (map (fun x => (nm_node x, 1%N)) (filter selw xs) ++ map (fun p => (p_node p, p_count p)) (filter selp ps)).
Proof.
  intros b xs ps app entry selw selp Fx NDx Fp NDp Va Ve Sw Sp.
  destruct (built_space xs ps Fx NDx Fp NDp) as [-> _].
  apply deploy_status_total; assumption.
Qed.

(* refutations (witnesses are replayed on the real stores by the harness corpus) *)

Definition nm (app entry node id : string) : names := mkNames (s2l app) (s2l entry) (s2l "abc001") (s2l node) (s2l id).

(* the redis store before the repair (names unescaped in the SCAN pattern): accepted names with a
   glob metacharacter saw other applications' workloads *)
Definition list_workloads_redis_old (s : kspace) (app entry node : bytes) : option (list bytes) :=
  ids_of (filter (fun kw => under_redis_old (list_key app entry node) (fst kw)) s).

Lemma redis_old_glob_refuted :
  exists xs app entry,
    Forall good xs /\ NoDup (map nm_id xs) /\ valid_app app = true /\ valid_entry entry = true /\
    list_workloads_redis_old (built xs []) app entry []
    <> Some (map nm_id (filter (fun x => bytes_eqb (nm_app x) app && bytes_eqb (nm_entry x) entry) xs)) /\
    list_workloads Redis (built xs []) app entry []
    = Some (map nm_id (filter (fun x => bytes_eqb (nm_app x) app && bytes_eqb (nm_entry x) entry) xs)).
Proof.
  exists [nm "a*" "e" "n1" "id1"; nm "ab" "e" "n1" "id2"], (s2l "a*"), (s2l "e").
  split; [|split; [|split; [|split; [|split]]]].
  - fa; unfold good; simpl; repeat split; try reflexivity; try discriminate.
  - simpl. repeat constructor; simpl; intuition discriminate.
  - reflexivity.
  - reflexivity.
  - vm_compute. discriminate.
  - vm_compute. reflexivity.
Qed.

(* the validation before the repair accepted names whose keys collide on both stores *)
Lemma old_validation_refuted :
  exists x y, validate_deploy_old (nm_app x) (nm_entry x) = 0%N /\ validate_deploy_old (nm_app y) (nm_entry y) = 0%N /\
    (nm_app x, nm_entry x) <> (nm_app y, nm_entry y) /\ nm_id x <> nm_id y /\
    (* both are filed, and listing x's application and entrypoint returns y's workload too *)
    snd (build_names [] [x; y]) = [true; true] /\
    list_workloads Etcd (built [x; y] []) (nm_app x) (nm_entry x) [] = Some [nm_id x; nm_id y] /\
    list_workloads Redis (built [x; y] []) (nm_app x) (nm_entry x) [] = Some [nm_id x; nm_id y] /\
    (* and the repaired validation rejects them *)
    validate_deploy (nm_app x) (nm_entry x) <> 0%N /\ validate_deploy (nm_app y) (nm_entry y) <> 0%N.
Proof.
  exists (nm "a/b" "c" "n1" "id1"), (nm "a" "b/c" "n1" "id2").
  vm_compute. repeat split; try reflexivity; try discriminate.
Qed.

Lemma old_roundtrip_refuted :
  exists app entry ident, validate_deploy_old app entry = 0%N /\ no_byte underscore ident /\
    parse_name (make_name app entry ident) <> Some (app, entry, ident) /\ validate_deploy app entry <> 0%N.
Proof.
  exists (s2l "/a"), (s2l "e"), (s2l "x"). vm_compute. repeat split; try reflexivity; discriminate.
Qed.

(* names outside validation: ".." lets a processing key escape to where a deploy query looks, and
   ListWorkloads then fails on it -- the single key space of the model shows it *)
Lemma escaping_names_meet :
  exists x p, list_workloads Etcd (fst (build_procs_n (fst (build_names [] [x])) [p])) (nm_app x) (nm_entry x) [] = None.
Proof.
  exists (nm ".." "e" "n1" "id1"), (mkProc (s2l "..") (s2l "e") (s2l "n1") (s2l "op1") 2%N).
  vm_compute. reflexivity.
Qed.

(* hypotheses are satisfiable *)
Example names_example :
  let xs := [nm "a" "b" "n1" "id1"; nm "ab" "b" "n1" "id2"; nm "a" "bc" "n1" "id3"; nm "a_b" "c" "n2" "id4"; nm "a" "b" "n2" "id5"] in
  let ps := [mkProc (s2l "a") (s2l "b") (s2l "n1") (s2l "op1") 3%N; mkProc (s2l "a") (s2l "b2") (s2l "n1") (s2l "op2") 5%N] in
  Forall good xs /\ NoDup (map nm_id xs) /\ Forall good_proc ps /\ NoDup (map p_ident ps) /\
  list_workloads Etcd (built xs ps) (s2l "a") (s2l "b") [] = Some [s2l "id1"; s2l "id5"] /\
  list_workloads Redis (built xs ps) (s2l "a") [] [] = Some [s2l "id1"; s2l "id3"; s2l "id5"] /\
  deploy_status Redis (built xs ps) (s2l "a") (s2l "b") = [(s2l "n1", 4%N); (s2l "n2", 1%N)].
Proof.
  split; [|split; [|split; [|split; [|vm_compute; repeat split; reflexivity]]]].
  - fa; unfold good; simpl; repeat split; try reflexivity; try discriminate.
  - simpl. repeat constructor; simpl; intuition discriminate.
  - fa; unfold good_proc, safe_elem, no_byte; simpl; repeat split; try reflexivity; try discriminate.
  - simpl. repeat constructor; simpl; intuition discriminate.
Qed.

Lemma s2l_nil_iff : forall s, s2l s = [] <-> s = EmptyString.
Proof.
  intro s. split; intro H.
  - apply s2l_inj. rewrite H. reflexivity.
  - subst. reflexivity.
Qed.

Lemma s2l_eqb : forall a b, String.eqb a b = true <-> s2l a = s2l b.
Proof. intros a b. rewrite String.eqb_eq. split; [congruence | apply s2l_inj]. Qed.

(* the selection used by the boolean check is the theorems' "created under those names" *)
Lemma created_under_iff : forall app entry node a, a_ok a = true ->
  (created_under app entry node a = true <->
   under_names (s2l app) (s2l entry) (s2l node) (names_of a)).
Proof.
  intros app entry node a Hok. rewrite under_names_cases. unfold created_under, names_of. cbn [nm_app nm_entry nm_node].
  rewrite Hok. cbn [andb].
  destruct (s2l app) eqn:Ea; [easy|]. rewrite <- Ea, andb_true_iff, s2l_eqb.
  destruct (s2l entry) eqn:Ee; [easy|]. rewrite <- Ee, andb_true_iff, s2l_eqb.
  destruct (s2l node) eqn:En; [easy|]. rewrite <- En, s2l_eqb. reflexivity.
Qed.

Lemma accepted_safe_all : forall n,
  (valid_app n = true -> safe_elem n) /\ (valid_node n = true -> safe_elem n) /\
  (valid_entry n = true -> safe_elem n /\ no_byte underscore n).
Proof. intro n. split; [apply valid_app_safe | split; [apply valid_node_safe | apply valid_entry_safe]]. Qed.


