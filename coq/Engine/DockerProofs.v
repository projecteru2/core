(* Proofs about the docker settings model (C31). *)
From Coq Require Import ZArith List Bool String Lia.
From Flocq Require Import IEEE754.Binary.
From Verif Require Import Base.GoFloat Base.GoInt Engine.Docker.
Import ListNotations.
Local Open Scope Z_scope.

(* what makeResourceSetting puts into CPUQuota when it does not override it *)
Definition quota_spec (rnd : bool) (cpu : f64) : Z :=
  if flt fzero cpu then quota_of rnd cpu else if feq cpu (f_of_Z (-1)) then -1 else 0.

Definition reservation_spec (memory : Z) : Z :=
  if negb (memory =? 0) && (Z.quot memory 2 <? mib4) then mib4 else Z.quot memory 2.

(* in closed form; a workload is bound when it has a cpu_map and is not remapped *)
Lemma make_eq : forall rnd cpu memory cores numa remap,
  make_resource_setting rnd cpu memory cores numa remap =
  let bound := negb (is_nil cores) && negb remap in
  mkObs Ok (if bound then -1 else quota_spec rnd cpu) period (if bound then shares_of cpu else 1024)
        cores (if is_nil cores then EmptyString else numa) memory memory (reservation_spec memory).
Proof. intros rnd cpu memory [|c cs] numa [|]; reflexivity. Qed.

Lemma is_nil_false : forall {A} (l : list A), l <> [] -> is_nil l = false.
Proof. intros A [|x l] H; [congruence|reflexivity]. Qed.

Lemma reservation_bounds : forall memory, mib4 <= memory ->
  reservation_spec memory = Z.max (Z.quot memory 2) mib4 /\ reservation_spec memory <= memory.
Proof.
  intros memory H. unfold reservation_spec, mib4 in *. rewrite Z.quot_div_nonneg by lia.
  pose proof (Z.mul_div_le memory 2 eq_refl).
  destruct (Z.eqb_spec memory 0); [lia|]. cbn [negb andb].
  destruct (Z.ltb_spec (memory / 2) 4194304); split; lia.
Qed.

Lemma mem_valid_cases : forall m, mem_invalid m = false <-> (m = 0 \/ mib4 <= m).
Proof. intros m. unfold mem_invalid, mib4. rewrite orb_false_iff, andb_false_iff, !Z.ltb_ge. lia. Qed.

Lemma create_valid : forall rnd p, mem_invalid (p_memory p) = false ->
  create_with rnd p = make_resource_setting rnd (p_cpu p) (p_memory p) (p_cores p) (p_numa p) false.
Proof. intros rnd p H. unfold create_with. rewrite H. reflexivity. Qed.

Lemma create_invalid : forall rnd p, mem_invalid (p_memory p) = true ->
  o_outcome (create_with rnd p) = ErrInvalidMemory.
Proof. intros rnd p H. unfold create_with. rewrite H. reflexivity. Qed.

Lemma create_bound : forall rnd p,
  mem_invalid (p_memory p) = false -> p_cores p <> [] ->
  let o := create_with rnd p in
  o_outcome o = Ok /\ o_cpuset o = p_cores p /\ o_mems o = p_numa p /\ o_quota o = -1 /\
  o_shares o = shares_of (p_cpu p) /\ o_period o = period /\
  o_memory o = p_memory p /\ o_swap o = p_memory p /\ o_reservation o = reservation_spec (p_memory p).
Proof.
  intros rnd p Hm Hc. rewrite create_valid, make_eq, (is_nil_false _ Hc) by exact Hm.
  repeat split; reflexivity.
Qed.

Lemma create_unbound : forall rnd p,
  mem_invalid (p_memory p) = false -> p_cores p = [] ->
  let o := create_with rnd p in
  o_outcome o = Ok /\ o_cpuset o = [] /\ o_mems o = EmptyString /\
  o_quota o = quota_spec rnd (p_cpu p) /\ o_shares o = 1024 /\ o_period o = period /\
  o_memory o = p_memory p /\ o_swap o = p_memory p /\ o_reservation o = reservation_spec (p_memory p).
Proof.
  intros rnd p Hm Hc. rewrite create_valid, make_eq, Hc by exact Hm. repeat split; reflexivity.
Qed.

Lemma flt_not_feq : forall a b, flt a b = true -> feq b a = false.
Proof.
  intros a b H. unfold flt, feq in *. rewrite (Bcompare_swap 53 1024 a b).
  destruct (Bcompare 53 1024 a b) as [[]|]; try discriminate; reflexivity.
Qed.

Lemma quota_spec_minus_one : forall rnd, quota_spec rnd (f_of_Z (-1)) = -1.
Proof. intros rnd. vm_compute. reflexivity. Qed.

Definition update_memory (m : Z) : Z := if m =? 0 then max_int else m.

Lemma update_invalid : forall f2 rnd n p, mem_invalid (p_memory p) = true ->
  o_outcome (update_with f2 rnd n p) = ErrInvalidMemory.
Proof. intros f2 rnd n p H. unfold update_with. rewrite H. reflexivity. Qed.

Lemma update_keeps_map : forall f2 rnd n p,
  mem_invalid (p_memory p) = false -> p_cores p <> [] -> feq (p_cpu p) fzero = false ->
  update_with f2 rnd n p =
  make_resource_setting rnd (p_cpu p) (update_memory (p_memory p)) (p_cores p) (p_numa p) (p_remap p).
Proof.
  intros f2 rnd n p Hm Hc Hz. unfold update_with, update_memory.
  rewrite Hm, Hz, (is_nil_false _ Hc). reflexivity.
Qed.

Lemma update_same_as_create : forall n p,
  mib4 <= p_memory p -> p_cores p <> [] -> p_remap p = false -> feq (p_cpu p) fzero = false ->
  update n p = create p.
Proof.
  intros n p Hm Hc Hr Hz. unfold update, create.
  assert (Hv : mem_invalid (p_memory p) = false) by (apply mem_valid_cases; right; exact Hm).
  rewrite update_keeps_map, create_valid, Hr by assumption.
  unfold update_memory. destruct (Z.eqb_spec (p_memory p) 0); [unfold mib4 in Hm; lia|reflexivity].
Qed.

Lemma update_remap : forall f2 rnd n p,
  mem_invalid (p_memory p) = false -> p_cores p <> [] -> p_remap p = true -> flt fzero (p_cpu p) = true ->
  let o := update_with f2 rnd n p in
  o_outcome o = Ok /\ o_cpuset o = p_cores p /\ o_mems o = p_numa p /\
  o_quota o = quota_of rnd (p_cpu p) /\ o_shares o = 1024 /\ o_period o = period.
Proof.
  intros f2 rnd n p Hm Hc Hr Hp.
  rewrite update_keeps_map, make_eq, Hr, (is_nil_false _ Hc) by (try assumption; apply flt_not_feq, Hp).
  unfold quota_spec. rewrite Hp. repeat split; reflexivity.
Qed.

Lemma all_cores_nonempty : forall n, 0 < n -> seqZ 0 (Z.to_nat n) <> [].
Proof.
  intros n H. destruct (Z.to_nat n) eqn:E; [lia|]. simpl. discriminate.
Qed.

Lemma update_unbound : forall rnd n p,
  mem_invalid (p_memory p) = false -> p_cores p = [] -> flt fzero (p_cpu p) = true -> 0 < n ->
  let o := update_with true rnd n p in
  o_outcome o = Ok /\ o_cpuset o = seqZ 0 (Z.to_nat n) /\ o_mems o = p_numa p /\
  o_quota o = quota_of rnd (p_cpu p) /\ o_shares o = 1024 /\ o_period o = period /\
  o_memory o = update_memory (p_memory p) /\ o_swap o = update_memory (p_memory p).
Proof.
  intros rnd n p Hm Hc Hp Hn. unfold update_with. rewrite Hm, Hc, (flt_not_feq _ _ Hp). cbn [is_nil orb].
  rewrite make_eq, (is_nil_false _ (all_cores_nonempty n Hn)). unfold quota_spec. rewrite Hp.
  repeat split; reflexivity.
Qed.

Lemma update_unlimited : forall f2 rnd n p,
  mem_invalid (p_memory p) = false -> feq (p_cpu p) fzero = true -> 0 < n ->
  let o := update_with f2 rnd n p in
  o_outcome o = Ok /\ o_cpuset o = seqZ 0 (Z.to_nat n) /\ o_mems o = EmptyString /\
  o_quota o = -1 /\ o_period o = period.
Proof.
  intros f2 rnd n p Hm Hz Hn. unfold update_with. rewrite Hm, Hz. cbn [orb].
  rewrite make_eq, (is_nil_false _ (all_cores_nonempty n Hn)), quota_spec_minus_one.
  destruct (if f2 then true else p_remap p); repeat split; reflexivity.
Qed.

Lemma update_memory_limit : forall f2 rnd n p, mib4 <= p_memory p ->
  o_memory (update_with f2 rnd n p) = p_memory p /\ o_swap (update_with f2 rnd n p) = p_memory p.
Proof.
  intros f2 rnd n p Hm.
  assert (Hv : mem_invalid (p_memory p) = false) by (apply mem_valid_cases; right; exact Hm).
  unfold update_with. rewrite Hv.
  destruct (Z.eqb_spec (p_memory p) 0); [unfold mib4 in Hm; lia|].
  destruct (feq (p_cpu p) fzero); [|destruct (is_nil (p_cores p))]; cbn [orb]; rewrite make_eq; split; reflexivity.
Qed.

(* the quota and the shares of these limits are the exact decimal values: hundredth_exact, DockerReal.v *)
Definition hundredth (k : Z) : f64 := fdiv (f_of_Z k) (f_of_Z 100).   (* the float64 nearest to k/100 *)

Definition f029 : f64 := fb 4598895795485655695.   (* 0.29 *)
Definition f05 : f64 := fb 4602678819172646912.    (* 0.5 *)

Lemma truncation_refuted : quota_of false f029 = 28999 /\ quota_of true f029 = 29000.
Proof. split; vm_compute; reflexivity. Qed.

Lemma update_unbound_refuted :
  let p := mkParams f05 67108864 [] EmptyString false in
  o_quota (update_with false true 4 p) = -1 /\ o_shares (update_with false true 4 p) = 512 /\
  o_quota (create p) = 50000 /\ o_quota (update 4 p) = 50000 /\ o_shares (update 4 p) = 1024.
Proof. repeat split; vm_compute; reflexivity. Qed.

(* the hypotheses on the memory and cpu limits used above hold of the parameters of
   update_unbound_refuted; f05 and f029 are the grid points 50/100 and 29/100 *)
Example hyps_satisfiable :
  mem_invalid 67108864 = false /\ flt fzero f05 = true /\ feq f05 fzero = false /\
  fbits (hundredth 50) = fbits f05 /\ fbits (hundredth 29) = fbits f029.
Proof. repeat split; vm_compute; reflexivity. Qed.

(* value of a finite float as a fraction num/den (magnitude) *)
Definition mag_frac (m e : Z) : Z * Z :=
  if e <? 0 then (m, Z.pow 2 (- e)) else (m * Z.pow 2 e, 1).

Lemma round_nearest : forall s m e H,
  let a : f64 := B754_finite 53 1024 s m e H in
  let z := if s then - f_round_Z a else f_round_Z a in
  let '(num, den) := mag_frac (Zpos m) e in
  0 < den /\ 0 <= z /\ Z.abs (z * den - num) * 2 <= den.
Proof.
  intros s m e H a z.
  (* the sign cancels: z is the rounding of the magnitude *)
  assert (Hz : z = f_round_Z (B754_finite 53 1024 false m e H))
    by (unfold z, a, f_round_Z; destruct s; [apply Z.opp_involutive|reflexivity]).
  rewrite Hz. clear. unfold f_round_Z, mag_frac.
  destruct e as [|p|p]; cbn [Z.ltb Z.compare Z.opp].
  - rewrite Z.pow_0_r. lia.
  - pose proof (Z.pow_pos_nonneg 2 (Z.pos p)). nia.
  - set (d := 2 ^ Z.pos p).
    assert (Hd : 0 < d) by (apply Z.pow_pos_nonneg; lia).
    rewrite Z.quot_div_nonneg by lia.
    pose proof (Z.div_mod (Z.pos m) d ltac:(lia)) as Hdm.
    pose proof (Z.mod_pos_bound (Z.pos m) d Hd) as Hmod.
    pose proof (Z.div_pos (Z.pos m) d ltac:(lia) Hd) as Hq.
    set (q := Z.pos m / d) in *.
    destruct (Z.geb_spec (2 * (Z.pos m - q * d)) d); nia.
Qed.
