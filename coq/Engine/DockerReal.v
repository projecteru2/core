(* C31 over the reals: what the binary64 computations of the quota and the shares
   are worth as numbers.
   Every float operation is the rounding to nearest of the real operation (Flocq's
   B*_correct), a rounding at magnitude <= 2^e is off by at most 2^(e-53)
   (error_le_half_ulp), and int64(math.Round(y)) is an integer nearest to y
   (round_nearest, DockerProofs.v).  Hence
     | quota - limit x period | <= 1/2 + 2^-22  for all limits in range, and
     quota and shares of the limits k/100 are the exact decimal values, because the
     accumulated error stays below the distance to the next rounding boundary. *)
From Coq Require Import Reals Lra Lia.
From Flocq Require Import Core IEEE754.BinarySingleNaN IEEE754.Binary IEEE754.Bits.
From Verif Require Import Base.GoFloat Base.GoFloatLemmas Engine.Docker Engine.DockerProofs.
Local Open Scope R_scope.

Lemma near_frac : forall z num den : Z, (0 < den)%Z ->
  (Z.abs (z * den - num) * 2 <= den)%Z ->
  Rabs (IZR z - IZR num / IZR den) <= / 2.
Proof.
  intros z num den Hd H.
  assert (Hdr : 0 < IZR den) by (apply IZR_lt; exact Hd).
  replace (IZR z - IZR num / IZR den) with (IZR (z * den - num) / IZR den)
    by (rewrite minus_IZR, mult_IZR; field; lra).
  unfold Rdiv. rewrite Rabs_mult, Rabs_inv, (Rabs_pos_eq (IZR den)) by lra.
  rewrite <- abs_IZR.
  apply (Rmult_le_reg_r (IZR den)); [exact Hdr|].
  rewrite Rmult_assoc, Rinv_l by lra. rewrite Rmult_1_r.
  apply IZR_le in H. rewrite mult_IZR in H. simpl in H. lra.
Qed.

Lemma bpow_neg : forall p, bpow radix2 (Z.neg p) = / IZR (2 ^ Z.pos p).
Proof. intros p. reflexivity. Qed.
Lemma bpow_pos' : forall p, bpow radix2 (Z.pos p) = IZR (2 ^ Z.pos p).
Proof. intros p. reflexivity. Qed.

Lemma mag_frac_real : forall m e,
  F2R (Float radix2 m e) = IZR (fst (mag_frac m e)) / IZR (snd (mag_frac m e)).
Proof.
  intros m e. unfold mag_frac, F2R. cbn [Fnum Fexp]. destruct (Z.ltb_spec e 0); cbn [fst snd].
  - unfold Rdiv. rewrite (IZR_Zpower radix2), bpow_opp, Rinv_inv by lia. reflexivity.
  - rewrite mult_IZR, (IZR_Zpower radix2) by lia. field.
Qed.

Lemma round_real : forall y : f64, is_finite 53 1024 y = true -> 0 <= B2R 53 1024 y ->
  Rabs (IZR (f_round_Z y) - B2R 53 1024 y) <= / 2.
Proof.
  intros [s|s|s pl Hpl|s m e He] Hf Hpos; try discriminate.
  - simpl. rewrite Rminus_0_r, Rabs_R0. lra.
  - destruct s.
    { pose proof (F2R_lt_0 radix2 (Float radix2 (Z.neg m) e) eq_refl). simpl in Hpos. lra. }
    pose proof (round_nearest false m e He) as Hn. cbv zeta in Hn.
    unfold B2R. cbn [cond_Zopp]. rewrite mag_frac_real.
    destruct (mag_frac (Z.pos m) e) as [num den]. destruct Hn as (Hd & _ & Hn).
    exact (near_frac _ _ _ Hd Hn).
Qed.

Lemma f_trunc_real : forall a, f_trunc a = Ztrunc (B2R 53 1024 a).
Proof.
  intros [s|s|s pl Hpl|s m e He]; try (symmetry; apply (Ztrunc_IZR 0)).
  unfold f_trunc, B2R. rewrite F2R_cond_Zopp.
  assert (H : Ztrunc (F2R (Float radix2 (Z.pos m) e)) =
              match e with 0%Z => Z.pos m | Z.pos p => (Z.pos m * 2 ^ Z.pos p)%Z
                         | Z.neg p => Z.quot (Z.pos m) (2 ^ Z.pos p) end).
  { unfold F2R. cbn [Fnum Fexp]. destruct e as [|p|p].
    - simpl. rewrite Rmult_1_r. apply Ztrunc_IZR.
    - rewrite bpow_pos', <- mult_IZR. apply Ztrunc_IZR.
    - rewrite bpow_neg. apply Ztrunc_div. apply Z.pow_nonzero; lia. }
  destruct s; cbn [cond_Ropp]; rewrite ?Ztrunc_opp, H; reflexivity.
Qed.

Theorem quota_real_bound : forall cpu : f64,
  is_finite 53 1024 cpu = true ->
  0 <= B2R 53 1024 cpu ->
  B2R 53 1024 cpu * 100000 <= bpow radix2 31 ->
  Rabs (IZR (quota_of true cpu) - B2R 53 1024 cpu * 100000) <= / 2 + bpow radix2 (-22).
Proof.
  intros cpu Hf Hpos Hle.
  destruct (f_of_Z_real period ltac:(unfold period; lia)) as [Fp Rp]. change (IZR period) with 100000 in Rp.
  set (x := B2R 53 1024 cpu * 100000) in *.
  assert (Hx0 : 0 <= x) by (unfold x; nra).
  assert (Hx : Rabs x <= bpow radix2 31) by (rewrite Rabs_pos_eq; assumption).
  destruct (fmul_real cpu (f_of_Z period) 31 Hf Fp ltac:(lia)) as (Fy & Ry & Ey); [rewrite Rp; exact Hx|].
  rewrite Rp in Ry, Ey. fold x in Ry, Ey.
  unfold quota_of. set (y := fmul cpu (f_of_Z period)) in *.
  replace (IZR (f_round_Z y) - x) with ((IZR (f_round_Z y) - B2R 53 1024 y) + (B2R 53 1024 y - x)) by ring.
  apply Rle_trans with (1 := Rabs_triang _ _).
  apply Rplus_le_compat; [apply (round_real y Fy); rewrite Ry; apply (rndNE_ge_IZR 0); [lia|exact Hx0]|exact Ey].
Qed.

Example quota_real_bound_hyps :
  is_finite 53 1024 f05 = true /\ 0 <= B2R 53 1024 f05 /\ B2R 53 1024 f05 * 100000 <= bpow radix2 31.
Proof.
  assert (H : match f05 with
              | B754_finite _ _ s m e _ => (s, m, e) = (false, 4503599627370496%positive, (-53)%Z)
              | _ => False
              end) by (vm_compute; reflexivity).
  destruct f05 as [s|s|s pl Hpl|s m e He]; try contradiction. inversion H; subst.
  split; [reflexivity|]. unfold B2R, F2R. cbn [Fnum Fexp cond_Zopp SpecFloat.cond_Zopp].
  rewrite bpow_neg. change (2 ^ 53)%Z with 9007199254740992%Z.
  change (bpow radix2 31) with (IZR (2 ^ 31)). change (2 ^ 31)%Z with 2147483648%Z. split; lra.
Qed.

Lemma IZR_near_eq : forall a b : Z, Rabs (IZR a - IZR b) < 1 -> a = b.
Proof.
  intros a b H. rewrite <- minus_IZR in H. apply Rabs_def2 in H. destruct H as [H1 H2].
  apply (lt_IZR _ 1) in H1. apply (lt_IZR (-1)) in H2. lia.
Qed.

Lemma hundredth_real : forall k e, (0 <= k < 2 ^ 53)%Z -> (-1022 <= e < 1024)%Z ->
  IZR k / 100 <= bpow radix2 e ->
  is_finite 53 1024 (hundredth k) = true /\
  B2R 53 1024 (hundredth k) = rndNE (IZR k / 100) /\
  Rabs (B2R 53 1024 (hundredth k) - IZR k / 100) <= bpow radix2 (e - 53).
Proof.
  intros k e Hk He Hle.
  destruct (f_of_Z_real k ltac:(lia)) as [Fk Rk]. destruct (f_of_Z_real 100 ltac:(lia)) as [_ Rc].
  assert (H0 : 0 <= IZR k / 100) by (apply Rle_mult_inv_pos; [apply IZR_le; lia|lra]).
  assert (Ha : Rabs (IZR k / 100) <= bpow radix2 e) by (rewrite Rabs_pos_eq; assumption).
  pose proof (fdiv_real (f_of_Z k) (f_of_Z 100) e Fk) as H. rewrite Rk, Rc in H. apply H; [lra|exact He|exact Ha].
Qed.

Lemma hundredth_quota : forall k, (0 <= k <= 2 ^ 21)%Z -> quota_of true (hundredth k) = (1000 * k)%Z.
Proof.
  intros k Hk.
  assert (Hk' : 0 <= IZR k <= 2097152) by (split; apply IZR_le; lia).
  destruct (hundredth_real k 15 ltac:(lia) ltac:(lia)) as (F & R & E).
  { simpl. lra. }
  set (x := B2R 53 1024 (hundredth k)) in *.
  simpl (bpow _ _) in E. apply Rabs_le_inv in E.
  assert (H0 : 0 <= x).
  { rewrite R. apply (rndNE_ge_IZR 0); [lia|lra]. }
  pose proof (quota_real_bound (hundredth k) F H0) as Q. fold x in Q.
  simpl (bpow _ _) in Q.
  apply IZR_near_eq. rewrite mult_IZR.
  apply Rabs_le_inv in Q; [apply Rabs_lt|]; lra.
Qed.

Lemma hundredth_shares : forall k, (0 <= k <= 2 ^ 40)%Z ->
  shares_of (hundredth k) =
  (let r := k mod 100 in if r =? 0 then 1024 else (2 * 1024 * r + 100) / 200)%Z.
Proof.
  intros k Hk. cbv zeta.
  pose proof (Z.div_mod k 100 ltac:(lia)) as Hqr. pose proof (Z.mod_pos_bound k 100 ltac:(lia)) as Hr.
  set (q := (k / 100)%Z) in *. set (r := (k mod 100)%Z) in *.
  assert (Hq : (0 <= q <= 2 ^ 40)%Z) by lia.
  assert (Hkq : IZR k / 100 = IZR q + IZR r / 100) by (rewrite Hqr, plus_IZR, mult_IZR; field).
  assert (Hr' : 0 <= IZR r <= 99) by (split; apply IZR_le; lia).
  assert (Hk' : 0 <= IZR k <= 1099511627776) by (split; apply IZR_le; lia).
  assert (Hq' : 0 <= IZR q) by (apply IZR_le; lia).
  (* x = the float nearest to k/100, within 2^-19 *)
  destruct (hundredth_real k 34 ltac:(lia) ltac:(lia)) as (Fx & Rx & Ex).
  { simpl. lra. }
  set (x := B2R 53 1024 (hundredth k)) in *.
  simpl (bpow _ _) in Ex. apply Rabs_le_inv in Ex.
  assert (Hqx : IZR q <= x).
  { rewrite Rx. apply rndNE_ge_IZR; [lia|lra]. }
  (* its integer part is q *)
  assert (Ht : f_trunc (hundredth k) = q).
  { rewrite f_trunc_real. fold x. rewrite Ztrunc_floor by lra. apply Zfloor_imp. rewrite plus_IZR. lra. }
  destruct (f_of_Z_real q ltac:(lia)) as [Fq Rq].
  unfold shares_of, frac_part. rewrite Ht.
  (* d = the float nearest to x - q *)
  destruct (fsub_real (hundredth k) (f_of_Z q) 0 Fx Fq ltac:(lia)) as (Fd & Rd & Ed).
  { fold x. rewrite Rq. simpl. apply Rabs_le. lra. }
  set (d := fsub (hundredth k) (f_of_Z q)) in *. fold x in Rd, Ed. rewrite Rq in Rd, Ed.
  destruct (f_of_Z_real 0 ltac:(lia)) as [F0 R0].
  unfold fzero. rewrite (flt_real _ _ F0 Fd), R0.
  destruct (Z.eqb_spec r 0) as [Hr0|Hr0].
  - (* k/100 = q is a float: the fraction is 0 *)
    replace (x - IZR q) with 0 in Rd.
    2:{ rewrite Rx, Hkq, Hr0. replace (IZR q + 0 / 100) with (IZR q) by field.
        rewrite round_generic; [ring|apply valid_rnd_round_mode|apply format_IZR; lia]. }
    rewrite Rd, round_0 by apply valid_rnd_round_mode. rewrite Rlt_bool_false by lra. reflexivity.
  - assert (Hr1 : 1 <= IZR r) by (apply IZR_le; lia).
    set (D := B2R 53 1024 d) in *.
    simpl (bpow _ _) in Ed. apply Rabs_le_inv in Ed.
    rewrite Rlt_bool_true by lra.
    (* y = the float nearest to 1024 d *)
    destruct (f_of_Z_real 1024 ltac:(lia)) as [Fm Rm].
    destruct (fmul_real (f_of_Z 1024) d 11 Fm Fd ltac:(lia)) as (Fy & _ & Ey).
    { fold D. rewrite Rm. simpl. apply Rabs_le. lra. }
    fold D in Ey. rewrite Rm in Ey. set (Y := B2R 53 1024 (fmul (f_of_Z 1024) d)) in *.
    simpl (bpow _ _) in Ey. apply Rabs_le_inv in Ey.
    pose proof (round_real _ Fy ltac:(fold Y; lra)) as Hs. fold Y in Hs. apply Rabs_le_inv in Hs.
    (* 10.24 r is at least 0.01 away from a half-integer, y less than 0.003 away from 10.24 r *)
    set (n := ((2 * 1024 * r + 100) / 200)%Z).
    assert (Hn : (200 * n + 2 <= 2048 * r + 100 <= 200 * n + 198)%Z).
    { pose proof (Z.div_mod (2 * 1024 * r + 100) 200 ltac:(lia)) as Hdm.
      pose proof (Z.mod_pos_bound (2 * 1024 * r + 100) 200 ltac:(lia)) as Hmb. fold n in Hdm. lia. }
    destruct Hn as [Hn1 Hn2]. apply IZR_le in Hn1, Hn2.
    rewrite !plus_IZR, !mult_IZR in Hn1, Hn2.
    apply IZR_near_eq. apply Rabs_lt. lra.
Qed.

(* for every limit k/100 up to 20971 cpus: quota = k/100 x period exactly, and the
   shares of a bound workload are 1024 x (fraction) rounded to the nearest integer *)
Theorem hundredth_exact : forall k, (0 <= k <= 2 ^ 21)%Z ->
  quota_of true (hundredth k) = (1000 * k)%Z /\
  shares_of (hundredth k) =
  (let r := k mod 100 in if r =? 0 then 1024 else (2 * 1024 * r + 100) / 200)%Z.
Proof. intros k Hk. split; [apply hundredth_quota|apply hundredth_shares]; lia. Qed.
